(* C04c -- C04, the clause "late completion reports of still-running actions are absorbed without error".
   Property theorems only (proofs/LateProofs.v).

   SETTING.  The workflow is already failed, canceled or succeeded (done); a provider sends the completion report
   EvAction st (st completed: succeeded, failed, timeout, abandoned, canceled) for a task whose record is still
   running, pausing or canceling.  Scope of the proof: a task without with-items whose transitions lead to no engine
   command (fail / noop / continue); the evaluator's own errors are expression errors (ev_expr) and evaluation raises
   no internal class (eval_no_internal, C15b); the state is well-formed (WF, C15b) and the definition and graph agree
   (static_ok, C15b).  All hypotheses on the state are decidable. *)
From Coq Require Import String List Bool ZArith.
From Orq Require Import GenStatuses GenEvents GenTables Base State Machines Conductor Api F_tables
  NoInternalProofs LateProofs.
Import ListNotations.
Open Scope string_scope.

(* [F] the report is absorbed.  The call returns normally -- with ONE exception, stated exactly: when the workflow is
   CANCELED and an expression of one of the task's transitions fails, the engine's own request to fail the workflow is
   refused and that refusal (InvalidWorkflowStatusTransition "workflow_failed" in "canceled") escapes update_task_state
   (the second disjunct; see the example at the end: the state it needs has a running record in a canceled workflow).
   In every case: the state stays well-formed, the workflow status does not move -- except succeeded to failed (by such
   an expression failure; the table has no other way) --, and the record takes the reported status (timeout and
   abandoned are recorded as failed). *)
Theorem C04c_late_report_absorbed : forall ev, ev_expr ev -> eval_no_internal ev ->
  forall t route st res ts idx r s c c' r',
  WF c -> static_ok (c_spec c) (c_graph c) -> done c ->
  is_engine_command t = false -> g_has_task (c_graph c) t = true ->
  spec_get_task (c_spec c) t = Some ts -> task_has_items ts = false ->
  (forall e, In e (g_next_transitions (c_graph c) t) -> is_engine_command (e_dst e) = false) ->
  ws_task_idx (c_ws c) t route = Some idx -> nth_error (sequence (c_ws c)) idx = Some r ->
  r_status r = Some s -> In s [S_RUNNING; S_PAUSING; S_CANCELING] -> status_in st COMPLETED_STATUSES = true ->
  update_task_state ev t route (EvAction st res) c = (c', r') ->
  (r' = Val tt \/ (wstatus (c_ws c') = S_CANCELED /\ r' = Exc fail_refused)) /\
  WF c' /\
  (wstatus (c_ws c') = wstatus (c_ws c) \/ (wstatus (c_ws c) = S_SUCCEEDED /\ wstatus (c_ws c') = S_FAILED)) /\
  (exists r1, nth_error (sequence (c_ws c')) idx = Some r1 /\ r_status r1 = Some (reported st)).
Proof. exact late_report_absorbed. Qed.
Print Assumptions C04c_late_report_absorbed.

Theorem C04c_done_unfold : forall c, done c <-> In (wstatus (c_ws c)) [S_FAILED; S_CANCELED; S_SUCCEEDED].
Proof. intro c; split; intro H; exact H. Qed.
Theorem C04c_reported_unfold : forall st,
  reported st = if status_eqb st S_SUCCEEDED then S_SUCCEEDED else if status_eqb st S_CANCELED then S_CANCELED else S_FAILED.
Proof. reflexivity. Qed.
Print Assumptions C04c_done_unfold.
Print Assumptions C04c_reported_unfold.

(* [F] what the task's transitions stage on the way (they ARE evaluated, and their targets staged) is never offered:
   nothing is, in a canceled or succeeded workflow; in a failed one only entries flagged run_on_fail
   (C04_failed_offers_only_cleanup) *)
Theorem C04c_nothing_offered : forall ev c', WF c' -> In (wstatus (c_ws c')) [S_SUCCEEDED; S_CANCELED] ->
  get_next_tasks ev c' = (c', Val []).
Proof. exact late_report_no_offers. Qed.
Print Assumptions C04c_nothing_offered.

(* [F] the engine's own request to fail a workflow that is done (made by the handlers of expression failures), exactly:
   failed stays failed, succeeded becomes failed, canceled REFUSES and then nothing at all has changed *)
Theorem C04c_request_to_fail_when_done : forall c c' res, done c -> request_status_core S_FAILED c = (c', res) ->
  (res = Val tt /\ wstatus (c_ws c') = (if status_eqb (wstatus (c_ws c)) S_SUCCEEDED then S_FAILED else wstatus (c_ws c))) \/
  (wstatus (c_ws c) = S_CANCELED /\ c' = c /\ res = Exc fail_refused).
Proof. exact rsc_failed_done. Qed.
Print Assumptions C04c_request_to_fail_when_done.

(* [F] a task event never moves a done workflow and reports no join *)
Theorem C04c_task_event_when_done : forall t route st c, done c ->
  In st [S_SUCCEEDED; S_FAILED; S_CANCELED; S_RUNNING; S_PAUSING; S_CANCELING] ->
  wf_task_event_M t route st c = (c, Val []).
Proof. exact wf_task_event_done. Qed.
Print Assumptions C04c_task_event_when_done.

(* ------------------------------------------------------------------ examples *)

Module C04cExamples.

Definition ev_toy (s : string) (ctx : dict) : evalres :=
  if String.eqb s "<% boom %>" then EvErr {| x_cls := "YaqlEvaluationException"; x_msg := "boom"; x_expr := true |}
  else if String.eqb s "<% succeeded() %>" then EvOk (JBool true) else EvOk (JStr s).
Definition plain nxt : task_spec :=
  {| ts_action := JStr "core.noop"; ts_input := JDict []; ts_with := None; ts_delay := JNull; ts_join := JNull; ts_next := nxt |}.
Definition node n := {| n_id := n; n_barrier := JNull; n_splits := None; n_retry := JNull |}.
Definition act t st := OpEvent t 0 (EvAction st JNull).
(* a and b start together; b goes on to c when its condition holds *)
Definition spec1 (w : json) : wf_spec :=
  {| wf_input := []; wf_vars := []; wf_output := [];
     wf_tasks := [("a", plain []); ("b", plain [{| tr_when := w; tr_publish := [("x", JStr "v")]; tr_do := ["c"] |}]); ("c", plain [])] |}.
Definition graph1 (w : json) : graph :=
  {| g_nodes := [node "a"; node "b"; node "c"];
     g_edges := [{| e_src := "b"; e_dst := "c"; e_key := 0; e_ref := 0; e_criteria := [w] |}] |}.
Definition c0 w : cstate :=
  {| c_spec := spec1 w; c_graph := graph1 w; c_inputs := []; c_parent := []; c_init := false; c_ws := empty_ws;
     c_errors := []; c_log := []; c_output := None |}.
Definition view (c : cstate) :=
  (wstatus (c_ws c), map (fun r => (r_id r, r_status r, r_next r)) (sequence (c_ws c)), map s_id (staged (c_ws c)),
   map er_message (c_errors c)).
(* a fails while b is running: the workflow is failed *)
Definition h1 := [OpRequest S_RUNNING; OpGetNext; act "a" S_RUNNING; act "b" S_RUNNING; act "a" S_FAILED].
Definition ok := JStr "<% succeeded() %>".
Definition boom := JStr "<% boom %>".
Definition failed_b_running := run_ops ev_toy h1 (c0 ok).

Example fork_a_failed_b_running :
  view failed_b_running
  = (S_FAILED, [("a", Some S_FAILED, []); ("b", Some S_RUNNING, [])], [], ["Execution failed. See result for details."]) /\
  WF_b failed_b_running = true /\ static_ok_b (c_spec failed_b_running) (c_graph failed_b_running) = true.
Proof. split; [vm_compute; reflexivity|split; vm_compute; reflexivity]. Qed.

(* b succeeds late: absorbed -- no error, the workflow stays failed, b is succeeded, its transition is evaluated and c is
   staged, and nothing is offered *)
Example late_success_absorbed :
  let p := api_exec ev_toy (act "b" S_SUCCEEDED) failed_b_running in
  snd p = Val RUnit /\
  view (fst p) = (S_FAILED, [("a", Some S_FAILED, []); ("b", Some S_SUCCEEDED, [(("c", 0), true)])], ["c"],
                  ["Execution failed. See result for details."]) /\
  snd (api_exec ev_toy OpGetNext (fst p)) = Val (ROffers []).
Proof. cbv zeta. split; [vm_compute; reflexivity|split; vm_compute; reflexivity]. Qed.

(* the same with a condition that fails to evaluate: the failure is logged, the (failed) workflow absorbs the engine's
   request to fail it, no error *)
Example late_success_with_failing_condition_absorbed :
  let p := api_exec ev_toy (act "b" S_SUCCEEDED) (run_ops ev_toy h1 (c0 boom)) in
  snd p = Val RUnit /\
  view (fst p) = (S_FAILED, [("a", Some S_FAILED, []); ("b", Some S_SUCCEEDED, [])], [],
                  ["Execution failed. See result for details."; "YaqlEvaluationException: boom"]).
Proof. cbv zeta. split; vm_compute; reflexivity. Qed.

(* the exception of the theorem, on a hand-made state (the workflow status of the state above overwritten with
   `canceled` by [force], the same function as PauseCommuteProofs.so; a running record in a canceled workflow is not known to be reachable through the API): the record is
   completed, the failure logged, and the refusal escapes *)
Definition force (st : status) (c : cstate) := set_ws c (ws_set_status (c_ws c) st).
Example refusal_in_a_canceled_workflow :
  let p := api_exec ev_toy (act "b" S_SUCCEEDED) (force S_CANCELED (run_ops ev_toy h1 (c0 boom))) in
  snd p = Exc fail_refused /\
  view (fst p) = (S_CANCELED, [("a", Some S_FAILED, []); ("b", Some S_SUCCEEDED, [])], [],
                  ["Execution failed. See result for details."; "YaqlEvaluationException: boom"]).
Proof. cbv zeta. split; vm_compute; reflexivity. Qed.
(* ... and succeeded becomes failed the same way *)
Example succeeded_to_failed_by_a_late_report :
  view (fst (api_exec ev_toy (act "b" S_SUCCEEDED) (force S_SUCCEEDED (run_ops ev_toy h1 (c0 boom)))))
  = (S_FAILED, [("a", Some S_FAILED, []); ("b", Some S_SUCCEEDED, [])], [],
     ["Execution failed. See result for details."; "YaqlEvaluationException: boom"]).
Proof. vm_compute; reflexivity. Qed.

End C04cExamples.
