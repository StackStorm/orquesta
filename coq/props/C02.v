(* C02 -- Reported workflow status is truthful about the tasks.  Property theorems only. *)
From Coq Require Import String List Bool.
From Orq Require Import GenStatuses GenEvents GenTables Base State Machines Conductor Api F_tables F_names F_classes C02C03Proofs C09C10Proofs.
Import ListNotations.
Open Scope string_scope.

(* [F] succeeded is truthful: the workflow machine reports succeeded through a task event only if at that
   moment no task execution is active, none is pausing/paused/pending, none canceling/canceled, no staged
   entry is ready and the reporting task has no satisfiable next; and the reporting task succeeded or its
   failure was remediated *)
Theorem C02_succeeded_only_when_all_done : forall t route st c c' unr,
  wstatus (c_ws c) <> S_SUCCEEDED ->
  wf_task_event_M t route st c = (c', Val unr) ->
  wstatus (c_ws c') = S_SUCCEEDED ->
  has_active_tasks (c_ws c) = false /\
  has_canceling_tasks (c_ws c) = false /\ has_canceled_tasks (c_ws c) = false /\
  has_pausing_tasks (c_ws c) = false /\ has_paused_tasks (c_ws c) = false /\
  has_staged_tasks (c_ws c) = false /\ has_next_tasks (c_graph c) (c_ws c) t route = false /\
  (st = S_SUCCEEDED \/ In st ABENDED_STATUSES).
Proof. exact succeeded_only_when_all_done. Qed.
Print Assumptions C02_succeeded_only_when_all_done.

(* [F] a task failure with no matching transition (no satisfiable next, no join it feeds) fails the
   workflow from running, pausing, paused and resuming, whatever else is active *)
Theorem C02_unremediated_failure_fails : forall t route c c' unr,
  In (wstatus (c_ws c)) [S_RUNNING; S_PAUSING; S_PAUSED; S_RESUMING] ->
  has_next_tasks (c_graph c) (c_ws c) t route = false ->
  has_barrier_next (c_graph c) (c_ws c) t route = false ->
  wf_task_event_M t route S_FAILED c = (c', Val unr) ->
  wstatus (c_ws c') = S_FAILED.
Proof. exact unremediated_failure_fails_workflow. Qed.
Print Assumptions C02_unremediated_failure_fails.

(* [F] ... unless a cancellation is in progress: then the status stays in the cancel class *)
Theorem C02_failure_while_canceling : forall t route c c' unr,
  wstatus (c_ws c) = S_CANCELING ->
  wf_task_event_M t route S_FAILED c = (c', Val unr) ->
  In (wstatus (c_ws c')) [S_CANCELING; S_CANCELED; S_FAILED].
Proof. exact failure_while_canceling_stays_cancel_class. Qed.
Print Assumptions C02_failure_while_canceling.

(* [F] pausing / canceling are reported only while something is active: when the event of a task that has
   stopped running is processed and no task execution is active, the workflow leaves pausing/canceling *)
Theorem C02_transitional_only_while_active : forall t route st c c' unr,
  In st settled_statuses ->
  has_active_tasks (c_ws c) = false ->
  In (wstatus (c_ws c)) [S_PAUSING; S_CANCELING] ->
  wf_task_event_M t route st c = (c', Val unr) ->
  ~ In (wstatus (c_ws c')) [S_PAUSING; S_CANCELING; S_RESUMING].
Proof. exact settled_event_with_nothing_active_rests. Qed.
Print Assumptions C02_transitional_only_while_active.

(* [F] table level: "active" events never put the workflow to rest; "dormant" task events never leave it
   in a transitional status *)
Theorem C02_active_events_keep_going : forall s e t, tbl_step wf_table s e = Some t ->
  contains "_workflow_active" e = true -> ~ In t [S_PAUSED; S_CANCELED; S_SUCCEEDED].
Proof. exact F_wf_active_keeps. Qed.
Print Assumptions C02_active_events_keep_going.

(* [F] the status sets classify every status the task table can produce: completed, active (counted as
   running by has_active_tasks), or one of the three dormant ones (paused, pending, retrying); and a report that
   says the action is in progress (started, running, resuming, being paused or canceled) always leaves the
   task counted as active (or already finished) -- "in flight" at the provider is "active" in the conductor *)
Theorem C02_status_classes : forall s e t, tbl_step task_table s e = Some t ->
  In t COMPLETED_STATUSES \/ In t ACTIVE_STATUSES \/ In t [S_PAUSED; S_PENDING; S_RETRYING].
Proof. exact F_task_status_classes. Qed.
Print Assumptions C02_status_classes.

Theorem C02_in_progress_report_is_active : forall s st t, In st in_progress_statuses ->
  tbl_step task_table s (ACTION_EVENT_PREFIX ++ status_name st) = Some t ->
  In t ACTIVE_STATUSES \/ In t COMPLETED_STATUSES.
Proof. exact F_in_progress_report_is_active. Qed.
Print Assumptions C02_in_progress_report_is_active.

(* Not in this file: the link between the conductor's notion of an active task execution and the provider's set
   of in-flight actions is props/C02b.v (plain tasks) and props/C02d.v, C02e.v (with-items tasks); it is also tested
   by monitor c02 under the provider protocol. *)
