(* C07 -- A join runs once, and only when its barrier is satisfied.  Property theorems only. *)
From Coq Require Import String List Bool ZArith.
From Orq Require Import GenStatuses GenTables Base State Machines Conductor Api C07Proofs OffersProofs.
Import ListNotations.
Open Scope string_scope.

(* [F] what "satisfied" means: the number of DISTINCT inbound tasks whose execution record on the same
   route has a satisfied transition into the join reaches the requirement ... *)
Theorem C07_barrier_satisfied_iff : forall g w t route,
  get_inbound_criteria_status g w t route = InbSatisfied <->
  (inbound_requirement g t (length (inbound_evaluation g w t route)) <= Z.of_nat (satisfied_sources g w t route))%Z.
Proof. exact barrier_satisfied_iff. Qed.
Print Assumptions C07_barrier_satisfied_iff.

(* ... which is the number of distinct inbound tasks for join: all, and the given count for join: n *)
Theorem C07_requirement_all : forall g t n, g_barrier g t = JStr "*" -> inbound_requirement g t n = Z.of_nat n.
Proof. exact requirement_all. Qed.
Print Assumptions C07_requirement_all.
Theorem C07_requirement_count : forall g t n k, g_barrier g t = JInt k -> (0 < k)%Z -> inbound_requirement g t n = k.
Proof. exact requirement_count. Qed.
Print Assumptions C07_requirement_count.

(* [F] each inbound task counts once, however many (parallel) transitions it has into the join, and it
   counts only through its own record on that route with that very transition recorded as satisfied *)
Theorem C07_sources_distinct : forall g w t route, NoDup (map fst (inbound_evaluation g w t route)).
Proof. exact inbound_sources_distinct. Qed.
Print Assumptions C07_sources_distinct.
Theorem C07_source_satisfied_by_record : forall g w t route src,
  In (src, Some true) (inbound_evaluation g w t route) ->
  exists r e, ws_task_entry w src route = Some r /\ In e (g_prev_transitions g t) /\ e_src e = src /\
              aget trid_eqb (t, e_key e) (r_next r) = Some true.
Proof. exact inbound_source_satisfied. Qed.
Print Assumptions C07_source_satisfied_by_record.

(* [F] join: all needs every inbound task *)
Theorem C07_all_needs_every_source : forall g w t route, g_barrier g t = JStr "*" ->
  get_inbound_criteria_status g w t route = InbSatisfied ->
  forall src v, In (src, v) (inbound_evaluation g w t route) -> v = Some true.
Proof. exact barrier_all_needs_every_source. Qed.
Print Assumptions C07_all_needs_every_source.

(* [F] a join is offered only when its staged entry is flagged ready *)
Theorem C07_only_ready_entries_offered : forall ev c c' l, c_init c = true -> get_next_tasks ev c = (c', Val l) ->
  forall o, In o l -> exists s, In s (staged (c_ws c)) /\ s_ready s = true /\ s_completed s = false /\
                                o_id o = s_id s /\ o_route o = s_route s.
Proof. exact offers_are_staged. Qed.
Print Assumptions C07_only_ready_entries_offered.

(* [F] if a task event would complete the workflow (not by cancelation) while a staged join is not ready
   and can no longer be satisfied, the workflow is failed and those joins are handed over to be logged as
   unreachable-join errors *)
Theorem C07_unreachable_join_fails : forall t route st c c' unr n,
  tbl_step wf_table (wstatus (c_ws c)) (wf_task_event_name (c_graph c) (c_ws c) t route st) = Some n ->
  In n COMPLETED_STATUSES -> n <> S_CANCELED ->
  get_unreachable_barriers (c_graph c) (ws_set_status (c_ws c) n) <> [] ->
  wf_task_event_M t route st c = (c', Val unr) ->
  wstatus (c_ws c') = S_FAILED /\ unr = get_unreachable_barriers (c_graph c) (ws_set_status (c_ws c) n).
Proof. exact completion_with_unreachable_join_fails. Qed.
Print Assumptions C07_unreachable_join_fails.

Theorem C07_unreachable_means : forall g w s,
  In s (get_unreachable_barriers g w) <->
  In s (staged w) /\ g_is_barrier_node g (s_id s) = true /\ s_ready s = false /\
  get_inbound_criteria_status g w (s_id s) (s_route s) = InbNotSatisfied.
Proof. exact unreachable_barriers_spec. Qed.
Print Assumptions C07_unreachable_means.

(* Not in this file: that the ready flag equals the barrier status computed when the last arrival was staged is
   props/C07b.v (and C07c.v for the route it is computed on).  NOT PROVED: "once per satisfaction"
   (REFUTED for join: n below the inbound count by known finding D1). *)
