(* C02b -- C02, the protocol clauses: the LINK between the conductor's task records and the provider's set
   of in-flight actions, and what the reported workflow status says about that set.  Property theorems only;
   the provider protocol is model/ProviderSys.v (the protocol of harness/provider.py restricted to workflows
   without with-items tasks, completion reports only, no reruns); proofs are in proofs/SysProofs.v and
   proofs/SysNextProofs.v.

   All theorems are about EVERY evaluator [ev], every definition [sp] without with-items tasks, every graph
   [g] that passes the boolean check [sys_graph_ok] (engine commands inert, a start task exists and is not an
   engine command, edge keys distinct -- all true of composed graphs), every inputs, and EVERY protocol history
   [ops] from the fresh conductor, as long as no conductor call of the history raised ([s_fault s = false];
   a status request that the conductor rejects is not a fault).  The statements are made at the protocol-step
   boundaries (Poll is atomic, like harness/provider.py). *)
From Coq Require Import String List Bool ZArith.
From Orq Require Import GenStatuses GenTables Base State Machines Conductor Api Driver ProviderSys Composer.
From Orq Require Import F_tables F_names F_sys SysProofs SysNextProofs.
Import ListNotations.
Open Scope string_scope.

(* [F] (I1) every action in flight has a record, reachable through the pointer map, whose status is running
   (an active status) *)
Theorem C02b_inflight_has_active_record : forall ev sp g inputs parent,
  no_items sp = true -> sys_graph_ok g = true ->
  forall ops, let s := sys_run ev ops (sys_init sp g inputs parent) in
  s_fault s = false -> forall k, In k (s_inflight s) ->
  exists r, ws_task_entry (c_ws (s_c s)) (fst k) (snd k) = Some r /\ r_status r = Some S_RUNNING /\
            ostatus_in (r_status r) ACTIVE_STATUSES = true.
Proof. exact link_inflight_has_active_record. Qed.
Print Assumptions C02b_inflight_has_active_record.

(* [F] (I2) every task execution the conductor itself counts active -- get_tasks_by_status(ACTIVE_STATUSES),
   i.e. every record reachable through the pointer map with an active status -- is in flight at the provider
   (and its status is running) *)
Theorem C02b_active_record_in_flight : forall ev sp g inputs parent,
  no_items sp = true -> sys_graph_ok g = true ->
  forall ops, let s := sys_run ev ops (sys_init sp g inputs parent) in
  s_fault s = false -> forall i r, In (i, r) (ws_tasks_by_status (c_ws (s_c s)) ACTIVE_STATUSES) ->
  In (r_id r, r_route r) (s_inflight s) /\ r_status r = Some S_RUNNING.
Proof. exact link_active_record_in_flight. Qed.
Print Assumptions C02b_active_record_in_flight.

(* [F] auxiliary invariants of the link: an engine command is never in flight; every pointed record has one of
   the statuses running / succeeded / failed / canceled / retrying; between protocol steps no engine command
   waits in staging and no staged entry tracks items or is marked completed *)
Theorem C02b_link_auxiliary : forall ev sp g inputs parent,
  no_items sp = true -> sys_graph_ok g = true ->
  forall ops, let s := sys_run ev ops (sys_init sp g inputs parent) in
  s_fault s = false ->
  (forall k, In k (s_inflight s) -> is_engine_command (fst k) = false) /\
  (forall t rt r, ws_task_entry (c_ws (s_c s)) t rt = Some r -> exists st, r_status r = Some st /\ In st simple_statuses) /\
  (forall e, In e (staged (c_ws (s_c s))) -> is_engine_command (s_id e) = false /\ s_items e = None /\ s_completed e = false).
Proof. exact link_auxiliary. Qed.
Print Assumptions C02b_link_auxiliary.

(* FULL STATEMENT of the first clause: "whenever the workflow reports succeeded, every task execution has
   completed, no action is in flight, nothing is waiting to run":
     wstatus = succeeded -> s_inflight s = [] /\ has_staged_tasks = false /\
                            forall pointed record r, r_status r is a completed status.
   [P] Proved: nothing in flight, no ready staged entry, no active record, and every pointed record is completed
   OR retrying.  Missing for the full statement: that no pointed record is in status retrying (a record waiting
   for its re-offer keeps its re-staged entry ready unless a transition of another task into the same task
   re-evaluates the entry's readiness -- only possible in cyclic graphs with joins; excluding it needs an
   invariant tying "entry not ready" to "criteria not satisfied" across routes, which is not proved). *)
Theorem C02b_succeeded_partial : forall ev sp g inputs parent,
  no_items sp = true -> sys_graph_ok g = true ->
  forall ops, let s := sys_run ev ops (sys_init sp g inputs parent) in
  s_fault s = false -> wstatus (c_ws (s_c s)) = S_SUCCEEDED ->
  s_inflight s = [] /\ has_staged_tasks (c_ws (s_c s)) = false /\
  ws_tasks_by_status (c_ws (s_c s)) ACTIVE_STATUSES = [] /\
  (forall t rt r, ws_task_entry (c_ws (s_c s)) t rt = Some r ->
     ostatus_in (r_status r) COMPLETED_STATUSES = true \/ r_status r = Some S_RETRYING).
Proof. exact C02_succeeded_partial. Qed.
Print Assumptions C02b_succeeded_partial.

(* [F] "whenever it reports paused or canceled no action is in flight" *)
Theorem C02b_paused_canceled_idle : forall ev sp g inputs parent,
  no_items sp = true -> sys_graph_ok g = true ->
  forall ops, let s := sys_run ev ops (sys_init sp g inputs parent) in
  s_fault s = false -> In (wstatus (c_ws (s_c s))) [S_PAUSED; S_CANCELED] -> s_inflight s = [].
Proof. exact C02_paused_canceled_idle. Qed.
Print Assumptions C02b_paused_canceled_idle.

(* [F] "whenever it reports pausing or canceling at least one still is" *)
Theorem C02b_pausing_canceling_busy : forall ev sp g inputs parent,
  no_items sp = true -> sys_graph_ok g = true ->
  forall ops, let s := sys_run ev ops (sys_init sp g inputs parent) in
  s_fault s = false -> In (wstatus (c_ws (s_c s))) [S_PAUSING; S_CANCELING] -> s_inflight s <> [].
Proof. exact C02_pausing_canceling_busy. Qed.
Print Assumptions C02b_pausing_canceling_busy.

(* [F] the protocol is a history of conductor API calls: the conductor state after a protocol history is the
   state after the list of API operations [sys_api_ops] computes from it (get_next, the acknowledgements of
   what was offered, the reports, the requests ...): a run of the system can be replayed on the engine *)
Theorem C02b_protocol_is_api_history : forall ev ops s,
  s_c (sys_run ev ops s) = run_ops ev (sys_api_ops ev ops s) (s_c s).
Proof. exact sys_run_is_history. Qed.
Print Assumptions C02b_protocol_is_api_history.

(* ------------------------------------------------------------------ non-vacuity *)

Module C02bExamples.

(* evaluator: "ok" / "ko" read the result the action reported; everything else is a literal *)
Definition cur_result (ctx : dict) : json :=
  match dget "__current_task" ctx with
  | Some (JDict d) => match dget "result" d with Some r => r | None => JNull end
  | _ => JNull
  end.
Definition ev_ex (s : string) (ctx : dict) : evalres :=
  if String.eqb s "ok" then EvOk (JBool (json_eqb (cur_result ctx) (JStr "ok")))
  else if String.eqb s "ko" then EvOk (JBool (json_eqb (cur_result ctx) (JStr "ko")))
  else EvOk (JStr s).

Definition mk_task (join : json) (next : list transition_spec) : task_spec :=
  {| ts_action := JStr "core.noop"; ts_input := JDict []; ts_with := None; ts_delay := JNull; ts_join := join; ts_next := next |}.
Definition tr (w : json) (d : list string) := {| tr_when := w; tr_publish := []; tr_do := d |}.
Definition nd (n : string) (b : json) := {| n_id := n; n_barrier := b; n_splits := None; n_retry := JNull |}.
Definition ed (s d : string) (k r : nat) (c : list json) := {| e_src := s; e_dst := d; e_key := k; e_ref := r; e_criteria := c |}.

(* a: on "ok" fork to b and c, which join in d; on "ko" the failure handler h.
     tasks:
       a: { action: core.noop, next: [ {when: ok, do: [b, c]}, {when: ko, do: [h]} ] }
       b: { action: core.noop, next: [ {do: [d]} ] }
       c: { action: core.noop, next: [ {do: [d]} ] }
       d: { join: all, action: core.noop }
       h: { action: core.noop }                                                                   *)
Definition spec1 : wf_spec := {| wf_input := []; wf_vars := []; wf_output := [];
  wf_tasks := [("a", mk_task JNull [tr (JStr "ok") ["b"; "c"]; tr (JStr "ko") ["h"]]);
               ("b", mk_task JNull [tr JNull ["d"]]); ("c", mk_task JNull [tr JNull ["d"]]);
               ("d", mk_task (JStr "all") []); ("h", mk_task JNull [])] |}.
Definition graph1 : graph :=
  {| g_nodes := [nd "a" JNull; nd "b" JNull; nd "c" JNull; nd "h" JNull; nd "d" (JStr "*")];
     g_edges := [ed "a" "b" 0 0 [JStr "ok"]; ed "a" "c" 0 0 [JStr "ok"]; ed "a" "h" 0 1 [JStr "ko"];
                 ed "b" "d" 0 0 []; ed "c" "d" 0 0 []] |}.

Example hypotheses_hold : no_items spec1 = true /\ sys_graph_ok graph1 = true.
Proof. split; vm_compute; reflexivity. Qed.

(* the graph is the one the (modelled) composer builds from the definition *)
Example graph_is_composed : compose spec1 [] 100 = Val graph1.
Proof. vm_compute; reflexivity. Qed.

Definition view (s : sys) :=
  (wstatus (c_ws (s_c s)), s_inflight s, s_fault s,
   map (fun r => (r_id r, r_status r)) (sequence (c_ws (s_c s)))).

Definition s0 := sys_init spec1 graph1 [] [].
Definition ok := JStr "ok".
Definition run (ops : list sys_op) := view (sys_run ev_ex ops s0).

(* the fork: after a succeeds both b and c are in flight, the join d waits *)
Example fork_in_flight :
  run [Boot; Poll; Report "a" 0 S_SUCCEEDED ok; Poll]
  = (S_RUNNING, [("b", 0); ("c", 0)], false,
     [("a", Some S_SUCCEEDED); ("b", Some S_RUNNING); ("c", Some S_RUNNING)]).
Proof. vm_compute; reflexivity. Qed.

(* ... to the end: succeeded, nothing in flight, every record completed, no call raised *)
Example fork_join_succeeds :
  run [Boot; Poll; Report "a" 0 S_SUCCEEDED ok; Poll; Report "c" 0 S_SUCCEEDED JNull; Poll;
       Report "b" 0 S_SUCCEEDED JNull; Poll; Report "d" 0 S_SUCCEEDED JNull; Render; Persist]
  = (S_SUCCEEDED, [], false,
     [("a", Some S_SUCCEEDED); ("b", Some S_SUCCEEDED); ("c", Some S_SUCCEEDED); ("d", Some S_SUCCEEDED)]).
Proof. vm_compute; reflexivity. Qed.

(* the failure handler: a fails with "ko", h runs, the workflow succeeds with a's failure handled *)
Example failure_handled :
  run [Boot; Poll; Report "a" 0 S_FAILED (JStr "ko"); Poll; Report "h" 0 S_SUCCEEDED JNull]
  = (S_SUCCEEDED, [], false, [("a", Some S_FAILED); ("h", Some S_SUCCEEDED)]).
Proof. vm_compute; reflexivity. Qed.

(* pausing while b and c run: pausing with two in flight, still pausing with one, paused with none; resumed, d runs *)
Example pausing_then_paused :
  run [Boot; Poll; Report "a" 0 S_SUCCEEDED ok; Poll; Request S_PAUSING]
    = (S_PAUSING, [("b", 0); ("c", 0)], false, [("a", Some S_SUCCEEDED); ("b", Some S_RUNNING); ("c", Some S_RUNNING)]) /\
  run [Boot; Poll; Report "a" 0 S_SUCCEEDED ok; Poll; Request S_PAUSING; Report "b" 0 S_SUCCEEDED JNull; Poll]
    = (S_PAUSING, [("c", 0)], false, [("a", Some S_SUCCEEDED); ("b", Some S_SUCCEEDED); ("c", Some S_RUNNING)]) /\
  run [Boot; Poll; Report "a" 0 S_SUCCEEDED ok; Poll; Request S_PAUSING; Report "b" 0 S_SUCCEEDED JNull;
       Report "c" 0 S_FAILED JNull]   (* c's transition to d is unconditional: its failure is handled by it *)
    = (S_PAUSED, [], false, [("a", Some S_SUCCEEDED); ("b", Some S_SUCCEEDED); ("c", Some S_FAILED)]) /\
  run [Boot; Poll; Report "a" 0 S_SUCCEEDED ok; Poll; Request S_PAUSING; Report "b" 0 S_SUCCEEDED JNull;
       Report "c" 0 S_SUCCEEDED JNull; Poll]
    = (S_PAUSED, [], false, [("a", Some S_SUCCEEDED); ("b", Some S_SUCCEEDED); ("c", Some S_SUCCEEDED)]) /\
  run [Boot; Poll; Report "a" 0 S_SUCCEEDED ok; Poll; Request S_PAUSING; Report "b" 0 S_SUCCEEDED JNull;
       Report "c" 0 S_SUCCEEDED JNull; Request S_RESUMING; Poll]
    = (S_RUNNING, [("d", 0)], false,
       [("a", Some S_SUCCEEDED); ("b", Some S_SUCCEEDED); ("c", Some S_SUCCEEDED); ("d", Some S_RUNNING)]).
Proof. vm_compute; repeat split. Qed.

(* cancellation while b and c run: canceling while in flight, canceled when the last one reports *)
Example canceling_then_canceled :
  run [Boot; Poll; Report "a" 0 S_SUCCEEDED ok; Poll; Request S_CANCELING; Report "b" 0 S_CANCELED JNull]
    = (S_CANCELING, [("c", 0)], false, [("a", Some S_SUCCEEDED); ("b", Some S_CANCELED); ("c", Some S_RUNNING)]) /\
  run [Boot; Poll; Report "a" 0 S_SUCCEEDED ok; Poll; Request S_CANCELING; Report "b" 0 S_CANCELED JNull;
       Report "c" 0 S_SUCCEEDED JNull; Poll]
    = (S_CANCELED, [], false, [("a", Some S_SUCCEEDED); ("b", Some S_CANCELED); ("c", Some S_SUCCEEDED)]).
Proof. split; vm_compute; reflexivity. Qed.

(* a rejected request (pause of a fresh conductor, cancel of a succeeded one) and an ignored report (not in
   flight) are not faults and change nothing *)
Example rejected_request_is_no_fault :
  run [Request S_PAUSING] = (S_UNSET, [], false, []) /\
  run [Boot; Poll; Report "zz" 0 S_SUCCEEDED JNull; Report "a" 0 S_RUNNING JNull]
    = (S_RUNNING, [("a", 0)], false, [("a", Some S_RUNNING)]).
Proof. split; vm_compute; reflexivity. Qed.

(* the theorems applied to the concrete run *)
Example link_on_the_fork :
  let s := sys_run ev_ex [Boot; Poll; Report "a" 0 S_SUCCEEDED ok; Poll] s0 in
  forall k, In k (s_inflight s) ->
  exists r, ws_task_entry (c_ws (s_c s)) (fst k) (snd k) = Some r /\ r_status r = Some S_RUNNING /\
            ostatus_in (r_status r) ACTIVE_STATUSES = true.
Proof.
  apply (C02b_inflight_has_active_record ev_ex spec1 graph1 [] [] (proj1 hypotheses_hold) (proj2 hypotheses_hold)).
  vm_compute; reflexivity.
Qed.

End C02bExamples.
