(* C09c -- C09, "requesting pause at any moment and resuming after the workflow has come to rest never
   changes the outcome": the WHOLE-CALL commutation of a provider report with the pause request, and its
   corollary over histories (pause ... reports ... rest ... resume ... poll).  Property theorems only;
   proofs are in proofs/PauseCommuteProofs.v (a two-run simulation of update_task_state).

   PROVED (the "_partial" fragment), for every evaluator that does not read __state ([state_blind]):
   a report handled under the pausing status leaves a state related by [Fin] to the one the report
   handled under the running status leaves: the same up to the workflow status (and, where the unpaused
   run completes the workflow, up to terminal flags and error log: (E2)) -- transitions evaluated alike,
   publishes, staging, the retry decision and its re-entry, result/exception -- for
     * tasks whose active records carry no item table when the pause is requested ([no_item_tables]):
       then the pause request changes the workflow status only (C09b), and
     * tasks none of whose transitions targets an engine command ([no_cmd]: noop / fail / continue / retry
       as a transition target).
   EXCLUDED, each with its reason:
     (E1) an evaluator that reads __state: FALSE (C09b, first witness; engine replay).
     (E2) the report at which the unpaused run COMPLETES the workflow: the paused run comes to rest as
          paused instead; the two states then agree only up to workflow status, terminal flags and error
          log ([Fin], second alternative).  This is not an artefact: after the resume the terminal flag
          of the last task stays unset and the rendered output differs (witness (B) below, replayed on
          the engine: output r = 7 unpaused, r = null paused-and-resumed; finding D5a).
     (E3) with-items tasks: the pause request pushes the record to pausing, so record statuses differ
          while the items report: FALSE, props/C09d.v (an item reported canceled under pause; the rows
          of the task table diverge on that event only).
     (E4) engine-command targets: the nested calls run after the workflow-machine step, when the two
          statuses have already parted: PROVED in props/C09d.v for tasks with at most one command target. *)
From Coq Require Import String List Bool ZArith.
From Orq Require Import GenStatuses GenEvents GenTables Base State Machines Conductor Api Composer
  F_tables C09C10Proofs InertProofs QueryProofs PauseProofs PauseCommuteProofs.
Import ListNotations.
Open Scope string_scope.

(* ------------------------------------------------------------------ vocabulary, spelled out *)

(* [so s c]: the state c with the workflow status replaced by s *)
Theorem C09c_so_unfold : forall s c, so s c = set_ws c (ws_set_status (c_ws c) s).
Proof. reflexivity. Qed.

(* the pairs of statuses (overridden, plain) the simulation relates *)
Theorem C09c_PairOK_unfold : forall s x,
  PairOK s x <-> (s = x \/ (x = S_RUNNING /\ (s = S_PAUSING \/ s = S_RESUMING))).
Proof. intros; split; intro H; exact H. Qed.

(* no transition of t targets an engine command *)
Theorem C09c_no_cmd_unfold : forall t g,
  no_cmd t g <-> (forall e, In e (g_next_transitions g t) -> is_engine_command (e_dst e) = false).
Proof. intros; split; intro H; exact H. Qed.

(* [strip_tl]: forget the workflow status, every terminal flag and the error log -- nothing else *)
Theorem C09c_strip_tl_unfold : forall c,
  strip_tl c = set_errors (set_ws c {| contexts := contexts (c_ws c); routes := routes (c_ws c);
                                       sequence := map (fun r => r_set_term r false) (sequence (c_ws c));
                                       staged := staged (c_ws c); wstatus := S_UNSET; tasks := tasks (c_ws c);
                                       reruns := reruns (c_ws c) |}) [].
Proof. reflexivity. Qed.

(* [Fin b a], b the state left by the run under the overridden status, a by the plain run:
   equal after strip_tl, and EITHER b is a with another workflow status and nothing else changed,
   OR b is paused while a has completed the workflow;
   moreover, while a is still running with an active task, the two statuses still form a pair *)
Theorem C09c_Fin_unfold : forall b a,
  Fin b a <-> ((strip_tl b = strip_tl a /\ c_init a = true /\
                (b = so (wstatus (c_ws b)) a \/
                 (wstatus (c_ws b) = S_PAUSED /\ status_in (wstatus (c_ws a)) COMPLETED_STATUSES = true))) /\
               (wstatus (c_ws a) = S_RUNNING -> has_active_tasks (c_ws a) = true ->
                PairOK (wstatus (c_ws b)) (wstatus (c_ws a)))).
Proof. intros; split; intro H; exact H. Qed.

Theorem C09c_Fin_open : forall b a, Fin b a -> status_in (wstatus (c_ws a)) COMPLETED_STATUSES = false ->
  b = so (wstatus (c_ws b)) a /\ strip b = strip a.
Proof. exact Fin_open. Qed.
Print Assumptions C09c_Fin_open.

Theorem C09c_Fin_strip_tl : forall b a, Fin b a -> strip_tl b = strip_tl a.
Proof. exact Fin_strip_tl. Qed.
Print Assumptions C09c_Fin_strip_tl.

(* ------------------------------------------------------------------ one report *)

(* [F] THE CALL.  For a state-blind evaluator, an initialised state c, an overridden status s paired with
   c's status (pausing or resuming against running, or the same), and a task none of whose transitions
   targets an engine command: the report returns / raises alike in both runs and the states left are
   related by Fin.  ANY event, ANY record: late, duplicate and malformed reports included. *)
Theorem C09c_report_commutes_with_status_override_partial : forall ev, state_blind ev ->
  forall t route evt s c,
  c_init c = true -> PairOK s (wstatus (c_ws c)) -> no_cmd t (c_graph c) ->
  snd (update_task_state ev t route evt (so s c)) = snd (update_task_state ev t route evt c) /\
  Fin (fst (update_task_state ev t route evt (so s c))) (fst (update_task_state ev t route evt c)).
Proof. exact report_commutes_with_status_override_partial. Qed.
Print Assumptions C09c_report_commutes_with_status_override_partial.

(* [F] ... against an ACCEPTED PAUSE REQUEST (c_p is what the API call leaves) *)
Theorem C09c_report_commutes_with_pause_partial : forall ev, state_blind ev ->
  forall st t route evt c c_p r,
  c_init c = true -> wstatus (c_ws c) = S_RUNNING -> no_item_tables c -> no_cmd t (c_graph c) ->
  pause_class st -> request_workflow_status ev st c = (c_p, r) -> wstatus (c_ws c_p) = S_PAUSING ->
  snd (update_task_state ev t route evt c_p) = snd (update_task_state ev t route evt c) /\
  Fin (fst (update_task_state ev t route evt c_p)) (fst (update_task_state ev t route evt c)).
Proof. exact report_commutes_with_pause_partial. Qed.
Print Assumptions C09c_report_commutes_with_pause_partial.

(* the two side conditions are decidable *)
Theorem C09c_no_item_tables_b_ok : forall c, no_item_tables_b c = true -> no_item_tables c.
Proof. exact no_item_tables_b_ok. Qed.
Print Assumptions C09c_no_item_tables_b_ok.
Theorem C09c_no_cmd_b_ok : forall t g, no_cmd_b t g = true -> no_cmd t g.
Proof. exact no_cmd_b_ok. Qed.
Print Assumptions C09c_no_cmd_b_ok.

(* ------------------------------------------------------------------ several reports *)

(* [in_step ev evs b a]: after every report but the last, the statuses of the two runs still form a pair
   (the overridden run has not come to rest, the plain one has not left running) *)
Theorem C09c_in_step_unfold : forall ev r r2 rest b a,
  in_step ev (r :: r2 :: rest) b a <->
  (PairOK (wstatus (c_ws (fst (api_exec ev (op_of r) b)))) (wstatus (c_ws (fst (api_exec ev (op_of r) a)))) /\
   in_step ev (r2 :: rest) (fst (api_exec ev (op_of r) b)) (fst (api_exec ev (op_of r) a))).
Proof. intros; split; intro H; exact H. Qed.
Theorem C09c_in_step_last : forall ev r b a, in_step ev [r] b a <-> True.
Proof. intros; split; intro H; exact H. Qed.

(* [busy ev evs a]: the same, as a condition on the PLAIN run alone -- after every report but the last the
   workflow is still running and a task is still active *)
Theorem C09c_busy_unfold : forall ev r r2 rest a,
  busy ev (r :: r2 :: rest) a <->
  (wstatus (c_ws (fst (api_exec ev (op_of r) a))) = S_RUNNING /\
   has_active_tasks (c_ws (fst (api_exec ev (op_of r) a))) = true /\
   busy ev (r2 :: rest) (fst (api_exec ev (op_of r) a))).
Proof. intros; split; intro H; exact H. Qed.
Theorem C09c_busy_last : forall ev r a, busy ev [r] a <-> True.
Proof. intros; split; intro H; exact H. Qed.

Theorem C09c_busy_in_step : forall ev, state_blind ev -> forall evs s a,
  c_init a = true -> PairOK s (wstatus (c_ws a)) ->
  (forall t route e, In (t, route, e) evs -> no_cmd t (c_graph a)) ->
  busy ev evs a -> in_step ev evs (so s a) a.
Proof. exact busy_in_step. Qed.
Print Assumptions C09c_busy_in_step.

(* [F] a run of reports: the same answers one by one, final states related by Fin *)
Theorem C09c_reports_commute_with_status_override_partial : forall ev, state_blind ev ->
  forall evs s a,
  c_init a = true -> PairOK s (wstatus (c_ws a)) ->
  (forall t route e, In (t, route, e) evs -> no_cmd t (c_graph a)) ->
  in_step ev evs (so s a) a ->
  run_trace ev (map op_of evs) (so s a) = run_trace ev (map op_of evs) a /\
  Fin (run_ops ev (map op_of evs) (so s a)) (run_ops ev (map op_of evs) a).
Proof. exact reports_commute_with_status_override_partial. Qed.
Print Assumptions C09c_reports_commute_with_status_override_partial.

(* ------------------------------------------------------------------ resume and the next poll *)

(* [F] the poll of a resuming workflow against the poll of the running one: the same offers (up to the
   __state entry of their contexts), the same state up to the workflow status *)
Theorem C09c_poll_commutes_with_resuming : forall ev, state_blind ev -> forall a,
  c_init a = true -> wstatus (c_ws a) = S_RUNNING ->
  rrel (Forall2 offer_sim) (snd (get_next_tasks ev (so S_RESUMING a))) (snd (get_next_tasks ev a)) /\
  exists s', fst (get_next_tasks ev (so S_RESUMING a)) = so s' (fst (get_next_tasks ev a)) /\
             PairOK s' (wstatus (c_ws (fst (get_next_tasks ev a)))) /\ c_init (fst (get_next_tasks ev a)) = true.
Proof. exact poll_commutes_with_resuming. Qed.
Print Assumptions C09c_poll_commutes_with_resuming.

Theorem C09c_rrel_unfold : forall A (R : A -> A -> Prop) r1 r2,
  rrel R r1 r2 <-> match r1, r2 with Val x, Val y => R x y | Exc e, Exc e' => e = e' | _, _ => False end.
Proof. intros; split; intro H; exact H. Qed.

(* [F] a resume request on a paused workflow with no active record, answered "resuming", changes the
   workflow status and nothing else *)
Theorem C09c_resume_at_rest : forall a c_r r,
  ws_tasks_by_status (c_ws a) ACTIVE_STATUSES = [] ->
  request_status_core S_RESUMING (so S_PAUSED a) = (c_r, r) -> wstatus (c_ws c_r) = S_RESUMING ->
  c_r = so S_RESUMING a /\ r = Val tt.
Proof. exact resume_at_rest. Qed.
Print Assumptions C09c_resume_at_rest.

(* [F] PAUSE ... REPORTS ... REST ... RESUME ... POLL against REPORTS ... POLL, from the state c at which
   the pause is requested *)
Theorem C09c_pause_reports_resume_poll_partial : forall ev, state_blind ev ->
  forall st evs c c_p r c_r rr,
  c_init c = true -> wstatus (c_ws c) = S_RUNNING -> no_item_tables c ->
  (forall t route e, In (t, route, e) evs -> no_cmd t (c_graph c)) ->
  pause_class st -> request_workflow_status ev st c = (c_p, r) -> wstatus (c_ws c_p) = S_PAUSING ->
  busy ev evs c ->
  let a_n := run_ops ev (map op_of evs) c in
  let b_n := run_ops ev (map op_of evs) c_p in
  wstatus (c_ws a_n) = S_RUNNING -> wstatus (c_ws b_n) = S_PAUSED ->
  ws_tasks_by_status (c_ws a_n) ACTIVE_STATUSES = [] ->
  request_workflow_status ev S_RESUMING b_n = (c_r, rr) -> wstatus (c_ws c_r) = S_RESUMING ->
  run_trace ev (map op_of evs) c_p = run_trace ev (map op_of evs) c /\
  b_n = so S_PAUSED a_n /\ c_r = so S_RESUMING a_n /\ rr = Val tt /\
  rrel (Forall2 offer_sim) (snd (get_next_tasks ev c_r)) (snd (get_next_tasks ev a_n)) /\
  exists s', fst (get_next_tasks ev c_r) = so s' (fst (get_next_tasks ev a_n)) /\
             PairOK s' (wstatus (c_ws (fst (get_next_tasks ev a_n)))).
Proof. exact pause_reports_resume_poll_partial. Qed.
Print Assumptions C09c_pause_reports_resume_poll_partial.

(* [F] the same over run_ops histories: pause inserted after any prefix, before a run of reports; resume at
   rest.  The resumed state is the unpaused state with status resuming -- equal under C09b's strip --
   and the next poll offers the same tasks *)
Theorem C09c_pause_resume_history_partial : forall ev, state_blind ev ->
  forall st pre evs c0,
  let c := run_ops ev pre c0 in
  let c_p := run_ops ev (pre ++ [OpRequest st]) c0 in
  let plain := run_ops ev (pre ++ map op_of evs) c0 in
  let rest := run_ops ev (pre ++ [OpRequest st] ++ map op_of evs) c0 in
  let paused := run_ops ev (pre ++ [OpRequest st] ++ map op_of evs ++ [OpRequest S_RESUMING]) c0 in
  c_init c = true -> wstatus (c_ws c) = S_RUNNING -> no_item_tables c ->
  (forall t route e, In (t, route, e) evs -> no_cmd t (c_graph c)) ->
  pause_class st -> wstatus (c_ws c_p) = S_PAUSING -> busy ev evs c ->
  wstatus (c_ws plain) = S_RUNNING -> wstatus (c_ws rest) = S_PAUSED ->
  ws_tasks_by_status (c_ws plain) ACTIVE_STATUSES = [] ->
  wstatus (c_ws paused) = S_RESUMING ->
  run_trace ev (map op_of evs) c_p = run_trace ev (map op_of evs) c /\
  paused = so S_RESUMING plain /\ strip paused = strip plain /\
  rrel (Forall2 offer_sim) (snd (get_next_tasks ev paused)) (snd (get_next_tasks ev plain)) /\
  exists s', fst (get_next_tasks ev paused) = so s' (fst (get_next_tasks ev plain)) /\
             PairOK s' (wstatus (c_ws (fst (get_next_tasks ev plain)))).
Proof. exact pause_resume_history_partial. Qed.
Print Assumptions C09c_pause_resume_history_partial.

(* ------------------------------------------------------------------ witnesses *)

(* the evaluator of the witnesses does not read __state *)
Theorem C09c_q_ev_blind : state_blind q_ev.
Proof. exact q_ev_blind. Qed.
Print Assumptions C09c_q_ev_blind.

(* the graphs are the ones the (modelled) composer builds from the definitions *)
Example C09c_graphs_are_composed :
  compose qa_spec [] 100 = Val qa_graph /\ compose qb_spec [] 100 = Val qb_graph /\ compose qc_spec [] 100 = Val qc_graph.
Proof. split; [|split]; vm_compute; reflexivity. Qed.

(* (A) NON-VACUITY.  t1 --(publish y=7)--> t2; pause while t1 is in flight, t1 succeeds, rest, resume.
   Every hypothesis of C09c_pause_reports_resume_poll_partial holds ... *)
Example C09c_hypotheses_hold :
  c_init qa_c = true /\ wstatus (c_ws qa_c) = S_RUNNING /\ no_item_tables qa_c /\
  (forall t route e, In (t, route, e) qa_reports -> no_cmd t (c_graph qa_c)) /\
  request_workflow_status q_ev S_PAUSING qa_c = (qa_cp, Val tt) /\ wstatus (c_ws qa_cp) = S_PAUSING /\
  busy q_ev qa_reports qa_c /\
  wstatus (c_ws qa_an) = S_RUNNING /\ wstatus (c_ws qa_bn) = S_PAUSED /\
  ws_tasks_by_status (c_ws qa_an) ACTIVE_STATUSES = [] /\
  request_workflow_status q_ev S_RESUMING qa_bn = (qa_cr, Val tt) /\ wstatus (c_ws qa_cr) = S_RESUMING.
Proof. exact qa_hypotheses. Qed.

(* ... and the conclusion, computed: both polls offer the held task t2; the resumed state is the
   unpaused one with another status, and is not the unpaused one *)
Example C09c_conclusion_computed :
  offer_ids (snd (get_next_tasks q_ev qa_cr)) = Some [("t2", 0)] /\
  offer_ids (snd (get_next_tasks q_ev qa_an)) = Some [("t2", 0)] /\
  qa_bn = so S_PAUSED qa_an /\ qa_cr = so S_RESUMING qa_an /\ qa_cr <> qa_an.
Proof. exact qa_conclusion. Qed.

(* (B) EXCLUSION (E2) IS REAL.
       t0 --(publish y=7)--> t1 --> t3 (join all) <--(when "no")-- t2 ;   output r = y
   t2 succeeds first (transition not taken: the join is unreachable), then t1 reports.
     unpaused:  [.. report t1; render]                     failed, t1 terminal, r = 7
     paused:    [.. pause; report t1; resume; render]      failed, t1 NOT terminal, r = null
   observation: (workflow status, terminal flags, rendered output, number of logged errors) *)
Example C09c_completion_under_pause_is_not_transparent :
  qb_obs (run_ops q_ev qb_plain qb_init)
  = (S_FAILED, [("t0", false); ("t2", true); ("t1", true)], Some [("r", JInt 7)], 1) /\
  qb_obs (run_ops q_ev qb_paused qb_init)
  = (S_FAILED, [("t0", false); ("t2", true); ("t1", false)], Some [("r", JNull)], 1).
Proof. exact completion_under_pause_is_not_transparent. Qed.

(* the same at the single report: every hypothesis of C09c_report_commutes_with_pause_partial holds and
   the states are NOT equal up to statuses -- the second alternative of Fin is the one that holds *)
Example C09c_completion_step :
  c_init qb_c = true /\ wstatus (c_ws qb_c) = S_RUNNING /\ no_item_tables qb_c /\ no_cmd "t1" (c_graph qb_c) /\
  request_workflow_status q_ev S_PAUSING qb_c = (qb_cp, Val tt) /\ wstatus (c_ws qb_cp) = S_PAUSING /\
  wstatus (c_ws qb_b') = S_PAUSED /\ wstatus (c_ws qb_a') = S_FAILED /\ strip qb_b' <> strip qb_a' /\
  map r_term (sequence (c_ws qb_b')) = [false; true; false] /\ map r_term (sequence (c_ws qb_a')) = [false; true; true] /\
  length (c_errors qb_b') = 0 /\ length (c_errors qb_a') = 1.
Proof. exact qb_step. Qed.

(* (C) NON-VACUITY with two reports between the pause and the rest:  t0 ;  t1 --> t2, both in flight.
   Every hypothesis of C09c_pause_resume_history_partial holds (busy is not trivial here) ... *)
Example C09c_two_reports_hypotheses :
  c_init qc_c = true /\ wstatus (c_ws qc_c) = S_RUNNING /\ no_item_tables qc_c /\
  (forall t route e, In (t, route, e) qc_reports -> no_cmd t (c_graph qc_c)) /\
  wstatus (c_ws (run_ops q_ev (qc_pre ++ [OpRequest S_PAUSING]) qc_init)) = S_PAUSING /\
  busy q_ev qc_reports qc_c /\
  wstatus (c_ws qc_plain) = S_RUNNING /\
  wstatus (c_ws (run_ops q_ev (qc_pre ++ [OpRequest S_PAUSING] ++ map op_of qc_reports) qc_init)) = S_PAUSED /\
  ws_tasks_by_status (c_ws qc_plain) ACTIVE_STATUSES = [] /\
  wstatus (c_ws qc_paused) = S_RESUMING.
Proof. exact qc_hypotheses. Qed.

(* ... and the conclusion, computed *)
Example C09c_two_reports_conclusion :
  qc_paused = so S_RESUMING qc_plain /\
  offer_ids (snd (get_next_tasks q_ev qc_paused)) = Some [("t2", 0)] /\
  offer_ids (snd (get_next_tasks q_ev qc_plain)) = Some [("t2", 0)].
Proof. exact qc_conclusion. Qed.
