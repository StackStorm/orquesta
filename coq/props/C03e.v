(* C03e -- C02 / C03 for the provider protocol WITH with-items tasks: "whenever the workflow reports pausing
   or canceling at least one task execution is still active", and the part of the quiescence claim that holds.  Property
   theorems only; proofs are in proofs/SysItemsBusyProofs.v.
   Hypotheses: [si_fault = false], [si_wiped = false] only -- no monitor, no hypothesis on the definition or the graph.

   PROVED
     C03e_pausing_canceling_has_active_task   pausing / canceling  =>  has_active_tasks = true (a pointed task record has an
                                              active status).  With C02e_paused_canceled_no_active_task the workflow machine
                                              is truthful about the task records in all four pause / cancel statuses.
     C03e_records_use_item_statuses           no record of the task list has a status the protocol never enters (pending,
                                              requested, scheduled, delayed, expired, abandoned, resuming) nor unset.
     C03e_held_and_idle_is_a_stuck_task       pausing / canceling with nothing in flight  =>  the conductor counts an active
                                              task execution although no action of it is out: the D24 situation.
   PROVED IN props/C03f.v (proofs/SysItemsStuckProofs.v): that this situation arises only as finding D24 describes it
   (the workflow entered pausing / canceling through a TASK event while a with-items entry had items never offered):
   the backward link (an active record has an action in flight, or is a running with-items record whose table has an
   item never offered), that a status request tells every active record, and "pausing / canceling => something in
   flight, or the flag of model/ProviderSysItemsMon3.v".
   NOT PROVED: "quiescent and not resting => the flag" for running / resuming, which needs in addition that an entry
   with unoffered items is offered by the next poll.  The table facts used are in facts/F_sysitems.v (F_held_needs_active_task / _request,
   F_rest_needs_dormant_task / _request).  Underneath C03e_pausing_canceling_has_active_task: for every task status the protocol uses, every
   flag combination and every workflow status, a task event leaves the workflow pausing / canceling only when a task is
   active, and a status request changes it to pausing / canceling only then (a rejected request restores the task
   statuses it touched). *)
From Coq Require Import String List Bool ZArith Arith.
From Orq Require Import GenStatuses GenTables Base State Machines Conductor Api Driver ProviderSys ProviderSysItems Composer.
From Orq Require Import F_tables F_names F_sys F_sysitems SysProofs SysNextProofs SysItemsProofs SysItemsRecProofs SysItemsIdleProofs SysItemsBusyProofs.
From Orq Require Import C12b.
Import ListNotations.
Open Scope string_scope.

Theorem C03e_pausing_canceling_has_active_task : forall ev sp g inputs parent ops,
  let s := isys_run ev ops (isys_init sp g inputs parent) in
  si_fault s = false -> si_wiped s = false ->
  In (wstatus (c_ws (si_c s))) [S_PAUSING; S_CANCELING] -> has_active_tasks (c_ws (si_c s)) = true.
Proof. exact held_has_active_task. Qed.
Print Assumptions C03e_pausing_canceling_has_active_task.

Theorem C03e_records_use_item_statuses : forall ev sp g inputs parent ops,
  let s := isys_run ev ops (isys_init sp g inputs parent) in
  si_fault s = false -> si_wiped s = false ->
  forall i rec, nth_error (sequence (c_ws (si_c s))) i = Some rec ->
  ostatus_in (r_status rec) UNUSED_STATUSES = false /\ r_status rec <> Some S_UNSET.
Proof. exact records_use_item_statuses. Qed.
Print Assumptions C03e_records_use_item_statuses.

Theorem C03e_held_and_idle_is_a_stuck_task : forall ev sp g inputs parent ops,
  let s := isys_run ev ops (isys_init sp g inputs parent) in
  si_fault s = false -> si_wiped s = false ->
  In (wstatus (c_ws (si_c s))) [S_PAUSING; S_CANCELING] -> si_inflight s = [] ->
  exists i rec, nth_error (sequence (c_ws (si_c s))) i = Some rec /\ ostatus_in (r_status rec) ACTIVE_STATUSES = true /\
                ws_pointed (c_ws (si_c s)) i = true /\ forall item, ~ In (r_id rec, r_route rec, item) (si_inflight s).
Proof.
  intros ev sp g inputs parent ops s Hf Hw Hin HF.
  pose proof (held_has_active_task ev sp g inputs parent ops Hf Hw Hin) as Ha. apply has_active_HA in Ha.
  destruct Ha as [i [r [A [B C]]]]. exists i, r. split; [exact A|]. split; [exact B|]. split; [exact C|].
  intros item X. fold s in HF. rewrite HF in X. destruct X.
Qed.
Print Assumptions C03e_held_and_idle_is_a_stuck_task.

Module C03eExamples.
Import C12bExamples.

(* the D24 run: canceling, nothing in flight, and the theorem's active task is w, running, two items never offered *)
Example d24_is_the_stuck_task :
  let s := isys_run ev_it [IBoot; IPoll; Pl "p" S_CANCELED; It "w" 0 S_SUCCEEDED; It "w" 1 S_SUCCEEDED] (isys_init spec1 graph1 [] []) in
  wstatus (c_ws (si_c s)) = S_CANCELING /\ si_inflight s = [] /\ has_active_tasks (c_ws (si_c s)) = true /\
  map (fun r => (r_id r, r_status r)) (sequence (c_ws (si_c s))) = [("p", Some S_CANCELED); ("w", Some S_RUNNING)].
Proof. vm_compute; repeat split. Qed.

(* a pause REQUEST with items in flight: pausing while an item is out (an active record), paused afterwards *)
Example pause_request_is_truthful :
  let s1 := isys_run ev_it [IBoot; IPoll; IRequest S_PAUSING; It "w" 0 S_SUCCEEDED] (isys_init spec1 graph1 [] []) in
  let s2 := isys_run ev_it [IBoot; IPoll; IRequest S_PAUSING; It "w" 0 S_SUCCEEDED; It "w" 1 S_SUCCEEDED; Pl "p" S_SUCCEEDED] (isys_init spec1 graph1 [] []) in
  wstatus (c_ws (si_c s1)) = S_PAUSING /\ has_active_tasks (c_ws (si_c s1)) = true /\
  wstatus (c_ws (si_c s2)) = S_PAUSED /\ has_active_tasks (c_ws (si_c s2)) = false.
Proof. vm_compute; repeat split. Qed.

End C03eExamples.
