(* C02d -- C02 for the provider protocol WITH with-items tasks (model/ProviderSysItems.v): the LINK between the
   provider's in-flight set and the conductor, item part, in the form of C02b.  Property theorems only; proofs are in
   proofs/SysItemsProofs.v and proofs/SysItemsRecProofs.v.  Hypotheses: the flags of C12b / C12c ([si_fault],
   [si_wiped], [run_odd]) -- no hypothesis on the definition or the graph ([no_items] and [sys_graph_ok] are gone).

   WHAT IS PROVED (item keys):
     in flight  =>  the slot of the item is "running" in the table of the staged entry   (C02d_item_in_flight_slot_running)
     in flight  =>  the task record is ACTIVE                                              (C02d_item_in_flight_record_active)
     active slot in any staged table  =>  the slot is "running" and the item is in flight (C02d_active_slot_in_flight)
   WHAT IS NOT, and why the statements of C02b have to change with items:
     (I2) "every active record is in flight" is FALSE with items in normal operation: between two polls a with-items
          record is running with nothing in flight whenever the window has emptied and items remain (Example
          [active_record_nothing_in_flight]); the right statement is
            active with-items record  =>  an item of it is in flight, OR its staged entry has an item never offered;
     "pausing / canceling => something in flight" and "quiescent => resting" are FALSE by finding D24 (Example
          [d24_quiescent_not_resting]: the workflow became canceling by a TASK event, the sibling ending canceled,
          while w has items never offered; polls offer nothing while canceling; nothing is in flight; w stays running).
          With the reformulated (I2) the quiescent, not resting states are exactly those where an active with-items
          record has a never-offered item while the workflow is pausing or canceling -- the D24 situation.  This
          characterisation, and "paused / canceled => nothing in flight", need the status-linked invariant [kinv] of
          proofs/SysProofs.v (what each workflow status says about active records) for states with item tables; its
          proof there rests on [simple] (task statuses running / succeeded / failed / canceled / retrying only) and
          on the workflow-table facts for those statuses, and is not redone here.
     the plain keys (single action of a task without items) in a system that also has with-items tasks: the link of
          C02b is not re-proved for them here (it needs the kind of a task -- with items or not -- tied to the definition
          in the offers; the record frame of proofs/SysItemsRecProofs.v applies to them unchanged). *)
From Coq Require Import String List Bool ZArith Arith.
From Orq Require Import GenStatuses GenTables Base State Machines Conductor Api Driver ProviderSys ProviderSysItems ProviderSysItemsMon Composer.
From Orq Require Import F_tables F_names F_sys F_sysitems SysProofs SysNextProofs SysItemsProofs SysItemsRecProofs.
From Orq Require Import C12b.
Import ListNotations.
Open Scope string_scope.

(* [F] (I1), item keys, slot level *)
Theorem C02d_item_in_flight_slot_running : forall ev sp g inputs parent ops,
  let s := isys_run ev ops (isys_init sp g inputs parent) in
  si_fault s = false -> si_wiped s = false ->
  forall t r i, In (t, r, Some i) (si_inflight s) ->
  exists l, items_of (si_c s) t r = Some l /\ nth_error l i = Some S_RUNNING.
Proof. intros ev sp g inputs parent ops s Hf Hw. exact (proj1 (items_link ev sp g inputs parent ops Hf Hw)). Qed.
Print Assumptions C02d_item_in_flight_slot_running.

(* [F] (I1), item keys, record level: the record the pointer map gives for the task is a record of that task and
   route, and its status is active *)
Theorem C02d_item_in_flight_record_active : forall ev sp g inputs parent ops,
  let s := isys_run ev ops (isys_init sp g inputs parent) in
  si_fault s = false -> si_wiped s = false -> run_odd ev ops (isys_init sp g inputs parent) = false ->
  forall t r i, In (t, r, Some i) (si_inflight s) ->
  exists rec, ws_task_entry (c_ws (si_c s)) t r = Some rec /\ r_id rec = t /\ r_route rec = r /\
              ostatus_in (r_status rec) ACTIVE_STATUSES = true.
Proof. exact items_record_active. Qed.
Print Assumptions C02d_item_in_flight_record_active.

(* [F] (I2), slot level: every active slot of every staged item table is "running" and in flight *)
Theorem C02d_active_slot_in_flight : forall ev sp g inputs parent ops,
  let s := isys_run ev ops (isys_init sp g inputs parent) in
  si_fault s = false -> si_wiped s = false ->
  forall e l i st, In e (staged (c_ws (si_c s))) -> s_items e = Some l -> nth_error l i = Some st ->
  status_in st ACTIVE_STATUSES = true -> st = S_RUNNING /\ In (s_id e, s_route e, Some i) (si_inflight s).
Proof. intros ev sp g inputs parent ops s Hf Hw. exact (proj1 (proj2 (items_link ev sp g inputs parent ops Hf Hw))). Qed.
Print Assumptions C02d_active_slot_in_flight.

(* [F] every record is free of the status "pending" (an action status the protocol never reports): used to pass from
   "active or pending" to "active" above; stated for every record of the task list *)
Theorem C02d_no_pending_record : forall ev sp g inputs parent ops,
  let s := isys_run ev ops (isys_init sp g inputs parent) in
  si_fault s = false -> si_wiped s = false ->
  forall i rec, nth_error (sequence (c_ws (si_c s))) i = Some rec -> r_status rec <> Some S_PENDING.
Proof.
  intros ev sp g inputs parent ops s Hf Hw.
  apply (np_run ev ops _ (isys_init_inv2 sp g inputs parent)); [|apply ibad_false; assumption].
  intros _ j rc E. simpl in E. destruct j; discriminate E.
Qed.
Print Assumptions C02d_no_pending_record.

Module C02dExamples.
Import C12bExamples.

(* [R] (I2) of C02b is false with items, in normal operation: both items of the first window are back, two items were
   never offered, nothing is in flight, the record of w is running, the workflow is running -- and the next poll offers
   items 2 and 3 *)
Example active_record_nothing_in_flight :
  let s := isys_run ev_it [IBoot; IPoll; It "w" 0 S_SUCCEEDED; It "w" 1 S_SUCCEEDED; Pl "p" S_SUCCEEDED] (isys_init spec1 graph1 [] []) in
  view s = (S_RUNNING, [], (false, false), [("p", Some S_SUCCEEDED); ("w", Some S_RUNNING)],
            [("w", Some [S_SUCCEEDED; S_SUCCEEDED; S_UNSET; S_UNSET], false)]) /\
  map (fun o => (o_id o, map a_item (o_actions o))) (match snd (get_next_tasks ev_it (si_c s)) with Val l => l | _ => [] end)
  = [("w", [Some 2; Some 3])].
Proof. split; vm_compute; reflexivity. Qed.

(* [R] finding D24: quiescent and not resting.  The sibling p ends CANCELED (a task event, not a request): the workflow
   is canceling; the two items in flight come back; w has two items never offered; polls offer nothing while
   canceling; nothing is in flight; the record of w stays running and the workflow stays canceling for ever *)
Example d24_quiescent_not_resting :
  let s := isys_run ev_it [IBoot; IPoll; Pl "p" S_CANCELED; It "w" 0 S_SUCCEEDED; It "w" 1 S_SUCCEEDED] (isys_init spec1 graph1 [] []) in
  view s = (S_CANCELING, [], (false, false), [("p", Some S_CANCELED); ("w", Some S_RUNNING)],
            [("w", Some [S_SUCCEEDED; S_SUCCEEDED; S_UNSET; S_UNSET], false)]) /\
  snd (get_next_tasks ev_it (si_c s)) = Val [] /\
  run_odd ev_it [IBoot; IPoll; Pl "p" S_CANCELED; It "w" 0 S_SUCCEEDED; It "w" 1 S_SUCCEEDED; IPoll] (isys_init spec1 graph1 [] []) = false.
Proof. vm_compute; repeat split. Qed.

End C02dExamples.
