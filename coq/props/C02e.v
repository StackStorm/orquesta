(* C02e -- C02 for the provider protocol WITH with-items tasks (model/ProviderSysItems.v): the plain keys
   (the single action of a task without items) of a system that also has with-items tasks, and "whenever the workflow
   reports paused or canceled no action is in flight".  Property theorems only; proofs are in
   proofs/SysItemsPlainProofs.v and proofs/SysItemsIdleProofs.v (on top of the record frame of SysItemsRecProofs.v).

   Hypotheses: no hypothesis on the definition or the graph; the flags [si_fault], [si_wiped] of C12b, the monitor
   [run_odd] of C12c, and a second monitor [run_odd2] (model/ProviderSysItemsMon2.v), raised when along the history
     - a poll finds an item table on the staged entry of a (task, route) whose single action is in flight, or returns an
       offer without items for an entry that has a table, or an empty-list offer for a (task, route) whose single action
       is in flight (the kind of a task is fixed by the definition: never raised for a fixed definition);
     - the single action of a task is acknowledged onto a completed record whose staged entry is marked completed or
       gone (completed entries are not offered);
     - an offer is acknowledged while the workflow is paused or canceled.  A poll offers nothing in these statuses; the
       one way there in the middle of a poll is the acknowledgement of an EMPTY list (it completes its task on the
       spot) while another task is still paused after a resume -- the next acknowledgement takes the workflow back to
       running.  This disjunct is substantive for C02e_paused_canceled_idle only.
   Examples [monitors_silent] show both monitors silent on the runs of C12b. *)
From Coq Require Import String List Bool ZArith Arith.
From Orq Require Import GenStatuses GenTables Base State Machines Conductor Api Driver ProviderSys ProviderSysItems ProviderSysItemsMon ProviderSysItemsMon2 Composer.
From Orq Require Import F_tables F_names F_sys F_sysitems SysProofs SysNextProofs SysItemsProofs SysItemsRecProofs SysItemsPlainProofs SysItemsIdleProofs.
From Orq Require Import C12b.
Import ListNotations.
Open Scope string_scope.

(* [F] (I1) for the plain keys: while the single action of (t, r) is in flight the pointer map leads to a record of that
   task and route whose status is ACTIVE *)
Theorem C02e_plain_in_flight_record_active : forall ev sp g inputs parent ops,
  let s := isys_run ev ops (isys_init sp g inputs parent) in
  si_fault s = false -> si_wiped s = false -> run_odd ev ops (isys_init sp g inputs parent) = false ->
  run_odd2 ev ops (isys_init sp g inputs parent) = false ->
  forall t r, In (t, r, None) (si_inflight s) ->
  exists rec, ws_task_entry (c_ws (si_c s)) t r = Some rec /\ r_id rec = t /\ r_route rec = r /\
              ostatus_in (r_status rec) ACTIVE_STATUSES = true.
Proof. exact plain_record_active. Qed.
Print Assumptions C02e_plain_in_flight_record_active.

(* [F] (I1) for every key, plain or item (with C12c): everything in flight has an active task record *)
Theorem C02e_in_flight_has_active_record : forall ev sp g inputs parent ops,
  let s := isys_run ev ops (isys_init sp g inputs parent) in
  si_fault s = false -> si_wiped s = false -> run_odd ev ops (isys_init sp g inputs parent) = false ->
  run_odd2 ev ops (isys_init sp g inputs parent) = false ->
  forall t r item, In (t, r, item) (si_inflight s) ->
  exists rec, ws_task_entry (c_ws (si_c s)) t r = Some rec /\ r_id rec = t /\ r_route rec = r /\
              ostatus_in (r_status rec) ACTIVE_STATUSES = true.
Proof.
  intros ev sp g inputs parent ops s Hf Hw Ho Ho2 t r [i|] Hin.
  - exact (items_record_active ev sp g inputs parent ops Hf Hw Ho t r i Hin).
  - exact (plain_record_active ev sp g inputs parent ops Hf Hw Ho Ho2 t r Hin).
Qed.
Print Assumptions C02e_in_flight_has_active_record.

(* [F] the workflow machine is truthful at rest: when the workflow reports paused or canceled the conductor counts no
   active task execution (get_tasks_by_status(ACTIVE_STATUSES) is empty).  Underneath: a task event or a status request
   changes the workflow status to paused or canceled only when no task is active -- for EVERY task status, flag
   combination and workflow status (facts F_rest_needs_dormant_task / _request, swept over the generated tables). *)
Theorem C02e_paused_canceled_no_active_task : forall ev sp g inputs parent ops,
  let s := isys_run ev ops (isys_init sp g inputs parent) in
  si_fault s = false -> si_wiped s = false -> run_odd2 ev ops (isys_init sp g inputs parent) = false ->
  In (wstatus (c_ws (si_c s))) [S_PAUSED; S_CANCELED] -> has_active_tasks (c_ws (si_c s)) = false.
Proof. exact rest_no_active_record. Qed.
Print Assumptions C02e_paused_canceled_no_active_task.

(* [F] "whenever it reports paused or canceled no action is in flight" -- with with-items tasks *)
Theorem C02e_paused_canceled_idle : forall ev sp g inputs parent ops,
  let s := isys_run ev ops (isys_init sp g inputs parent) in
  si_fault s = false -> si_wiped s = false -> run_odd ev ops (isys_init sp g inputs parent) = false ->
  run_odd2 ev ops (isys_init sp g inputs parent) = false ->
  In (wstatus (c_ws (si_c s))) [S_PAUSED; S_CANCELED] -> si_inflight s = [].
Proof. exact paused_canceled_idle. Qed.
Print Assumptions C02e_paused_canceled_idle.

(* ------------------------------------------------------------------ non-vacuity *)
Module C02eExamples.
Import C12bExamples.

Example monitors_silent :
  let r1 := [IBoot; IPoll; It "w" 1 S_SUCCEEDED; IPoll; It "w" 0 S_SUCCEEDED; It "w" 2 S_SUCCEEDED; IPoll;
             It "w" 3 S_SUCCEEDED; Pl "p" S_SUCCEEDED; IPoll; Pl "z" S_SUCCEEDED] in
  let r2 := [IBoot; IPoll; IRequest S_PAUSING; It "w" 0 S_SUCCEEDED; It "w" 1 S_SUCCEEDED; Pl "p" S_SUCCEEDED; IPoll;
             IRequest S_RESUMING; IPoll] in
  let r3 := [IBoot; IPoll; IRequest S_CANCELING; It "w" 0 S_SUCCEEDED; It "w" 1 S_SUCCEEDED; Pl "p" S_SUCCEEDED; IPoll] in
  run_odd ev_it r1 (isys_init spec1 graph1 [] []) = false /\ run_odd2 ev_it r1 (isys_init spec1 graph1 [] []) = false /\
  run_odd ev_it r2 (isys_init spec1 graph1 [] []) = false /\ run_odd2 ev_it r2 (isys_init spec1 graph1 [] []) = false /\
  run_odd ev_it r3 (isys_init spec1 graph1 [] []) = false /\ run_odd2 ev_it r3 (isys_init spec1 graph1 [] []) = false /\
  run_odd2 ev_it [IBoot; IPoll] (isys_init spec0 graph0 [] []) = false.
Proof. vm_compute; repeat split. Qed.

(* the theorem applies: pause with items in flight -- pausing while they are out, paused and idle once they are back *)
Example paused_is_idle :
  let s1 := isys_run ev_it [IBoot; IPoll; IRequest S_PAUSING; It "w" 0 S_SUCCEEDED] (isys_init spec1 graph1 [] []) in
  let s2 := isys_run ev_it [IBoot; IPoll; IRequest S_PAUSING; It "w" 0 S_SUCCEEDED; It "w" 1 S_SUCCEEDED; Pl "p" S_SUCCEEDED] (isys_init spec1 graph1 [] []) in
  wstatus (c_ws (si_c s1)) = S_PAUSING /\ si_inflight s1 = [("p", 0, None); ("w", 0, Some 1)] /\
  wstatus (c_ws (si_c s2)) = S_PAUSED /\ si_inflight s2 = [] /\ has_active_tasks (c_ws (si_c s2)) = false.
Proof. vm_compute; repeat split. Qed.

End C02eExamples.
