(* C15 -- Accepted definitions are executable; broken references are reported.
   Property theorems only; proofs, invariants and the definitions used in the statements
   (declared, is_command, undef_triple, flat_positions, ex15, ex15_ok, ...) are in proofs/C15Proofs.v,
   the model of the detectors in model/Inspect.v, [reach] is C14's:
     reach sp t : reach_start (t is a start task: a declared task nothing transitions into)
                | reach_step (t' reachable, (t, w, i) a (target, condition, transition index) triple of t',
                              t <> "retry").
   A task that has transitions and is reachable in this sense is reached through declared tasks that
   are not named like a command (undefined names and commands have no transitions), so this is the
   reachability "through defined non-reserved targets" of the property.
     declared sp d := In d (map fst (wf_tasks sp))        is_command d := In d RESERVED_TASK_NAMES
     undef_triple sp t i d := (exists w, In (d, w, i) (spec_next_tasks sp t)) /\ ~ is_command d /\ ~ declared sp d
   [detect_undefined_tasks sp fuel] spends one unit of fuel per dequeued task and returns
   Exc OutOfFuel / Exc KeyError otherwise; C15_undefined_total shows neither happens for unique task
   names and fuel >= number of tasks.
   What is NOT proved here (tested by ./check C15): that the model agrees with the Python detectors;
   the unreachable-join detector and the worklist of the context tracking (modelled and compared,
   no theorem); grammar validation and the regex extraction of variable references (oracles); and the
   absence of KeyError / IndexError / TypeError from the conductor on accepted definitions -- only
   "no evaluation failure escapes" (C11) and "compose fails only by fuel" are theorems. *)
From Coq Require Import String List Bool ZArith Permutation.
From Orq Require Import GenSpecMeta Base State Composer Inspect Conductor Api C11Proofs C14Proofs C15Proofs.
Import ListNotations.
Open Scope string_scope.

(* [F] (a) soundness: every entry the detector reports is a transition i of a task t reachable from a
   start task to a name d that is neither a declared task nor an engine command *)
Theorem C15_undefined_sound : forall sp fuel l, detect_undefined_tasks sp fuel = Val l ->
  forall e, In e l -> exists t i d, e = SE_undefined t i d /\ reach sp t /\ undef_triple sp t i d.
Proof. intros sp fuel l H e. apply (undefined_exact sp fuel l H e). Qed.
Print Assumptions C15_undefined_sound.

(* [F] (a) completeness: every such transition is reported, with the spec_path
   tasks.<t>.next[<i>].do (entry_path).  Conditional on the detector returning Val (the fuel
   sufficed); no hypothesis on the task names. *)
Theorem C15_undefined_reported : forall sp fuel l, detect_undefined_tasks sp fuel = Val l ->
  forall t d w i, reach sp t -> In (d, w, i) (spec_next_tasks sp t) ->
    ~ is_command d -> ~ declared sp d ->
    In (SE_undefined t i d) l /\
    entry_path (SE_undefined t i d) = append (append "tasks." t) (append ".next[" (append (nat_to_string i) "].do")).
Proof.
  intros sp fuel l H t d w i Hr Hin Hc Hd. split; [exact (undefined_reported sp fuel l H t d w i Hr Hin Hc Hd)|].
  reflexivity.
Qed.
Print Assumptions C15_undefined_reported.

(* [F] (a) with unique task names, fuel >= number of declared tasks always suffices and no lookup
   fails: every task is dequeued at most once *)
Theorem C15_undefined_total : forall sp fuel, NoDup (task_names sp) -> length (wf_tasks sp) <= fuel ->
  exists l, detect_undefined_tasks sp fuel = Val l.
Proof. exact undefined_total. Qed.
Print Assumptions C15_undefined_total.

Example ex_C15_undefined :
  detect_undefined_tasks ex15 8
  = Val [SE_undefined "a" 0 "ghost"; SE_undefined "a" 1 "ghost";
         SE_undefined "j" 0 "phantom"; SE_undefined "j" 0 "phantom"]
  /\ In (SE_undefined "a" 1 "ghost") [SE_undefined "a" 0 "ghost"; SE_undefined "a" 1 "ghost";
                                      SE_undefined "j" 0 "phantom"; SE_undefined "j" 0 "phantom"]
  /\ map entry_path [SE_undefined "a" 1 "ghost"; SE_undefined "j" 0 "phantom"]
     = ["tasks.a.next[1].do"; "tasks.j.next[0].do"]
  /\ length (wf_tasks ex15) = 8
  /\ In ("ghost2", JNull, 0) (spec_next_tasks ex15 "u1").       (* the island's dangling target: not reachable *)
Proof.
  split; [exact ex15_undefined|]. split.
  - refine (proj1 (C15_undefined_reported ex15 8 _ ex15_undefined "a" "ghost" (JStr "<% failed() %>") 1
                     ex15_reach_a _ _ _)).
    + vm_compute. tauto.
    + unfold is_command. vm_compute. intuition discriminate.
    + unfold declared. vm_compute. intuition discriminate.
  - repeat split; vm_compute; tauto.
Qed.

(* [F] (b) a task named like an engine command is reported, and nothing else is *)
Theorem C15_reserved_reported : forall sp e,
  In e (detect_reserved_names sp) <-> exists t, e = SE_reserved t /\ declared sp t /\ is_command t.
Proof. exact reserved_reported. Qed.
Print Assumptions C15_reserved_reported.
Example ex_C15_reserved :
  detect_reserved_names ex15 = [SE_reserved "retry"] /\ entry_path (SE_reserved "retry") = "tasks.retry".
Proof. split; vm_compute; reflexivity. Qed.

(* [F] (b) "no start task" is reported exactly when the task list is non-empty and every declared
   task has an inbound transition; the detector reports nothing else *)
Theorem C15_no_start_reported : forall sp,
  (In SE_no_start (detect_start_tasks sp) <->
   wf_tasks sp <> [] /\ forall t, declared sp t -> spec_prev_count sp t <> 0)
  /\ forall e, In e (detect_start_tasks sp) -> e = SE_no_start.
Proof. exact no_start_reported. Qed.
Print Assumptions C15_no_start_reported.
Example ex_C15_no_start :
  detect_start_tasks ex15_cycle = [SE_no_start] /\ detect_start_tasks ex15 = []
  /\ spec_start_tasks ex15 = ["retry"; "s"] /\ entry_path SE_no_start = "tasks".
Proof. repeat split; vm_compute; reflexivity. Qed.

(* [F] (c) a with-items task without action is reported, and nothing else is *)
Theorem C15_actionless_items_reported : forall sp e,
  In e (detect_actionless_with_items sp) <->
  exists t ts, e = SE_actionless t /\ In (t, ts) (wf_tasks sp) /\ task_has_items ts = true
               /\ truthy (ts_action ts) = false.
Proof. exact actionless_items_reported. Qed.
Print Assumptions C15_actionless_items_reported.
Example ex_C15_actionless : detect_actionless_with_items ex15 = [SE_actionless "w"].
Proof. vm_compute. reflexivity. Qed.

(* [F] what acceptance by the semantic detectors means: no reserved name, a start task (or no task
   at all), every target of every reachable task is an engine command or a declared task, every
   with-items task has an action *)
Theorem C15_semantics_accepted : forall sp fuel, inspect_semantics sp fuel = Val [] ->
  (forall t, declared sp t -> ~ is_command t)
  /\ (wf_tasks sp = [] \/ exists s, In s (spec_start_tasks sp))
  /\ (forall t d w i, reach sp t -> In (d, w, i) (spec_next_tasks sp t) -> is_command d \/ declared sp d)
  /\ (forall t ts, In (t, ts) (wf_tasks sp) -> task_has_items ts = true -> truthy (ts_action ts) = true).
Proof. exact semantics_accepted. Qed.
Print Assumptions C15_semantics_accepted.
Example ex_C15_semantics :
  inspect_semantics ex15_ok 10 = Val []
  /\ (match inspect_semantics_sorted ex15 30 with Val l => map sem_triple l | Exc _ => [] end)
     = [("tasks.retry", "reserved", "retry"); ("tasks.w", "actionless", "");
        ("tasks.a.next[0].do", "undefined", "ghost"); ("tasks.a.next[1].do", "undefined", "ghost");
        ("tasks.j.next[0].do", "undefined", "phantom"); ("tasks.j.next[0].do", "undefined", "phantom")].
Proof. split; vm_compute; reflexivity. Qed.

(* [F] lifted to the whole report: inspect_semantics (all detectors, in detector order) contains the
   entry of every reachable transition to an undefined task, and what inspect() lists under
   "semantics" (sorted by schema path, then spec path) is a permutation of it: sorting loses nothing *)
Theorem C15_inspect_reports_undefined : forall sp fuel l, inspect_semantics sp fuel = Val l ->
  (forall t d w i, reach sp t -> In (d, w, i) (spec_next_tasks sp t) -> ~ is_command d -> ~ declared sp d ->
     In (SE_undefined t i d) l)
  /\ exists l', inspect_semantics_sorted sp fuel = Val l' /\ Permutation l' l.
Proof.
  intros sp fuel l H. split; [exact (semantics_reports_undefined sp fuel l H)|exact (semantics_sorted_perm sp fuel l H)].
Qed.
Print Assumptions C15_inspect_reports_undefined.

(* [P] (d) the rolling context of ONE spec object (the workflow's input / vars / output, the
   properties of a task, of a with or retry spec, of a transition), given the incoming context ctx:
   "variable x is referenced before assignment" is reported at spec_path q exactly when some
   position p with that path references x, x is not in the incoming context, and no earlier position
   (in evaluation order: flat_positions follows the _context_evaluation_sequence) of an assigning
   property (_context_inputs) assigns x.  PARTIAL: which contexts reach a task -- the worklist of
   TaskMappingSpec.inspect_context over the task graph -- is modelled (Inspect.ctx_loop) and compared
   with the implementation but not characterised by a theorem; the references of a position are what
   the regex extraction returns (oracle). *)
Theorem C15_context_straight_line_partial : forall seq inputs props ctx q x,
  In (CE_unassigned q x) (snd (inspect_props seq inputs props ctx)) <->
  exists pre a p post,
    flat_positions seq inputs props = app pre ((a, p) :: post) /\ cp_path p = q /\ In x (cp_refs p)
    /\ ~ In x ctx /\ forall a' p', In (a', p') pre -> a' = true -> ~ In x (cp_keys p').
Proof. exact context_straight_line. Qed.
Print Assumptions C15_context_straight_line_partial.

(* [P] (d) and the context handed on is the incoming one plus what the assigning positions assign *)
Theorem C15_context_assigned_partial : forall seq inputs props ctx x,
  In x (fst (inspect_props seq inputs props ctx)) <->
  In x ctx \/ exists p, In (true, p) (flat_positions seq inputs props) /\ In x (cp_keys p).
Proof. exact context_assigned. Qed.
Print Assumptions C15_context_assigned_partial.
Example ex_C15_context :
  (* when: <% ctx().a and ctx().y %>  publish: [{y: <% ctx().x %>}, {z: <% ctx().y %>}]  with x known:
     a and y are unassigned in the condition (publish comes after it), y is assigned for the second
     publish item *)
  inspect_transition_ctx ex15_props ["x"]
  = (["x"; "y"; "z"], [CE_unassigned "tasks.t.next[0].when" "a"; CE_unassigned "tasks.t.next[0].when" "y"]).
Proof. vm_compute. reflexivity. Qed.

(* [F] the reflected evaluation sequences contain every expression-bearing property in the
   documented order (a condition is inspected before the publish of its transition; retry is
   inspected), publish / input / vars / output assign, and the engine commands are the four reserved
   names.  Regenerated from /repo on every run: a change there breaks this theorem. *)
Theorem C15_positions_covered :
  CTX_SEQ_WorkflowSpec = ["input"; "vars"; "tasks"; "output"]
  /\ CTX_INPUTS_WorkflowSpec = ["input"; "vars"; "output"]
  /\ CTX_SEQ_TaskSpec = ["delay"; "with"; "action"; "input"; "retry"; "next"]
  /\ CTX_INPUTS_TaskSpec = []
  /\ CTX_SEQ_ItemizedSpec = ["items"; "concurrency"] /\ CTX_INPUTS_ItemizedSpec = []
  /\ CTX_SEQ_TaskRetrySpec = ["when"; "count"; "delay"] /\ CTX_INPUTS_TaskRetrySpec = []
  /\ CTX_SEQ_TaskTransitionSpec = ["when"; "publish"; "do"]
  /\ CTX_INPUTS_TaskTransitionSpec = ["publish"]
  /\ (forall c, In c ["continue"; "fail"; "noop"; "retry"] <-> is_command c).
Proof. exact positions_covered. Qed.
Print Assumptions C15_positions_covered.

(* [F] (e) accepted => composable: when the semantic detectors report nothing (and task names are
   unique, as in a Python dict) the composer never fails with a KeyError or an in_cycle fuel error:
   its only possible failure is the fuel of its own worklist.  (C14_only_fuel_error asks for the
   targets of ALL declared tasks to be defined; inspection guarantees it for the reachable ones,
   which is all the composer looks at -- proved here with that weaker hypothesis.) *)
Theorem C15_accepted_composes : forall sp fuel, NoDup (map fst (wf_tasks sp)) ->
  inspect_semantics sp fuel = Val [] ->
  forall rt f e, compose sp rt f = Exc e -> e = x_out_of_fuel.
Proof. exact accepted_composes. Qed.
Print Assumptions C15_accepted_composes.
Example ex_C15_accepted_composes :
  inspect_semantics ex15_ok 10 = Val []
  /\ (forall rt f e, compose ex15_ok rt f = Exc e -> e = x_out_of_fuel)
  /\ (match compose ex15_ok [] 10 with Val g => map n_id (g_nodes g) | Exc _ => [] end) = ["s"; "a"; "b"; "j"; "noop"].
Proof.
  split; [exact ex15_ok_accepted|]. split; [exact (C15_accepted_composes ex15_ok 10 ex15_ok_nodup ex15_ok_accepted)|].
  vm_compute. reflexivity.
Qed.

(* [F] (e) accepted => conducted without an evaluation failure escaping: C11's containment, for every
   definition (accepted or not), evaluator, state and API operation.  The absence of the OTHER
   internal errors (KeyError, IndexError, TypeError, ...) on accepted definitions under
   protocol-conformant histories is TESTED by ./check C15, not proved. *)
Theorem C15_no_evaluation_failure_escapes : forall ev op c c' e,
  api_exec ev op c = (c', Exc e) -> x_expr e = false.
Proof. intros ev op c c' e H. exact (api_contained ev op c c' e H). Qed.
Print Assumptions C15_no_evaluation_failure_escapes.
