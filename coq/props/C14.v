(* C14 -- The composed graph is exactly the definition's tasks and transitions.
   Property theorems only; proofs, the invariants and the definitions used in the statements
   (triple_ok, reach, attrs_ok, exp_barrier, exp_retry, ex_spec, ex_graph) are in proofs/C14Proofs.v,
   the model in model/Composer.v.  [compose sp rt fuel]: sp = the normalised definition, rt = the
   retry specs keyed by task name, fuel = bound on dequeues.  Every theorem is conditional on
   [compose .. = Val g]; that the worklist terminates with enough fuel is C14b.
   Each theorem is followed by an instance on the concrete definition ex_spec (fan-out, fan-in on a
   join, two parallel transitions a -> j, the cycle a -> j -> c -> a, commands noop and retry, a
   declared retry, two declared tasks not reachable from the start task), whose composition is
   computed by vm_compute in ex_compose (and agrees with the real composer on the same definition). *)
From Coq Require Import String List Bool ZArith Permutation.
From Orq Require Import Base State Composer C14Proofs.
Import ListNotations.
Open Scope string_scope.

(* [F] (a) every edge is a (task, transition index, target) triple of the definition: the target is
   not the retry command, criteria = [when] (or [] when there is no condition), ref = the index of
   the transition; both ends are nodes.
     triple_ok sp e := exists w, In (e_dst e, w, e_ref e) (spec_next_tasks sp (e_src e))
                                 /\ e_dst e <> "retry" /\ e_criteria e = crta_of w *)
Theorem C14_edges_sound : forall sp rt fuel g, compose sp rt fuel = Val g ->
  forall e, In e (g_edges g) ->
    triple_ok sp e /\ In (e_src e) (map n_id (g_nodes g)) /\ In (e_dst e) (map n_id (g_nodes g)).
Proof. exact edges_sound. Qed.
Print Assumptions C14_edges_sound.
Example ex_C14_edges_sound :
  Forall (fun e => exists w, In (e_dst e, w, e_ref e) (spec_next_tasks ex_spec (e_src e))
                             /\ e_dst e <> "retry" /\ e_criteria e = crta_of w) (g_edges ex_graph)
  /\ length (g_edges ex_graph) = 9.
Proof.
  split; [|vm_compute; reflexivity]. apply Forall_forall. intros e He.
  exact (proj1 (C14_edges_sound _ _ _ _ ex_compose e He)).
Qed.

(* [F] (b) every (task, transition, target) triple of every node has its edge (every node has been
   dequeued and processed when the worklist is empty) *)
Theorem C14_edges_complete : forall sp rt fuel g, compose sp rt fuel = Val g ->
  forall t d w i, In t (map n_id (g_nodes g)) -> In (d, w, i) (spec_next_tasks sp t) -> d <> "retry" ->
    exists e, In e (g_edges g) /\ e_src e = t /\ e_dst e = d /\ e_ref e = i /\ e_criteria e = crta_of w.
Proof. exact edges_complete. Qed.
Print Assumptions C14_edges_complete.
Example ex_C14_edges_complete :
  (exists e, In e (g_edges ex_graph) /\ e_src e = "a" /\ e_dst e = "j" /\ e_ref e = 1
             /\ e_criteria e = [JStr "<% failed() %>"])
  /\ spec_next_tasks ex_spec "a" =
     [("j", JStr "<% succeeded() %>", 0); ("j", JStr "<% failed() %>", 1); ("j", JStr "<% failed() %>", 1)].
Proof.
  split; [|vm_compute; reflexivity].
  apply (C14_edges_complete _ _ _ _ ex_compose "a" "j" (JStr "<% failed() %>") 1);
    [vm_compute; tauto|vm_compute; tauto|discriminate].
Qed.

(* [F] (b) the nodes are exactly the tasks reachable from the start tasks (declared tasks nothing
   transitions into) through transitions other than the retry command; node ids are unique.
     reach sp t: reach_start (t is a start task) | reach_step (t' reachable, (t, w, i) a triple of t') *)
Theorem C14_nodes_exact : forall sp rt fuel g, compose sp rt fuel = Val g ->
  NoDup (map n_id (g_nodes g)) /\ forall t, In t (map n_id (g_nodes g)) <-> reach sp t.
Proof. exact nodes_exact. Qed.
Print Assumptions C14_nodes_exact.
Example ex_C14_nodes_exact :
  map n_id (g_nodes ex_graph) = ["s"; "a"; "b"; "j"; "c"; "noop"] /\ reach ex_spec "noop"
  /\ ~ reach ex_spec "u" /\ length (wf_tasks ex_spec) = 7.
Proof.
  split; [vm_compute; reflexivity|].
  split; [apply (proj2 (C14_nodes_exact _ _ _ _ ex_compose)); vm_compute; tauto|].
  split; [|reflexivity]. intro H. apply (proj2 (C14_nodes_exact _ _ _ _ ex_compose)) in H.
  vm_compute in H. repeat (destruct H as [H|H]; [discriminate|]). exact H.
Qed.

(* [F] (c) no two edges agree on (source, destination, criteria, ref), nor on (source, destination, key) *)
Theorem C14_edges_unique : forall sp rt fuel g, compose sp rt fuel = Val g ->
  NoDup (map (fun e => (e_src e, e_dst e, e_criteria e, e_ref e)) (g_edges g)) /\
  NoDup (map (fun e => (e_src e, e_dst e, e_key e)) (g_edges g)).
Proof. exact edges_unique. Qed.
Print Assumptions C14_edges_unique.
Example ex_C14_edges_unique :
  NoDup (map (fun e => (e_src e, e_dst e, e_key e)) (g_edges ex_graph))
  /\ length (filter (fun '(d, _, _) => String.eqb d "j") (spec_next_tasks ex_spec "a")) = 3
  /\ length (filter (edge_between "a" "j") (g_edges ex_graph)) = 2.
Proof.
  split; [exact (proj2 (C14_edges_unique _ _ _ _ ex_compose))|]. split; vm_compute; reflexivity.
Qed.

(* [F] (c) the keys of the k parallel edges between two tasks are exactly 0 .. k-1, in the order
   networkx lists them *)
Theorem C14_edge_keys_dense : forall sp rt fuel g, compose sp rt fuel = Val g ->
  forall s d, map e_key (filter (edge_between s d) (g_edges g))
              = seq 0 (length (filter (edge_between s d) (g_edges g))).
Proof. exact edge_keys_dense. Qed.
Print Assumptions C14_edge_keys_dense.
Example ex_C14_edge_keys_dense :
  map e_key (filter (edge_between "c" "noop") (g_edges ex_graph)) = [0; 1]
  /\ map e_ref (filter (edge_between "c" "noop") (g_edges ex_graph)) = [1; 2].
Proof.
  split; [|vm_compute; reflexivity].
  rewrite (C14_edge_keys_dense _ _ _ _ ex_compose "c" "noop"). vm_compute. reflexivity.
Qed.

(* [F] (d) the roots of the composed graph are exactly the start tasks: the declared tasks that no
   transition of the definition names *)
Theorem C14_roots_exact : forall sp rt fuel g, compose sp rt fuel = Val g ->
  forall t, In t (g_roots g) <-> In t (spec_start_tasks sp).
Proof. exact roots_exact. Qed.
Print Assumptions C14_roots_exact.
Example ex_C14_roots_exact : g_roots ex_graph = ["s"] /\ spec_start_tasks ex_spec = ["s"].
Proof. split; vm_compute; reflexivity. Qed.

(* [F] (e) every node carries barrier = "*" / n exactly when the task declares join (null otherwise)
   and retry = the policy {"when": cond or "<% completed() %>", "count": 3} of the last retry command
   among its transitions (in get_next_tasks order), else the declared retry spec, else null.
     attrs_ok sp rt n := n_barrier n = exp_barrier sp (n_id n) /\ n_retry n = exp_retry sp rt (n_id n) *)
Theorem C14_attributes_exact : forall sp rt fuel g, compose sp rt fuel = Val g ->
  forall n, In n (g_nodes g) -> attrs_ok sp rt n.
Proof. exact attributes_exact. Qed.
Print Assumptions C14_attributes_exact.
Example ex_C14_attributes_exact :
  exp_barrier ex_spec "j" = JStr "*" /\ exp_barrier ex_spec "a" = JNull
  /\ exp_retry ex_spec ex_rt "c" = JDict [("when", JStr "<% ctx().x %>"); ("count", JInt 3)]
  /\ exp_retry ex_spec ex_rt "b" = JDict [("when", JNull); ("count", JInt 2); ("delay", JNull)]
  /\ Forall (attrs_ok ex_spec ex_rt) (g_nodes ex_graph).
Proof.
  repeat (split; [vm_compute; reflexivity|]). apply Forall_forall.
  exact (C14_attributes_exact _ _ _ _ ex_compose).
Qed.

(* [F] (e) the retry policy of C14_attributes_exact read off the transitions in declaration order
   (the name sort of get_next_tasks is stable): the last retry command -- highest transition index,
   last position in its do list -- overrides the declared retry spec.
     retry_upd acc (d, cond, i) := if d = "retry" then retry_cmd cond else acc *)
Theorem C14_retry_policy : forall sp rt t,
  exp_retry sp rt t =
  fold_left retry_upd (spec_next_tasks sp t) (match aget String.eqb t rt with Some r => r | None => JNull end).
Proof. exact exp_retry_unsorted. Qed.
Print Assumptions C14_retry_policy.
Example ex_C14_retry_policy :
  filter (fun x => String.eqb (nt_name x) "retry") (spec_next_tasks ex_spec "c")
  = [("retry", JStr "<% failed() %>", 0); ("retry", JStr "<% ctx().x %>", 2)]
  /\ exp_retry ex_spec ex_rt "c" = retry_cmd (JStr "<% ctx().x %>").
Proof. split; vm_compute; reflexivity. Qed.

(* [F] the composed graph does not depend on the order in which the tasks are declared (task names
   unique, as in a Python dict) *)
Theorem C14_declaration_order : forall sp1 sp2 rt fuel,
  Permutation (wf_tasks sp1) (wf_tasks sp2) -> NoDup (map fst (wf_tasks sp1)) ->
  compose sp1 rt fuel = compose sp2 rt fuel.
Proof. exact declaration_order. Qed.
Print Assumptions C14_declaration_order.
Example ex_C14_declaration_order :
  map fst (wf_tasks ex_spec) = ["j"; "c"; "s"; "b"; "u"; "v"; "a"]
  /\ map fst (wf_tasks ex_spec_sorted) = ["a"; "b"; "c"; "j"; "s"; "u"; "v"]
  /\ compose ex_spec_sorted ex_rt 20 = Val ex_graph.
Proof. repeat split; vm_compute; reflexivity. Qed.

(* [F] persistence (typed serialize / deserialize of any graph): the restored graph has the same node
   list and exactly the same edges -- same source, destination, key, ref and criteria -- provided
   the edge sources are nodes, which C14_edges_sound gives for composed graphs *)
Theorem C14_persist_edges : forall g,
  g_nodes (g_deserialize (g_serialize g)) = g_nodes g /\
  forall e, In e (g_edges (g_deserialize (g_serialize g))) <->
            In e (g_edges g) /\ In (e_src e) (map n_id (g_nodes g)).
Proof. exact persist_edges. Qed.
Print Assumptions C14_persist_edges.
Example ex_C14_persist : g_deserialize (g_serialize ex_graph) = ex_graph.
Proof. vm_compute. reflexivity. Qed.

(* [F] persistence: serialising the restored graph gives the same data again -- node list and, per node,
   the same (destination, key, ref, criteria) entries in the same order -- for every graph with unique
   node ids, in particular (C14_nodes_exact) for every composed graph *)
Theorem C14_serialize_roundtrip : forall g, NoDup (map n_id (g_nodes g)) ->
  g_serialize (g_deserialize (g_serialize g)) = g_serialize g.
Proof. exact serialize_roundtrip. Qed.
Print Assumptions C14_serialize_roundtrip.
Theorem C14_serialize_roundtrip_composed : forall sp rt fuel g, compose sp rt fuel = Val g ->
  g_serialize (g_deserialize (g_serialize g)) = g_serialize g.
Proof. intros sp rt fuel g H. apply serialize_roundtrip. exact (proj1 (nodes_exact sp rt fuel g H)). Qed.
Print Assumptions C14_serialize_roundtrip_composed.
Example ex_C14_serialize_roundtrip :
  map (map a_key) (sg_adj (g_serialize ex_graph)) = [[0; 0]; [0; 1]; [0]; [0]; [0; 0; 1]; []]
  /\ g_serialize (g_deserialize (g_serialize ex_graph)) = g_serialize ex_graph.
Proof. split; [vm_compute; reflexivity|exact (C14_serialize_roundtrip_composed _ _ _ _ ex_compose)]. Qed.

(* [F] fuel.  The breadth-first search of tasks.in_cycle never runs out of its fuel (spec_size + 1
   dequeues; task names unique); when moreover every transition target is an engine command or a
   declared task (what inspect() enforces), the only way compose fails is the worklist's own fuel --
   in particular no KeyError; and the graph does not depend on the fuel once it suffices.
   Termination of the worklist itself (exists fuel, compose sp rt fuel = Val g) is C14b_compose_total. *)
Theorem C14_in_cycle_total : forall sp t, NoDup (map fst (wf_tasks sp)) -> spec_in_cycle sp t <> None.
Proof. exact spec_in_cycle_total. Qed.
Print Assumptions C14_in_cycle_total.
Theorem C14_only_fuel_error : forall sp, NoDup (map fst (wf_tasks sp)) -> targets_defined sp ->
  forall rt fuel e, compose sp rt fuel = Exc e -> e = x_out_of_fuel.
Proof. exact compose_only_fuel_error. Qed.
Print Assumptions C14_only_fuel_error.
Theorem C14_fuel_irrelevant : forall sp rt f1 f2 g1 g2,
  compose sp rt f1 = Val g1 -> compose sp rt f2 = Val g2 -> g1 = g2.
Proof. exact compose_fuel_irrelevant. Qed.
Print Assumptions C14_fuel_irrelevant.
Example ex_C14_fuel :
  compose ex_spec ex_rt 6 = Exc x_out_of_fuel /\ compose ex_spec ex_rt 7 = Val ex_graph
  /\ map (spec_in_cycle ex_spec) ["s"; "a"; "j"; "c"; "u"; "noop"]
     = [Some false; Some true; Some true; Some true; Some true; Some false]
  /\ targets_defined ex_spec /\ NoDup (map fst (wf_tasks ex_spec)).
Proof.
  split; [vm_compute; reflexivity|]. split; [vm_compute; reflexivity|]. split; [vm_compute; reflexivity|].
  split; [exact ex_targets_defined|exact ex_nodup].
Qed.
