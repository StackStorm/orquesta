(* C15b -- "no internal error": late and unexpected reports are refused or absorbed, never a Python
   error of the engine's own code.  Property theorems only (proofs/NoInternalProofs.v), with the
   classification of malformed calls and the refuting witnesses that fixed its boundary.

   INTERNAL classes (internal_names): KeyError, IndexError, TypeError, ValueError, AttributeError -- every
   class the model raises where the engine has no documented refusal.  DOCUMENTED refusals (not internal):
   InvalidTask, InvalidTaskStateEntry, InvalidEvent, InvalidTaskStatusTransition,
   InvalidWorkflowStatusTransition, WorkflowIsActiveAndNotRerunableError, InvalidTaskRerunRequest.
   OutOfFuel and PersistFailed are model artefacts with their own theorems (C13b, C05).

   SCOPE: serialize, request_workflow_status, get_next_tasks, update_task_state with provider events,
   render_workflow_output, persist.  request_workflow_rerun is OUT of scope: known findings D8 (rerun offers
   an engine command) and C15-rerun-of-inflight (rerun strips a record's status) break the invariant.

   HYPOTHESES besides well-formedness of the state:
   - eval_no_internal ev: evaluation (with the model's recursion over containers) never fails with an internal
     class.  An unhashable key value was the defect W-C (TypeError escaping render_vars / finalize_context on the
     real engine; repaired as D29); what remains behind this hypothesis is the model's limitation to string keys.
   - static_ok sp g (decidable: static_ok_b): every graph task has a spec entry; every edge refers to an
     existing transition of its source; engine commands are inert (no transitions, no retry) and startable.
     A task may have any number of edges to engine commands.
   - per provider call (op_in_scope, decidable: op_in_scope_b / hist_in_scope_b), beside well-formedness of the call:
     cmd_routes_distinct c t route -- the edges of t to engine commands that KEEP the route (the command is no split,
     or the route already carries the transition id) lead to different commands.  Edges that open a route get one
     each, so the commands queued by one completion are different (task, route) keys.  Where the clause fails the
     engine queues the same key twice and the second call raises TypeError (example below; the graph there has more
     edges to the command than the definition has transitions naming it, which the composer never produces). *)
From Coq Require Import String List Bool ZArith.
From Orq Require Import GenStatuses GenEvents GenTables Base State Machines Conductor Api F_tables
  RetryProofs RetryBoundProofs NoInternalProofs.
Import ListNotations.
Open Scope string_scope.

(* [F] (1) the invariant holds of a fresh conductor once its lazy state exists (whether or not rendering the
   inputs failed, and even if the evaluator raised) *)
Theorem C15_fresh_state_wellformed : forall ev c c1 r,
  c_init c = false -> c_ws c = empty_ws -> ensure_ws ev c = (c1, r) -> WF c1.
Proof. exact fresh_wf. Qed.
Print Assumptions C15_fresh_state_wellformed.

(* [F] (2)+(3) one API call: from a well-formed state, an in-scope operation that is not malformed leaves the
   state well-formed -- also when it raises -- and raises no internal class *)
Theorem C15_no_internal_error : forall ev, eval_no_internal ev -> forall op c c' r,
  WF c -> static_ok (c_spec c) (c_graph c) -> op_in_scope c op -> api_exec ev op c = (c', r) ->
  WF c' /\ static_ok (c_spec c') (c_graph c') /\ (forall x, r = Exc x -> ~ internal_cls x).
Proof. exact api_exec_wf. Qed.
Print Assumptions C15_no_internal_error.

(* [F] histories *)
Theorem C15_no_internal_error_history : forall ev, eval_no_internal ev -> forall ops c,
  WF c -> static_ok (c_spec c) (c_graph c) -> hist_in_scope ev ops c ->
  no_internal_run ev ops c /\ WF (run_ops ev ops c) /\
  static_ok (c_spec (run_ops ev ops c)) (c_graph (run_ops ev ops c)).
Proof. exact run_ops_no_internal. Qed.
Print Assumptions C15_no_internal_error_history.

(* [F] update_task_state alone *)
Theorem C15_update_task_state_no_internal : forall ev, eval_no_internal ev -> forall t route evt c c' r,
  WF c -> static_ok (c_spec c) (c_graph c) -> provider_event evt = true -> wellformed_call_b c t route evt = true ->
  cmd_routes_distinct c t route ->
  update_task_state ev t route evt c = (c', r) -> WF c' /\ (forall x, r = Exc x -> ~ internal_cls x).
Proof. exact update_task_state_wf. Qed.
Print Assumptions C15_update_task_state_no_internal.

(* [F] the operations that need nothing of the state *)
Theorem C15_get_next_tasks_no_internal : forall ev, eval_no_internal ev ->
  forall c c' e, get_next_tasks ev c = (c', Exc e) -> ~ internal_cls e.
Proof. exact ni_get_next_tasks. Qed.
Theorem C15_request_status_no_internal : forall ev, eval_no_internal ev ->
  forall st c c' e, request_workflow_status ev st c = (c', Exc e) -> ~ internal_cls e.
Proof. exact ni_request_workflow_status. Qed.
Theorem C15_render_output_no_internal : forall ev, eval_no_internal ev ->
  forall c c' x, WF c -> render_workflow_output ev c = (c', Exc x) -> ~ internal_cls x.
Proof. exact render_workflow_output_ni. Qed.
Print Assumptions C15_get_next_tasks_no_internal.
Print Assumptions C15_request_status_no_internal.
Print Assumptions C15_render_output_no_internal.

(* [F] the decidable forms are sound *)
Theorem C15_static_ok_decidable : forall sp g, static_ok_b sp g = true -> static_ok sp g.
Proof. exact static_ok_b_sound. Qed.
Theorem C15_WF_decidable : forall c, WF_b c = true -> WF c.
Proof. exact WF_b_sound. Qed.
Theorem C15_history_decidable : forall ev ops c, hist_in_scope_b ev ops c = true -> hist_in_scope ev ops c.
Proof. exact hist_in_scope_b_sound. Qed.
Theorem C15_cmd_routes_distinct_decidable : forall c t route,
  cmd_routes_distinct_b c t route = true -> cmd_routes_distinct c t route.
Proof. exact cmd_routes_distinct_b_sound. Qed.
Theorem C15_evaluator_sufficient : forall ev,
  (forall s ctx e, ev s ctx = EvErr e -> ~ internal_cls e) ->
  (forall s ctx v, ev s ctx = EvOk v -> match v with JStr _ | JList _ | JDict _ => True | _ => False end) ->
  eval_no_internal ev.
Proof. exact eval_no_internal_of. Qed.
Print Assumptions C15_static_ok_decidable.
Print Assumptions C15_WF_decidable.
Print Assumptions C15_history_decidable.
Print Assumptions C15_cmd_routes_distinct_decidable.
Print Assumptions C15_evaluator_sufficient.

(* ------------------------------------------------------------------ examples: the theorem is not vacuous,
   and each clause of "malformed" is there because the engine really breaks without it *)

Module C15bExamples.

(* t1: with-items over two items, retry count 1, then noop; t2: a plain task beside it *)
Definition ev_toy (s : string) (ctx : dict) : evalres :=
  if String.eqb s "<% ctx().xs %>" then EvOk (JList [JStr "a"; JStr "b"]) else EvOk (JStr s).
Definition items_spec : task_spec :=
  {| ts_action := JStr "core.echo"; ts_input := JDict [];
     ts_with := Some {| it_expr := "<% ctx().xs %>"; it_keys := None; it_concurrency := JNull |};
     ts_delay := JNull; ts_join := JNull; ts_next := [{| tr_when := JNull; tr_publish := []; tr_do := ["noop"] |}] |}.
Definition plain_spec : task_spec :=
  {| ts_action := JStr "core.noop"; ts_input := JDict []; ts_with := None; ts_delay := JNull; ts_join := JNull; ts_next := [] |}.
Definition spec2 : wf_spec :=
  {| wf_input := []; wf_vars := []; wf_output := []; wf_tasks := [("t1", items_spec); ("t2", plain_spec)] |}.
Definition node n r := {| n_id := n; n_barrier := JNull; n_splits := None; n_retry := r |}.
Definition graph2 : graph :=
  {| g_nodes := [node "t1" (JDict [("count", JInt 1)]); node "t2" JNull; node "noop" JNull];
     g_edges := [{| e_src := "t1"; e_dst := "noop"; e_key := 0; e_ref := 0; e_criteria := [] |}] |}.
Definition c0 : cstate :=
  {| c_spec := spec2; c_graph := graph2; c_inputs := []; c_parent := []; c_init := false; c_ws := empty_ws;
     c_errors := []; c_log := []; c_output := None |}.
Definition boot : cstate := fst (ensure_ws ev_toy c0).

Definition it i st := OpEvent "t1" 0 (EvItem i st JNull (JList [])).
Definition act t st := OpEvent t 0 (EvAction st JNull).
Definition view (c : cstate) :=
  (wstatus (c_ws c),
   map (fun r => (r_id r, r_status r, match r_retry r with Some rr => Some (rr_tally rr) | None => None end)) (sequence (c_ws c))).
Definition cls (r : result api_result) : string := match r with Exc e => x_cls e | Val _ => "" end.

Example ev_toy_ok : eval_no_internal ev_toy.
Proof.
  apply eval_no_internal_of; intros s ctx x H; unfold ev_toy in H; destruct (String.eqb s "<% ctx().xs %>"); inversion H; exact I.
Qed.
Example static2 : static_ok (c_spec boot) (c_graph boot).
Proof. apply static_ok_b_sound; vm_compute; reflexivity. Qed.
Example boot_wf : WF boot.
Proof. apply (C15_fresh_state_wellformed ev_toy c0 boot (snd (ensure_ws ev_toy c0))); reflexivity. Qed.

(* a history with everything in it: both items acknowledged, one fails -> the task fails and is retried (re-entry),
   the second attempt receives a duplicate success and a late failure for item 1, the plain task beside it runs,
   the retried task fails for good, the transition queues noop (engine command), a late `pending` report of item 0
   arrives after the end, the output is rendered, the conductor is persisted *)
Definition good : list api_op :=
  [OpRequest S_RUNNING; OpGetNext; it 0 S_RUNNING; it 1 S_RUNNING; act "t2" S_RUNNING; it 0 S_SUCCEEDED; it 1 S_FAILED;
   OpGetNext; it 0 S_RUNNING; it 1 S_RUNNING; it 1 S_SUCCEEDED; it 1 S_FAILED; it 0 S_SUCCEEDED; act "t2" S_SUCCEEDED;
   it 0 S_PENDING; OpRender; OpPersist].

Example good_in_scope : hist_in_scope ev_toy good boot.
Proof. apply hist_in_scope_b_sound; vm_compute; reflexivity. Qed.

Example good_run :
  view (run_ops ev_toy good boot)
  = (S_SUCCEEDED, [("t1", Some S_FAILED, Some 1); ("t2", Some S_SUCCEEDED, None); ("noop", Some S_SUCCEEDED, None)]) /\
  no_internal_run ev_toy good boot /\ WF (run_ops ev_toy good boot).
Proof.
  split; [vm_compute; reflexivity|].
  destruct (C15_no_internal_error_history ev_toy ev_toy_ok good boot boot_wf static2 good_in_scope) as [A [B _]]. split; assumption.
Qed.

(* ---- the malformed clauses, each with the engine's answer when it is violated ---- *)

Definition polled : cstate := run_ops ev_toy [OpRequest S_RUNNING; OpGetNext] boot.
Definition unpolled : cstate := run_ops ev_toy [OpRequest S_RUNNING] boot.

(* M4 (witness W-A, real engine: KeyError 'status' at conducting.py:1144): the first report for a staged task is a
   completion -- there is no record with a status yet and "action_succeeded" is not accepted from "no status" *)
Example completion_before_start_refuted :
  WF polled /\ wellformed_call_b polled "t2" 0 (EvAction S_SUCCEEDED JNull) = false /\
  cls (snd (api_exec ev_toy (act "t2" S_SUCCEEDED) polled)) = "KeyError".
Proof. split; [apply WF_b_sound; vm_compute; reflexivity|split; vm_compute; reflexivity]. Qed.

(* M2: an item index outside the items table (IndexError; the caller's fault) *)
Example item_index_out_of_range_refuted :
  wellformed_call_b polled "t1" 0 (EvItem 2 S_RUNNING JNull JNull) = false /\
  cls (snd (api_exec ev_toy (it 2 S_RUNNING) polled)) = "IndexError".
Proof. split; vm_compute; reflexivity. Qed.

(* M3 (witness W8, real engine: TypeError at conducting.py:976): a plain action event for a with-items task that
   has not been offered yet unstages it; when the task then abends the engine wants to flag the staged entry *)
Example plain_event_on_unoffered_items_task_refuted :
  wellformed_call_b unpolled "t1" 0 (EvAction S_RUNNING JNull) = false /\
  cls (snd (api_exec ev_toy (act "t1" S_RUNNING) unpolled)) = "" /\
  cls (snd (api_exec ev_toy (act "t1" S_FAILED) (run_ops ev_toy [act "t1" S_RUNNING] unpolled))) = "TypeError".
Proof. split; [vm_compute; reflexivity|split; vm_compute; reflexivity]. Qed.

(* M5: the state the previous call leaves behind -- a with-items task that is running and not staged -- is one in
   which an abending report is malformed *)
Example abend_of_unstaged_items_task_is_malformed :
  wellformed_call_b (run_ops ev_toy [act "t1" S_RUNNING] unpolled) "t1" 0 (EvAction S_FAILED JNull) = false.
Proof. vm_compute; reflexivity. Qed.

(* M1: a provider event addressed to an engine command (never offered; TypeError at conducting.py:880) *)
Example event_for_engine_command_refuted :
  wellformed_call_b (run_ops ev_toy good boot) "noop" 0 (EvAction S_RUNNING JNull) = false /\
  cls (snd (api_exec ev_toy (act "noop" S_RUNNING) (run_ops ev_toy good boot))) = "TypeError".
Proof. split; vm_compute; reflexivity. Qed.

(* the late `pending` item report after the with-items task failed (witness W-D: KeyError 'status' on the engine
   without D30's `not staged_task["completed"]`) is absorbed: it is in scope above (good) and changes nothing *)
Example late_pending_report_absorbed :
  let c := run_ops ev_toy (firstn 14 good) boot in
  wellformed_call_b c "t1" 0 (EvItem 0 S_PENDING JNull (JList [])) = true /\
  view (fst (api_exec ev_toy (it 0 S_PENDING) c)) = view c /\ cls (snd (api_exec ev_toy (it 0 S_PENDING) c)) = "".
Proof. cbv zeta. split; [vm_compute; reflexivity|split; vm_compute; reflexivity]. Qed.

(* ---- several transitions of one task to engine commands ---- *)

(* t1 fails the workflow by two transitions and has a third to noop: `fail` is named twice, so it is a split and
   each edge opens a route; three commands are queued by the one completion, on routes 1, 2 and 0 *)
Definition mk (sp : wf_spec) (g : graph) : cstate :=
  {| c_spec := sp; c_graph := g; c_inputs := []; c_parent := []; c_init := false; c_ws := empty_ws;
     c_errors := []; c_log := []; c_output := None |}.
Definition tr d := {| tr_when := JNull; tr_publish := []; tr_do := [d] |}.
Definition cmds_spec (nxt : list transition_spec) : wf_spec :=
  {| wf_input := []; wf_vars := []; wf_output := [];
     wf_tasks := [("t1", {| ts_action := JStr "core.noop"; ts_input := JDict []; ts_with := None; ts_delay := JNull;
                            ts_join := JNull; ts_next := nxt |})] |}.
Definition edge d k r := {| e_src := "t1"; e_dst := d; e_key := k; e_ref := r; e_criteria := [] |}.
Definition graph3 : graph :=
  {| g_nodes := [node "t1" JNull; node "fail" JNull; node "noop" JNull];
     g_edges := [edge "fail" 0 0; edge "fail" 1 1; edge "noop" 0 2] |}.
Definition boot3 : cstate := fst (ensure_ws ev_toy (mk (cmds_spec [tr "fail"; tr "fail"; tr "noop"]) graph3)).
Definition h3 : list api_op := [OpRequest S_RUNNING; OpGetNext; act "t1" S_RUNNING; act "t1" S_SUCCEEDED; OpRender].

Example three_commands_in_scope :
  static_ok (c_spec boot3) (c_graph boot3) /\ WF boot3 /\ hist_in_scope ev_toy h3 boot3.
Proof.
  split; [apply static_ok_b_sound; vm_compute; reflexivity|].
  split; [apply WF_b_sound; vm_compute; reflexivity|apply hist_in_scope_b_sound; vm_compute; reflexivity].
Qed.
Example three_commands_run :
  (wstatus (c_ws (run_ops ev_toy h3 boot3)),
   map (fun r => (r_id r, r_route r, r_status r)) (sequence (c_ws (run_ops ev_toy h3 boot3))),
   routes (c_ws (run_ops ev_toy h3 boot3)))
  = (S_FAILED,
     [("t1", 0, Some S_SUCCEEDED); ("fail", 1, Some S_FAILED); ("fail", 2, Some S_FAILED); ("noop", 0, Some S_SUCCEEDED)],
     [[]; [("t1", 0)]; [("t1", 1)]]) /\
  no_internal_run ev_toy h3 boot3.
Proof.
  split; [vm_compute; reflexivity|].
  destruct three_commands_in_scope as [A [B C]].
  destruct (C15_no_internal_error_history ev_toy ev_toy_ok h3 boot3 B A C) as [D _]. exact D.
Qed.

(* the clause is needed: one transition named in the definition (so `fail` is no split) but two edges in the graph
   -- both keep route 0, ("fail", 0) is queued twice, and the second call finds nothing staged *)
Definition graph4 : graph :=
  {| g_nodes := [node "t1" JNull; node "fail" JNull]; g_edges := [edge "fail" 0 0; edge "fail" 1 0] |}.
Definition c4 : cstate :=
  run_ops ev_toy [OpRequest S_RUNNING; OpGetNext; act "t1" S_RUNNING] (fst (ensure_ws ev_toy (mk (cmds_spec [tr "fail"]) graph4))).
Example same_command_same_route_refuted :
  static_ok (c_spec c4) (c_graph c4) /\ WF c4 /\ wellformed_call_b c4 "t1" 0 (EvAction S_SUCCEEDED JNull) = true /\
  cmd_routes_distinct_b c4 "t1" 0 = false /\
  cls (snd (api_exec ev_toy (act "t1" S_SUCCEEDED) c4)) = "TypeError".
Proof.
  split; [apply static_ok_b_sound; vm_compute; reflexivity|]. split; [apply WF_b_sound; vm_compute; reflexivity|].
  split; [vm_compute; reflexivity|]. split; vm_compute; reflexivity.
Qed.

(* the evaluator hypothesis marks the model's limitation to string keys: a key expression answering a number *)
Definition ev_numkey (s : string) (ctx : dict) : evalres := if String.eqb s "<% 1 %>" then EvOk (JInt 1) else EvOk (JStr s).
Example numeric_key_is_outside_the_model : ~ eval_no_internal ev_numkey.
Proof.
  intro H. apply (H (JDict [("<% 1 %>", JNull)]) [] boot boot (mkexn "TypeError" "unsupported dictionary key produced by expression")).
  - vm_compute; reflexivity.
  - vm_compute; reflexivity.
Qed.

End C15bExamples.
