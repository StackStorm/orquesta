(* C09d -- C09, the whole-call commutation of a report with the pause request (C09c): the two cases C09c excludes.
   Property theorems only; proofs are in proofs/PauseCommute2Proofs.v.

   (E4) TASKS WHOSE TRANSITIONS TARGET ENGINE COMMANDS -- PROVED.
   With a command queued, the nested update_task_state calls run after the workflow-machine step of the
   reporting task, when the two statuses have parted (running vs paused when the task was the last in
   flight).  For every state-blind evaluator the report returns / raises alike and leaves states related by
   [Tri] (equal up to workflow status, terminal flags and error log; EQUAL when the statuses are equal;
   differing by the status alone while neither run has completed the workflow), when
     * commands are inert in the graph: no outgoing transition, no retry policy ([graph_commands_inert],
       RetryProofs; true of every composed graph),
     * at most one transition of the task targets a command ([cmd1]), and
     * the unpaused run's machine step of the reporting task, with a command queued, does not complete the
       workflow ([mid_open]; implied by "the unpaused call leaves the workflow not completed", and true
       whenever the queued command is staged, which is what process_transition does).
   So `fail`, `noop`, `continue` are covered; `fail` ends failed in both runs IN THE SAME STATE (witness).
   Corollaries: runs of reports, and pause ... reports ... rest ... resume ... poll (same offers).
   NOT covered: two or more command targets on one task.

   (E3) WITH-ITEMS TASKS -- FALSE.  Witness below (model and engine): an item reported CANCELED while another
   item of the task is still active takes a running task to canceling (and the workflow to canceling) but
   leaves a pausing task pausing -- the task table has no row for that event from pausing.  A task failure
   that the canceling workflow absorbs then FAILS the pausing workflow: the unpaused history ends canceled,
   the paused one failed, and the resume request is rejected.  (The states still differ in statuses only.)
   It is the only provider event on which the pausing row does not mirror the running row
   ([C09d_items_rows_diverge_only_on_cancel]); the commutation for with-items tasks WITHOUT such a report is
   neither proved nor refuted. *)
From Coq Require Import String List Bool ZArith.
From Orq Require Import GenStatuses GenEvents GenTables Base State Machines Conductor Api Composer
  F_tables C09C10Proofs RetryProofs InertProofs QueryProofs PauseProofs PauseCommuteProofs PauseCommute2Proofs.
Import ListNotations.
Open Scope string_scope.
Open Scope monad_scope.

(* ------------------------------------------------------------------ vocabulary, spelled out *)

Theorem C09d_inert_unfold : forall g,
  graph_commands_inert g <->
  (forall cmd, is_engine_command cmd = true -> g_next_transitions g cmd = [] /\ g_task_has_retry g cmd = false).
Proof. intros; split; intro H; exact H. Qed.

Theorem C09d_cmd1_unfold : forall t g,
  cmd1 t g <-> length (filter (fun e => is_engine_command (e_dst e)) (g_next_transitions g t)) <= 1.
Proof. intros; split; intro H; exact H. Qed.

(* the plain run up to and including the workflow-machine step of the reporting task, returning the queue *)
Theorem C09d_mid_m_unfold : forall ev t route evt,
  mid_m ev t route evt =
  (p <- uts_prefix ev t route evt ;;
   match po_compl p with
   | Some (_, true) => ret []
   | _ => q <- uts_queue ev t route (po_idx p) (po_ts p) (po_old p) (po_new p) (po_compl p) ;;
          (r <- get_rec (po_idx p) ;;
           st <- (match r_status r with Some s => ret s | None => raise (exn_key "status") end) ;;
           unreachable <- wf_task_event_M t route st ;; log_unreachable unreachable) ;;; ret q
   end).
Proof. reflexivity. Qed.

Theorem C09d_mid_open_unfold : forall ev t route evt c,
  mid_open ev t route evt c <->
  (forall c' q, mid_m ev t route evt c = (c', Val q) -> q <> [] -> status_in (wstatus (c_ws c')) COMPLETED_STATUSES = false).
Proof. intros; split; intro H; exact H. Qed.

(* [Tri b a] *)
Theorem C09d_Tri_unfold : forall b a,
  Tri b a <->
  (c_init a = true /\ strip_tl b = strip_tl a /\
   (wstatus (c_ws b) = wstatus (c_ws a) -> b = a) /\
   (status_in (wstatus (c_ws b)) COMPLETED_STATUSES = false -> status_in (wstatus (c_ws a)) COMPLETED_STATUSES = false ->
    b = so (wstatus (c_ws b)) a /\ PairF (wstatus (c_ws b)) (wstatus (c_ws a)))).
Proof. intros; split; intro H; exact H. Qed.

(* a pair of statuses from both of which the workflow can still be failed (or the same status) *)
Theorem C09d_PairF_unfold : forall s x,
  PairF s x <-> (s = x \/ ((tbl_step wf_table s "workflow_failed" = Some S_FAILED /\ s <> S_FAILED) /\
                          (tbl_step wf_table x "workflow_failed" = Some S_FAILED /\ x <> S_FAILED))).
Proof. intros; split; intro H; exact H. Qed.

(* ------------------------------------------------------------------ the theorems *)

(* [F] THE CALL DELIVERING AN ENGINE COMMAND commutes with ANY status override over a failable pair: the
   record is fresh and without retry policy, so the retry gate is moot; nothing else reads the status
   before the machine step.  (rec: whatever the body would call back -- it does not.) *)
Theorem C09d_command_call : forall ev, state_blind ev ->
  forall (rec : string -> nat -> event -> M unit) t route evt s a,
  c_init a = true -> PairF s (wstatus (c_ws a)) ->
  (is_engine_command t = true /\ g_task_has_retry (c_graph a) t = false) /\ g_next_transitions (c_graph a) t = [] ->
  snd (uts_body ev rec t route evt (so s a)) = snd (uts_body ev rec t route evt a) /\
  Tri (fst (uts_body ev rec t route evt (so s a))) (fst (uts_body ev rec t route evt a)).
Proof. exact cmd_call. Qed.
Print Assumptions C09d_command_call.

(* [F] THE REPORT of a task with a command target *)
Theorem C09d_report_commutes_with_status_override_cmd : forall ev, state_blind ev ->
  forall t route evt s c,
  c_init c = true -> PairOK s (wstatus (c_ws c)) ->
  graph_commands_inert (c_graph c) -> cmd1 t (c_graph c) -> mid_open ev t route evt c ->
  snd (update_task_state ev t route evt (so s c)) = snd (update_task_state ev t route evt c) /\
  Tri (fst (update_task_state ev t route evt (so s c))) (fst (update_task_state ev t route evt c)).
Proof. exact report_commutes_with_status_override_cmd. Qed.
Print Assumptions C09d_report_commutes_with_status_override_cmd.

(* [F] ... against an accepted pause request *)
Theorem C09d_report_commutes_with_pause_cmd : forall ev, state_blind ev ->
  forall st t route evt c c_p r,
  c_init c = true -> wstatus (c_ws c) = S_RUNNING -> no_item_tables c ->
  graph_commands_inert (c_graph c) -> cmd1 t (c_graph c) -> mid_open ev t route evt c ->
  pause_class st -> request_workflow_status ev st c = (c_p, r) -> wstatus (c_ws c_p) = S_PAUSING ->
  snd (update_task_state ev t route evt c_p) = snd (update_task_state ev t route evt c) /\
  Tri (fst (update_task_state ev t route evt c_p)) (fst (update_task_state ev t route evt c)).
Proof. exact report_commutes_with_pause_cmd. Qed.
Print Assumptions C09d_report_commutes_with_pause_cmd.

(* [F] the side condition on the machine step follows when the unpaused call leaves the workflow not
   completed (a completed workflow stays completed) *)
Theorem C09d_mid_open_of_open_end : forall ev t route evt c,
  status_in (wstatus (c_ws (fst (update_task_state ev t route evt c)))) COMPLETED_STATUSES = false ->
  mid_open ev t route evt c.
Proof. intros ev t route evt c H. apply mid_open_of_open_end. unfold done. exact H. Qed.
Print Assumptions C09d_mid_open_of_open_end.

Theorem C09d_report_commutes_with_status_override_cmd_open : forall ev, state_blind ev ->
  forall t route evt s c,
  c_init c = true -> PairOK s (wstatus (c_ws c)) ->
  graph_commands_inert (c_graph c) -> cmd1 t (c_graph c) ->
  status_in (wstatus (c_ws (fst (update_task_state ev t route evt c)))) COMPLETED_STATUSES = false ->
  snd (update_task_state ev t route evt (so s c)) = snd (update_task_state ev t route evt c) /\
  Tri (fst (update_task_state ev t route evt (so s c))) (fst (update_task_state ev t route evt c)).
Proof.
  intros ev Hb t route evt s c Hi Hp Hg H1 He.
  apply (report_commutes_with_status_override_cmd_open ev Hb t route evt s c Hi Hp Hg H1). unfold done. exact He.
Qed.
Print Assumptions C09d_report_commutes_with_status_override_cmd_open.

(* the side conditions are decidable *)
Theorem C09d_inert_b_ok : forall g, inert_b g = true -> graph_commands_inert g.
Proof. exact inert_b_ok. Qed.
Print Assumptions C09d_inert_b_ok.
Theorem C09d_cmd1_b_ok : forall t g, cmd1_b t g = true -> cmd1 t g.
Proof. exact cmd1_b_ok. Qed.
Print Assumptions C09d_cmd1_b_ok.
Theorem C09d_mid_open_b_ok : forall ev t route evt c, mid_open_b ev t route evt c = true -> mid_open ev t route evt c.
Proof. exact mid_open_b_ok. Qed.
Print Assumptions C09d_mid_open_b_ok.


(* ------------------------------------------------------------------ several reports, resume, poll *)

Theorem C09d_steps_ok_unfold : forall ev r r2 rest b a,
  steps_ok ev (r :: r2 :: rest) b a <->
  (cmd1 (fst (fst r)) (c_graph a) /\ mid_open ev (fst (fst r)) (snd (fst r)) (snd r) a /\
   PairOK (wstatus (c_ws (fst (api_exec ev (op_of r) b)))) (wstatus (c_ws (fst (api_exec ev (op_of r) a)))) /\
   steps_ok ev (r2 :: rest) (fst (api_exec ev (op_of r) b)) (fst (api_exec ev (op_of r) a))).
Proof. intros; split; intro H; exact H. Qed.
Theorem C09d_steps_ok_last : forall ev r b a,
  steps_ok ev [r] b a <-> (cmd1 (fst (fst r)) (c_graph a) /\ mid_open ev (fst (fst r)) (snd (fst r)) (snd r) a /\ True).
Proof. intros; split; intro H; exact H. Qed.

Theorem C09d_reports_commute_with_status_override_cmd : forall ev, state_blind ev ->
  forall evs s a,
  c_init a = true -> PairOK s (wstatus (c_ws a)) -> graph_commands_inert (c_graph a) ->
  steps_ok ev evs (so s a) a ->
  run_trace ev (map op_of evs) (so s a) = run_trace ev (map op_of evs) a /\
  Tri (run_ops ev (map op_of evs) (so s a)) (run_ops ev (map op_of evs) a).
Proof. exact reports_commute_with_status_override_cmd. Qed.
Print Assumptions C09d_reports_commute_with_status_override_cmd.

Theorem C09d_pause_reports_resume_poll_cmd : forall ev, state_blind ev ->
  forall st evs c c_p r c_r rr,
  c_init c = true -> wstatus (c_ws c) = S_RUNNING -> no_item_tables c -> graph_commands_inert (c_graph c) ->
  pause_class st -> request_workflow_status ev st c = (c_p, r) -> wstatus (c_ws c_p) = S_PAUSING ->
  steps_ok ev evs c_p c ->
  let a_n := run_ops ev (map op_of evs) c in
  let b_n := run_ops ev (map op_of evs) c_p in
  wstatus (c_ws a_n) = S_RUNNING -> wstatus (c_ws b_n) = S_PAUSED ->
  ws_tasks_by_status (c_ws a_n) ACTIVE_STATUSES = [] ->
  request_workflow_status ev S_RESUMING b_n = (c_r, rr) -> wstatus (c_ws c_r) = S_RESUMING ->
  run_trace ev (map op_of evs) c_p = run_trace ev (map op_of evs) c /\
  b_n = so S_PAUSED a_n /\ c_r = so S_RESUMING a_n /\ rr = Val tt /\
  rrel (Forall2 offer_sim) (snd (get_next_tasks ev c_r)) (snd (get_next_tasks ev a_n)) /\
  exists s', fst (get_next_tasks ev c_r) = so s' (fst (get_next_tasks ev a_n)) /\
             PairOK s' (wstatus (c_ws (fst (get_next_tasks ev a_n)))).
Proof. exact pause_reports_resume_poll_cmd. Qed.
Print Assumptions C09d_pause_reports_resume_poll_cmd.

(* ------------------------------------------------------------------ witnesses:  t0 ;  t1 --> <cmd> *)

Example C09d_graphs_are_composed :
  compose (e_spec "fail") [] 100 = Val (e_graph "fail") /\ compose (e_spec "noop") [] 100 = Val (e_graph "noop") /\
  compose (e_spec "continue") [] 100 = Val (e_graph "continue").
Proof. split; [|split]; vm_compute; reflexivity. Qed.

(* every hypothesis of C09d_report_commutes_with_pause_cmd holds (e_hyps is their conjunction, decided):
   e_pre: t0 and t1 in flight; e_pre2: t0 finished, t1 is the last task in flight *)
Example C09d_hypotheses_hold :
  e_hyps "fail" e_pre = true /\ e_hyps "fail" e_pre2 = true /\ e_hyps "noop" e_pre = true /\ e_hyps "noop" e_pre2 = true /\
  e_hyps "continue" e_pre2 = true.
Proof. exact e_hyps_hold. Qed.

(* fail: both runs end failed, in the same state -- also when t1 was the last task in flight and the nested
   call ran from paused against running *)
Example C09d_fail :
  wstatus (c_ws (e_a' "fail" e_pre)) = S_FAILED /\ e_b' "fail" e_pre = e_a' "fail" e_pre /\
  wstatus (c_ws (e_a' "fail" e_pre2)) = S_FAILED /\ e_b' "fail" e_pre2 = e_a' "fail" e_pre2.
Proof. exact e_fail. Qed.

Example C09d_noop_busy :
  wstatus (c_ws (e_a' "noop" e_pre)) = S_RUNNING /\ e_b' "noop" e_pre = so S_PAUSING (e_a' "noop" e_pre).
Proof. exact e_noop_busy. Qed.

(* noop as the last task in flight: the unpaused run completes the workflow in the nested call, the paused
   one rests; the states agree up to status and the terminal flag of t1 (the known completion case) *)
Example C09d_noop_last :
  wstatus (c_ws (e_a' "noop" e_pre2)) = S_SUCCEEDED /\ wstatus (c_ws (e_b' "noop" e_pre2)) = S_PAUSED /\
  strip_tl (e_b' "noop" e_pre2) = strip_tl (e_a' "noop" e_pre2) /\
  map r_term (sequence (c_ws (e_a' "noop" e_pre2))) = [true; true; true] /\
  map r_term (sequence (c_ws (e_b' "noop" e_pre2))) = [true; false; true].
Proof. exact e_noop_last. Qed.

(* a command and a successor:  t1 --> [noop, t2].  Every hypothesis of C09d_pause_reports_resume_poll_cmd holds;
   the nested noop call runs from paused against running; after the resume both polls offer t2 *)
Example C09d_command_history_hypotheses :
  c_init f_c = true /\ wstatus (c_ws f_c) = S_RUNNING /\ no_item_tables f_c /\ graph_commands_inert (c_graph f_c) /\
  request_workflow_status q_ev S_PAUSING f_c = (f_cp, Val tt) /\ wstatus (c_ws f_cp) = S_PAUSING /\
  steps_ok q_ev f_reports f_cp f_c /\
  wstatus (c_ws f_an) = S_RUNNING /\ wstatus (c_ws f_bn) = S_PAUSED /\
  ws_tasks_by_status (c_ws f_an) ACTIVE_STATUSES = [] /\
  request_workflow_status q_ev S_RESUMING f_bn = (f_cr, Val tt) /\ wstatus (c_ws f_cr) = S_RESUMING.
Proof. exact f_hypotheses. Qed.
Example C09d_command_history_conclusion :
  map (fun r => (r_id r, r_status r)) (sequence (c_ws f_an)) = [("t1", Some S_SUCCEEDED); ("noop", Some S_SUCCEEDED)] /\
  f_bn = so S_PAUSED f_an /\ f_cr = so S_RESUMING f_an /\
  offer_ids (snd (get_next_tasks q_ev f_cr)) = Some [("t2", 0)] /\
  offer_ids (snd (get_next_tasks q_ev f_an)) = Some [("t2", 0)].
Proof. exact f_conclusion. Qed.
Example C09d_f_graph_is_composed : compose f_spec [] 100 = Val f_graph.
Proof. vm_compute; reflexivity. Qed.

(* ------------------------------------------------------------------ (E3) with-items tasks: FALSE
   t0 ;  t1 with items xs = [1, 2];  both items and t0 in flight.
     i_pre     = request running; poll; t0 running; item 0 running; item 1 running
     i_reports = item 0 CANCELED; t0 FAILED; item 1 SUCCEEDED
     i_plain k  = i_pre ++ first k reports          i_paused k = i_pre ++ [request pausing] ++ first k reports
   observation: (workflow status, record statuses, item tables, number of logged errors) *)
Theorem C09d_i_ev_blind : state_blind i_ev.
Proof. exact i_ev_blind. Qed.
Example C09d_i_graph_is_composed : compose i_spec [] 100 = Val i_graph.
Proof. vm_compute; reflexivity. Qed.

Example C09d_items_accepted :
  i_obs (i_paused 0) = (S_PAUSING, [("t0", Some S_RUNNING); ("t1", Some S_PAUSING)], [("t1", Some [S_RUNNING; S_RUNNING])], 0) /\
  run_trace i_ev ([OpRequest S_PAUSING] ++ i_reports) (i_plain 0) = [Val RUnit; Val RUnit; Val RUnit; Val RUnit] /\
  run_trace i_ev i_reports (i_plain 0) = [Val RUnit; Val RUnit; Val RUnit].
Proof. exact i_accepted. Qed.

Example C09d_items_cancel_under_pause_diverges :
  i_obs (i_plain 1)  = (S_CANCELING, [("t0", Some S_RUNNING); ("t1", Some S_CANCELING)], [("t1", Some [S_CANCELED; S_RUNNING])], 0) /\
  i_obs (i_paused 1) = (S_PAUSING,   [("t0", Some S_RUNNING); ("t1", Some S_PAUSING)],   [("t1", Some [S_CANCELED; S_RUNNING])], 0) /\
  i_obs (i_plain 2)  = (S_CANCELING, [("t0", Some S_FAILED); ("t1", Some S_CANCELING)], [("t1", Some [S_CANCELED; S_RUNNING])], 1) /\
  i_obs (i_paused 2) = (S_FAILED,    [("t0", Some S_FAILED); ("t1", Some S_PAUSING)],   [("t1", Some [S_CANCELED; S_RUNNING])], 1) /\
  i_obs (i_plain 3)  = (S_CANCELED, [("t0", Some S_FAILED); ("t1", Some S_CANCELED)], [], 1) /\
  i_obs (i_paused 3) = (S_FAILED,   [("t0", Some S_FAILED); ("t1", Some S_CANCELED)], [], 1) /\
  strip (i_paused 3) = strip (i_plain 3) /\
  (exists e, snd (api_exec i_ev (OpRequest S_RESUMING) (i_paused 3)) = Exc e) /\
  wstatus (c_ws (fst (api_exec i_ev (OpRequest S_RESUMING) (i_paused 3)))) = S_FAILED.
Proof. exact items_cancel_under_pause_diverges. Qed.

(* [F] the rows that cause it *)
Theorem C09d_items_rows_diverge_only_on_cancel :
  (forall s e x, tbl_step task_table s e = Some x -> (s = S_RUNNING \/ s = S_PAUSING) -> starts_with "action_" e = true ->
     e <> "action_canceled_task_active_items_incomplete" ->
     row_pair_ok (stepd task_table S_RUNNING e) (stepd task_table S_PAUSING e) = true) /\
  stepd task_table S_RUNNING "action_canceled_task_active_items_incomplete" = S_CANCELING /\
  stepd task_table S_PAUSING "action_canceled_task_active_items_incomplete" = S_PAUSING.
Proof. exact F_items_rows_diverge_only_on_cancel. Qed.
Print Assumptions C09d_items_rows_diverge_only_on_cancel.
Theorem C09d_row_pair_ok_unfold : forall x y,
  row_pair_ok x y = status_eqb x y || (status_in x [S_RUNNING; S_PENDING] && status_in y [S_PAUSING; S_PAUSED; S_RESUMING]).
Proof. reflexivity. Qed.
