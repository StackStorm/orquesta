(* C18b -- C18, second half: once the outbound transitions of a task execution have been decided,
   its status and those decisions never change; a retried attempt is reopened before any transition
   is decided; a rerun appends a new record.  Property theorems only; proofs are in
   proofs/FrozenProofs.v.

   "Decided" = the record's status is completed at an API boundary (the call that completed it has
   either evaluated its transitions or reopened it for a retry before returning -- second group).
   "Frozen" = [same_decided]: id, route, inbound contexts, predecessors, status, transition
   decisions (r_next), published-context reference (r_out) and retry bookkeeping are equal; only the
   terminal flag r_term may change (a rerun resets it, a completed workflow sets it). *)
From Coq Require Import String List Bool ZArith.
From Orq Require Import GenStatuses GenEvents Base State Machines Conductor Api C18Proofs RetryProofs FrozenProofs.
Import ListNotations.
Open Scope string_scope.

(* [F] for every evaluator, state and history of API calls -- status requests, polls, events of every
   kind for every task (late, duplicate, malformed, for unknown tasks; also calls that raise),
   output rendering, reruns -- in which nobody injects the engine's internal retry event: a decided
   record with no retry left (no policy, a non-integer count, or tally >= count) stays frozen.
   (op_static excludes only OpPersist, the subject of C05, and the injected retry event.) *)
Theorem C18b_decided_record_frozen : forall ev ops c i r,
  nth_error (sequence (c_ws c)) i = Some r -> decided r -> ~ retry_open r ->
  forallb op_static ops = true ->
  exists r', nth_error (sequence (c_ws (run_ops ev ops c))) i = Some r' /\ same_decided r r'.
Proof. exact decided_record_frozen. Qed.
Print Assumptions C18b_decided_record_frozen.

(* [F] the general form, one call: whatever the record's retry budget, it stays frozen through any
   operation that is [op_safe] in the state it is applied to (unfolded below): every operation
   that is not an event; a persist on an initialised conductor; an event that
     - does not address the record (the pointer of its (task, route) is another index), or
     - addresses an engine command (those always get a record of their own), or
     - addresses it with a starting status while the task is staged again and that entry is not
       flagged completed (a loop iteration or a re-staged task: a NEW record is appended), or
     - is not the internal retry event and finds the record without a retry left. *)
Theorem C18b_decided_record_frozen_step : forall ev op c c' res i r,
  nth_error (sequence (c_ws c)) i = Some r -> decided r ->
  op_safe i r c op -> api_exec ev op c = (c', res) ->
  exists r', nth_error (sequence (c_ws c')) i = Some r' /\ same_decided r r'.
Proof. exact decided_record_frozen_step. Qed.
Print Assumptions C18b_decided_record_frozen_step.

Theorem C18b_decided_record_frozen_history : forall ev ops c i r,
  nth_error (sequence (c_ws c)) i = Some r -> decided r -> hist_safe i r ev ops c ->
  exists r', nth_error (sequence (c_ws (run_ops ev ops c))) i = Some r' /\ same_decided r r'.
Proof. exact decided_record_frozen_history. Qed.
Print Assumptions C18b_decided_record_frozen_history.

Theorem C18b_op_safe_unfold : forall i r0 c op,
  op_safe i r0 c op <->
  match op with
  | OpEvent t route evt => safe i r0 c t route evt
  | OpPersist => c_init c = true
  | _ => True
  end.
Proof. exact op_safe_unfold. Qed.
Print Assumptions C18b_op_safe_unfold.

Theorem C18b_safe_unfold : forall i r0 c t route evt,
  safe i r0 c t route evt <->
  (ws_task_idx (c_ws c) t route <> Some i \/ is_engine_command t = true \/
   (c_init c = true /\ status_in (ev_status evt) STARTING_STATUSES = true /\
   exists s, get_staged_task (c_ws c) t route = Some s /\ s_completed s = false) \/
   (is_retry_event evt = false /\ ~ retry_open r0)).
Proof. exact safe_unfold. Qed.
Print Assumptions C18b_safe_unfold.

(* every provider event (action and item events) qualifies as "not the internal retry event" *)
Theorem C18b_provider_event_not_retry : forall e, provider_event e = true -> is_retry_event e = false.
Proof. exact provider_event_not_retry. Qed.
Print Assumptions C18b_provider_event_not_retry.

(* [F] Because the retry of a completed task is evaluated only when the report changed its status (D33), there is
   no hypothesis on the retries left.  For every evaluator, state and history of API calls in which nobody injects the
   engine's internal retry event (op_static: that and OpPersist, the subject of C05, are the only exclusions), a
   decided record stays frozen -- with or without a retry policy, whatever its tally *)
Theorem C18b_decided_record_frozen_always : forall ev ops c i r,
  nth_error (sequence (c_ws c)) i = Some r -> decided r -> forallb op_static ops = true ->
  exists r', nth_error (sequence (c_ws (run_ops ev ops c))) i = Some r' /\ same_decided r r'.
Proof. exact decided_record_frozen_always. Qed.
Print Assumptions C18b_decided_record_frozen_always.

(* [F] one call, general form: an event that addresses the record need only not be the internal retry event *)
Theorem C18b_decided_record_frozen_step_always : forall ev op c c' res i r,
  nth_error (sequence (c_ws c)) i = Some r -> decided r ->
  op_safe_w i c op -> api_exec ev op c = (c', res) ->
  exists r', nth_error (sequence (c_ws c')) i = Some r' /\ same_decided r r'.
Proof. exact decided_record_frozen_step_w. Qed.
Print Assumptions C18b_decided_record_frozen_step_always.
Theorem C18b_op_safe_w_unfold : forall i c op,
  op_safe_w i c op <->
  match op with
  | OpEvent t route evt =>
      ws_task_idx (c_ws c) t route <> Some i \/ is_engine_command t = true \/
      (c_init c = true /\ status_in (ev_status evt) STARTING_STATUSES = true /\
       exists s, get_staged_task (c_ws c) t route = Some s /\ s_completed s = false) \/
      is_retry_event evt = false
  | OpPersist => c_init c = true
  | _ => True
  end.
Proof. exact op_safe_w_unfold. Qed.
Print Assumptions C18b_op_safe_w_unfold.

(* A decided record (succeeded, transition to t2 decided and true, t2 staged) of a task with retries left keeps its
   status and its decision under a DUPLICATE completion report of the same execution, because the retry of a
   completed task is evaluated only when the report changed its status (D33).  Without D33 the report reopened the
   record (retrying) and the next attempt rewrote its status (failed) and its decision (false).
   Definition and operation list in proofs/FrozenProofs.v. *)
Theorem C18b_decided_record_kept_with_retries_left : exists r r',
  nth_error (sequence (c_ws (w_decided w_retry))) 0 = Some r /\ decided r /\ retry_open r /\
  forallb op_static (w_late :: w_ops3) = true /\
  nth_error (sequence (c_ws (run_ops ev_w (w_late :: w_ops3) (w_decided w_retry)))) 0 = Some r' /\
  r_status r = Some S_SUCCEEDED /\ r_status r' = Some S_SUCCEEDED /\
  r_next r = [(("t2", 0), true)] /\ r_next r' = [(("t2", 0), true)].
Proof. exact decided_record_kept_with_retries_left. Qed.
Print Assumptions C18b_decided_record_kept_with_retries_left.

(* ---- a retried attempt is reopened before any transition is decided ---- *)

(* [F] the call that delivers the retry event (the only event that takes a record to "retrying",
   third theorem) changes no record's transition decisions or published-context reference and,
   on an initialised conductor, appends no context snapshot: Rno relates the state before to the
   state after, also when the call raises *)
Theorem C18b_retry_call_decides_nothing : forall ev fuel t route c c' res,
  update_task_state_fuel ev fuel t route retry_event c = (c', res) -> Rno c c'.
Proof. exact retry_call_decides_nothing. Qed.
Print Assumptions C18b_retry_call_decides_nothing.

(* [F] a call of update_task_state whose completion step decides to retry (uts_prefix is the call
   up to and including that step) does nothing afterwards but make the retry call: over the whole
   call no transition is decided, for any event and any state *)
Theorem C18b_retry_branch_decides_nothing : forall ev fuel t route evt c c1 p ctx c' res,
  uts_prefix ev t route evt c = (c1, Val p) -> po_compl p = Some (ctx, true) ->
  update_task_state_fuel ev (S fuel) t route evt c = (c', res) -> Rno c c'.
Proof. exact retry_branch_decides_nothing. Qed.
Print Assumptions C18b_retry_branch_decides_nothing.

Theorem C18b_enters_retrying_only_by_retry_event : forall w r evt,
  task_process_event w r evt = Val (Some S_RETRYING) -> is_retry_event evt = true.
Proof. exact enters_retrying_only_by_retry_event. Qed.
Print Assumptions C18b_enters_retrying_only_by_retry_event.

(* ---- non-vacuity and the witnesses, by computation on the model ---- *)

Example C18b_w_decided_state :
  w_obs (w_decided w_retry)
  = ([(Some S_SUCCEEDED, [(("t2", 0), true)], Some (("t2", 0), 1), false)], S_RUNNING, ["t2"], 2).
Proof. exact w_decided_state. Qed.

(* the duplicate report is absorbed (D33; without it: retrying, t1 staged again; then failed, decision false) *)
Example C18b_w_late_report_absorbed :
  w_obs (run_ops ev_w [w_late] (w_decided w_retry))
  = ([(Some S_SUCCEEDED, [(("t2", 0), true)], Some (("t2", 0), 1), false)], S_RUNNING, ["t2"], 2).
Proof. exact w_late_report_absorbed. Qed.

Example C18b_w_decision_kept :
  w_obs (run_ops ev_w (w_late :: w_ops3) (w_decided w_retry))
  = ([(Some S_SUCCEEDED, [(("t2", 0), true)], Some (("t2", 0), 1), false)], S_RUNNING, ["t2"], 2).
Proof. exact w_decision_kept. Qed.

(* the same definition without a retry policy: the theorem's hypotheses hold and the duplicate
   reports leave the decided record alone *)
Example C18b_w_no_policy_frozen : exists r r',
  nth_error (sequence (c_ws (w_decided JNull))) 0 = Some r /\
  nth_error (sequence (c_ws (run_ops ev_w (w_late :: w_late :: w_ops3) (w_decided JNull)))) 0 = Some r' /\
  same_decided r r'.
Proof. exact w_no_policy_frozen. Qed.

(* with retries left, operations that do not address the record still leave it frozen *)
Example C18b_w_other_task_events_frozen : exists r r',
  nth_error (sequence (c_ws (w_decided w_retry))) 0 = Some r /\ retry_open r /\
  nth_error (sequence (c_ws (run_ops ev_w [OpGetNext; OpEvent "t2" 0 (EvAction S_RUNNING JNull);
                                            OpEvent "t2" 0 (EvAction S_SUCCEEDED JNull); OpRender]
                                     (w_decided w_retry)))) 0 = Some r' /\
  same_decided r r'.
Proof. exact w_other_task_events_frozen. Qed.

(* the injected internal retry event reopens a decided record even without a retry policy *)
Example C18b_w_injected_retry_event_reopens :
  (let p := api_exec ev_w (OpEvent "t1" 0 (EvEngine EV_TASK_RETRY_REQUESTED S_RETRYING)) (w_decided JNull) in
   (map r_status (sequence (c_ws (fst p))), match snd p with Exc e => x_cls e | Val _ => "" end))
  = ([Some S_RETRYING], "KeyError").
Proof. exact w_injected_retry_event_reopens. Qed.

(* a rerun leaves the decided record's status and decisions, resets its terminal flag, appends a record *)
Example C18b_w_rerun_resets_term_only :
  w_obs (run_ops ev_w [OpRerun []] (run_ops ev_w w_ops4 (w_decided w_retry)))
  = ([(Some S_SUCCEEDED, [(("t2", 0), true)], Some (("t2", 0), 1), false); (Some S_FAILED, [], None, false);
      (None, [], None, false)],
     S_RESUMING, ["t2"], 2).
Proof. exact w_rerun_resets_term_only. Qed.
