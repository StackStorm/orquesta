(* C03d -- C03 for the provider protocol WITH with-items tasks (model/ProviderSysItems.v): QUIESCENCE.
   C03b: "when nothing is in flight and a poll offers nothing, the workflow is in a resting status".  With with-items
   tasks the statement is FALSE, by finding D24 alone as far as is known: [C03d_quiescence_refuted_by_D24] is the
   counterexample as a theorem (no fault, no wipe, monitor silent).  What remains true and is proved:
     - while the workflow is pausing / paused / canceling / canceled a poll offers nothing and changes nothing
       (C12b_no_items_offered_when_held), so such a state, once quiescent, stays quiescent;
     - at a quiescent state no item slot of any staged table is active (C03d_quiescent_no_active_slot): what is left of a
       with-items task at quiescence is a record and a table whose items are finished or were never offered.
   Not proved: that D24 is the ONLY obstruction (quiescent, not resting  =>  the workflow is pausing or canceling by a
   task event and a staged with-items entry has an item never offered).  It needs the status-linked invariant of
   proofs/SysProofs.v ([kinv]) for states with item tables; see props/C02d.v. *)
From Coq Require Import String List Bool ZArith Arith.
From Orq Require Import GenStatuses GenTables Base State Machines Conductor Api Driver ProviderSys ProviderSysItems ProviderSysItemsMon Composer.
From Orq Require Import F_tables F_names F_sys F_sysitems SysProofs SysNextProofs SysItemsProofs SysItemsRecProofs.
From Orq Require Import C12b.
Import ListNotations.
Open Scope string_scope.

(* [F] nothing in flight: no staged item table has an active slot *)
Theorem C03d_quiescent_no_active_slot : forall ev sp g inputs parent ops,
  let s := isys_run ev ops (isys_init sp g inputs parent) in
  si_fault s = false -> si_wiped s = false -> si_inflight s = [] ->
  forall e l i st, In e (staged (c_ws (si_c s))) -> s_items e = Some l -> nth_error l i = Some st ->
  status_in st ACTIVE_STATUSES = false.
Proof.
  intros ev sp g inputs parent ops s Hf Hw HF e l i st He Hl Hn.
  destruct (status_in st ACTIVE_STATUSES) eqn:E; [|reflexivity].
  destruct (proj1 (proj2 (items_link ev sp g inputs parent ops Hf Hw)) e l i st He Hl Hn E) as [_ X].
  change (In (s_id e, s_route e, Some i) (si_inflight s)) in X. rewrite HF in X. destruct X.
Qed.
Print Assumptions C03d_quiescent_no_active_slot.

(* [R] quiescent and not resting: finding D24.  Definition (C12bExamples.spec1):
     tasks:
       w: { with: { items: items4, concurrency: 2 }, action: core.echo, next: [ {do: [z]} ] }
       p: { action: core.noop }
       z: { action: core.noop }
   History: Boot; Poll; Report p canceled; Report w[0] succeeded; Report w[1] succeeded.  p ending canceled makes the
   workflow canceling; items 2 and 3 of w are never offered; nothing is in flight; a poll offers nothing; the workflow
   is canceling and the record of w running -- for ever. *)
Theorem C03d_quiescence_refuted_by_D24 :
  let ops := [IBoot; IPoll; C12bExamples.Pl "p" S_CANCELED; C12bExamples.It "w" 0 S_SUCCEEDED; C12bExamples.It "w" 1 S_SUCCEEDED] in
  let s := isys_run C12bExamples.ev_it ops (isys_init C12bExamples.spec1 C12bExamples.graph1 [] []) in
  si_fault s = false /\ si_wiped s = false /\ run_odd C12bExamples.ev_it (app ops [IPoll]) (isys_init C12bExamples.spec1 C12bExamples.graph1 [] []) = false /\
  si_inflight s = [] /\ snd (get_next_tasks C12bExamples.ev_it (si_c s)) = Val [] /\
  wstatus (c_ws (si_c s)) = S_CANCELING /\
  option_map r_status (ws_task_entry (c_ws (si_c s)) "w" 0) = Some (Some S_RUNNING) /\
  items_of (si_c s) "w" 0 = Some [S_SUCCEEDED; S_SUCCEEDED; S_UNSET; S_UNSET].
Proof. vm_compute; repeat split. Qed.
Print Assumptions C03d_quiescence_refuted_by_D24.
