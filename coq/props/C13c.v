(* C13c -- Retry: "No outbound transition, publish or failure handling fires for an attempt that is
   retried".  Property theorems only; the proofs are in proofs/FrozenProofs.v (shared with C18b). *)
From Coq Require Import String List Bool ZArith.
From Orq Require Import GenStatuses GenEvents Base State Machines Conductor Api C18Proofs RetryProofs FrozenProofs.
Import ListNotations.
Open Scope string_scope.

(* [F] a call of update_task_state whose completion step decides to retry the attempt (uts_prefix is the call up to
   and including that decision; po_compl p = Some (ctx, true) says "retry") decides no transition over the whole
   call: Rno relates the state before to the state after -- no record's transition decisions (r_next) or published
   context reference (r_out) change and, on an initialised conductor, no context snapshot is appended -- for every
   evaluator, event and state, also when the call raises *)
Theorem C13_retried_attempt_decides_nothing : forall ev fuel t route evt c c1 p ctx c' res,
  uts_prefix ev t route evt c = (c1, Val p) -> po_compl p = Some (ctx, true) ->
  update_task_state_fuel ev (S fuel) t route evt c = (c', res) -> Rno c c'.
Proof. exact retry_branch_decides_nothing. Qed.
Print Assumptions C13_retried_attempt_decides_nothing.

(* [F] the same for the nested call that delivers the retry event *)
Theorem C13_retry_call_decides_nothing : forall ev fuel t route c c' res,
  update_task_state_fuel ev fuel t route retry_event c = (c', res) -> Rno c c'.
Proof. exact retry_call_decides_nothing. Qed.
Print Assumptions C13_retry_call_decides_nothing.

(* [F] and nothing but that event ever takes a record to "retrying" *)
Theorem C13_enters_retrying_only_by_retry_event : forall w r evt,
  task_process_event w r evt = Val (Some S_RETRYING) -> is_retry_event evt = true.
Proof. exact enters_retrying_only_by_retry_event. Qed.
Print Assumptions C13_enters_retrying_only_by_retry_event.
