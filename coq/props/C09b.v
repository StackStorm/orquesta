(* C09b -- C09, "requesting pause at any moment and resuming after the workflow has come to rest never
   changes the outcome; resume continues with precisely the work that was held back": the step-level
   facts that are PROVED.  Property theorems only; proofs are in proofs/PauseProofs.v.

   Not in this file: that a whole update_task_state call commutes with the pause request (a report
   processed while pausing stages, publishes, decides and records exactly as it would unpaused) is a
   two-run simulation of the call, props/C09c.v and C09d.v (partial); its ingredients are below (what the
   request touches, the two machines on running vs pausing, the retry gate, what resume polls).  It is FALSE for an evaluator
   that reads the workflow status out of __state (first witness; on the engine too) -- so, like C19b,
   it can only hold for evaluators that do not look at __state.  The outcome-level statement stays
   tested by the twin simulation. *)
From Coq Require Import String List Bool ZArith.
From Orq Require Import GenStatuses GenEvents GenTables Base State Machines Conductor Api F_tables C09C10Proofs InertProofs PauseProofs.
Import ListNotations.
Open Scope string_scope.

(* [F] (1) a pause-class request -- accepted or rejected, every state -- changes NOTHING but the
   workflow status and record statuses: after forgetting those (strip) the conductor state is EQUAL to
   the state before: definition, graph, contexts, routes, every other field of every record, staged
   entries with their item tables, pointer map, reruns, error log, log, output *)
Theorem C09b_pause_request_changes_statuses_only : forall st c c' r, pause_class st ->
  request_status_core st c = (c', r) -> strip c' = strip c.
Proof. exact pause_request_changes_statuses_only. Qed.
Print Assumptions C09b_pause_request_changes_statuses_only.

Theorem C09b_pause_api_changes_statuses_only : forall ev st c c' r, pause_class st -> c_init c = true ->
  request_workflow_status ev st c = (c', r) -> strip c' = strip c.
Proof. exact pause_api_changes_statuses_only. Qed.
Print Assumptions C09b_pause_api_changes_statuses_only.

Theorem C09b_strip_unfold : forall c,
  strip c = set_ws c {| contexts := contexts (c_ws c); routes := routes (c_ws c);
                        sequence := map (fun r => r_set_status r None) (sequence (c_ws c));
                        staged := staged (c_ws c); wstatus := S_UNSET; tasks := tasks (c_ws c);
                        reruns := reruns (c_ws c) |}.
Proof. exact strip_unfold. Qed.
Print Assumptions C09b_strip_unfold.

(* [F] any status request (resume included): the same, except that the error log may gain the
   unreachable-join entries written when the request completes the workflow *)
Theorem C09b_status_request_changes_statuses_and_log_only : forall st c c' r,
  request_status_core st c = (c', r) -> strip_log c' = strip_log c.
Proof. exact status_request_changes_statuses_and_log_only. Qed.
Print Assumptions C09b_status_request_changes_statuses_and_log_only.

(* [F] (2) when no active task carries an item table, the pause request changes the workflow status
   and nothing else: the records in flight keep their statuses *)
Theorem C09b_pause_of_plain_tasks_changes_workflow_status_only : forall st c c' r, pause_class st ->
  no_item_tables c -> request_status_core st c = (c', r) ->
  c' = set_ws c (ws_set_status (c_ws c) (wstatus (c_ws c'))).
Proof. exact pause_of_plain_tasks_changes_workflow_status_only. Qed.
Print Assumptions C09b_pause_of_plain_tasks_changes_workflow_status_only.

(* [F] (3) the task-machine step of a provider report commutes with the pause: whether the record is
   still running or was pushed to pausing (a with-items task), the report completes the task in exactly
   the same cases and with the same status; the workflow status is not read by the task machine *)
Theorem C09b_task_machine_commutes_with_pause : forall w w' r r' evt t,
  provider_event evt = true -> staged w' = staged w ->
  r_id r' = r_id r -> r_route r' = r_route r -> rstatus r = S_RUNNING -> rstatus r' = S_PAUSING ->
  status_in t COMPLETED_STATUSES = true ->
  (task_process_event w r evt = Val (Some t) <-> task_process_event w' r' evt = Val (Some t)).
Proof. exact task_machine_commutes_with_pause. Qed.
Print Assumptions C09b_task_machine_commutes_with_pause.

(* [F] ... and a report never takes a pausing task back to running (what differs is held back) *)
Theorem C09b_task_report_never_resumes : forall e t, starts_with "action_" e = true ->
  tbl_step task_table S_PAUSING e = Some t -> t <> S_RUNNING.
Proof. exact F_task_report_never_resumes. Qed.
Print Assumptions C09b_task_report_never_resumes.

(* [F] (4) the workflow-machine step of a task event, pausing vs running, over the whole table: it fails
   the pausing workflow exactly when it fails the running one, cancels exactly when it cancels, turns a
   would-be success into paused, and otherwise stays in the pause / cancel classes *)
Theorem C09b_wf_pausing_mirrors_running : forall e x, starts_with "task_" e = true ->
  tbl_step wf_table S_RUNNING e = Some x ->
  match tbl_step wf_table S_PAUSING e with
  | Some y => (x = S_FAILED <-> y = S_FAILED) /\ (x = S_CANCELED <-> y = S_CANCELED) /\
              (x = S_SUCCEEDED -> y = S_PAUSED) /\ In y [S_PAUSING; S_PAUSED; S_FAILED; S_CANCELING; S_CANCELED]
  | None => x = S_RUNNING
  end.
Proof. exact F_wf_pausing_mirrors_running. Qed.
Print Assumptions C09b_wf_pausing_mirrors_running.

(* [F] the retry decision of a completion is gated on an ACTIVE workflow status: pausing is one (so a
   report processed while pausing decides its retry as it would running), paused is not (no report
   arrives then under the provider protocol: paused is reached when the last action reports) *)
Theorem C09b_pausing_is_active :
  status_in S_PAUSING ACTIVE_STATUSES = true /\ status_in S_RUNNING ACTIVE_STATUSES = true /\
  status_in S_PAUSED ACTIVE_STATUSES = false.
Proof. exact pausing_is_active. Qed.
Print Assumptions C09b_pausing_is_active.

(* [F] (5) the staged entries are not touched by any status request, so the poll after a resume works
   from exactly the entries the paused state held (with C01_offers_are_staged / C09_no_offer_while_paused) *)
Theorem C09b_resume_polls_the_held_entries : forall st c c' r, request_status_core st c = (c', r) ->
  staged (c_ws c') = staged (c_ws c) /\ staged_filtered (c_ws c') = staged_filtered (c_ws c).
Proof. exact resume_polls_the_held_entries. Qed.
Print Assumptions C09b_resume_polls_the_held_entries.

(* [R] transparency is FALSE for a condition that reads the workflow status from __state
   (t1 --when <% $__state.status = "running" %>--> t2; replayed on the engine: the paused-and-resumed
   run ends succeeded without ever running t2, the unpaused run stages t2) *)
Theorem C09b_pause_not_transparent_for_status_reading_condition :
  p_obs (run_ops p_ev p_plain (p_init "isrunning")) = (S_RUNNING, ["t2"], [Some S_SUCCEEDED]) /\
  p_obs (run_ops p_ev p_paused (p_init "isrunning")) = (S_SUCCEEDED, [], [Some S_SUCCEEDED]).
Proof. exact pause_not_transparent_for_status_reading_condition. Qed.
Print Assumptions C09b_pause_not_transparent_for_status_reading_condition.

(* non-vacuity: the same workflow with a condition that does not read __state *)
Example C09b_pause_transparent_on_blind_example :
  strip (run_ops p_ev p_paused (p_init "ok")) = strip (run_ops p_ev p_plain (p_init "ok")) /\
  p_obs (run_ops p_ev p_paused (p_init "ok")) = (S_RESUMING, ["t2"], [Some S_SUCCEEDED]) /\
  p_obs (run_ops p_ev p_plain (p_init "ok")) = (S_RUNNING, ["t2"], [Some S_SUCCEEDED]).
Proof. exact pause_transparent_on_blind_example. Qed.

Example C09b_pause_holds_back_on_blind_example :
  let c := run_ops p_ev (p_start ++ [OpRequest S_PAUSING; p_report]) (p_init "ok") in
  p_obs c = (S_PAUSED, ["t2"], [Some S_SUCCEEDED]) /\ get_next_tasks p_ev c = (c, Val []).
Proof. exact pause_holds_back_on_blind_example. Qed.
