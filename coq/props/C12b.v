(* C12b -- C12, the history-level clauses: the provider protocol extended to WITH-ITEMS tasks.  Property theorems
   only; the protocol is model/ProviderSysItems.v (harness/provider.py poll / report / request / render / persist with
   completion reports only, no reruns: in-flight keys (task, route, item); every offered item action acknowledged by
   EvItem i running; an offer of an empty list acknowledged by EvAction running then EvAction succeeded []; the
   provider's accumulator of item results is part of the system state); proofs are in proofs/SysItemsProofs.v.

   All theorems are about EVERY evaluator [ev], EVERY definition [sp], EVERY graph [g], every inputs, and EVERY
   protocol history [ops] from the fresh conductor -- no hypothesis on the definition or the graph.  In their place two
   flags of the system state, both computed along the history:
     [si_fault s = false]  no conductor call of the history raised (a status request the conductor rejects is not a
                           fault), exactly as in C02b / C03b;
     [si_wiped s = false]  no task event left a staged entry whose items were being tracked without its item table
                           (another task's entry with a table, or the event's own entry while an item of it is in
                           progress), and no poll returned two offers for one (task, route).
   ([si_wiped] is also raised, without harm, when a cycle stages again a FAILED with-items task whose entry was kept
   with its table and no active item; after that the theorems are silent about the run.)
   [si_wiped] is how finding D1 shows in the bookkeeping: a join with a count below its number of inbound transitions
   is staged again when a late branch arrives, which erases the item table of the running with-items task; the next
   poll then offers items that are still in flight (Example [d1_wipes_the_table] below).  Every theorem below is false
   without it, by that example.

   The statements are made at protocol-step boundaries (Poll is atomic, like harness/provider.py); the window theorem
   is proved for the end of every poll, for every point inside a poll (after every acknowledgement) and for every
   other step.

   The record level is props/C12c.v: "the task record is active while an item is in flight / is completed only when
   none is" (clause d: false in general, Example [shrinking_items_complete_early]; proved there under the flag
   run_odd) and "succeeded iff all items succeeded".  NOT proved anywhere: "the result lists the item results in item
   order".  The single-call facts are C12_no_completion_while_items_active (props/C12.v).  The link proved here is
   between in-flight items and the ITEM TABLE of the staged entry. *)
From Coq Require Import String List Bool ZArith Arith.
From Orq Require Import GenStatuses GenTables Base State Machines Conductor Api Driver ProviderSys ProviderSysItems Composer.
From Orq Require Import F_tables F_names F_sys SysProofs SysNextProofs SysItemsProofs.
Import ListNotations.
Open Scope string_scope.

(* [F] (a) LINK, item part.  At every reachable fault-free, wipe-free state:
   - every item action in flight is "running" in the item table of the (first) staged entry of its task;
   - every item with an active status in the table of ANY staged entry is "running" and in flight -- no other active
     status ever appears in a table under this protocol;
   - every item table has the shape  statuses that were set ++ unset ... unset  (items are taken in index order and a
     status, once set, is never unset again);
   - of the staged entries for one (task, route) only the first can have an item table. *)
Theorem C12b_item_link : forall ev sp g inputs parent ops,
  let s := isys_run ev ops (isys_init sp g inputs parent) in
  si_fault s = false -> si_wiped s = false ->
  (forall t r i, In (t, r, Some i) (si_inflight s) ->
     exists l, items_of (si_c s) t r = Some l /\ nth_error l i = Some S_RUNNING) /\
  (forall e l i st, In e (staged (c_ws (si_c s))) -> s_items e = Some l -> nth_error l i = Some st ->
     status_in st ACTIVE_STATUSES = true -> st = S_RUNNING /\ In (s_id e, s_route e, Some i) (si_inflight s)) /\
  (forall e l, In e (staged (c_ws (si_c s))) -> s_items e = Some l -> shaped l) /\
  first_only (staged (c_ws (si_c s))).
Proof. exact items_link. Qed.
Print Assumptions C12b_item_link.

(* [F] (b) WINDOW, end of a poll.  For every offer of items (items_count > 0) whose rendered concurrency k is an
   integer (a boolean counts as one, as in Python), after the poll has acknowledged everything at most max(k,1) items
   of that task are active ([nact] counts the active statuses of the table; by the link they are exactly the items in
   flight).  k is the value the engine rendered into THIS offer: a concurrency expression may evaluate differently at
   the next poll (the evaluator sees the whole workflow state), and then the next poll's value bounds what that poll
   adds -- when it is smaller than the number already active nothing is offered and there is no offer to read it from. *)
Theorem C12b_window_after_poll : forall ev sp g inputs parent ops c1 offers o n k,
  let s := isys_run ev ops (isys_init sp g inputs parent) in
  si_fault (isys_poll ev s) = false -> si_wiped (isys_poll ev s) = false ->
  get_next_tasks ev (si_c s) = (c1, Val offers) -> In o offers -> o_items_count o = Some (S n) ->
  o_concurrency o = Some k -> py_is_int k = true ->
  exists l, items_of (si_c (isys_poll ev s)) (o_id o) (o_route o) = Some l /\
            (Z.of_nat (nact l) <= effective_concurrency k)%Z.
Proof. exact items_window_poll. Qed.
Print Assumptions C12b_window_after_poll.

(* [F] (b) WINDOW after every API call inside a poll.  The poll acknowledges the offers in order and, within an offer,
   the actions in order; take any point of that sequence: the offers [os1] are done, of the next offer [o0] the actions
   [as1] are acknowledged and [as2] are not.  At that point every offer [o] of the poll with items and an integer
   concurrency k -- acknowledged already, in progress or still waiting -- has at most max(k,1) active items.
   ([poll_start s c1 offers] is the system right after get_next_tasks; the two acknowledgement events of an empty-list
   offer change no table.) *)
Theorem C12b_window_inside_poll : forall ev sp g inputs parent ops c1 offers os1 o0 os2 as1 as2 o n k l,
  let s := isys_run ev ops (isys_init sp g inputs parent) in
  si_fault (isys_poll ev s) = false -> si_wiped (isys_poll ev s) = false ->
  get_next_tasks ev (si_c s) = (c1, Val offers) ->
  offers = app os1 (o0 :: os2) -> o_items_count o0 <> Some 0 -> o_actions o0 = app as1 as2 ->
  In o offers -> o_items_count o = Some (S n) -> o_concurrency o = Some k -> py_is_int k = true ->
  items_of (si_c (fold_left (isys_ack ev (o_id o0) (o_route o0)) as1
                            (fold_left (isys_ack_offer ev) os1 (poll_start s c1 offers)))) (o_id o) (o_route o) = Some l ->
  (Z.of_nat (nact l) <= effective_concurrency k)%Z.
Proof. exact items_window_inside. Qed.
Print Assumptions C12b_window_inside_poll.

(* [F] (b) WINDOW, between polls.  No step other than a poll (boot, report, request, render, persist) makes an item
   active or changes the number of items: every table after the step is the table of the same (task, route) before it,
   same length, with at most as many active items.  With the previous theorem: at every step boundary the number of
   active items of a task is at most max(k,1) for the k of the last poll that offered items of it. *)
Theorem C12b_window_between_polls : forall ev sp g inputs parent ops op t r l',
  let s := isys_run ev ops (isys_init sp g inputs parent) in op <> IPoll ->
  si_fault (isys_step ev s op) = false -> si_wiped (isys_step ev s op) = false ->
  items_of (si_c (isys_step ev s op)) t r = Some l' ->
  exists l, items_of (si_c s) t r = Some l /\ length l' = length l /\ nact l' <= nact l.
Proof. exact items_window_step. Qed.
Print Assumptions C12b_window_between_polls.

(* [F] (c) ORDER inside one poll.  The items offered for a task are consecutive indices p, p+1, ..., p+m-1 (m > 0),
   where p is the number of items whose status was ever set: every index below p has been offered before, every
   offered index is unset, nothing is offered twice in one poll.  ([c1] is the conductor right after get_next_tasks,
   before the acknowledgements.) *)
Theorem C12b_offers_in_index_order : forall ev sp g inputs parent ops c1 offers o n,
  let s := isys_run ev ops (isys_init sp g inputs parent) in
  si_fault s = false -> si_wiped s = false -> c_init (si_c s) = true ->
  get_next_tasks ev (si_c s) = (c1, Val offers) -> In o offers -> o_items_count o = Some (S n) ->
  exists pre u m, items_of c1 (o_id o) (o_route o) = Some (app pre (repeat S_UNSET u)) /\
                  Forall (fun st => st <> S_UNSET) pre /\
                  map a_item (o_actions o) = map Some (seq (length pre) m) /\ 0 < m <= u.
Proof. exact items_offers_consecutive. Qed.
Print Assumptions C12b_offers_in_index_order.

(* [F] (c) ONCE / ORDER across polls.  If a poll offers item j of (t, r) and a later poll offers item i of (t, r), and
   in between the staged entry of (t, r) kept an item table at every step boundary (one "task execution": the table
   is dropped when the task completes or is staged again for a retry), then j < i.  In particular no item is offered
   -- hence acknowledged -- twice, and the offered indices increase from poll to poll.
   Without the table-continuity hypothesis the statement is false per task RECORD: a retry keeps the record and
   starts the items again from 0 (Example [retry_offers_again]). *)
Theorem C12b_once_and_in_order : forall ev sp g inputs parent ops1 ops2 t r i j,
  let s1 := isys_run ev ops1 (isys_init sp g inputs parent) in
  let s3 := isys_run ev ops2 (isys_poll ev s1) in
  offered_by ev s1 t r j ->
  (forall pre post, ops2 = app pre post -> items_of (si_c (isys_run ev pre (isys_poll ev s1))) t r <> None) ->
  offered_by ev s3 t r i ->
  si_fault (isys_poll ev s3) = false -> si_wiped (isys_poll ev s3) = false -> j < i.
Proof. exact items_once_order. Qed.
Print Assumptions C12b_once_and_in_order.

(* [F] (e) HELD.  While the workflow is pausing, paused, canceling or canceled a poll offers nothing -- no task, no
   item -- and leaves the whole system state as it is.  (A pause or cancel request that the conductor accepts puts
   the workflow in one of these statuses: C09 / C10; resuming leaves them.) *)
Theorem C12b_no_items_offered_when_held : forall ev s, c_init (si_c s) = true ->
  In (wstatus (c_ws (si_c s))) [S_PAUSING; S_PAUSED; S_CANCELING; S_CANCELED] ->
  get_next_tasks ev (si_c s) = (si_c s, Val []) /\ isys_poll ev s = s.
Proof. exact held_poll_nothing. Qed.
Print Assumptions C12b_no_items_offered_when_held.

(* [P] (f) EMPTY LIST.  Proved: the acknowledgement of an offer for an empty list puts nothing in flight.  That the
   task record is succeeded with result [] afterwards is record level: Example [empty_list_completes]. *)
Theorem C12b_empty_list_nothing_in_flight : forall ev s o, o_items_count o = Some 0 ->
  si_inflight (isys_ack_offer ev s o) = si_inflight s.
Proof. exact empty_offer_inflight. Qed.
Print Assumptions C12b_empty_list_nothing_in_flight.

(* ------------------------------------------------------------------ non-vacuity, witnesses *)

Module C12bExamples.

(* evaluator: "items4" is a list of four, "items0" the empty list; everything else is a literal *)
Definition ev_it (s : string) (ctx : dict) : evalres :=
  if String.eqb s "items4" then EvOk (JList [JInt 1; JInt 2; JInt 3; JInt 4])
  else if String.eqb s "items0" then EvOk (JList [])
  else EvOk (JStr s).

Definition mk_items (e : string) (conc : json) (join : json) (next : list transition_spec) : task_spec :=
  {| ts_action := JStr "core.echo"; ts_input := JDict [];
     ts_with := Some {| it_expr := e; it_keys := None; it_concurrency := conc |};
     ts_delay := JNull; ts_join := join; ts_next := next |}.
Definition mk_task (next : list transition_spec) : task_spec :=
  {| ts_action := JStr "core.noop"; ts_input := JDict []; ts_with := None; ts_delay := JNull; ts_join := JNull; ts_next := next |}.
Definition tr (w : json) (d : list string) := {| tr_when := w; tr_publish := []; tr_do := d |}.
Definition nd (n : string) (b r : json) := {| n_id := n; n_barrier := b; n_splits := None; n_retry := r |}.
Definition ed (s d : string) (k r : nat) (c : list json) := {| e_src := s; e_dst := d; e_key := k; e_ref := r; e_criteria := c |}.

(* tasks:
     w: { with: { items: items4, concurrency: 2 }, action: core.echo, next: [ {do: [z]} ] }
     p: { action: core.noop }
     z: { action: core.noop }                                   (graph1r: w has retry: { count: 1 }) *)
Definition spec1 : wf_spec := {| wf_input := []; wf_vars := []; wf_output := [];
  wf_tasks := [("w", mk_items "items4" (JInt 2) JNull [tr JNull ["z"]]); ("p", mk_task []); ("z", mk_task [])] |}.
Definition graph1 : graph :=
  {| g_nodes := [nd "p" JNull JNull; nd "w" JNull JNull; nd "z" JNull JNull]; g_edges := [ed "w" "z" 0 0 []] |}.
Definition retry1 := JDict [("count", JInt 1)].
Definition graph1r : graph :=
  {| g_nodes := [nd "p" JNull JNull; nd "w" JNull retry1; nd "z" JNull JNull]; g_edges := [ed "w" "z" 0 0 []] |}.
(* tasks:
     a1: { action: core.noop, next: [ {do: [w]} ] }
     a2: { action: core.noop, next: [ {do: [w]} ] }
     w:  { join: 1, with: { items: items4, concurrency: 2 }, action: core.echo }               (finding D1) *)
Definition spec2 : wf_spec := {| wf_input := []; wf_vars := []; wf_output := [];
  wf_tasks := [("a1", mk_task [tr JNull ["w"]]); ("a2", mk_task [tr JNull ["w"]]);
               ("w", mk_items "items4" (JInt 2) (JInt 1) [])] |}.
Definition graph2 : graph :=
  {| g_nodes := [nd "a1" JNull JNull; nd "w" (JInt 1) JNull; nd "a2" JNull JNull];
     g_edges := [ed "a1" "w" 0 0 []; ed "a2" "w" 0 0 []] |}.
(* tasks:
     w: { with: { items: items0 }, action: core.echo, next: [ {do: [z]} ] }
     z: { action: core.noop }                                                                   *)
Definition spec0 : wf_spec := {| wf_input := []; wf_vars := []; wf_output := [];
  wf_tasks := [("w", mk_items "items0" JNull JNull [tr JNull ["z"]]); ("z", mk_task [])] |}.
Definition graph0 : graph := {| g_nodes := [nd "w" JNull JNull; nd "z" JNull JNull]; g_edges := [ed "w" "z" 0 0 []] |}.

(* the graphs are the ones the (modelled) composer builds from the definitions *)
Example graphs_are_composed :
  compose spec1 [] 100 = Val graph1 /\ compose spec1 [("w", retry1)] 100 = Val graph1r /\
  compose spec2 [] 100 = Val graph2 /\ compose spec0 [] 100 = Val graph0.
Proof. vm_compute; repeat split. Qed.

(* (workflow status, in flight, (fault, wiped), records, staged entries with their item tables and completed marks) *)
Definition view (s : isys) :=
  (wstatus (c_ws (si_c s)), si_inflight s, (si_fault s, si_wiped s),
   map (fun r => (r_id r, r_status r)) (sequence (c_ws (si_c s))),
   map (fun x => (s_id x, s_items x, s_completed x)) (staged (c_ws (si_c s)))).
Definition run sp g ops := view (isys_run ev_it ops (isys_init sp g [] [])).
Definition It t i st := IReport t 0 (Some i) st (JStr "r").
Definition Pl t st := IReport t 0 None st JNull.

(* the window: four items, concurrency 2 -- the first poll offers items 0 and 1 only *)
Example window_of_two :
  run spec1 graph1 [IBoot; IPoll]
  = (S_RUNNING, [("p", 0, None); ("w", 0, Some 0); ("w", 0, Some 1)], (false, false),
     [("p", Some S_RUNNING); ("w", Some S_RUNNING)],
     [("w", Some [S_RUNNING; S_RUNNING; S_UNSET; S_UNSET], false)]).
Proof. vm_compute; reflexivity. Qed.

(* item 1 finishes first: the next poll offers item 2 (the first never offered), not more *)
Example next_item_in_order :
  run spec1 graph1 [IBoot; IPoll; It "w" 1 S_SUCCEEDED; IPoll]
  = (S_RUNNING, [("p", 0, None); ("w", 0, Some 0); ("w", 0, Some 2)], (false, false),
     [("p", Some S_RUNNING); ("w", Some S_RUNNING)],
     [("w", Some [S_RUNNING; S_SUCCEEDED; S_RUNNING; S_UNSET], false)]).
Proof. vm_compute; reflexivity. Qed.

(* ... to the end: all four offered, the task succeeds after the last one, then z, then the workflow *)
Example all_items_then_done :
  run spec1 graph1 [IBoot; IPoll; It "w" 1 S_SUCCEEDED; IPoll; It "w" 0 S_SUCCEEDED; It "w" 2 S_SUCCEEDED; IPoll;
                    It "w" 3 S_SUCCEEDED; Pl "p" S_SUCCEEDED; IPoll; Pl "z" S_SUCCEEDED]
  = (S_SUCCEEDED, [], (false, false),
     [("p", Some S_SUCCEEDED); ("w", Some S_SUCCEEDED); ("z", Some S_SUCCEEDED)], []).
Proof. vm_compute; reflexivity. Qed.

(* an item fails while another is active: the task stays running, the next poll still fills the window *)
Example failure_keeps_draining :
  run spec1 graph1 [IBoot; IPoll; It "w" 0 S_FAILED; IPoll]
  = (S_RUNNING, [("p", 0, None); ("w", 0, Some 1); ("w", 0, Some 2)], (false, false),
     [("p", Some S_RUNNING); ("w", Some S_RUNNING)],
     [("w", Some [S_FAILED; S_RUNNING; S_RUNNING; S_UNSET], false)]).
Proof. vm_compute; reflexivity. Qed.

(* ... and fails once nothing is active any more: item 3 is never offered, the entry stays, marked completed *)
Example failure_completes_when_drained :
  run spec1 graph1 [IBoot; IPoll; It "w" 0 S_FAILED; IPoll; It "w" 1 S_SUCCEEDED; It "w" 2 S_SUCCEEDED; IPoll]
  = (S_RUNNING, [("p", 0, None); ("z", 0, None)], (false, false),
     [("p", Some S_RUNNING); ("w", Some S_FAILED); ("z", Some S_RUNNING)],
     [("w", Some [S_FAILED; S_SUCCEEDED; S_SUCCEEDED; S_UNSET], true)]).
Proof. vm_compute; reflexivity. Qed.

(* pause with items in flight: record pausing, the poll offers nothing *)
Example pause_holds_the_items :
  run spec1 graph1 [IBoot; IPoll; IRequest S_PAUSING; It "w" 0 S_SUCCEEDED; IPoll]
  = (S_PAUSING, [("p", 0, None); ("w", 0, Some 1)], (false, false),
     [("p", Some S_RUNNING); ("w", Some S_PAUSING)],
     [("w", Some [S_SUCCEEDED; S_RUNNING; S_UNSET; S_UNSET], false)]).
Proof. vm_compute; reflexivity. Qed.

(* ... paused once the in-flight items are back; two items were never offered *)
Example paused_when_drained :
  run spec1 graph1 [IBoot; IPoll; IRequest S_PAUSING; It "w" 0 S_SUCCEEDED; It "w" 1 S_SUCCEEDED; Pl "p" S_SUCCEEDED; IPoll]
  = (S_PAUSED, [], (false, false),
     [("p", Some S_SUCCEEDED); ("w", Some S_PAUSED)],
     [("w", Some [S_SUCCEEDED; S_SUCCEEDED; S_UNSET; S_UNSET], false)]).
Proof. vm_compute; reflexivity. Qed.

(* ... and resuming offers the remaining items, in order *)
Example resume_offers_the_rest :
  run spec1 graph1 [IBoot; IPoll; IRequest S_PAUSING; It "w" 0 S_SUCCEEDED; It "w" 1 S_SUCCEEDED; Pl "p" S_SUCCEEDED;
                    IRequest S_RESUMING; IPoll]
  = (S_RUNNING, [("w", 0, Some 2); ("w", 0, Some 3)], (false, false),
     [("p", Some S_SUCCEEDED); ("w", Some S_RUNNING)],
     [("w", Some [S_SUCCEEDED; S_SUCCEEDED; S_RUNNING; S_RUNNING], false)]).
Proof. vm_compute; reflexivity. Qed.

(* cancel with items in flight: the record is canceling (not canceled) while an item is out *)
Example cancel_drains :
  run spec1 graph1 [IBoot; IPoll; IRequest S_CANCELING; It "w" 0 S_SUCCEEDED]
  = (S_CANCELING, [("p", 0, None); ("w", 0, Some 1)], (false, false),
     [("p", Some S_RUNNING); ("w", Some S_CANCELING)],
     [("w", Some [S_SUCCEEDED; S_RUNNING; S_UNSET; S_UNSET], false)]).
Proof. vm_compute; reflexivity. Qed.

(* ... canceled when the last one is back *)
Example canceled_when_drained :
  run spec1 graph1 [IBoot; IPoll; IRequest S_CANCELING; It "w" 0 S_SUCCEEDED; It "w" 1 S_SUCCEEDED; Pl "p" S_SUCCEEDED; IPoll]
  = (S_CANCELED, [], (false, false),
     [("p", Some S_SUCCEEDED); ("w", Some S_CANCELED)], [("z", None, false)]).
Proof. vm_compute; reflexivity. Qed.

(* (f) the empty list: one poll, the task is succeeded, nothing was in flight, z is staged *)
Example empty_list_completes :
  run spec0 graph0 [IBoot; IPoll]
  = (S_RUNNING, [], (false, false), [("w", Some S_SUCCEEDED)], [("z", None, false)]).
Proof. vm_compute; reflexivity. Qed.

(* [R] per RECORD an item is offered more than once: with retry { count: 1 } the failed task is staged again without table ... *)
Example retry_restages :
  run spec1 graph1r [IBoot; IPoll; It "w" 0 S_FAILED; It "w" 1 S_SUCCEEDED]
  = (S_RUNNING, [("p", 0, None)], (false, false),
     [("p", Some S_RUNNING); ("w", Some S_RETRYING)], [("w", None, false)]).
Proof. vm_compute; reflexivity. Qed.

(* ... and the next poll offers items 0 and 1 again, on the same record (no fault, no wipe) *)
Example retry_offers_again :
  run spec1 graph1r [IBoot; IPoll; It "w" 0 S_FAILED; It "w" 1 S_SUCCEEDED; IPoll]
  = (S_RUNNING, [("p", 0, None); ("w", 0, Some 0); ("w", 0, Some 1)], (false, false),
     [("p", Some S_RUNNING); ("w", Some S_RUNNING)],
     [("w", Some [S_RUNNING; S_RUNNING; S_UNSET; S_UNSET], false)]).
Proof. vm_compute; reflexivity. Qed.

(* [R] finding D1, the hypothesis [si_wiped = false]: w (join: 1) starts when a1 is done ... *)
Example d1_before :
  run spec2 graph2 [IBoot; IPoll; Pl "a1" S_SUCCEEDED; IPoll]
  = (S_RUNNING, [("a2", 0, None); ("w", 0, Some 0); ("w", 0, Some 1)], (false, false),
     [("a1", Some S_SUCCEEDED); ("a2", Some S_RUNNING); ("w", Some S_RUNNING)],
     [("w", Some [S_RUNNING; S_RUNNING; S_UNSET; S_UNSET], false)]).
Proof. vm_compute; reflexivity. Qed.

(* ... a2 arrives late: w is staged again, its item table is gone while items 0 and 1 are in flight (wiped = true) *)
Example d1_wipes_the_table :
  run spec2 graph2 [IBoot; IPoll; Pl "a1" S_SUCCEEDED; IPoll; Pl "a2" S_SUCCEEDED]
  = (S_RUNNING, [("w", 0, Some 0); ("w", 0, Some 1)], (false, true),
     [("a1", Some S_SUCCEEDED); ("a2", Some S_SUCCEEDED); ("w", Some S_RUNNING)],
     [("w", None, false)]).
Proof. vm_compute; reflexivity. Qed.

(* ... and item 0, already reported succeeded, is offered and acknowledged a second time on the same record *)
Example d1_offers_twice :
  run spec2 graph2 [IBoot; IPoll; Pl "a1" S_SUCCEEDED; IPoll; It "w" 0 S_SUCCEEDED; Pl "a2" S_SUCCEEDED; IPoll]
  = (S_RUNNING, [("w", 0, Some 1); ("w", 0, Some 0)], (false, true),
     [("a1", Some S_SUCCEEDED); ("a2", Some S_SUCCEEDED); ("w", Some S_RUNNING)],
     [("w", Some [S_RUNNING; S_RUNNING; S_UNSET; S_UNSET], false)]).
Proof. vm_compute; reflexivity. Qed.

(* [R] finding D24, why C02b / C03b do not extend to with-items: the sibling p ends canceled while w has items
   never offered -- the workflow is canceling for ever, nothing in flight, w's record running, polls offer nothing *)
Example d24_stuck_canceling :
  run spec1 graph1 [IBoot; IPoll; Pl "p" S_CANCELED; It "w" 0 S_SUCCEEDED; It "w" 1 S_SUCCEEDED; IPoll]
  = (S_CANCELING, [], (false, false),
     [("p", Some S_CANCELED); ("w", Some S_RUNNING)],
     [("w", Some [S_SUCCEEDED; S_SUCCEEDED; S_UNSET; S_UNSET], false)]).
Proof. vm_compute; reflexivity. Qed.

(* [R] (d) DRAIN is false for an arbitrary evaluator: the engine evaluates the items expression again at every
   get_next_tasks, and an offer whose list is empty is completed on the spot -- also when the staged entry already has
   a table with items in flight.  Evaluator: "itemsX" is [1,2,3,4] as long as the workflow state has no task record
   and [] afterwards (the expression reads ctx().__state, as task_status() does).  Definition:
     tasks:
       w: { with: { items: itemsX, concurrency: 2 }, action: core.echo, next: [ {do: [z]} ] }
       z: { action: core.noop }
   History: Boot; Poll; Poll.  The first poll offers items 0 and 1; the second renders zero items, returns an offer
   with items_count = 0, and its acknowledgement (running, succeeded []) completes the record: w is succeeded with
   items 0 and 1 in flight, z is staged -- no call raised, no table wiped.  Item 1 then fails, w stays succeeded
   (so "succeeded iff all items succeeded" is false as well).
   Replayed on the engine (orquesta conductor driven as harness/provider.py does) with
     items: <% switch(task_status(w) = "null" => [1,2,3,4], true => []) %>
   -- same outcome: second get_next_tasks returns w with items_count 0, w ends succeeded with two items running.
   Weakest hypothesis: the items expression of a task yields the same number of items at every poll for as long as
   its staged entry has a table (true of expressions that read the task's input context only). *)
Definition started (ctx : dict) : bool :=
  match dget "__state" ctx with
  | Some (JDict d) => match dget "sequence" d with Some (JList (_ :: _)) => true | _ => false end
  | _ => false
  end.
Definition ev_shrink (s : string) (ctx : dict) : evalres :=
  if String.eqb s "itemsX" then (if started ctx then EvOk (JList []) else EvOk (JList [JInt 1; JInt 2; JInt 3; JInt 4]))
  else EvOk (JStr s).
Definition specX : wf_spec := {| wf_input := []; wf_vars := []; wf_output := [];
  wf_tasks := [("w", mk_items "itemsX" (JInt 2) JNull [tr JNull ["z"]]); ("z", mk_task [])] |}.
Definition graphX : graph := {| g_nodes := [nd "w" JNull JNull; nd "z" JNull JNull]; g_edges := [ed "w" "z" 0 0 []] |}.
Definition runX ops := view (isys_run ev_shrink ops (isys_init specX graphX [] [])).
Example graphX_is_composed : compose specX [] 100 = Val graphX.
Proof. vm_compute; reflexivity. Qed.
Example shrinking_items_complete_early :
  runX [IBoot; IPoll; IPoll]
  = (S_RUNNING, [("w", 0, Some 0); ("w", 0, Some 1)], (false, false), [("w", Some S_SUCCEEDED)],
     [("w", Some [S_RUNNING; S_RUNNING; S_UNSET; S_UNSET], false); ("z", None, false)]).
Proof. vm_compute; reflexivity. Qed.
Example shrinking_items_succeeded_with_a_failed_item :
  runX [IBoot; IPoll; IPoll; It "w" 0 S_SUCCEEDED; It "w" 1 S_FAILED; IPoll]
  = (S_RUNNING, [("z", 0, None)], (false, false), [("w", Some S_SUCCEEDED); ("z", Some S_RUNNING)], []).
Proof. vm_compute; reflexivity. Qed.

(* the theorems apply to these runs: e.g. the window after the second poll of [next_item_in_order] *)
Example window_instance :
  let s := isys_run ev_it [IBoot; IPoll; It "w" 1 S_SUCCEEDED] (isys_init spec1 graph1 [] []) in
  exists c1 o, get_next_tasks ev_it (si_c s) = (c1, Val [o]) /\ o_items_count o = Some 4 /\
               o_concurrency o = Some (JInt 2) /\ map a_item (o_actions o) = [Some 2] /\
               si_fault (isys_poll ev_it s) = false /\ si_wiped (isys_poll ev_it s) = false.
Proof. vm_compute. eexists. eexists. repeat split. Qed.

End C12bExamples.

(* NOTES.
   (d) DRAIN and the record half of (a).  False for evaluators whose items expression changes its number of items
   between polls (Example [shrinking_items_complete_early]).  Otherwise, proved at the level of the item table: an item in flight is "running" in the
   table of the staged entry and conversely (C12b_item_link), so while an item is in flight the entry is staged with
   an active item; every item report and every pause / cancel request that reaches the task's state machine is then
   named "..._task_active_..." (Machines.item_event_name / task_workflow_event_name read that table), and such an
   event never maps the task to a completed status (C12_no_completion_while_items_active, swept over the generated
   table).  That a task RECORD changes status only through these machine steps in states with item tables is the
   frame of proofs/SysItemsRecProofs.v, stated in props/C12c.v.  Examples [cancel_drains],
   [canceled_when_drained], [pause_holds_the_items], [failure_keeps_draining], [failure_completes_when_drained] show
   the behaviour.
   C02b / C03b with items (props/C02d.v, C02e.v, C03d.v, C03e.v, C03f.v).  The invariant of SysProofs.v does not hold for
   such states: records of with-items tasks take the
   statuses pausing / paused / canceling (outside [simple_statuses]), staged entries carry tables and completed marks
   (outside [staged_ok]), and the counting invariant is false by finding D24 -- Example [d24_stuck_canceling]: an
   active record that is not in flight (C02b_active_record_in_flight fails) and a state with nothing in flight and
   nothing on offer that is not a rest state (C03b quiescence fails). *)
