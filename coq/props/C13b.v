(* C13b -- Retry: the re-entrant call terminates within the model's recursion bound, and the
   tally of retries never exceeds the count -- over one call, over every API operation, over histories that keep
   to the protocol (hist_ok; without it Example duplicate_report_overruns).
   Property theorems only (proofs/RetryProofs.v). *)
From Coq Require Import String List Bool ZArith.
From Orq Require Import GenStatuses GenEvents GenTables Base State Machines Conductor Api F_tables RetryProofs RetryBoundProofs.
Import ListNotations.
Open Scope string_scope.

(* ------------------------------------------------------------------ (1) termination *)

(* [F] update_task_state's bounded model never answers "out of fuel": over a graph whose engine commands
   have no outgoing transitions and no retry policy (every composed graph), for every event (provider or
   internal), every state.  The hypothesis on the evaluator
   is necessary: the exception classes the evaluator reports are passed through unchanged, so an
   evaluator that itself reports a class named "OutOfFuel" would refute the statement without any
   recursion (Example out_of_fuel_needs_evaluator_hypothesis below); Python has no such class. *)
Theorem C13_update_task_state_never_out_of_fuel : forall ev, ev_no_fuel_exn ev ->
  forall t route evt c c' e, graph_commands_inert (c_graph c) ->
  update_task_state ev t route evt c = (c', Exc e) -> x_cls e <> "OutOfFuel".
Proof. exact update_task_state_never_out_of_fuel. Qed.
Print Assumptions C13_update_task_state_never_out_of_fuel.

(* [F] the same fact without any word about exception names, for every evaluator: giving the model more
   fuel never changes the outcome of a call.  (Already fuel 2 gives the result of fuel 3: a nested call --
   the retry re-entry or a queued engine command -- never calls again.) *)
Theorem C13_fuel_irrelevant : forall ev n t route evt c, graph_commands_inert (c_graph c) ->
  update_task_state_fuel ev (3 + n) t route evt c = update_task_state ev t route evt c.
Proof. exact fuel_irrelevant_3. Qed.
Print Assumptions C13_fuel_irrelevant.

Theorem C13_fuel_two_suffices : forall ev n t route evt c, graph_commands_inert (c_graph c) ->
  update_task_state_fuel ev (2 + n) t route evt c = update_task_state_fuel ev 2 t route evt c.
Proof. exact fuel_irrelevant. Qed.
Print Assumptions C13_fuel_two_suffices.

(* [F] the two reasons.  A call that delivers the retry event makes no further call, in any state ... *)
Theorem C13_retry_reentry_calls_nothing : forall ev rec1 rec2 t route c,
  uts_body ev rec1 t route retry_event c = uts_body ev rec2 t route retry_event c.
Proof. exact body_norec_retry. Qed.
Print Assumptions C13_retry_reentry_calls_nothing.

(* ... and neither does a call on an engine command ([uts_body ev rec] is the body of update_task_state
   with [rec] for its nested calls: update_task_state_fuel ev (S n) = uts_body ev (update_task_state_fuel ev n)) *)
Theorem C13_engine_command_calls_nothing : forall ev rec1 rec2 n rt e c,
  graph_commands_inert (c_graph c) -> is_engine_command n = true ->
  uts_body ev rec1 n rt e c = uts_body ev rec2 n rt e c.
Proof. exact body_norec_cmd. Qed.
Print Assumptions C13_engine_command_calls_nothing.

Theorem C13_body_is_the_model : forall ev fuel t route evt,
  update_task_state_fuel ev (S fuel) t route evt = uts_body ev (update_task_state_fuel ev fuel) t route evt.
Proof. exact uts_unfold. Qed.
Print Assumptions C13_body_is_the_model.

(* ------------------------------------------------------------------ (2) the retry bound *)

(* [F] one provider event keeps every tally within max(count, 0), provided the record it is addressed to
   is not retrying or the event is the acknowledgement `running`.  The protocol hypothesis is needed:
   any other event delivered to a retrying record leaves it retrying and the code counts one more retry
   (Example duplicate_report_overruns below -- real behaviour of the engine under a duplicate report). *)
Theorem C13_retry_tally_bounded_step : forall ev t route evt c c' r,
  provider_event evt = true -> tally_inv c -> not_retrying_target c t route evt ->
  update_task_state ev t route evt c = (c', r) -> tally_inv c'.
Proof. exact retry_tally_bounded_step. Qed.
Print Assumptions C13_retry_tally_bounded_step.

(* [F] every API operation (status request, poll, event under the protocol, output rendering, rerun,
   persist round trip, serialize) keeps the bound, whether it returns or raises *)
Theorem C13_retry_tally_bounded_api : forall ev op c c' r,
  op_ok c op -> tally_inv c -> api_exec ev op c = (c', r) -> tally_inv c'.
Proof. exact api_exec_tally. Qed.
Print Assumptions C13_retry_tally_bounded_api.

(* [F] histories in which each event meets the protocol hypothesis in the state it is applied to *)
Theorem C13_retry_tally_bounded_history : forall ev ops c,
  hist_ok ev ops c -> tally_inv c -> tally_inv (run_ops ev ops c).
Proof. exact retry_tally_bounded_history. Qed.
Print Assumptions C13_retry_tally_bounded_history.

(* [F] the other operations on their own (no hypothesis) *)
Theorem C13_tally_request_status : forall ev st c c' r,
  request_workflow_status ev st c = (c', r) -> tally_inv c -> tally_inv c'.
Proof. exact pt_request_workflow_status. Qed.
Theorem C13_tally_get_next_tasks : forall ev c c' r, get_next_tasks ev c = (c', r) -> tally_inv c -> tally_inv c'.
Proof. exact pt_get_next_tasks. Qed.
Theorem C13_tally_render_output : forall ev c c' r, render_workflow_output ev c = (c', r) -> tally_inv c -> tally_inv c'.
Proof. exact pt_render_workflow_output. Qed.
Theorem C13_tally_rerun : forall ev reqs c c' r, request_workflow_rerun ev reqs c = (c', r) -> tally_inv c -> tally_inv c'.
Proof. exact pt_request_workflow_rerun. Qed.
Print Assumptions C13_tally_request_status.
Print Assumptions C13_tally_get_next_tasks.
Print Assumptions C13_tally_render_output.
Print Assumptions C13_tally_rerun.

(* [F] the step that increments: only the addressed record, by one, and only below its count *)
Theorem C13_increment_only_below_count : forall t route idx r st c c' res,
  tally_inv c -> nth_error (sequence (c_ws c)) idx = Some r -> (st = S_RETRYING -> bounded r) ->
  uts_retrying t route idx r st c = (c', res) -> tally_inv c' /\ tasks (c_ws c') = tasks (c_ws c).
Proof. exact retrying_tally. Qed.
Print Assumptions C13_increment_only_below_count.


(* ------------------------------------------------------------------ (3) the unconditional bound, on entries
   into `retrying` (one entry = one more execution).  No protocol hypothesis, every evaluator.
   [rec_at c idx] is the record in slot idx, [tal c idx] its retry tally (0 if none), [retr c idx] whether
   its status is retrying. *)

(* [F] (a) records are append-only and their tallies monotone: in every API operation, for every event,
   a record that exists before exists after in the same slot with the same id and route, the same retry
   count, and a tally at least as large *)
Theorem C13_tally_monotone : forall ev op c c' res idx r, api_exec ev op c = (c', res) -> rec_at c idx = Some r ->
  exists r', rec_at c' idx = Some r' /\ r_id r' = r_id r /\ r_route r' = r_route r /\
             retry_mono (r_retry r) (r_retry r').
Proof. intros ev op c c' res idx r H. exact (api_exec_mono ev op c c' res H idx r). Qed.
Print Assumptions C13_tally_monotone.

(* [F] new records start with tally 0 and no status *)
Theorem C13_new_record_tally_zero : forall ev t rt ins prev c c' idx,
  add_task_state ev t rt ins prev c = (c', Val idx) ->
  exists r, rec_at c' idx = Some r /\ r_status r = None /\ tal c' idx = 0.
Proof. exact new_record_tally_zero. Qed.
Print Assumptions C13_new_record_tally_zero.

(* [F] (b) the entry step: an operation (any but one that injects the engine's own retry request from
   outside; every provider event qualifies) takes a record from not-retrying -- or not yet existing -- to
   retrying only if its tally before was below its integer count, and its tally after is at least one more *)
Theorem C13_entry_needs_tally_below_count : forall ev op c c' res idx, op_external op ->
  api_exec ev op c = (c', res) -> retr c idx = false -> retr c' idx = true ->
  exists r' rr', rec_at c' idx = Some r' /\ r_retry r' = Some rr' /\ py_is_int (rr_count rr') = true /\
                 (Z.of_nat (tal c idx) < py_int_value (rr_count rr'))%Z /\ tal c idx + 1 <= rr_tally rr'.
Proof. intros ev op c c' res idx Hx H. exact (proj2 (api_exec_ent ev op Hx c c' res H) idx). Qed.
Print Assumptions C13_entry_needs_tally_below_count.

Theorem C13_provider_events_are_external : forall evt, provider_event evt = true -> external_event evt = true.
Proof. exact provider_external. Qed.

(* [F] (c) over a history, from any state: initial tally + number of entries <= tally reached, and, if
   there was an entry, <= the record's integer count *)
Theorem C13_retry_entries_bounded : forall ev ops c idx, Forall op_external ops ->
  tal c idx + entries ev ops c idx <= tal (run_ops ev ops c) idx /\
  (entries ev ops c idx = 0 \/
   exists r rr, rec_at (run_ops ev ops c) idx = Some r /\ r_retry r = Some rr /\ py_is_int (rr_count rr) = true /\
                (Z.of_nat (tal c idx + entries ev ops c idx) <= py_int_value (rr_count rr))%Z).
Proof. exact retry_entries_bounded. Qed.
Print Assumptions C13_retry_entries_bounded.

(* [F] the property text: a record that starts at tally 0 -- every record of a history starting with no
   record, since new records start at 0 -- is retried at most max(count, 0) times *)
Theorem C13_retried_at_most_count_times : forall ev ops c idx r rr, Forall op_external ops -> tal c idx = 0 ->
  rec_at (run_ops ev ops c) idx = Some r -> r_retry r = Some rr ->
  (Z.of_nat (entries ev ops c idx) <= Z.max (py_int_value (rr_count rr)) 0)%Z /\ entries ev ops c idx <= rr_tally rr.
Proof. exact retry_entries_at_most_count. Qed.
Print Assumptions C13_retried_at_most_count_times.

Theorem C13_empty_history_start : forall c idx, sequence (c_ws c) = [] -> tal c idx = 0.
Proof. exact empty_tal. Qed.

(* [F] a record without retry policy never enters retrying *)
Theorem C13_no_policy_no_entries : forall ev ops c idx, Forall op_external ops ->
  (forall r, rec_at (run_ops ev ops c) idx = Some r -> r_retry r = None) -> entries ev ops c idx = 0.
Proof. exact no_retry_no_entries. Qed.
Print Assumptions C13_no_policy_no_entries.

(* ------------------------------------------------------------------ the hypotheses are satisfiable *)

Module C13bExamples.

(* every literal evaluates to itself; never fails *)
Definition ev_lit (s : string) (ctx : dict) : evalres := EvOk (JStr s).

Example ev_lit_ok : ev_no_fuel_exn ev_lit.
Proof. intros s ctx e H; discriminate H. Qed.

(* t1 (retry count 1) -> noop *)
Definition t1_spec : task_spec :=
  {| ts_action := JStr "core.noop"; ts_input := JDict []; ts_with := None; ts_delay := JNull; ts_join := JNull;
     ts_next := [{| tr_when := JNull; tr_publish := []; tr_do := ["noop"] |}] |}.
Definition spec1 : wf_spec := {| wf_input := []; wf_vars := []; wf_output := []; wf_tasks := [("t1", t1_spec)] |}.
Definition graph1 : graph :=
  {| g_nodes := [{| n_id := "t1"; n_barrier := JNull; n_splits := None; n_retry := JDict [("count", JInt 1)] |};
                 {| n_id := "noop"; n_barrier := JNull; n_splits := None; n_retry := JNull |}];
     g_edges := [{| e_src := "t1"; e_dst := "noop"; e_key := 0; e_ref := 0; e_criteria := [] |}] |}.
Definition c0 : cstate :=
  {| c_spec := spec1; c_graph := graph1; c_inputs := []; c_parent := []; c_init := false; c_ws := empty_ws;
     c_errors := []; c_log := []; c_output := None |}.

Definition running := OpEvent "t1" 0 (EvAction S_RUNNING JNull).
Definition failed := OpEvent "t1" 0 (EvAction S_FAILED JNull).
Definition succeeded := OpEvent "t1" 0 (EvAction S_SUCCEEDED JNull).
(* boot, poll, acknowledge, fail (-> retry re-entry), poll, acknowledge, succeed (-> engine command noop) *)
Definition ops_fail := [OpRequest S_RUNNING; OpGetNext; running; failed].
Definition ops_all := app ops_fail [OpGetNext; running; succeeded].

Definition view (c : cstate) :=
  (wstatus (c_ws c),
   map (fun r => (r_id r, r_status r, match r_retry r with Some rr => Some (rr_tally rr) | None => None end))
       (sequence (c_ws c))).

Example graph1_inert : graph_commands_inert (c_graph c0).
Proof. apply inert_b_sound; vm_compute; reflexivity. Qed.

(* (1) both kinds of nested call happen in this run, and no call answers with an exception at all *)
Example run_reenters_and_queues :
  view (run_ops ev_lit ops_fail c0) = (S_RUNNING, [("t1", Some S_RETRYING, Some 1)]) /\
  view (run_ops ev_lit ops_all c0)
    = (S_SUCCEEDED, [("t1", Some S_SUCCEEDED, Some 1); ("noop", Some S_SUCCEEDED, None)]) /\
  snd (api_exec ev_lit failed (run_ops ev_lit [OpRequest S_RUNNING; OpGetNext; running] c0)) = Val RUnit /\
  snd (api_exec ev_lit succeeded (run_ops ev_lit (app ops_fail [OpGetNext; running]) c0)) = Val RUnit.
Proof. vm_compute. repeat split. Qed.

(* the hypothesis on the evaluator cannot be dropped: an evaluator that reports the class "OutOfFuel"
   (here for the default of a workflow input, which only catches expression errors) makes the very first
   call answer with that class, over an inert graph, without any nested call *)
Definition ev_bad (s : string) (ctx : dict) : evalres :=
  EvErr {| x_cls := "OutOfFuel"; x_msg := "from the evaluator"; x_expr := false |}.
Definition c_bad : cstate :=
  {| c_spec := {| wf_input := [("x", JStr "<% 1 %>")]; wf_vars := []; wf_output := []; wf_tasks := [("t1", t1_spec)] |};
     c_graph := graph1; c_inputs := []; c_parent := []; c_init := false; c_ws := empty_ws;
     c_errors := []; c_log := []; c_output := None |}.
Example out_of_fuel_needs_evaluator_hypothesis :
  graph_commands_inert (c_graph c_bad) /\
  exists c' e, update_task_state ev_bad "t1" 0 (EvAction S_RUNNING JNull) c_bad = (c', Exc e) /\ x_cls e = "OutOfFuel".
Proof. split; [apply inert_b_sound; vm_compute; reflexivity|]. eexists; eexists; split; vm_compute; reflexivity. Qed.

(* (2) the whole run obeys the protocol, starts within the bound, and so ends within it; the tally did move *)
Example run_obeys_protocol : hist_ok ev_lit ops_all c0 /\ tally_inv c0.
Proof. split; [apply hist_ok_b_sound; vm_compute; reflexivity|apply tally_inv_b_iff; vm_compute; reflexivity]. Qed.

Example run_stays_bounded : tally_inv (run_ops ev_lit ops_all c0).
Proof. apply C13_retry_tally_bounded_history; apply run_obeys_protocol. Qed.

(* the single step at which the retry happens: hypotheses hold, the tally goes from 0 to 1 = count *)
Example retry_step :
  let c := run_ops ev_lit [OpRequest S_RUNNING; OpGetNext; running] c0 in
  provider_event (EvAction S_FAILED JNull) = true /\ tally_inv c /\
  not_retrying_target c "t1" 0 (EvAction S_FAILED JNull) /\
  view c = (S_RUNNING, [("t1", Some S_RUNNING, Some 0)]) /\
  view (fst (update_task_state ev_lit "t1" 0 (EvAction S_FAILED JNull) c)) = (S_RUNNING, [("t1", Some S_RETRYING, Some 1)]).
Proof.
  cbv zeta. split; [reflexivity|]. split; [apply tally_inv_b_iff; vm_compute; reflexivity|].
  split; [apply nrt_b_sound; vm_compute; reflexivity|]. split; vm_compute; reflexivity.
Qed.

(* the protocol hypothesis cannot be dropped: the failure reported a second time while the record is
   retrying is counted as a second retry, past the count of 1 *)
Example duplicate_report_overruns :
  let c := run_ops ev_lit ops_fail c0 in
  tally_inv c /\ nrt_b c "t1" 0 (EvAction S_FAILED JNull) = false /\
  view (fst (update_task_state ev_lit "t1" 0 (EvAction S_FAILED JNull) c)) = (S_RUNNING, [("t1", Some S_RETRYING, Some 2)]) /\
  ~ tally_inv (fst (update_task_state ev_lit "t1" 0 (EvAction S_FAILED JNull) c)).
Proof.
  cbv zeta. split; [apply tally_inv_b_iff; vm_compute; reflexivity|]. split; [vm_compute; reflexivity|].
  split; [vm_compute; reflexivity|]. intro H. apply tally_inv_b_iff in H. vm_compute in H. discriminate H.
Qed.


(* (3) count 2.  fail -> retry 1; fail -> retry 2; the second failure reported again while retrying bumps the
   tally to 3 = count + 1 (no protocol hypothesis here), yet the record entered retrying twice = count, and
   the third failure is final *)
Definition graph2 : graph :=
  {| g_nodes := [{| n_id := "t1"; n_barrier := JNull; n_splits := None; n_retry := JDict [("count", JInt 2)] |};
                 {| n_id := "noop"; n_barrier := JNull; n_splits := None; n_retry := JNull |}];
     g_edges := [] |}.
Definition c2 : cstate :=
  {| c_spec := spec1; c_graph := graph2; c_inputs := []; c_parent := []; c_init := false; c_ws := empty_ws;
     c_errors := []; c_log := []; c_output := None |}.
Definition ops_dup :=
  [OpRequest S_RUNNING; OpGetNext; running; failed; OpGetNext; running; failed; failed; OpGetNext; running; failed].

Example tally_runs_ahead_entries_do_not :
  Forall op_external ops_dup /\ sequence (c_ws c2) = [] /\
  view (run_ops ev_lit ops_dup c2) = (S_FAILED, [("t1", Some S_FAILED, Some 3)]) /\
  entries ev_lit ops_dup c2 0 = 2 /\
  ~ tally_inv (run_ops ev_lit ops_dup c2).
Proof.
  split; [apply ops_external_b_sound; vm_compute; reflexivity|]. split; [reflexivity|].
  split; [vm_compute; reflexivity|]. split; [vm_compute; reflexivity|].
  intro H. apply tally_inv_b_iff in H. vm_compute in H. discriminate H.
Qed.

Example entries_bound_instance :
  exists r rr, rec_at (run_ops ev_lit ops_dup c2) 0 = Some r /\ r_retry r = Some rr /\
    (Z.of_nat (entries ev_lit ops_dup c2 0) <= Z.max (py_int_value (rr_count rr)) 0)%Z.
Proof.
  eexists; eexists. split; [vm_compute; reflexivity|]. split; [reflexivity|].
  eapply C13_retried_at_most_count_times;
    [apply ops_external_b_sound; vm_compute; reflexivity|apply empty_tal; reflexivity|vm_compute; reflexivity|reflexivity].
Qed.

End C13bExamples.
