(* C13 -- Retry: bounded attempts, no transition from a retried attempt.
   Property theorems only (proofs/C13Proofs.v, proofs/OffersProofs.v, facts/F_tables.v). *)
From Coq Require Import String List Bool ZArith.
From Orq Require Import GenStatuses GenEvents GenTables Base State Machines Conductor Api F_tables ValuePost OffersProofs C13Proofs.
Import ListNotations.

(* [F] the retry decision says yes only while the tally of retries is strictly below the count *)
Theorem C13_retry_only_below_count : forall ev r ctx, vpost (retry_allowed r) (evaluate_task_retry ev r ctx).
Proof. exact evaluate_task_retry_bound. Qed.
Print Assumptions C13_retry_only_below_count.

(* [F] ... and only if the condition holds for the latest execution: by default the execution
   abended; with a `when`, that expression evaluated to a true value in the execution's context *)
Theorem C13_retry_condition : forall ev r ctx rr, r_retry r = Some rr ->
  vpost (fun b => b = true ->
           (status_in (rstatus r) ABENDED_STATUSES = true /\ rr_when rr = JNull) \/
           (exists c c' v, evaluate ev (rr_when rr) ctx c = (c', Val v) /\ truthy v = true))
        (evaluate_task_retry ev r ctx).
Proof. exact evaluate_task_retry_condition. Qed.
Print Assumptions C13_retry_condition.

(* [F] the task status `retrying` is entered only by the internal retry event and only from a completed
   status (swept over the whole generated task table) *)
Theorem C13_retrying_only_by_retry_event : forall s e, tbl_step task_table s e = Some S_RETRYING ->
  e = EV_TASK_RETRY_REQUESTED /\ In s COMPLETED_STATUSES.
Proof. exact F_task_retrying_only_by_retry. Qed.
Print Assumptions C13_retrying_only_by_retry_event.

(* [F] the retry decision is taken only when the task table will accept the retry event, so the
   re-entry changes the status to retrying and cannot recurse again *)
Theorem C13_retry_event_accepted : forall s, tbl_transition_valid task_table s S_RETRYING = true ->
  s = S_RETRYING \/ tbl_step task_table s EV_TASK_RETRY_REQUESTED = Some S_RETRYING.
Proof. exact F_task_retry_valid. Qed.
Print Assumptions C13_retry_event_accepted.

(* [F] a re-offered retry carries the configured retry delay (0 when none), overriding the task delay *)
Theorem C13_retry_delay : forall ev s, vpost (retry_delay_of s) (next_task_for ev s).
Proof. exact next_task_for_retry_delay. Qed.
Print Assumptions C13_retry_delay.

(* Not in this file: the tally never exceeds the count over whole protocol histories (props/C13b.v), and no
   transition / publish fires for a retried attempt (props/C13c.v); both are also tested by monitor c13. *)
