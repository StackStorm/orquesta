(* C12c -- C12, the RECORD level of the with-items provider protocol (model/ProviderSysItems.v): clause (d) DRAIN,
   "succeeded iff every item succeeded", and the record half of (a).  Property theorems only; proofs are in
   proofs/SysItemsRecProofs.v (the frame of update_task_state and of the status requests on task records in states
   with item tables; pointer well-formedness; sweeps of the generated task table in facts/F_sysitems.v).

   Every theorem is about EVERY evaluator, definition, graph, inputs and protocol history [ops] from the fresh
   conductor, under three flags computed along the history:
     [si_fault = false], [si_wiped = false]   as in C12b;
     [run_odd ev ops init = false]            (model/ProviderSysItemsMon.v) no poll of the history returned an offer that
        does not fit the staged entry it is made for:
          RESIZED  the entry has a non-empty item table and the offer's items_count is not its length -- the items
                   expression gave a different number of items at a later poll (zero completes the task on the spot:
                   Example C12b.shrinking_items_complete_early; this is the hypothesis that example calls for);
          an offer of items for a (task, route) whose single action is in flight, an offer for an engine command
                   (neither can come from a fixed definition that passes inspection: the kind of a task is fixed,
                   the command names are reserved);
        and no item was acknowledged onto a completed record whose staged entry is marked completed (completed
        entries are not offered; cannot happen when staged keys are distinct).
   The first disjunct is the substantive one; Example [monitor_catches_the_shrinking_list] shows it raised on the
   counterexample of C12b, Example [monitor_silent] shows the monitor silent on the runs of C12b. *)
From Coq Require Import String List Bool ZArith Arith.
From Orq Require Import GenStatuses GenTables Base State Machines Conductor Api Driver ProviderSys ProviderSysItems ProviderSysItemsMon Composer.
From Orq Require Import F_tables F_names F_sys F_sysitems SysProofs SysNextProofs SysItemsProofs SysItemsRecProofs.
From Orq Require Import C12b.
Import ListNotations.
Open Scope string_scope.

(* [F] (a) record half, and (d) DRAIN.  While an item of a task is in flight the pointer map leads to a record of that
   task and route whose status is ACTIVE (requested, scheduled, delayed, running, resuming, pausing, canceling): in
   particular the task record is never completed -- nor waiting for a retry -- while an item of it is out.  Equivalently:
   when the record of (t, r) is completed, no item of (t, r) is in flight. *)
Theorem C12c_item_in_flight_record_active : forall ev sp g inputs parent ops,
  let s := isys_run ev ops (isys_init sp g inputs parent) in
  si_fault s = false -> si_wiped s = false -> run_odd ev ops (isys_init sp g inputs parent) = false ->
  forall t r i, In (t, r, Some i) (si_inflight s) ->
  exists rec, ws_task_entry (c_ws (si_c s)) t r = Some rec /\ r_id rec = t /\ r_route rec = r /\
              ostatus_in (r_status rec) ACTIVE_STATUSES = true.
Proof. exact items_record_active. Qed.
Print Assumptions C12c_item_in_flight_record_active.

Theorem C12c_drain : forall ev sp g inputs parent ops,
  let s := isys_run ev ops (isys_init sp g inputs parent) in
  si_fault s = false -> si_wiped s = false -> run_odd ev ops (isys_init sp g inputs parent) = false ->
  forall t r i, In (t, r, Some i) (si_inflight s) ->
  is_engine_command t = false /\
  exists rec, ws_task_entry (c_ws (si_c s)) t r = Some rec /\ r_id rec = t /\ r_route rec = r /\
              ostatus_in (r_status rec) GOOD_STATUSES = true /\
              ostatus_in (r_status rec) COMPLETED_STATUSES = false /\ r_status rec <> Some S_RETRYING.
Proof. exact items_record_busy. Qed.
Print Assumptions C12c_drain.

(* [F] (d) "succeeded iff every item succeeded".  At the report of item i of (t, r), with [l] the item table before
   the report, [rec] the task record before and [rec'] after:
     - if the record is succeeded afterwards, the report is a success and every other item of the table is succeeded
       (the task never succeeds with a failed, canceled, unfinished or never-offered item);
     - if the report is a success, every other item is succeeded and the record was running (or pausing / canceling),
       the record is succeeded afterwards -- or retrying, when the task has a retry policy whose condition asks for
       another attempt (the record passes through succeeded inside the same call). *)
Theorem C12c_succeeded_iff_all_items_succeeded : forall ev sp g inputs parent ops t r i st result,
  let s := isys_run ev ops (isys_init sp g inputs parent) in
  let s' := isys_report ev s t r (Some i) st result in
  si_fault s' = false -> si_wiped s' = false -> run_odd ev ops (isys_init sp g inputs parent) = false ->
  In (t, r, Some i) (si_inflight s) -> status_in st report_statuses = true ->
  exists l rec rec', items_of (si_c s) t r = Some l /\ ws_task_entry (c_ws (si_c s)) t r = Some rec /\
    ws_task_entry (c_ws (si_c s')) t r = Some rec' /\
    (r_status rec' = Some S_SUCCEEDED -> st = S_SUCCEEDED /\ forall x, In x (list_del_nth i l) -> x = S_SUCCEEDED) /\
    (st = S_SUCCEEDED -> (forall x, In x (list_del_nth i l) -> x = S_SUCCEEDED) ->
     status_in (rstatus rec) [S_RUNNING; S_PAUSING; S_CANCELING] = true ->
     r_status rec' = Some S_SUCCEEDED \/ r_status rec' = Some S_RETRYING).
Proof. exact items_succeeded_iff. Qed.
Print Assumptions C12c_succeeded_iff_all_items_succeeded.

(* ------------------------------------------------------------------ non-vacuity *)
Module C12cExamples.
Import C12bExamples.

(* the monitor is silent on the runs of C12b: all items, failure, pause / resume, cancel, retry *)
Example monitor_silent :
  run_odd ev_it [IBoot; IPoll; It "w" 1 S_SUCCEEDED; IPoll; It "w" 0 S_SUCCEEDED; It "w" 2 S_SUCCEEDED; IPoll;
                 It "w" 3 S_SUCCEEDED; Pl "p" S_SUCCEEDED; IPoll; Pl "z" S_SUCCEEDED] (isys_init spec1 graph1 [] []) = false /\
  run_odd ev_it [IBoot; IPoll; It "w" 0 S_FAILED; IPoll; It "w" 1 S_SUCCEEDED; It "w" 2 S_SUCCEEDED; IPoll] (isys_init spec1 graph1 [] []) = false /\
  run_odd ev_it [IBoot; IPoll; IRequest S_PAUSING; It "w" 0 S_SUCCEEDED; It "w" 1 S_SUCCEEDED; Pl "p" S_SUCCEEDED;
                 IRequest S_RESUMING; IPoll] (isys_init spec1 graph1 [] []) = false /\
  run_odd ev_it [IBoot; IPoll; IRequest S_CANCELING; It "w" 0 S_SUCCEEDED; It "w" 1 S_SUCCEEDED; Pl "p" S_SUCCEEDED; IPoll]
          (isys_init spec1 graph1 [] []) = false /\
  run_odd ev_it [IBoot; IPoll; It "w" 0 S_FAILED; It "w" 1 S_SUCCEEDED; IPoll] (isys_init spec1 graph1r [] []) = false /\
  run_odd ev_it [IBoot; IPoll] (isys_init spec0 graph0 [] []) = false.
Proof. vm_compute; repeat split. Qed.

(* ... and raised by the second poll of the shrinking list (RESIZED: table of 4, items_count 0) *)
Example monitor_catches_the_shrinking_list :
  run_odd ev_shrink [IBoot; IPoll] (isys_init specX graphX [] []) = false /\
  run_odd ev_shrink [IBoot; IPoll; IPoll] (isys_init specX graphX [] []) = true.
Proof. split; vm_compute; reflexivity. Qed.

(* the theorem applies: cancel with items in flight, the record is canceling (active) while item 1 is out *)
Example drain_instance :
  let s := isys_run ev_it [IBoot; IPoll; IRequest S_CANCELING; It "w" 0 S_SUCCEEDED] (isys_init spec1 graph1 [] []) in
  si_fault s = false /\ si_wiped s = false /\ In ("w", 0, Some 1) (si_inflight s) /\
  option_map r_status (ws_task_entry (c_ws (si_c s)) "w" 0) = Some (Some S_CANCELING).
Proof. vm_compute. repeat split; auto. Qed.

End C12cExamples.
