(* C02f -- C02, last sentence, the fail command, composed: a whole provider call whose satisfied transitions queue the
   engine command `fail` leaves the workflow failed -- or in the cancel class.  Property theorem only
   (proofs/FailCallProofs.v); it composes C02c_fail_command_call_fails with the two facts that theorem takes as hypotheses:
   - the workflow machine's step for the completing task does not make the workflow succeeded, because `fail` is a next
     task of it (the edge's decision is recorded true: C02_succeeded_only_when_all_done);
   - the (fail, route) the engine delivers has no record yet (a route opened by this call, or a first visit:
     cmds_unvisited). *)
From Coq Require Import String List Bool ZArith.
From Orq Require Import GenStatuses GenEvents GenTables Base State Machines Conductor Api F_tables
  RetryProofs FrozenProofs JustifiedProofs NoInternalProofs LateProofs FailProofs Late2Proofs FailCallProofs.
Import ListNotations.
Open Scope string_scope.

(* [F] for every evaluator (eval_no_internal): a provider's completion report EvAction st (st completed) for a plain
   task whose record is running / pausing / canceling and has no retry to spend, in a well-formed state (WF, static_ok)
   whose workflow is running, pausing, paused or resuming; the task's transitions have distinct (target, key) ids (true of
   every composed graph), `fail` is no join, and the commands on the task's own route are visited for the first time.
   "The call's transitions queue `fail`" is said with the call's own pieces: the queue that uts_queue returns after the
   call's prefix starts with ("fail", rt) -- `fail` is delivered first whenever the task has no edge to `continue`,
   the edges being followed in the order of their targets' names.  If the call returns, the workflow is FAILED, or
   CANCELING / CANCELED (possible only when the task's own event put it there: the task was reported canceled, or a
   cancellation was in progress among the other tasks). *)
Theorem C02f_queued_fail_fails_call : forall ev, eval_no_internal ev ->
  forall t route st res ts idx r s c c' c1 p c2 q rt,
  WF c -> static_ok (c_spec c) (c_graph c) -> in_progress (wstatus (c_ws c)) ->
  NoDup (map trid_of (g_next_transitions (c_graph c) t)) -> g_has_barrier (c_graph c) "fail" = false ->
  cmds_unvisited c t route ->
  is_engine_command t = false -> g_has_task (c_graph c) t = true ->
  spec_get_task (c_spec c) t = Some ts -> task_has_items ts = false ->
  ws_task_idx (c_ws c) t route = Some idx -> nth_error (sequence (c_ws c)) idx = Some r ->
  r_status r = Some s -> In s [S_RUNNING; S_PAUSING; S_CANCELING] ->
  status_in st COMPLETED_STATUSES = true -> no_retry_left r ->
  update_task_state ev t route (EvAction st res) c = (c', Val tt) ->
  uts_prefix ev t route (EvAction st res) c = (c1, Val p) ->
  uts_queue ev t route (po_idx p) (po_ts p) (po_old p) (po_new p) (po_compl p) c1 = (c2, Val (("fail", rt) :: q)) ->
  In (wstatus (c_ws c')) [S_FAILED; S_CANCELING; S_CANCELED].
Proof. exact queued_fail_fails_call. Qed.
Print Assumptions C02f_queued_fail_fails_call.

(* [F] the fact behind the first point: every command the queue holds comes from an edge of the task whose decision is
   recorded true in the state the queue is returned in *)
Theorem C02f_queue_records_true : forall ev t route idx ts o n compl c c' q,
  uts_queue ev t route idx ts o n compl c = (c', Val q) -> NoDup (map trid_of (g_next_transitions (c_graph c) t)) ->
  (exists r, nth_error (sequence (c_ws c)) idx = Some r) ->
  forall p, In p q ->
    exists e r', In e (g_next_transitions (c_graph c) t) /\ e_dst e = fst p /\ nth_error (sequence (c_ws c')) idx = Some r' /\
                 aget trid_eqb (trid_of e) (r_next r') = Some true.
Proof. exact queue_records_true. Qed.
Print Assumptions C02f_queue_records_true.

(* ------------------------------------------------------------------ example (the whole call, by computation) *)

Module C02fExamples.
Definition ev_toy (s : string) (ctx : dict) : evalres :=
  if String.eqb s "<% failed() %>" then EvOk (JBool true) else EvOk (JStr s).
Definition plain nxt : task_spec :=
  {| ts_action := JStr "core.noop"; ts_input := JDict []; ts_with := None; ts_delay := JNull; ts_join := JNull; ts_next := nxt |}.
Definition node n := {| n_id := n; n_barrier := JNull; n_splits := None; n_retry := JNull |}.
Definition act t st := OpEvent t 0 (EvAction st JNull).
Definition mk sp g : cstate :=
  {| c_spec := sp; c_graph := g; c_inputs := []; c_parent := []; c_init := false; c_ws := empty_ws;
     c_errors := []; c_log := []; c_output := None |}.
(* t1's failure is handled by `do: t2, fail` *)
Definition specB : wf_spec :=
  {| wf_input := []; wf_vars := []; wf_output := [];
     wf_tasks := [("t1", plain [{| tr_when := JStr "<% failed() %>"; tr_publish := []; tr_do := ["t2"; "fail"] |}]); ("t2", plain [])] |}.
Definition graphB : graph :=
  {| g_nodes := [node "t1"; node "t2"; node "fail"];
     g_edges := [{| e_src := "t1"; e_dst := "fail"; e_key := 0; e_ref := 0; e_criteria := [JStr "<% failed() %>"] |};
                 {| e_src := "t1"; e_dst := "t2"; e_key := 0; e_ref := 0; e_criteria := [JStr "<% failed() %>"] |}] |}.
Definition runningB := run_ops ev_toy [OpRequest S_RUNNING; OpGetNext; act "t1" S_RUNNING] (mk specB graphB).
(* the decidable hypotheses hold, the queue of the call starts with ("fail", 0), and the workflow ends failed *)
Example fail_is_queued_first_and_fails :
  WF_b runningB = true /\ static_ok_b specB graphB = true /\ g_has_barrier graphB "fail" = false /\
  map trid_of (g_next_transitions graphB "t1") = [("fail", 0); ("t2", 0)] /\
  cmd_edges_on_route runningB "t1" 0 = [{| e_src := "t1"; e_dst := "fail"; e_key := 0; e_ref := 0; e_criteria := [JStr "<% failed() %>"] |}] /\
  ws_task_idx (c_ws runningB) "fail" 0 = None /\
  (match uts_prefix ev_toy "t1" 0 (EvAction S_FAILED JNull) runningB with
   | (c1, Val p) => snd (uts_queue ev_toy "t1" 0 (po_idx p) (po_ts p) (po_old p) (po_new p) (po_compl p) c1)
   | _ => Val []
   end) = Val [("fail", 0)] /\
  snd (update_task_state ev_toy "t1" 0 (EvAction S_FAILED JNull) runningB) = Val tt /\
  wstatus (c_ws (fst (update_task_state ev_toy "t1" 0 (EvAction S_FAILED JNull) runningB))) = S_FAILED.
Proof. repeat (split; [vm_compute; reflexivity|]). vm_compute; reflexivity. Qed.
End C02fExamples.
