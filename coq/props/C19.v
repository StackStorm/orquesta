(* C19 -- Conducting is deterministic and asking for next tasks is a pure query.
   Property theorems only (proofs/C19Proofs.v). *)
From Coq Require Import String List Bool Sorted.
From Orq Require Import GenStatuses Base State Machines Conductor Api C19Proofs.
Import ListNotations.

(* Determinism proper is by construction: api_exec / run_ops are Gallina FUNCTIONS of the evaluator, the
   operation list and the state -- there is no hidden state, ordering of sets or address to depend on.
   What ties that to CPython (dict/set iteration order under different hash seeds) is the subprocess
   replay under several PYTHONHASHSEED values in harness/props/c19.py. *)

(* [F] stable order: whatever get_next_tasks returns, for every evaluator and state, is sorted by
   (task id, route) -- independent of the order in which entries were staged *)
Theorem C19_offers_sorted : forall ev c c' l, get_next_tasks ev c = (c', Val l) -> Sorted offer_le l.
Proof. exact offers_sorted. Qed.
Print Assumptions C19_offers_sorted.

(* [F] pure query where nothing may be offered: in pausing, paused, canceling, canceled and succeeded the
   call returns [] and the conductor state is EXACTLY the state before; asking again gives the same *)
Theorem C19_query_identity_when_held : forall ev c, c_init c = true ->
  In (wstatus (c_ws c)) [S_PAUSING; S_PAUSED; S_CANCELING; S_CANCELED; S_SUCCEEDED] ->
  get_next_tasks ev c = (c, Val []) /\
  (forall c1 r1, get_next_tasks ev c = (c1, r1) -> get_next_tasks ev c1 = (c1, r1)).
Proof. exact query_is_identity_when_nothing_to_offer. Qed.
Print Assumptions C19_query_identity_when_held.

(* Not in this file: idempotence of the query while running is props/C19b.v, for evaluators that do not read the
   conductor's bookkeeping (the first call may initialise the item list of a with-items task and may fail the
   workflow on a rendering error); also tested by the double-query monitor c19. *)
