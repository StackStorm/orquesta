(* C01b -- C01: the conductor asks the provider to run a task only if it is a start task
   or a completed predecessor's transition to it had its condition evaluate true.  Property theorems
   only; proofs are in proofs/JustifiedProofs.v.

   [Justified g c] (unfolded by C01b_justified_unfold): the graph of c is g; the pointer map names
   records of the right task; a record that is not completed has decided no transition; and every
   staged entry s and every record r carries a predecessor list in which every reference
   ((src, k), j) is a [witness]: record j exists, is a record of task src, is completed, has the
   transition (target, k) recorded TRUE in its r_next, and the graph has the edge src -> target with
   key k; an empty predecessor list occurs only for a start task (no inbound edge).  Engine commands
   are covered by the same statement: they are staged and recorded like tasks. *)
From Coq Require Import String List Bool.
From Orq Require Import GenStatuses GenEvents Base State Machines Conductor Api RetryProofs FrozenProofs JustifiedProofs.
Import ListNotations.
Open Scope string_scope.

Theorem C01b_justified_unfold : forall g c,
  Justified g c <->
  (c_graph c = g /\ ptr_ok (c_ws c) /\ open_ok (sequence (c_ws c)) /\
   (forall s, In s (staged (c_ws c)) -> jprev g (sequence (c_ws c)) (s_id s) (s_prev s)) /\
   (forall j r, nth_error (sequence (c_ws c)) j = Some r -> jprev g (sequence (c_ws c)) (r_id r) (r_prev r))).
Proof. exact justified_unfold. Qed.
Print Assumptions C01b_justified_unfold.

Theorem C01b_witness_unfold : forall g sq dst p,
  witness g sq dst p <->
  exists r', nth_error sq (snd p) = Some r' /\ r_id r' = fst (fst p) /\ decided r' /\
             aget trid_eqb (dst, snd (fst p)) (r_next r') = Some true /\
             exists e, In e (g_edges g) /\ e_src e = fst (fst p) /\ e_dst e = dst /\ e_key e = snd (fst p).
Proof. exact witness_unfold. Qed.
Print Assumptions C01b_witness_unfold.

(* [F] the state of a fresh conductor is justified *)
Theorem C01b_fresh_justified : forall sp g inputs parent, Justified g (fresh_state sp g inputs parent).
Proof. exact fresh_justified. Qed.
Print Assumptions C01b_fresh_justified.

(* [F] every API operation preserves the invariant -- every evaluator; status requests, polls,
   rendering, RERUNS (a rerun stages the task again, and gives it a new record, with the predecessor
   list of the record being rerun: the original justification) and persists need no hypothesis; an
   event must be [call_ok] in the state it is delivered in (unfolded below).  Also for calls that
   raise.  The graph hypothesis: the outgoing transitions of a task have distinct (target, key) ids
   (true of every composed graph; without it the invariant is false, last example). *)
Theorem C01b_api_justified : forall g ev, out_tids_unique g ->
  forall op c c' res, op_in_protocol ev c op -> api_exec ev op c = (c', res) ->
  Justified g c -> Justified g c'.
Proof. exact api_justified. Qed.
Print Assumptions C01b_api_justified.

Theorem C01b_history_justified : forall g ev, out_tids_unique g ->
  forall ops c, hist_in_protocol ev ops c -> Justified g c -> Justified g (run_ops ev ops c).
Proof. exact history_justified. Qed.
Print Assumptions C01b_history_justified.

(* [F] from a fresh conductor: every reachable state is justified, and every offer of
   get_next_tasks in it is a staged entry whose predecessor list is justified in that sense *)
Theorem C01b_reachable_justified : forall ev sp g inputs parent ops, out_tids_unique g ->
  hist_in_protocol ev ops (fresh_state sp g inputs parent) ->
  Justified g (run_ops ev ops (fresh_state sp g inputs parent)).
Proof. exact reachable_justified. Qed.
Print Assumptions C01b_reachable_justified.

Theorem C01b_reachable_offers_justified : forall ev sp g inputs parent ops c' l, out_tids_unique g ->
  hist_in_protocol ev ops (fresh_state sp g inputs parent) ->
  c_init (run_ops ev ops (fresh_state sp g inputs parent)) = true ->
  get_next_tasks ev (run_ops ev ops (fresh_state sp g inputs parent)) = (c', Val l) ->
  forall o, In o l ->
    exists s, In s (staged (c_ws (run_ops ev ops (fresh_state sp g inputs parent)))) /\
              o_id o = s_id s /\ o_route o = s_route s /\ s_ready s = true /\ s_completed s = false /\
              jprev g (sequence (c_ws (run_ops ev ops (fresh_state sp g inputs parent)))) (o_id o) (s_prev s).
Proof. exact reachable_offers_justified. Qed.
Print Assumptions C01b_reachable_offers_justified.

(* the per-event hypothesis: the task is an engine command; or (after the lazy creation of the
   workflow state) the record the (task, route) pointer names has decided no transition; or, on an
   initialised conductor, IF that record is completed and has decided transitions THEN the event is
   a new start of the task (staged again, not flagged completed) or is not the internal retry event
   and finds no retry left.  Every event of the reference provider qualifies (a report addresses a
   record that is still active, hence has decided nothing). *)
Theorem C01b_call_ok_unfold : forall ev c t route evt,
  call_ok ev c t route evt <->
  (is_engine_command t = true \/
   (forall c1 u i r, ensure_ws ev c = (c1, u) -> ws_task_idx (c_ws c1) t route = Some i ->
      nth_error (sequence (c_ws c1)) i = Some r -> r_next r = []) \/
   (c_init c = true /\
    forall i r, ws_task_idx (c_ws c) t route = Some i -> nth_error (sequence (c_ws c)) i = Some r ->
      decided r -> r_next r <> [] ->
      (status_in (ev_status evt) STARTING_STATUSES = true /\
       exists s, get_staged_task (c_ws c) t route = Some s /\ s_completed s = false) \/
      (is_retry_event evt = false /\ ~ retry_open r))).
Proof. exact call_ok_unfold. Qed.
Print Assumptions C01b_call_ok_unfold.

(* [F] the usual case: on a justified, initialised state an event whose (task, route) pointer names no
   record, or a record that is not completed, is call_ok *)
Theorem C01b_call_ok_open_target : forall ev g c t route evt, c_init c = true -> Justified g c ->
  (forall i r, ws_task_idx (c_ws c) t route = Some i -> nth_error (sequence (c_ws c)) i = Some r -> ~ decided r) ->
  call_ok ev c t route evt.
Proof. exact call_ok_open_target. Qed.
Print Assumptions C01b_call_ok_open_target.

(* [F] Because the retry of a completed task is evaluated only when the report changed its status (D33), the protocol
   clause needs no "no retry left".  From a fresh conductor, every state reached by API calls among which nobody
   injects the engine's internal retry event is justified -- late, duplicate and malformed reports, reruns and
   persists included *)
Theorem C01b_reachable_justified_always : forall ev sp g inputs parent ops, out_tids_unique g ->
  forallb op_no_retry ops = true -> Justified g (run_ops ev ops (fresh_state sp g inputs parent)).
Proof. exact reachable_justified_always. Qed.
Print Assumptions C01b_reachable_justified_always.

(* [F] one call, general form (call_ok_w: as call_ok, without the demand on the retries left) *)
Theorem C01b_api_justified_always : forall g ev, out_tids_unique g ->
  forall op c c' res, op_in_protocol_w ev c op -> api_exec ev op c = (c', res) ->
  Justified g c -> Justified g c'.
Proof. exact api_justified_w. Qed.
Print Assumptions C01b_api_justified_always.
Theorem C01b_call_ok_w_unfold : forall ev c t route evt,
  call_ok_w ev c t route evt <->
  (is_engine_command t = true \/
   (forall c1 u i r, ensure_ws ev c = (c1, u) -> ws_task_idx (c_ws c1) t route = Some i ->
      nth_error (sequence (c_ws c1)) i = Some r -> r_next r = []) \/
   (c_init c = true /\
    forall i r, ws_task_idx (c_ws c) t route = Some i -> nth_error (sequence (c_ws c)) i = Some r ->
      decided r -> r_next r <> [] ->
      (status_in (ev_status evt) STARTING_STATUSES = true /\
       exists s, get_staged_task (c_ws c) t route = Some s /\ s_completed s = false) \/
      is_retry_event evt = false)).
Proof. exact call_ok_w_unfold. Qed.
Print Assumptions C01b_call_ok_w_unfold.

(* A duplicate completion report of a decided record with retries left (definition and operation list of
   C18b_decided_record_kept_with_retries_left) is absorbed, because the retry of a completed task is evaluated only
   when the report changed its status (D33): the invariant holds of the result although the history is outside the
   hypothesis (call_ok).  Without D33 the report reopened the record and rewrote its decision to false, leaving t2
   staged with a reference to a transition recorded false. *)
Theorem C01b_justified_kept_by_duplicate_report :
  Justified (w_graph w_retry)
      (run_ops ev_w (w_ops1 ++ w_late :: w_ops3) (fresh_state w_spec (w_graph w_retry) [] [])).
Proof. exact justified_kept_by_duplicate_report. Qed.
Print Assumptions C01b_justified_kept_by_duplicate_report.

(* ---- "recorded satisfied" = "the condition evaluated true" ---- *)

(* process_transition is: evaluate the criteria and record the decision (pt_step1), then act on
   the decision (pt_cont) *)
Theorem C01b_transition_two_steps : forall ev t route idx ts ctx e,
  process_transition ev t route idx ts ctx e = bind (pt_step1 ev t route idx ctx e) (pt_cont ev t route idx ts ctx e).
Proof. exact pt_eq. Qed.
Print Assumptions C01b_transition_two_steps.

(* [F] the value recorded for the transition is exactly the conjunction of the truthiness of the
   edge's criteria, each evaluated -- without error -- by the evaluator on the context handed to
   process_transition *)
Theorem C01b_decision_recorded_is_criteria : forall ev t route idx ctx e c c1 b,
  pt_step1 ev t route idx ctx e c = (c1, Val (Some b)) ->
  exists vs, mapM (fun cr => evaluate ev cr ctx) (e_criteria e) c = (c, Val vs) /\ b = forallb truthy vs /\
    forall r, nth_error (sequence (c_ws c)) idx = Some r ->
      nth_error (sequence (c_ws c1)) idx = Some (r_set_next r (aset trid_eqb (e_dst e, e_key e) b (r_next r))).
Proof. exact decision_recorded_is_criteria. Qed.
Print Assumptions C01b_decision_recorded_is_criteria.

(* [F] and nothing is staged for it unless that value is true *)
Theorem C01b_no_reference_unless_true : forall ev t route idx ts ctx e ok, ok <> Some true ->
  pt_cont ev t route idx ts ctx e ok = ret (None, None).
Proof. exact no_reference_unless_true. Qed.
Print Assumptions C01b_no_reference_unless_true.

(* [F] that context is the one the completion step of update_task_state builds: the inbound
   context of the completed record, __current_task = {id, route, result reported by the event},
   __state = the serialized workflow state of that moment (holding the record's actual status) *)
Theorem C01b_completion_ctx_shape : forall ev t route evt ts idx new old c c' cx b,
  uts_completion ev t route evt ts idx new old c = (c', Val (Some (cx, b))) ->
  exists c1 r in_ctx result,
    nth_error (sequence (c_ws c1)) idx = Some r /\
    get_task_context (r_in r) c1 = (c1, Val in_ctx) /\
    result = (if negb (task_has_items ts) then ev_result evt
              else match evt with
                   | EvItem _ _ _ acc => if truthy acc then acc else JList []
                   | _ => if truthy (ev_result evt) then ev_result evt else JList []
                   end) /\
    cx = merge_dicts (dset "__current_task" (current_task_json (r_id r) (r_route r) (Some result)) in_ctx)
                     (state_ctx (c_ws c1)).
Proof. exact completion_ctx_shape. Qed.
Print Assumptions C01b_completion_ctx_shape.

(* [F] no other API operation writes a decision: outside update_task_state the r_next (and r_out)
   of every record is left as it is (inside it, only process_transition writes them:
   FrozenProofs.pno_prefix and the retry theorems of C18b) *)
Theorem C01b_next_untouched_outside_update_task_state : forall ev op,
  match op with OpEvent _ _ _ => False | _ => True end -> Hoare.preserves Rnx (api_exec ev op).
Proof. exact next_untouched_outside_update_task_state. Qed.
Print Assumptions C01b_next_untouched_outside_update_task_state.

(* ---- non-vacuity ---- *)

Example C01b_w_protocol_history_justified :
  Justified (w_graph w_retry) (run_ops ev_w w_ops1 (fresh_state w_spec (w_graph w_retry) [] [])).
Proof. exact w_protocol_history_justified. Qed.

Example C01b_w_protocol_history_offers_t2 :
  match get_next_tasks ev_w (run_ops ev_w w_ops1 (fresh_state w_spec (w_graph w_retry) [] [])) with
  | (_, Val l) => map o_id l
  | _ => []
  end = ["t2"].
Proof. exact w_protocol_history_offers_t2. Qed.

Example C01b_w_graph_tids_unique : out_tids_unique (w_graph w_retry).
Proof. exact w_graph_tids_unique. Qed.

(* the graph hypothesis is needed: two parallel edges with the same key (not producible by the
   composer) let the second decision overwrite the first after the target was staged *)
Example C01b_justified_needs_unique_transition_ids :
  ~ Justified w_graph_dup (run_ops ev_w w_ops1 (fresh_state w_spec w_graph_dup [] [])).
Proof. exact justified_needs_unique_transition_ids. Qed.
