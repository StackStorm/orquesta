(* C04d -- C04, late completion reports: the two scope restrictions of C04c lifted.
   (1) the late task's transitions may lead to engine commands; (2) with-items tasks: the completion report of an item
   that is still out.  Property theorems only (proofs/LateProofs.v, proofs/Late2Proofs.v).  Setting and notions as in C04c:
   the workflow is failed, canceled or succeeded (done); ev_expr, eval_no_internal, WF, static_ok; fail_refused is the one exception
   (an expression failure of a transition in a CANCELED workflow).  New, all decidable:
   - cmd_targets_known c t: the engine commands the task's edges lead to are nodes of the graph (true of composed graphs);
   - cmd_routes_distinct c t route (C15b);
   - cmds_unvisited c t route: the commands reached on the task's own route have no record yet. *)
From Coq Require Import String List Bool ZArith.
From Orq Require Import GenStatuses GenEvents GenTables Base State Machines Conductor Api F_tables
  RetryProofs NoInternalProofs LateProofs Late2Proofs.
Import ListNotations.
Open Scope string_scope.

(* ------------------------------------------------------------------ (1) engine commands *)

(* [F] what an engine command does when the engine delivers it to a workflow that is done (the command is staged, has
   no record yet, is startable and a node of the graph): the call returns, a record is appended for it with the
   command's status -- succeeded for noop and continue, failed for fail --, no other record and no other pointer
   changes, and the WORKFLOW STATUS DOES NOT MOVE: in particular `fail` delivered to a succeeded workflow leaves it
   succeeded (a task event never moves a done workflow, C04c_task_event_when_done) *)
Theorem C04d_command_on_done_workflow : forall ev fuel n rt e sf c,
  WF c -> static_ok (c_spec c) (c_graph c) -> done c ->
  is_engine_command n = true -> engine_event n = Some e -> cmd_startable n -> g_has_task (c_graph c) n = true ->
  get_staged_task (c_ws c) n rt = Some sf -> ws_task_idx (c_ws c) n rt = None ->
  exists c', update_task_state_fuel ev (S fuel) n rt e c = (c', Val tt) /\
    wstatus (c_ws c') = wstatus (c_ws c) /\
    (forall j, j < length (sequence (c_ws c)) -> nth_error (sequence (c_ws c')) j = nth_error (sequence (c_ws c)) j) /\
    (forall k, k <> (n, rt) -> aget tkey_eqb k (tasks (c_ws c')) = aget tkey_eqb k (tasks (c_ws c))) /\
    (exists rn s, nth_error (sequence (c_ws c')) (length (sequence (c_ws c))) = Some rn /\ r_id rn = n /\ r_route rn = rt /\
                  r_status rn = Some s /\ In s [S_SUCCEEDED; S_FAILED]).
Proof. exact cmd_call_done. Qed.
Print Assumptions C04d_command_on_done_workflow.

(* [F] C04c_late_report_absorbed without the restriction on the task's transitions *)
Theorem C04d_late_report_absorbed : forall ev, eval_no_internal ev -> ev_expr ev ->
  forall t route st res ts idx r s c c' r',
  WF c -> static_ok (c_spec c) (c_graph c) -> done c ->
  is_engine_command t = false -> g_has_task (c_graph c) t = true ->
  spec_get_task (c_spec c) t = Some ts -> task_has_items ts = false ->
  cmd_targets_known c t -> cmd_routes_distinct c t route -> cmds_unvisited c t route ->
  ws_task_idx (c_ws c) t route = Some idx -> nth_error (sequence (c_ws c)) idx = Some r ->
  r_status r = Some s -> In s [S_RUNNING; S_PAUSING; S_CANCELING] -> status_in st COMPLETED_STATUSES = true ->
  update_task_state ev t route (EvAction st res) c = (c', r') ->
  (r' = Val tt \/ (wstatus (c_ws c') = S_CANCELED /\ r' = Exc fail_refused)) /\
  WF c' /\
  (wstatus (c_ws c') = wstatus (c_ws c) \/ (wstatus (c_ws c) = S_SUCCEEDED /\ wstatus (c_ws c') = S_FAILED)) /\
  (exists r1, nth_error (sequence (c_ws c')) idx = Some r1 /\ r_status r1 = Some (reported st)).
Proof. exact (fun ev Hev Hexpr => late_report_absorbed_gen ev Hexpr Hev). Qed.
Print Assumptions C04d_late_report_absorbed.

Theorem C04d_cmd_targets_known_unfold : forall c t,
  cmd_targets_known c t <->
  forall e, In e (g_next_transitions (c_graph c) t) -> is_engine_command (e_dst e) = true -> g_has_task (c_graph c) (e_dst e) = true.
Proof. intros; split; intro H; exact H. Qed.
Theorem C04d_cmds_unvisited_unfold : forall c t route,
  cmds_unvisited c t route <->
  forall e, In e (cmd_edges_on_route c t route) -> ws_task_idx (c_ws c) (e_dst e) route = None.
Proof. intros; split; intro H; exact H. Qed.
Print Assumptions C04d_cmd_targets_known_unfold.
Print Assumptions C04d_cmds_unvisited_unfold.

(* ------------------------------------------------------------------ (2) with-items tasks *)

(* [F] the completion report EvItem i st of an item of a with-items task that is staged with its items table (its), in
   a done workflow, the record not completed.  The hypothesis on the task machine: it accepts the report -- with
   the item's status written into the table (items_written) -- and answers ns (None: no change), and the resulting
   status is none of retrying / timeout / abandoned / unset (see the two corollaries for the answers).  Then: absorbed
   as in (1); the record has the status the machine answered; and while the task is not completed by the report the
   call returns normally and the staged list is exactly the old one with the item's status written in. *)
Theorem C04d_late_item_report_absorbed : forall ev, eval_no_internal ev -> ev_expr ev ->
  forall t route i st res acc ts sI its idx r s ns c c' r',
  WF c -> static_ok (c_spec c) (c_graph c) -> done c ->
  is_engine_command t = false -> g_has_task (c_graph c) t = true ->
  spec_get_task (c_spec c) t = Some ts -> task_has_items ts = true ->
  get_staged_task (c_ws c) t route = Some sI -> s_items sI = Some its -> i < length its ->
  ws_task_idx (c_ws c) t route = Some idx -> nth_error (sequence (c_ws c)) idx = Some r ->
  r_status r = Some s -> status_in s COMPLETED_STATUSES = false ->
  task_process_event (items_written (c_ws c) t route i st) r (EvItem i st res acc) = Val ns ->
  ~ In (rstatus (stepped r ns)) [S_RETRYING; S_EXPIRED; S_ABANDONED; S_UNSET] ->
  cmd_targets_known c t -> cmd_routes_distinct c t route -> cmds_unvisited c t route ->
  update_task_state ev t route (EvItem i st res acc) c = (c', r') ->
  (r' = Val tt \/ (wstatus (c_ws c') = S_CANCELED /\ r' = Exc fail_refused)) /\
  WF c' /\
  (wstatus (c_ws c') = wstatus (c_ws c) \/ (wstatus (c_ws c) = S_SUCCEEDED /\ wstatus (c_ws c') = S_FAILED)) /\
  (exists r1, nth_error (sequence (c_ws c')) idx = Some r1 /\ r_status r1 = Some (rstatus (stepped r ns))) /\
  (status_in (rstatus (stepped r ns)) COMPLETED_STATUSES = false ->
     r' = Val tt /\ staged (c_ws c') = staged (items_written (c_ws c) t route i st)).
Proof. exact late_item_report_absorbed. Qed.
Print Assumptions C04d_late_item_report_absorbed.

Theorem C04d_items_written_unfold : forall w t route i st,
  items_written w t route i st =
  ws_set_staged w (staged_update (fun e => s_set_items e (match s_items e with Some l => Some (list_set_nth i st l) | None => None end))
                                 t route (staged w)).
Proof. reflexivity. Qed.
Print Assumptions C04d_items_written_unfold.

(* [F] the machine's answers: the task completes when the LAST item reports (every other item succeeded) ... *)
Theorem C04d_last_item_completes : forall w t route i res acc sI its r s,
  get_staged_task w t route = Some sI -> s_items sI = Some its -> i < length its ->
  r_id r = t -> r_route r = route -> r_status r = Some s -> In s [S_RUNNING; S_PAUSING; S_CANCELING] ->
  forallb (fun x => status_eqb x S_SUCCEEDED) (list_del_nth i its) = true ->
  task_process_event (items_written w t route i S_SUCCEEDED) r (EvItem i S_SUCCEEDED res acc) = Val (Some S_SUCCEEDED).
Proof. exact last_item_completes. Qed.
(* ... and a running task stays running while another item is active *)
Theorem C04d_item_with_others_out : forall w t route i res acc sI its r,
  get_staged_task w t route = Some sI -> s_items sI = Some its -> i < length its ->
  r_id r = t -> r_route r = route -> r_status r = Some S_RUNNING ->
  existsb (fun x => status_in x ACTIVE_STATUSES) (list_del_nth i its) = true ->
  task_process_event (items_written w t route i S_SUCCEEDED) r (EvItem i S_SUCCEEDED res acc) = Val (Some S_RUNNING).
Proof. exact item_with_others_out. Qed.
Print Assumptions C04d_last_item_completes.
Print Assumptions C04d_item_with_others_out.

(* ------------------------------------------------------------------ examples *)

Module C04dExamples.

Definition ev_toy (s : string) (ctx : dict) : evalres :=
  if String.eqb s "<% ctx().xs %>" then EvOk (JList [JStr "p"; JStr "q"])
  else if String.eqb s "<% succeeded() %>" then EvOk (JBool true) else EvOk (JStr s).
Definition plain nxt : task_spec :=
  {| ts_action := JStr "core.noop"; ts_input := JDict []; ts_with := None; ts_delay := JNull; ts_join := JNull; ts_next := nxt |}.
Definition items nxt : task_spec :=
  {| ts_action := JStr "core.echo"; ts_input := JDict [];
     ts_with := Some {| it_expr := "<% ctx().xs %>"; it_keys := None; it_concurrency := JNull |};
     ts_delay := JNull; ts_join := JNull; ts_next := nxt |}.
Definition node n := {| n_id := n; n_barrier := JNull; n_splits := None; n_retry := JNull |}.
Definition act t st := OpEvent t 0 (EvAction st JNull).
Definition it t i st := OpEvent t 0 (EvItem i st JNull (JList [])).
Definition mk sp g : cstate :=
  {| c_spec := sp; c_graph := g; c_inputs := []; c_parent := []; c_init := false; c_ws := empty_ws;
     c_errors := []; c_log := []; c_output := None |}.
Definition view (c : cstate) :=
  (wstatus (c_ws c), map (fun r => (r_id r, r_route r, r_status r)) (sequence (c_ws c)),
   map (fun s => (s_id s, s_items s)) (staged (c_ws c))).

(* (1) a and b start together; b's one transition does noop and fail.  a fails (the workflow is failed, b running);
   b succeeds late: both commands get their records, the workflow stays failed, no error *)
Definition spec1 : wf_spec := {| wf_input := []; wf_vars := []; wf_output := [];
  wf_tasks := [("a", plain []); ("b", plain [{| tr_when := JStr "<% succeeded() %>"; tr_publish := []; tr_do := ["noop"; "fail"] |}])] |}.
Definition graph1 : graph := {| g_nodes := [node "a"; node "b"; node "noop"; node "fail"];
  g_edges := [{| e_src := "b"; e_dst := "fail"; e_key := 0; e_ref := 0; e_criteria := [JStr "<% succeeded() %>"] |};
              {| e_src := "b"; e_dst := "noop"; e_key := 0; e_ref := 0; e_criteria := [JStr "<% succeeded() %>"] |}] |}.
Definition h1 := [OpRequest S_RUNNING; OpGetNext; act "a" S_RUNNING; act "b" S_RUNNING; act "a" S_FAILED].
Definition failed1 := run_ops ev_toy h1 (mk spec1 graph1).
Example late_task_with_commands :
  view failed1 = (S_FAILED, [("a", 0, Some S_FAILED); ("b", 0, Some S_RUNNING)], []) /\
  WF_b failed1 = true /\ static_ok_b spec1 graph1 = true /\ cmd_routes_distinct_b failed1 "b" 0 = true /\
  snd (api_exec ev_toy (act "b" S_SUCCEEDED) failed1) = Val RUnit /\
  view (fst (api_exec ev_toy (act "b" S_SUCCEEDED) failed1))
  = (S_FAILED, [("a", 0, Some S_FAILED); ("b", 0, Some S_SUCCEEDED); ("fail", 0, Some S_FAILED); ("noop", 0, Some S_SUCCEEDED)], []).
Proof. repeat (split; [vm_compute; reflexivity|]). vm_compute; reflexivity. Qed.
(* `fail` delivered to a succeeded workflow (hand-made: the status of the state above overwritten by [force], the same function as
   PauseCommuteProofs.so) leaves it succeeded *)
Definition force (st : status) (c : cstate) := set_ws c (ws_set_status (c_ws c) st).
Example fail_on_a_succeeded_workflow :
  view (fst (api_exec ev_toy (act "b" S_SUCCEEDED) (force S_SUCCEEDED failed1)))
  = (S_SUCCEEDED, [("a", 0, Some S_FAILED); ("b", 0, Some S_SUCCEEDED); ("fail", 0, Some S_FAILED); ("noop", 0, Some S_SUCCEEDED)], []).
Proof. vm_compute; reflexivity. Qed.

(* (2) a plain task and w with two items start together; a fails while both items are out.  Item 0 reports: absorbed,
   its status is in the table, w stays running; item 1 reports last: w succeeds and leaves the staged list; the
   workflow stays failed *)
Definition spec2 : wf_spec := {| wf_input := []; wf_vars := []; wf_output := []; wf_tasks := [("a", plain []); ("w", items [])] |}.
Definition graph2 : graph := {| g_nodes := [node "a"; node "w"]; g_edges := [] |}.
Definition h2 := [OpRequest S_RUNNING; OpGetNext; act "a" S_RUNNING; it "w" 0 S_RUNNING; it "w" 1 S_RUNNING; act "a" S_FAILED].
Definition failed2 := run_ops ev_toy h2 (mk spec2 graph2).
Example late_item_reports :
  view failed2 = (S_FAILED, [("a", 0, Some S_FAILED); ("w", 0, Some S_RUNNING)], [("w", Some [S_RUNNING; S_RUNNING])]) /\
  WF_b failed2 = true /\
  snd (api_exec ev_toy (it "w" 0 S_SUCCEEDED) failed2) = Val RUnit /\
  view (run_ops ev_toy [it "w" 0 S_SUCCEEDED] failed2)
  = (S_FAILED, [("a", 0, Some S_FAILED); ("w", 0, Some S_RUNNING)], [("w", Some [S_SUCCEEDED; S_RUNNING])]) /\
  snd (api_exec ev_toy (it "w" 1 S_SUCCEEDED) (run_ops ev_toy [it "w" 0 S_SUCCEEDED] failed2)) = Val RUnit /\
  view (run_ops ev_toy [it "w" 0 S_SUCCEEDED; it "w" 1 S_SUCCEEDED] failed2)
  = (S_FAILED, [("a", 0, Some S_FAILED); ("w", 0, Some S_SUCCEEDED)], []).
Proof. repeat (split; [vm_compute; reflexivity|]). vm_compute; reflexivity. Qed.

End C04dExamples.
