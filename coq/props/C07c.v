(* C07c -- the "ready" flag of a staged entry and the route it is computed on.
   process_transition (conducting.py, update_task_state, the task-transition loop) stages the next task under the
   NEXT route (_evaluate_route) but computes its "ready" flag from get_inbound_criteria_status(next_task, route) with the
   route of the SOURCE task ("Must use the original route to identify the inbound task transitions").  Question: can
   the flag be wrong because the two routes differ -- an entry that should be ready not offered, a workflow stuck?
   ANSWER: no.  [C07c_ready_flag_on_a_new_route]: whenever the transition loop stages an entry on a route other than the
   source's, the next task is a split task outside every cycle, and the flag it computes is TRUE -- which is what a
   split task needs (it has no join: one followed inbound transition starts it).  When the routes are the same there is
   nothing to compare.  Using the source's route is in fact necessary: the records of the inbound tasks live on the
   source's route, on the next (just created) route there is none, and the same computation on the next route would
   give "not satisfied" (Example [on_the_next_route_nothing_is_satisfied]).
   Hypotheses: the call returns; the pointer of (task, route) is the record index the loop was given, the edge is an
   outgoing edge of the task (both hold at every call of the loop inside update_task_state: [C07c_loop_hypotheses]);
   split tasks have no barrier in the graph ([split_no_barrier], a boolean check: the composer sets a barrier for join
   tasks only and a split task is by definition not a join -- checked on the composed graphs of the examples).
   The retrying-record-at-succeeded gap of C02b_succeeded_partial is therefore NOT caused by the route: a re-staged
   retrying entry can lose its ready flag only through a later transition into the same (task, route) of a JOIN task
   whose other inbound tasks were started again in a cycle (the criteria are then evaluated on their newest records).
   Proofs: proofs/RouteReadyProofs.v. *)
From Coq Require Import String List Bool ZArith Arith.
From Orq Require Import GenStatuses GenTables Base State Machines Conductor Api Driver ProviderSys ProviderSysItems Composer.
From Orq Require Import RouteReadyProofs.
Import ListNotations.
Open Scope string_scope.

(* [F] one iteration of the transition loop: nothing staged, or the entry of (next task, nr) is staged afterwards; if nr is
   not the source's route the next task is a split task outside every cycle and the entry is ready; a ready entry is
   what the iteration returns (queued if an engine command, else recorded as ready) *)
Theorem C07c_ready_flag_on_a_new_route : forall ev t route idx ts ctx e c c' res,
  process_transition ev t route idx ts ctx e c = (c', Val res) ->
  split_no_barrier (c_spec c) (c_graph c) = true ->
  ws_task_idx (c_ws c) t route = Some idx -> In e (g_edges (c_graph c)) -> e_src e = t ->
  staged (c_ws c') = staged (c_ws c) \/
  exists nr s, get_staged_task (c_ws c') (e_dst e) nr = Some s /\
    (nr <> route -> spec_is_split_task (c_spec c) (e_dst e) = true /\ g_in_cycle (c_graph c) (e_dst e) = false /\
                    s_ready s = true) /\
    (s_ready s = true -> res = (if is_engine_command (e_dst e) then (Some (e_dst e, nr), None) else (None, Some (e_dst e, nr)))).
Proof. exact split_route_ready. Qed.
Print Assumptions C07c_ready_flag_on_a_new_route.

(* [F] the hypotheses at every iteration: the loop runs over g_next_transitions, whose elements are edges of the graph
   leaving the task; an iteration moves neither the pointer of (task, route), nor the graph, nor the definition *)
Theorem C07c_loop_hypotheses : forall ev t route idx ts ctx e c c' res,
  (forall g e0, In e0 (g_next_transitions g t) -> In e0 (g_edges g) /\ e_src e0 = t) /\
  (process_transition ev t route idx ts ctx e c = (c', Val res) ->
   ws_task_idx (c_ws c') t route = ws_task_idx (c_ws c) t route /\ c_graph c' = c_graph c /\ c_spec c' = c_spec c).
Proof.
  intros. split; [intros g e0; apply StateFacts.In_next_transitions|apply transition_keeps_hyps].
Qed.
Print Assumptions C07c_loop_hypotheses.

(* [F] the fact underneath: for a task without barrier, one inbound transition recorded as followed by its source's record
   on the route satisfies the inbound criteria on that route *)
Theorem C07c_one_followed_transition_is_enough : forall g w nt route e r,
  g_barrier g nt = JNull -> In e (g_edges g) -> e_dst e = nt ->
  ws_task_entry w (e_src e) route = Some r -> aget trid_eqb (nt, e_key e) (r_next r) = Some true ->
  get_inbound_criteria_status g w nt route = InbSatisfied.
Proof. exact split_inbound_satisfied. Qed.
Print Assumptions C07c_one_followed_transition_is_enough.

(* ------------------------------------------------------------------ non-vacuity *)
Module C07cExamples.

Definition ev_lit (s : string) (ctx : dict) : evalres := EvOk (JStr s).
Definition mk_task (next : list transition_spec) : task_spec :=
  {| ts_action := JStr "core.noop"; ts_input := JDict []; ts_with := None; ts_delay := JNull; ts_join := JNull; ts_next := next |}.
Definition tr (d : list string) := {| tr_when := JNull; tr_publish := []; tr_do := d |}.
Definition nd (n : string) := {| n_id := n; n_barrier := JNull; n_splits := None; n_retry := JNull |}.
Definition ed (s d : string) := {| e_src := s; e_dst := d; e_key := 0; e_ref := 0; e_criteria := [] |}.

(* a: { next: [ {do: [b, c]} ] }   b: { next: [ {do: [d]} ] }   c: { next: [ {do: [d]} ] }   d: {}      (d is a split task) *)
Definition spec_split : wf_spec := {| wf_input := []; wf_vars := []; wf_output := [];
  wf_tasks := [("a", mk_task [tr ["b"; "c"]]); ("b", mk_task [tr ["d"]]); ("c", mk_task [tr ["d"]]); ("d", mk_task [])] |}.
Definition graph_split : graph :=
  {| g_nodes := [{| n_id := "a"; n_barrier := JNull; n_splits := None; n_retry := JNull |};
                 {| n_id := "b"; n_barrier := JNull; n_splits := None; n_retry := JNull |};
                 {| n_id := "c"; n_barrier := JNull; n_splits := None; n_retry := JNull |};
                 {| n_id := "d"; n_barrier := JNull; n_splits := Some ["d"]; n_retry := JNull |}];
     g_edges := [ed "a" "b"; ed "a" "c"; ed "b" "d"; ed "c" "d"] |}.

Example graph_split_is_composed : compose spec_split [] 100 = Val graph_split /\ split_no_barrier spec_split graph_split = true.
Proof. split; vm_compute; reflexivity. Qed.

Definition view (s : isys) :=
  (si_inflight s, si_fault s,
   map (fun r => (r_id r, r_route r, r_status r)) (sequence (c_ws (si_c s))),
   map (fun x => (s_id x, s_route x, s_ready x)) (staged (c_ws (si_c s))), routes (c_ws (si_c s))).
Definition run ops := view (isys_run ev_lit ops (isys_init spec_split graph_split [] [])).
Definition Pl t st := IReport t 0 None st JNull.

(* b (route 0) transitions into the split task d: the entry is staged under the new route 1, and it is ready *)
Example split_entry_staged_on_a_new_route_and_ready :
  run [IBoot; IPoll; Pl "a" S_SUCCEEDED; IPoll; Pl "b" S_SUCCEEDED]
  = ([("c", 0, None)], false,
     [("a", 0, Some S_SUCCEEDED); ("b", 0, Some S_SUCCEEDED); ("c", 0, Some S_RUNNING)],
     [("d", 1, true)], [[]; [("b", 0)]]).
Proof. vm_compute; reflexivity. Qed.

(* ... and both executions of d (routes 1 and 2) are offered and start *)
Example both_routes_offered :
  run [IBoot; IPoll; Pl "a" S_SUCCEEDED; IPoll; Pl "b" S_SUCCEEDED; Pl "c" S_SUCCEEDED; IPoll]
  = ([("d", 1, None); ("d", 2, None)], false,
     [("a", 0, Some S_SUCCEEDED); ("b", 0, Some S_SUCCEEDED); ("c", 0, Some S_SUCCEEDED);
      ("d", 1, Some S_RUNNING); ("d", 2, Some S_RUNNING)], [], [[]; [("b", 0)]; [("c", 0)]]).
Proof. vm_compute; reflexivity. Qed.

(* the same criteria evaluated on the NEXT route find no record of an inbound task: with the next route the entry would
   never be ready *)
Example on_the_next_route_nothing_is_satisfied :
  let s := isys_run ev_lit [IBoot; IPoll; Pl "a" S_SUCCEEDED; IPoll; Pl "b" S_SUCCEEDED] (isys_init spec_split graph_split [] []) in
  get_inbound_criteria_status graph_split (c_ws (si_c s)) "d" 0 = InbSatisfied /\
  get_inbound_criteria_status graph_split (c_ws (si_c s)) "d" 1 <> InbSatisfied.
Proof. split; vm_compute; [reflexivity|discriminate]. Qed.

End C07cExamples.
