(* C18 -- Execution history is append-only: records are only added, and the identity of a record (id, route,
   inbound contexts, predecessors) never changes.  That a decided record keeps its status and decisions is C18b.
   Property theorems only; proofs are in proofs/C18Proofs.v. *)
From Coq Require Import String List Bool.
From Orq Require Import GenStatuses Base State Machines Conductor Api C18Proofs.
Import ListNotations.

(* [F] for every expression evaluator, every state and every history of API calls (status requests,
   next-task queries, provider events -- conformant or not --, output rendering, reruns; the
   persist round trip is the subject of C05): the context snapshots and the routes of the state
   before are a prefix of those after, no task execution record is removed or moved, and the id,
   route, inbound context list and predecessor references of every existing record are unchanged.
   Holds also for calls that raise (R18 relates the state before to the state the exception left). *)
Theorem C18_append_only : forall ev ops c,
  forallb (fun op => negb (is_persist op)) ops = true -> R18 c (run_ops ev ops c).
Proof. exact history_append_only. Qed.
Print Assumptions C18_append_only.

(* one API call, including the state left behind by a call that raises *)
Theorem C18_append_only_step : forall ev op c c' r,
  is_persist op = false -> api_exec ev op c = (c', r) -> R18 c c'.
Proof. intros ev op c c' r H E. exact (api_exec_append_only ev op H c c' r E). Qed.
Print Assumptions C18_append_only_step.

(* non-vacuity: R18 really constrains -- it rejects dropping a record or changing its context list *)
Example C18_rejects_rewrite :
  let r := {| r_id := "a"; r_route := 0; r_in := [0]; r_out := None; r_prev := []; r_next := [];
              r_status := Some S_RUNNING; r_term := false; r_retry := None |} in
  let r' := {| r_id := "a"; r_route := 0; r_in := [0; 1]; r_out := None; r_prev := []; r_next := [];
               r_status := Some S_RUNNING; r_term := false; r_retry := None |} in
  ~ seq_grows [r] [r'] /\ ~ seq_grows [r] [] /\ seq_grows [r] [r_set_status r (Some S_SUCCEEDED); r'].
Proof.
  cbv zeta. repeat split.
  - intro H. destruct (H 0 _ eq_refl) as [x [Hx [_ [_ [Hin _]]]]]. simpl in Hx. inversion Hx; subst. simpl in Hin. discriminate.
  - intro H. destruct (H 0 _ eq_refl) as [x [Hx _]]. simpl in Hx. discriminate.
  - intros i r H. destruct i as [|[|i]]; simpl in H; inversion H; subst.
    eexists; split; [reflexivity|repeat split].
Qed.
