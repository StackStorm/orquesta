(* C01 -- Every task execution is justified by the definition, exactly once.
   Property theorems only (proofs/OffersProofs.v, proofs/C18Proofs.v). *)
From Coq Require Import String List Bool.
From Orq Require Import GenStatuses Base State Machines Conductor Api OffersProofs C18Proofs.
Import ListNotations.

(* [F] the conductor asks the provider to run a task only from staging: every offer returned by
   get_next_tasks, for every evaluator and every initialised state, is the (id, route) of a staged
   entry that is ready and not flagged completed in the state the call was made in *)
Theorem C01_offers_are_staged : forall ev c c' l, c_init c = true -> get_next_tasks ev c = (c', Val l) ->
  forall o, In o l -> exists s, In s (staged (c_ws c)) /\ s_ready s = true /\ s_completed s = false /\
                                o_id o = s_id s /\ o_route o = s_route s.
Proof. exact offers_are_staged. Qed.
Print Assumptions C01_offers_are_staged.

(* [P] the record of an execution keeps the predecessors (prev) and contexts it was started with for
   ever (C18), so the justification of an execution recorded when it started cannot be rewritten *)
Theorem C01_justification_is_permanent : forall ev ops c,
  forallb (fun op => negb (is_persist op)) ops = true -> R18 c (run_ops ev ops c).
Proof. exact history_append_only. Qed.
Print Assumptions C01_justification_is_permanent.

(* Not in this file: staged entries are created only for roots, satisfied transitions, retries and reruns
   (props/C01b.v, the invariant Justified); each satisfied transition into a non-join task yields exactly one
   execution (props/C01c.v, per call).  NOT PROVED (tested by monitor c01 against an independent reading of the
   definition): on success the executed multiset is exactly the one the definition prescribes. *)
