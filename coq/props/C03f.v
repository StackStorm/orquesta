(* C03f -- C02 / C03 for the provider protocol WITH with-items tasks: finding D24 as a COMPUTED FLAG, the backward link
   (an active record is backed by an action in flight or by a never-offered item) and "pausing / canceling => something
   in flight, or the flag".  Property theorems only; proofs are in proofs/SysItemsStuckProofs.v.

   The flag (model/ProviderSysItemsMon3.v, executable): [run_d24 ev ops s0] is raised when, somewhere along the history, a
   step that is NOT a status request (a poll, a report, a render, a persist -- a task event) takes the workflow from a
   status other than pausing / canceling into pausing or canceling while some staged with-items entry has an item that
   was never offered (its slot is neither active nor completed) and the task record of that entry is running.  That task
   was not told to pause / cancel -- only a status request tells the active tasks.

   Hypotheses: [si_fault = false], [si_wiped = false], the first monitor [run_odd = false] (model/ProviderSysItemsMon.v:
   no resized offer, no kind clash, no engine command offered, no stale acknowledgement) and, for the first three
   theorems below, [run_d24 = false].  The second monitor (run_odd2) is NOT needed.

   PROVED
     C03f_pausing_canceling_has_action_in_flight   pausing / canceling, flag down  =>  some action is in flight.
     C03f_pausing_canceling_idle_is_flagged        pausing / canceling with nothing in flight  =>  the flag is up:
                                                   "quiescent and not resting => the D24 flag" for the two statuses in
                                                   which a poll offers nothing (C12b_no_items_offered_when_held).
     C03f_pausing_canceling_no_untold_task         pausing / canceling, flag down  =>  no running task record has a staged
                                                   item table with an item never offered (every such task was told).
     C03f_active_record_backed                     (no flag needed) the backward link: behind every active record of a
                                                   task that is not an engine command there is an action of the task in
                                                   flight, or the record is running and its staged item table has an
                                                   item never offered.
   Underneath: one pointer per (task, route) and engine-command records never active (ND, CM); the exact effect of a
   status request on every record (rq_char: refused => all statuses restored and the workflow status unchanged;
   otherwise every pointed active record is given the request once, the others are untouched, and the workflow reports
   pausing / canceling only after a pause / cancel request); facts F_dormant_report, F_told_active, F_told_dormant,
   F_told_stays, F_plain_any, F_running_base of facts/F_sysitems.v.

   NOT PROVED: "quiescent and not resting => flag" for the statuses running / resuming (nothing in flight, a poll offers
   nothing, the workflow says running or resuming).  By C03f_active_record_backed every active record is then running
   with an item never offered, so what is missing is liveness of the offer: that get_next_tasks offers an item of a
   staged ready entry with a never-offered slot when the workflow is running / resuming and the record is running.  The
   candidate counterexample from the table sweep (workflow resuming, a task reports paused, nothing staged ready) needs a with-items
   entry that is not staged ready although it has a table, which the protocol never produces without a wipe. *)
From Coq Require Import String List Bool ZArith Arith.
From Orq Require Import GenStatuses GenTables Base State Machines Conductor Api Driver ProviderSys ProviderSysItems ProviderSysItemsMon ProviderSysItemsMon3 Composer.
From Orq Require Import F_tables F_names F_sys F_sysitems SysProofs SysNextProofs SysItemsProofs SysItemsRecProofs SysItemsStuckProofs.
From Orq Require Import C12b.
Import ListNotations.
Open Scope string_scope.

Theorem C03f_pausing_canceling_has_action_in_flight : forall ev sp g inputs parent ops,
  let s := isys_run ev ops (isys_init sp g inputs parent) in
  si_fault s = false -> si_wiped s = false -> run_odd ev ops (isys_init sp g inputs parent) = false ->
  run_d24 ev ops (isys_init sp g inputs parent) = false ->
  In (wstatus (c_ws (si_c s))) [S_PAUSING; S_CANCELING] -> exists k, In k (si_inflight s).
Proof. exact held_has_flight. Qed.
Print Assumptions C03f_pausing_canceling_has_action_in_flight.

Theorem C03f_pausing_canceling_idle_is_flagged : forall ev sp g inputs parent ops,
  let s := isys_run ev ops (isys_init sp g inputs parent) in
  si_fault s = false -> si_wiped s = false -> run_odd ev ops (isys_init sp g inputs parent) = false ->
  In (wstatus (c_ws (si_c s))) [S_PAUSING; S_CANCELING] -> si_inflight s = [] ->
  run_d24 ev ops (isys_init sp g inputs parent) = true.
Proof. exact held_idle_flagged. Qed.
Print Assumptions C03f_pausing_canceling_idle_is_flagged.

Theorem C03f_pausing_canceling_no_untold_task : forall ev sp g inputs parent ops,
  let s := isys_run ev ops (isys_init sp g inputs parent) in
  si_fault s = false -> si_wiped s = false -> run_odd ev ops (isys_init sp g inputs parent) = false ->
  run_d24 ev ops (isys_init sp g inputs parent) = false ->
  In (wstatus (c_ws (si_c s))) [S_PAUSING; S_CANCELING] ->
  forall t r rec l, is_engine_command t = false -> ws_task_entry (c_ws (si_c s)) t r = Some rec ->
    r_status rec = Some S_RUNNING -> items_of (si_c s) t r = Some l -> has_open l = false.
Proof. exact held_no_untold_task. Qed.
Print Assumptions C03f_pausing_canceling_no_untold_task.

Theorem C03f_active_record_backed : forall ev sp g inputs parent ops,
  let s := isys_run ev ops (isys_init sp g inputs parent) in
  si_fault s = false -> si_wiped s = false -> run_odd ev ops (isys_init sp g inputs parent) = false ->
  forall t r rec, is_engine_command t = false -> ws_task_entry (c_ws (si_c s)) t r = Some rec ->
    ostatus_in (r_status rec) ACTIVE_STATUSES = true ->
    (exists it, In (t, r, it) (si_inflight s)) \/
    (exists l, items_of (si_c s) t r = Some l /\ r_status rec = Some S_RUNNING /\ has_open l = true).
Proof. exact active_record_backed. Qed.
Print Assumptions C03f_active_record_backed.

(* ---- witnesses, on C12bExamples.spec1:
     tasks:
       w: { with: { items: items4, concurrency: 2 }, action: core.echo, next: [ {do: [z]} ] }
       p: { action: core.noop }
       z: { action: core.noop } ---- *)
Module C03fExamples.
Import C12bExamples.

Definition i0 : isys := isys_init spec1 graph1 [] [].
Definition view (ops : list isys_op) :=
  let s := isys_run ev_it ops i0 in
  (si_fault s, si_wiped s, run_odd ev_it ops i0, run_d24 ev_it ops i0, si_inflight s, wstatus (c_ws (si_c s)),
   option_map r_status (ws_task_entry (c_ws (si_c s)) "w" 0), items_of (si_c s) "w" 0).

(* D24: the flag goes up at the report that makes the workflow canceling (two items of w still out) ... *)
Example flag_raised_by_task_driven_cancel :
  view [IBoot; IPoll; Pl "p" S_CANCELED] =
  (false, false, false, true, [("w", 0, Some 0); ("w", 0, Some 1)], S_CANCELING, Some (Some S_RUNNING),
   Some [S_RUNNING; S_RUNNING; S_UNSET; S_UNSET]).
Proof. vm_compute. reflexivity. Qed.
(* ... and the history ends canceling with nothing in flight, w running, items 2 and 3 never offered *)
Example flag_up_at_the_stuck_state :
  view [IBoot; IPoll; Pl "p" S_CANCELED; It "w" 0 S_SUCCEEDED; It "w" 1 S_SUCCEEDED] =
  (false, false, false, true, [], S_CANCELING, Some (Some S_RUNNING), Some [S_SUCCEEDED; S_SUCCEEDED; S_UNSET; S_UNSET]).
Proof. vm_compute. reflexivity. Qed.

(* the hypotheses of the first theorem are satisfiable: a REQUESTED cancel / pause keeps the flag down, w is told,
   actions are in flight while canceling / pausing, and the workflow comes to rest *)
Example flag_down_on_requested_cancel :
  view [IBoot; IPoll; IRequest S_CANCELING] =
  (false, false, false, false, [("p", 0, None); ("w", 0, Some 0); ("w", 0, Some 1)], S_CANCELING, Some (Some S_CANCELING),
   Some [S_RUNNING; S_RUNNING; S_UNSET; S_UNSET]).
Proof. vm_compute. reflexivity. Qed.
Example requested_cancel_still_canceling :
  view [IBoot; IPoll; IRequest S_CANCELING; It "w" 0 S_SUCCEEDED; It "w" 1 S_SUCCEEDED] =
  (false, false, false, false, [("p", 0, None)], S_CANCELING, Some (Some S_CANCELED), None).
Proof. vm_compute. reflexivity. Qed.
Example requested_cancel_comes_to_rest :
  view [IBoot; IPoll; IRequest S_CANCELING; It "w" 0 S_SUCCEEDED; It "w" 1 S_SUCCEEDED; Pl "p" S_SUCCEEDED] =
  (false, false, false, false, [], S_CANCELED, Some (Some S_CANCELED), None).
Proof. vm_compute. reflexivity. Qed.
Example requested_pause_still_pausing :
  view [IBoot; IPoll; IRequest S_PAUSING; It "w" 0 S_SUCCEEDED; It "w" 1 S_SUCCEEDED] =
  (false, false, false, false, [("p", 0, None)], S_PAUSING, Some (Some S_PAUSED), Some [S_SUCCEEDED; S_SUCCEEDED; S_UNSET; S_UNSET]).
Proof. vm_compute. reflexivity. Qed.
Example requested_pause_comes_to_rest :
  view [IBoot; IPoll; IRequest S_PAUSING; It "w" 0 S_SUCCEEDED; It "w" 1 S_SUCCEEDED; Pl "p" S_SUCCEEDED] =
  (false, false, false, false, [], S_PAUSED, Some (Some S_PAUSED), Some [S_SUCCEEDED; S_SUCCEEDED; S_UNSET; S_UNSET]).
Proof. vm_compute. reflexivity. Qed.

(* the flag is precise about WHICH task event: an item of w itself ending canceled makes w (not running any more)
   and the workflow canceling with items never offered -- flag down, and the workflow comes to rest *)
Example flag_down_when_the_with_items_task_cancels_itself :
  view [IBoot; IPoll; It "w" 0 S_CANCELED] =
  (false, false, false, false, [("p", 0, None); ("w", 0, Some 1)], S_CANCELING, Some (Some S_CANCELING),
   Some [S_CANCELED; S_RUNNING; S_UNSET; S_UNSET]).
Proof. vm_compute. reflexivity. Qed.
Example self_canceled_comes_to_rest :
  view [IBoot; IPoll; It "w" 0 S_CANCELED; It "w" 1 S_SUCCEEDED; Pl "p" S_SUCCEEDED] =
  (false, false, false, false, [], S_CANCELED, Some (Some S_CANCELED), None).
Proof. vm_compute. reflexivity. Qed.

(* the second alternative of the backward link is not vacuous: between two polls of a running workflow, w is running
   with nothing of it in flight and items never offered *)
Example running_record_with_items_never_offered :
  view [IBoot; IPoll; It "w" 0 S_SUCCEEDED; It "w" 1 S_SUCCEEDED] =
  (false, false, false, false, [("p", 0, None)], S_RUNNING, Some (Some S_RUNNING), Some [S_SUCCEEDED; S_SUCCEEDED; S_UNSET; S_UNSET]).
Proof. vm_compute. reflexivity. Qed.

End C03fExamples.
