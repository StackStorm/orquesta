(* C06 -- A task sees exactly the variables published by its causal ancestors.
   Property theorems only (proofs/C06Proofs.v, C16Proofs.v, C18Proofs.v). *)
From Coq Require Import String List Bool.
From Orq Require Import GenStatuses Base State Machines Conductor Api Hoare C18Proofs C16Proofs C06Proofs.
Import ListNotations.

(* [F] the context a task is offered with is the merge, in list order (later wins; dictionaries merged
   key-wise as characterised in C16), of the snapshots its staged entry points to, plus the engine's
   __current_task and __state entries *)
Theorem C06_offer_context_is_the_fold : forall ev s c c' o, next_task_for ev s c = (c', Val (Some o)) ->
  exists c0 ctx0, inbound_ctx_M s c c = (c0, Val ctx0)
                  /\ o_ctx o = task_eval_ctx (s_id s) (s_route s) None ctx0 (c_ws c).
Proof. exact next_task_for_ctx. Qed.
Print Assumptions C06_offer_context_is_the_fold.

(* [F] no leak at the point of publication: processing a transition (evaluating its condition, rendering
   its publishes into a NEW snapshot, staging its target) leaves the staged entry of every task other
   than that transition's target exactly as it was -- for every evaluator, also when it raises *)
Theorem C06_publish_reaches_only_its_target : forall ev nt t route idx ts ctx e,
  e_dst e = nt -> preserves (Rstg nt) (process_transition ev t route idx ts ctx e).
Proof. exact transition_touches_only_its_target. Qed.
Print Assumptions C06_publish_reaches_only_its_target.

(* [F] a snapshot, once published, is never modified by any later API call: what a started task saw stays
   what it saw, whatever branches arrive later *)
Theorem C06_snapshots_never_change : forall ev ops c i d,
  forallb (fun op => negb (is_persist op)) ops = true ->
  nth_error (contexts (c_ws c)) i = Some d -> nth_error (contexts (c_ws (run_ops ev ops c))) i = Some d.
Proof. exact snapshots_never_change. Qed.
Print Assumptions C06_snapshots_never_change.

(* [F] published deltas contain exactly the published names (no engine internals, nothing else) *)
Theorem C06_delta_is_the_publish : forall ev specs rolling c c' out errs,
  render_vars ev specs rolling [] [] c = (c', Val (out, errs)) ->
  (forall k, In k (keys out) -> In k (map fst specs))
  /\ (errs = [] -> forall n, In n (map fst specs) -> In n (keys out)).
Proof. exact published_names. Qed.
Print Assumptions C06_delta_is_the_publish.

(* Not in this file: the global statement "every snapshot index in a task's list was published by a causal
   ancestor on a path to it" is props/C06b.v (the invariant Provenance; also tested by the taint monitor c06).
   NOT PROVED: the supersession order at joins, which is REFUTED on the unchanged tree by known finding D11 (a branch that
   merely inherited an older value overrides a newer one). *)
