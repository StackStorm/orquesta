(* C03b -- C03, the protocol form: "whenever no action is in flight at the provider and the conductor offers no
   further task, the workflow status is succeeded, failed, canceled or paused; equivalently, a workflow that
   reports running, resuming, pausing or canceling always has an action in flight or a task on offer".
   Property theorems only; protocol in model/ProviderSys.v, proofs in proofs/SysProofs.v, proofs/SysNextProofs.v.
   Scope as in C02b: every evaluator, every definition without with-items tasks, every graph passing
   [sys_graph_ok], every protocol history from the fresh conductor in which no conductor call raised. *)
From Coq Require Import String List Bool ZArith.
From Orq Require Import GenStatuses GenTables Base State Machines Conductor Api Driver ProviderSys.
From Orq Require Import F_tables F_names F_sys SysProofs SysNextProofs C02b.
Import ListNotations.
Open Scope string_scope.

(* [F] quiescence implies rest.  At every protocol-step boundary with nothing in flight: if the poll
   (get_next_tasks) returns no offer, then after that poll the workflow status is succeeded, failed, canceled or
   paused -- or still unset, i.e. the workflow was never started (no Boot yet).  The status is read after the
   poll because get_next_tasks itself fails the workflow when the task on offer cannot be rendered (this is also
   what monitor c03 reads). *)
Theorem C03b_quiescent_rests : forall ev sp g inputs parent,
  no_items sp = true -> sys_graph_ok g = true ->
  forall ops c1, let s := sys_run ev ops (sys_init sp g inputs parent) in
  s_fault s = false -> s_inflight s = [] -> get_next_tasks ev (s_c s) = (c1, Val []) ->
  In (wstatus (c_ws c1)) [S_SUCCEEDED; S_FAILED; S_CANCELED; S_PAUSED; S_UNSET].
Proof. exact C03_quiescent_rests. Qed.
Print Assumptions C03b_quiescent_rests.

(* [F] the equivalent form: a workflow that reports running, resuming, pausing or canceling has an action in flight,
   or the poll offers a task, or the poll fails the workflow (the task on offer cannot be rendered) *)
Theorem C03b_transitional_has_work : forall ev sp g inputs parent,
  no_items sp = true -> sys_graph_ok g = true ->
  forall ops c1 offers, let s := sys_run ev ops (sys_init sp g inputs parent) in
  s_fault s = false -> In (wstatus (c_ws (s_c s))) [S_RUNNING; S_RESUMING; S_PAUSING; S_CANCELING] ->
  get_next_tasks ev (s_c s) = (c1, Val offers) ->
  s_inflight s <> [] \/ offers <> [] \/ wstatus (c_ws c1) = S_FAILED.
Proof. exact C03_transitional_has_work. Qed.
Print Assumptions C03b_transitional_has_work.

(* [F] "paused only following a pause request (or a paused or pending task)": the protocol of this file has no
   pending / paused action reports, so the clause reads: a workflow that reports pausing or paused was asked to --
   the history contains a Request pausing or Request paused *)
Theorem C03b_paused_only_after_pause_request : forall ev sp g inputs parent,
  no_items sp = true -> sys_graph_ok g = true ->
  forall ops, let s := sys_run ev ops (sys_init sp g inputs parent) in
  s_fault s = false -> In (wstatus (c_ws (s_c s))) [S_PAUSING; S_PAUSED] ->
  existsb pause_request ops = true.
Proof. exact C03_paused_needs_request. Qed.
Print Assumptions C03b_paused_only_after_pause_request.

(* ------------------------------------------------------------------ the hypotheses cannot be dropped *)

Module C03bWitnesses.
Import C02bExamples.

(* [R] without a start task the statement is false.  Definition (every task has an inbound transition):
     tasks:
       a: { action: core.noop, next: [ {do: [b]} ] }
       b: { action: core.noop, next: [ {do: [a]} ] }
   graph: nodes a, b; edges a->b (key 0), b->a (key 0).  History: Boot.  The workflow reports running, nothing is
   staged, nothing is in flight, get_next_tasks offers nothing and leaves it running: stuck.  (orquesta's
   inspection rejects such a definition; the conductor does not.)  Every other conjunct of sys_graph_ok holds. *)
Definition spec_cycle : wf_spec := {| wf_input := []; wf_vars := []; wf_output := [];
  wf_tasks := [("a", mk_task JNull [tr JNull ["b"]]); ("b", mk_task JNull [tr JNull ["a"]])] |}.
Definition graph_cycle : graph :=
  {| g_nodes := [nd "a" JNull; nd "b" JNull]; g_edges := [ed "a" "b" 0 0 []; ed "b" "a" 0 0 []] |}.

Theorem C03b_refuted_without_start_task :
  no_items spec_cycle = true /\ cmds_inert_b graph_cycle = true /\ roots_not_cmds_b graph_cycle = true /\
  edge_keys_unique_b graph_cycle = true /\ has_root_b graph_cycle = false /\
  let s := sys_run ev_ex [Boot] (sys_init spec_cycle graph_cycle [] []) in
  s_fault s = false /\ s_inflight s = [] /\ wstatus (c_ws (s_c s)) = S_RUNNING /\
  exists c1, get_next_tasks ev_ex (s_c s) = (c1, Val []) /\ wstatus (c_ws c1) = S_RUNNING.
Proof.
  vm_compute. repeat split. eexists. split; reflexivity.
Qed.

(* [R] without "no conductor call raised" the statement is false in the model: an evaluator that answers with an
   exception that is NOT an expression-evaluation error (C11 shows the real evaluators never do; checked at run
   time) makes update_task_state raise half-way through the transitions.  Definition:
     tasks:
       a: { action: core.noop, next: [ {publish: [x: boom], do: [b]} ] }
       b: { action: core.noop }
   History: Boot; Poll; Report a succeeded.  The report raises after a's record was completed and before b was
   staged: the fault flag is set, nothing is in flight, nothing is on offer, and the workflow stays running. *)
Definition ev_bad (s : string) (ctx : dict) : evalres :=
  if String.eqb s "boom" then EvErr {| x_cls := "RuntimeError"; x_msg := "not an expression error"; x_expr := false |}
  else EvOk (JStr s).
Definition spec_pub : wf_spec := {| wf_input := []; wf_vars := []; wf_output := [];
  wf_tasks := [("a", mk_task JNull [{| tr_when := JNull; tr_publish := [("x", JStr "boom")]; tr_do := ["b"] |}]);
               ("b", mk_task JNull [])] |}.
Definition graph_pub : graph :=
  {| g_nodes := [nd "a" JNull; nd "b" JNull]; g_edges := [ed "a" "b" 0 0 []] |}.

Theorem C03b_refuted_after_a_fault :
  no_items spec_pub = true /\ sys_graph_ok graph_pub = true /\
  let s := sys_run ev_bad [Boot; Poll; Report "a" 0 S_SUCCEEDED JNull] (sys_init spec_pub graph_pub [] []) in
  s_fault s = true /\ s_inflight s = [] /\
  exists c1, get_next_tasks ev_bad (s_c s) = (c1, Val []) /\ wstatus (c_ws c1) = S_RUNNING.
Proof.
  vm_compute. repeat split. eexists. split; reflexivity.
Qed.

(* the same definition under an evaluator whose failure IS an expression error: contained, the workflow fails,
   no fault, and the theorem applies *)
Definition ev_expr_err (s : string) (ctx : dict) : evalres :=
  if String.eqb s "boom" then EvErr {| x_cls := "YaqlEvaluationException"; x_msg := "boom"; x_expr := true |}
  else EvOk (JStr s).
Example contained_error_fails_the_workflow :
  let s := sys_run ev_expr_err [Boot; Poll; Report "a" 0 S_SUCCEEDED JNull] (sys_init spec_pub graph_pub [] []) in
  s_fault s = false /\ s_inflight s = [] /\ wstatus (c_ws (s_c s)) = S_FAILED.
Proof. vm_compute; repeat split. Qed.

(* ---- non-vacuity on the fork / join / failure-handler workflow of C02b ---- *)

(* an unhandled failure ("zz" matches neither transition of a): failed, quiescent *)
Example unhandled_failure_rests :
  let s := sys_run ev_ex [Boot; Poll; Report "a" 0 S_FAILED (JStr "zz")] s0 in
  s_fault s = false /\ s_inflight s = [] /\ snd (get_next_tasks ev_ex (s_c s)) = Val [] /\ wstatus (c_ws (s_c s)) = S_FAILED.
Proof. vm_compute; repeat split. Qed.

(* in the middle of the fork-join nothing is in flight after b and c reported, and the join d is on offer *)
Example join_is_on_offer :
  let s := sys_run ev_ex [Boot; Poll; Report "a" 0 S_SUCCEEDED ok; Poll; Report "b" 0 S_SUCCEEDED JNull;
                          Report "c" 0 S_SUCCEEDED JNull] s0 in
  s_fault s = false /\ s_inflight s = [] /\ wstatus (c_ws (s_c s)) = S_RUNNING /\
  match snd (get_next_tasks ev_ex (s_c s)) with Val l => map (fun o => (o_id o, o_route o)) l | Exc _ => [] end = [("d", 0)].
Proof. vm_compute; repeat split. Qed.

(* the theorem applied at the end of this history: it is quiescent, so it is at rest *)
Example quiescent_point_of_the_run : forall c1,
  let s := sys_run ev_ex [Boot; Poll; Report "a" 0 S_FAILED (JStr "ko"); Poll; Report "h" 0 S_SUCCEEDED JNull] s0 in
  get_next_tasks ev_ex (s_c s) = (c1, Val []) ->
  In (wstatus (c_ws c1)) [S_SUCCEEDED; S_FAILED; S_CANCELED; S_PAUSED; S_UNSET].
Proof.
  intros c1. apply (C03b_quiescent_rests ev_ex spec1 graph1 [] [] (proj1 hypotheses_hold) (proj2 hypotheses_hold));
    vm_compute; reflexivity.
Qed.

End C03bWitnesses.
