(* C02c -- C02, last sentence, at the level of a whole update_task_state call: "A task failure with no matching
   transition, a fail command or a runtime error always ends in failed unless a cancellation is in progress."
   Property theorems only (proofs/FailProofs.v; the forward computation of the call is shared with C04c, LateProofs.v).
   The runtime error is C11b.  Earlier: C02_unremediated_failure_fails is the workflow machine's step alone. *)
From Coq Require Import String List Bool ZArith.
From Orq Require Import GenStatuses GenEvents GenTables Base State Machines Conductor Api F_tables
  RetryProofs FrozenProofs NoInternalProofs LateProofs FailProofs.
Import ListNotations.
Open Scope string_scope.

(* ------------------------------------------------------------------ (a) a task failure with no matching transition *)

(* [F] for every evaluator: a provider's failure report (failed, timeout or abandoned -- recorded as failed) for a
   plain task whose record is running / pausing / canceling and has no retry to spend (no policy, or tally >= count),
   in a well-formed state whose workflow is running, pausing, paused or resuming.  If the call returns and none of the
   task's transitions is recorded satisfied in the state it leaves (`continue` does not count), the workflow is
   FAILED. *)
Theorem C02c_unremediated_failure_fails_call : forall ev t route st res ts idx r s c c' r',
  WF c -> in_progress (wstatus (c_ws c)) ->
  is_engine_command t = false -> g_has_task (c_graph c) t = true ->
  spec_get_task (c_spec c) t = Some ts -> task_has_items ts = false ->
  ws_task_idx (c_ws c) t route = Some idx -> nth_error (sequence (c_ws c)) idx = Some r ->
  r_status r = Some s -> In s [S_RUNNING; S_PAUSING; S_CANCELING] ->
  status_in st COMPLETED_STATUSES = true -> reported st = S_FAILED -> no_retry_left r ->
  update_task_state ev t route (EvAction st res) c = (c', Val tt) ->
  nth_error (sequence (c_ws c')) idx = Some r' -> unsatisfied (c_graph c) t r' ->
  wstatus (c_ws c') = S_FAILED.
Proof. exact unremediated_failure_fails_call. Qed.
Print Assumptions C02c_unremediated_failure_fails_call.

(* [F] ... unless a cancellation is in progress: whatever the call (any event, any task, also when it raises), a
   canceling / canceled workflow stays in that class or is failed *)
Theorem C02c_call_keeps_cancel_class : forall ev t route evt c c' res,
  In (wstatus (c_ws c)) [S_CANCELING; S_CANCELED] -> update_task_state ev t route evt c = (c', res) ->
  In (wstatus (c_ws c')) [S_CANCELING; S_CANCELED; S_FAILED].
Proof. exact call_keeps_cancel_class. Qed.
Print Assumptions C02c_call_keeps_cancel_class.

Theorem C02c_in_progress_unfold : forall s, in_progress s <-> In s [S_RUNNING; S_PAUSING; S_PAUSED; S_RESUMING].
Proof. intro; split; intro H; exact H. Qed.
Theorem C02c_unsatisfied_unfold : forall g t r,
  unsatisfied g t r <->
  forall e, In e (g_next_transitions g t) ->
    e_dst e = "continue" \/ aget trid_eqb (e_dst e, e_key e) (r_next r) <> Some true.
Proof. intros; split; intro H; exact H. Qed.
Theorem C02c_no_retry_left_unfold : forall r,
  no_retry_left r <->
  (r_retry r = None \/
   exists rr, r_retry r = Some rr /\ py_is_int (rr_count rr) = true /\ (py_int_value (rr_count rr) <= Z.of_nat (rr_tally rr))%Z).
Proof. intro; split; intro H; exact H. Qed.
Print Assumptions C02c_in_progress_unfold.
Print Assumptions C02c_unsatisfied_unfold.
Print Assumptions C02c_no_retry_left_unfold.

(* ------------------------------------------------------------------ (b) the fail command *)

(* [F] the engine's own call of the `fail` command (update_task_state "fail" route, event task_fail_requested), for a
   (command, route) that has no record yet, in a graph whose commands are inert (static_ok), delivered while the
   workflow is running, pausing, paused, resuming -- or already failed: when it returns the workflow is FAILED.
   (From canceling / canceled: C02c_call_keeps_cancel_class.) *)
Theorem C02c_fail_command_call_fails : forall ev fuel rt c c',
  graph_commands_inert (c_graph c) -> c_init c = true -> ws_task_idx (c_ws c) "fail" rt = None ->
  (in_progress (wstatus (c_ws c)) \/ wstatus (c_ws c) = S_FAILED) ->
  update_task_state_fuel ev (S fuel) "fail" rt fail_event c = (c', Val tt) ->
  wstatus (c_ws c') = S_FAILED.
Proof. exact fail_command_call_fails. Qed.
Print Assumptions C02c_fail_command_call_fails.
Theorem C02c_fail_event_is_the_commands : engine_event "fail" = Some fail_event.
Proof. reflexivity. Qed.
Print Assumptions C02c_fail_event_is_the_commands.

(* [F] the siblings: when `fail` is among the commands queued by the transitions of a completion, every task the same
   completion staged ready (the second components of the transitions' results) is flagged run_on_fail in the state in
   which the queue is returned -- before any command is delivered *)
Theorem C02c_fail_flags_siblings : forall ev t route idx ts o n ctx b c c' q rt,
  uts_queue ev t route idx ts o n (Some (ctx, b)) c = (c', Val q) -> In ("fail", rt) q ->
  exists c1 c2 rs,
    mapM (process_transition ev t route idx ts ctx) (g_next_transitions (c_graph c) t) c1 = (c2, Val rs) /\
    q = flat_map (fun '(x, _) => match x with Some y => [y] | None => [] end) rs /\
    forall k, In k (flat_map (fun '(_, x) => match x with Some y => [y] | None => [] end) rs) ->
      flagged (staged (c_ws c')) k.
Proof. exact fail_flags_siblings. Qed.
Print Assumptions C02c_fail_flags_siblings.
Theorem C02c_flagged_unfold : forall l k,
  flagged l k <-> forall s, find (stg_matches (fst k) (snd k)) l = Some s -> s_run_on_fail s = true.
Proof. intros; split; intro H; exact H. Qed.
Print Assumptions C02c_flagged_unfold.

(* The composition of the two for a whole provider call whose transitions queue `fail` -- that the workflow has not
   succeeded (and no record of that (fail, route) exists) when the engine delivers the command after the workflow
   machine's step for the completing task -- is props/C02f.v.  The example below shows the whole call. *)

(* ------------------------------------------------------------------ examples *)

Module C02cExamples.

Definition ev_toy (s : string) (ctx : dict) : evalres :=
  if String.eqb s "<% failed() %>" then EvOk (JBool true)
  else if String.eqb s "<% succeeded() %>" then EvOk (JBool false) else EvOk (JStr s).
Definition plain nxt : task_spec :=
  {| ts_action := JStr "core.noop"; ts_input := JDict []; ts_with := None; ts_delay := JNull; ts_join := JNull; ts_next := nxt |}.
Definition node n := {| n_id := n; n_barrier := JNull; n_splits := None; n_retry := JNull |}.
Definition act t st := OpEvent t 0 (EvAction st JNull).
Definition mk sp g : cstate :=
  {| c_spec := sp; c_graph := g; c_inputs := []; c_parent := []; c_init := false; c_ws := empty_ws;
     c_errors := []; c_log := []; c_output := None |}.
Definition view (c : cstate) :=
  (wstatus (c_ws c), map (fun r => (r_id r, r_route r, r_status r, r_next r)) (sequence (c_ws c)),
   map (fun s => (s_id s, s_ready s, s_run_on_fail s)) (staged (c_ws c))).
Definition start := [OpRequest S_RUNNING; OpGetNext; act "t1" S_RUNNING].

(* (a) t1 goes on to t2 when it succeeds; it fails: the transition is recorded false, the workflow is failed *)
Definition specA : wf_spec :=
  {| wf_input := []; wf_vars := []; wf_output := [];
     wf_tasks := [("t1", plain [{| tr_when := JStr "<% succeeded() %>"; tr_publish := []; tr_do := ["t2"] |}]); ("t2", plain [])] |}.
Definition graphA : graph :=
  {| g_nodes := [node "t1"; node "t2"];
     g_edges := [{| e_src := "t1"; e_dst := "t2"; e_key := 0; e_ref := 0; e_criteria := [JStr "<% succeeded() %>"] |}] |}.
Definition runningA := run_ops ev_toy start (mk specA graphA).
Example unhandled_failure_fails :
  view runningA = (S_RUNNING, [("t1", 0, Some S_RUNNING, [])], []) /\ WF_b runningA = true /\
  view (fst (api_exec ev_toy (act "t1" S_FAILED) runningA)) = (S_FAILED, [("t1", 0, Some S_FAILED, [(("t2", 0), false)])], []) /\
  snd (api_exec ev_toy (act "t1" S_FAILED) runningA) = Val RUnit.
Proof. split; [vm_compute; reflexivity|]. split; [vm_compute; reflexivity|]. split; vm_compute; reflexivity. Qed.
(* ... and the hypotheses of the theorem hold of it (the decidable ones, evaluated) *)
Example unhandled_failure_hypotheses :
  is_engine_command "t1" = false /\ g_has_task (c_graph runningA) "t1" = true /\
  ws_task_idx (c_ws runningA) "t1" 0 = Some 0 /\
  map (fun r => (r_status r, r_retry r)) (sequence (c_ws runningA)) = [(Some S_RUNNING, None)] /\
  reported S_FAILED = S_FAILED /\
  map (fun e => aget trid_eqb (e_dst e, e_key e) [(("t2", 0), false)]) (g_next_transitions graphA "t1") = [Some false].
Proof. repeat (split; [vm_compute; reflexivity|]). vm_compute; reflexivity. Qed.

(* (b) t1's failure is handled by one transition `do: t2, fail`: both edges are satisfied, t2 is staged ready and
   flagged run_on_fail, the fail command gets its record and the workflow is failed; t2 -- and only t2 -- is then
   offered (C04_failed_offers_only_cleanup) *)
Definition specB : wf_spec :=
  {| wf_input := []; wf_vars := []; wf_output := [];
     wf_tasks := [("t1", plain [{| tr_when := JStr "<% failed() %>"; tr_publish := []; tr_do := ["t2"; "fail"] |}]); ("t2", plain [])] |}.
Definition graphB : graph :=
  {| g_nodes := [node "t1"; node "t2"; node "fail"];
     g_edges := [{| e_src := "t1"; e_dst := "fail"; e_key := 0; e_ref := 0; e_criteria := [JStr "<% failed() %>"] |};
                 {| e_src := "t1"; e_dst := "t2"; e_key := 0; e_ref := 0; e_criteria := [JStr "<% failed() %>"] |}] |}.
Definition failedB := run_ops ev_toy (start ++ [act "t1" S_FAILED]) (mk specB graphB).
Example fail_command_with_a_sibling :
  view failedB
  = (S_FAILED,
     [("t1", 0, Some S_FAILED, [(("fail", 0), true); (("t2", 0), true)]); ("fail", 0, Some S_FAILED, [])],
     [("t2", true, true)]) /\
  match snd (api_exec ev_toy OpGetNext failedB) with Val (ROffers l) => map o_id l | _ => [] end = ["t2"].
Proof. split; vm_compute; reflexivity. Qed.

End C02cExamples.
