(* RetryProofs.v -- update_task_state taken apart, and two theorems about its re-entrant call.

   The body of [update_task_state_fuel] is written out as named pieces with the recursive callee abstracted
   (Section Pieces: [uts_sel1], [uts_sel2], ..., [uts_machine], [uts_main], [uts_body rec]); [uts_unfold] ties
   [uts_body] to the model by [reflexivity], so a change of the model breaks this file.  The same text is then
   regrouped twice, each time with an equation back to the pieces: [body_eq] splits the body into a prefix that
   never calls back ([uts_prefix], built from [pre_machine] and [pre_main], returning a [pre_out]) and the tail
   that does ([uts_tail rec]); [uts_tail_eq], [uts_after_eq] name the end of the tail ([uts_rest], [uts_after]),
   and [pre_main_eq] names the selection of the record ([uts_select], [uts_before]).  The other files reason about
   update_task_state through these pieces.

   In order: the pieces and their equations (Pieces, Steps, BodyEq, Tail); the induction on the fuel
   ([uts_fuel_ind]); frame lemmas for every piece, for any relation with the write hypotheses of Frame.v
   (PiecesFrame); the graph, specification and inputs are kept (GraphKept); what the table steps and the
   workflow-machine steps answer and raise; inversion of returning runs of the completion step, the machine
   step ([pre_machine_steps], [pre_machine_inv]), the queue step with one followed transition
   (Queue, TransitionRun), the selection (Select); the runs as equations on states (Runs: [add_task_state_run],
   [select_run], [prefix_run], [prefix_decided]).  Then the two theorems.
   (1) Termination: over a graph whose engine commands have no transitions and no retry policy, a nested call
       (the retry re-entry, or the call for a queued engine command) never calls again, so more fuel never
       changes a result ([fuel_irrelevant], every evaluator) and the model never answers "OutOfFuel"
       ([update_task_state_never_out_of_fuel]; needs that the evaluator itself has no exception class of that
       name, since its classes are passed through).
   (2) The retry bound: the tally of every record stays within max(count, 0) over a call under the provider
       protocol ([retry_tally_bounded_step]), over every API operation ([api_exec_state] gives the state of an
       operation to any invariant of update_task_state) and over histories. *)
From Coq Require Import String List Bool ZArith Arith Lia.
From Orq Require Import GenStatuses GenEvents GenTables GenSpecMeta Base State Machines Codec Conductor Decode Api.
From Orq Require Import F_tables ListFacts StateFacts Hoare Frame ValuePost C13Proofs C05Proofs InertProofs.
Import ListNotations.
Open Scope string_scope.
Open Scope monad_scope.

(* what the prefix of a call hands to its tail: the task specification, the record, its status before and after the
   machine step, and the answer of the completion step (context of the finished task, retry wanted) *)
Record pre_out := {
  po_ts : task_spec; po_idx : nat; po_old : status; po_new : status; po_compl : option (dict * bool) }.

Definition retry_event : event := EvEngine EV_TASK_RETRY_REQUESTED S_RETRYING.

Section Pieces.
Variable ev : string -> dict -> evalres.

Definition uts_need_staged (staged0 : option stg) : M stg :=
  match staged0 with
  | Some s => ret s
  | None => raise (exn_type "'NoneType' object is not subscriptable")
  end.

Definition uts_sel1 (t : string) (staged0 : option stg) (entry0 : option nat) : M nat :=
  match entry0 with
  | Some i => if is_engine_command t
              then s <- uts_need_staged staged0 ;; add_task_state ev t (s_route s) (s_in s) (s_prev s)
              else ret i
  | None => s <- uts_need_staged staged0 ;; add_task_state ev t (s_route s) (s_in s) (s_prev s)
  end.

Definition uts_sel2 (t : string) (evt : event) (staged0 : option stg) (r1 : trec) (idx1 : nat) : M nat :=
  if ostatus_in (r_status r1) COMPLETED_STATUSES && status_in (ev_status evt) STARTING_STATUSES
     && match staged0 with Some s0 => negb (s_completed s0) | None => false end
  then s <- uts_need_staged staged0 ;; add_task_state ev t (s_route s) (s_in s) (s_prev s)
  else ret idx1.

Definition uts_unstage (t : string) (route : nat) (evt : event) (staged0 : option stg) : M unit :=
  match staged0 with
  | Some s => match s_items s with
              | None => match evt with
                        | EvItem _ _ _ _ => ret tt
                        | _ => modws (fun w => ws_remove_staged_task w t route)
                        end
              | Some _ => ret tt
              end
  | None => ret tt
  end.

Definition uts_item (t : string) (route : nat) (evt : event) (staged0 : option stg) : M unit :=
  match staged0, evt with
  | Some s, EvItem item st _ _ =>
      match s_items s with
      | None => ret tt
      | Some its =>
          if Nat.ltb item (length its) then
            modws (fun w => ws_set_staged w
                     (staged_update
                        (fun e => s_set_items e (match s_items e with
                                                 | Some l => Some (list_set_nth item st l)
                                                 | None => None end))
                        t route (staged w)))
          else raise (mkexn "IndexError" "list assignment index out of range")
      end
  | _, _ => ret tt
  end.

Definition uts_logfail (t : string) (evt : event) : M unit :=
  if status_eqb (ev_status evt) S_FAILED
  then log_entry_error "Execution failed. See result for details." (Some t) None None (ev_result evt)
  else ret tt.

Definition uts_setst (idx : nat) (ns : option status) : M unit :=
  match ns with Some s => set_rec_status idx (Some s) | None => ret tt end.

Definition uts_retrying (t : string) (route idx : nat) (r : trec) (new_status : status) : M unit :=
  if status_eqb new_status S_RETRYING then
    match r_retry r with
    | None => raise (exn_key "retry")
    | Some rr =>
        let rr' := {| rr_when := rr_when rr; rr_count := rr_count rr; rr_delay := rr_delay rr;
                      rr_tally := S (rr_tally rr) |} in
        upd_rec idx (fun r => r_set_retry r (Some rr')) ;;;
        modws (fun w => ws_remove_staged_task w t route) ;;;
        modws (fun w => ws_add_staged w (mk_staged t route (r_in r) (r_prev r) true (Some rr')))
    end
  else ret tt.

Definition uts_completion (t : string) (route : nat) (evt : event) (ts : task_spec) (idx : nat)
           (new_status old_status : status) : M (option (dict * bool)) :=
  if status_in new_status COMPLETED_STATUSES then
    (if negb (task_has_items ts && status_in new_status ABENDED_STATUSES)
     then modws (fun w => ws_remove_staged_task w t route)
     else
       w <- getws ;;
       match get_staged_task w t route with
       | None => raise (exn_type "'NoneType' object does not support item assignment")
       | Some _ => modws (fun w => ws_set_staged w
                            (staged_update (fun s => s_set_completed s true) t route (staged w)))
       end) ;;;
    let task_result :=
      if negb (task_has_items ts) then ev_result evt
      else match evt with
           | EvItem _ _ _ acc => if truthy acc then acc else JList []
           | _ => if truthy (ev_result evt) then ev_result evt else JList []
           end in
    r <- get_rec idx ;;
    in_ctx <- get_task_context (r_in r) ;;
    w <- getws ;;
    let current_ctx :=
      merge_dicts (dset "__current_task" (current_task_json (r_id r) (r_route r) (Some task_result)) in_ctx)
                  (state_ctx w) in
    retry_task <- try_catch
                    (if negb (status_eqb new_status old_status)
                        && status_in (wstatus w) ACTIVE_STATUSES
                        && tbl_transition_valid task_table new_status S_RETRYING
                     then evaluate_task_retry ev r current_ctx else ret false)
                    (fun x => log_error x (Some t) (Some route) None ;;;
                              request_status_core S_FAILED ;;; ret false) ;;
    ret (Some (current_ctx, retry_task))
  else ret None.

Definition uts_queue (t : string) (route idx : nat) (ts : task_spec) (old_status new_status : status)
           (completion : option (dict * bool)) : M (list (string * nat)) :=
  match completion with
  | Some (current_ctx, _) =>
      if negb (status_eqb new_status old_status) then
        c <- get ;;
        let transitions := g_next_transitions (c_graph c) t in
        (match transitions with
         | [] => upd_rec idx (fun r => r_set_term r true)
         | _ => ret tt
         end) ;;;
        rs <- mapM (process_transition ev t route idx ts current_ctx) transitions ;;
        let cmds := flat_map (fun '(q, _) => match q with Some x => [x] | None => [] end) rs in
        let readies := flat_map (fun '(_, q) => match q with Some x => [x] | None => [] end) rs in
        (if existsb (fun '(n, _) => String.eqb n "fail") cmds then
           forM_ readies (fun '(n, rt) =>
             modws (fun w => ws_set_staged w
                      (staged_update (fun s => s_set_run_on_fail s true) n rt (staged w))))
         else ret tt) ;;;
        r <- get_rec idx ;;
        (match transitions with
         | [] => ret tt
         | _ => if existsb (fun '(_, b) => b) (r_next r) then ret tt
                else upd_rec idx (fun r => r_set_term r true)
         end) ;;;
        ret cmds
      else ret []
  | None => ret []
  end.

Section Rec.
Variable rec : string -> nat -> event -> M unit.

Definition uts_call (p : string * nat) : M unit :=
  let '(n, rt) := p in
  match engine_event n with
  | Some e => rec n rt e
  | None => raise (exn_key n)
  end.

Definition uts_tail (t : string) (route : nat) (ts : task_spec) (idx : nat) (old_status new_status : status)
           (completion : option (dict * bool)) : M unit :=
  match completion with
  | Some (_, true) => rec t route retry_event
  | _ =>
      queue <- uts_queue t route idx ts old_status new_status completion ;;
      r <- get_rec idx ;;
      st <- (match r_status r with Some s => ret s | None => raise (exn_key "status") end) ;;
      unreachable <- wf_task_event_M t route st ;;
      log_unreachable unreachable ;;;
      forM_ queue uts_call ;;;
      w <- getws ;;
      if status_in (wstatus w) COMPLETED_STATUSES
      then upd_rec idx (fun r => r_set_term r true)
      else ret tt
  end.

Definition uts_machine (t : string) (route : nat) (evt : event) (ts : task_spec) (idx : nat) : M unit :=
  r <- get_rec idx ;;
  w <- getws ;;
  ns <- lift_res (task_process_event w r evt) ;;
  uts_setst idx ns ;;;
  r' <- get_rec idx ;;
  uts_retrying t route idx r' (rstatus r') ;;;
  completion <- uts_completion t route evt ts idx (rstatus r') (rstatus r) ;;
  uts_tail t route ts idx (rstatus r) (rstatus r') completion.

Definition uts_main (t : string) (route : nat) (evt : event) (ts : task_spec)
           (staged0 : option stg) (entry0 : option nat) : M unit :=
  idx1 <- uts_sel1 t staged0 entry0 ;;
  r1 <- get_rec idx1 ;;
  idx <- uts_sel2 t evt staged0 r1 idx1 ;;
  uts_unstage t route evt staged0 ;;;
  uts_item t route evt staged0 ;;;
  uts_logfail t evt ;;;
  uts_machine t route evt ts idx.

(* the model's body with the callee as a parameter ([uts_unfold]) *)
Definition uts_body (t : string) (route : nat) (evt : event) : M unit :=
  ensure_ws ev ;;;
  c <- get ;;
  if negb (g_has_task (c_graph c) t) then raise (exn_invalid_task t)
  else
    let w := c_ws c in
    let staged0 := get_staged_task w t route in
    let entry0 := ws_task_idx w t route in
    ts <- (match spec_get_task (c_spec c) t with Some ts => ret ts | None => raise (exn_key t) end) ;;
    match staged0, entry0 with
    | None, None =>
        raise (mkexn "InvalidTaskStateEntry" ("Task """ ++ t ++ """ is not staged or has not started yet."))
    | _, _ => uts_main t route evt ts staged0 entry0
    end.

End Rec.

Lemma uts_unfold : forall fuel t route evt,
  update_task_state_fuel ev (S fuel) t route evt = uts_body (update_task_state_fuel ev fuel) t route evt.
Proof. intros; reflexivity. Qed.

Definition pre_machine (t : string) (route : nat) (evt : event) (ts : task_spec) (idx : nat) : M pre_out :=
  r <- get_rec idx ;;
  w <- getws ;;
  ns <- lift_res (task_process_event w r evt) ;;
  uts_setst idx ns ;;;
  r' <- get_rec idx ;;
  uts_retrying t route idx r' (rstatus r') ;;;
  completion <- uts_completion t route evt ts idx (rstatus r') (rstatus r) ;;
  ret {| po_ts := ts; po_idx := idx; po_old := rstatus r; po_new := rstatus r'; po_compl := completion |}.

Definition pre_main (t : string) (route : nat) (evt : event) (ts : task_spec)
           (staged0 : option stg) (entry0 : option nat) : M pre_out :=
  idx1 <- uts_sel1 t staged0 entry0 ;;
  r1 <- get_rec idx1 ;;
  idx <- uts_sel2 t evt staged0 r1 idx1 ;;
  uts_unstage t route evt staged0 ;;;
  uts_item t route evt staged0 ;;;
  uts_logfail t evt ;;;
  pre_machine t route evt ts idx.

Definition uts_prefix (t : string) (route : nat) (evt : event) : M pre_out :=
  ensure_ws ev ;;;
  c <- get ;;
  if negb (g_has_task (c_graph c) t) then raise (exn_invalid_task t)
  else
    let w := c_ws c in
    let staged0 := get_staged_task w t route in
    let entry0 := ws_task_idx w t route in
    ts <- (match spec_get_task (c_spec c) t with Some ts => ret ts | None => raise (exn_key t) end) ;;
    match staged0, entry0 with
    | None, None =>
        raise (mkexn "InvalidTaskStateEntry" ("Task """ ++ t ++ """ is not staged or has not started yet."))
    | _, _ => pre_main t route evt ts staged0 entry0
    end.

Definition tail_of (rec : string -> nat -> event -> M unit) (t : string) (route : nat) (p : pre_out) : M unit :=
  uts_tail rec t route (po_ts p) (po_idx p) (po_old p) (po_new p) (po_compl p).

End Pieces.

(* sub-terms of uts_sel1, uts_sel2 and uts_main by name ([pre_main_eq]) *)
Section Steps.
Variable ev : string -> dict -> evalres.

Definition add_from_staged (t : string) (s0 : option stg) : M nat :=
  s <- uts_need_staged s0 ;; add_task_state ev t (s_route s) (s_in s) (s_prev s).

(* a completed record that is started again while its task is staged anew: the next turn of a cycle *)
Definition cycle_cond (evt : event) (s0 : option stg) (r1 : trec) : bool :=
  ostatus_in (r_status r1) COMPLETED_STATUSES && status_in (ev_status evt) STARTING_STATUSES
  && match s0 with Some s => negb (s_completed s) | None => false end.

Definition uts_select (t : string) (evt : event) (s0 : option stg) (e0 : option nat) : M nat :=
  idx1 <- uts_sel1 ev t s0 e0 ;; r1 <- get_rec idx1 ;; uts_sel2 ev t evt s0 r1 idx1.

Definition uts_before (t : string) (route : nat) (evt : event) (s0 : option stg) : M unit :=
  uts_unstage t route evt s0 ;;; uts_item t route evt s0 ;;; uts_logfail t evt.

End Steps.

Section BodyEq.
Variable ev : string -> dict -> evalres.
Variable rec : string -> nat -> event -> M unit.

Lemma machine_eq : forall t route evt ts idx c,
  uts_machine ev rec t route evt ts idx c = bind (pre_machine ev t route evt ts idx) (tail_of ev rec t route) c.
Proof.
  intros; unfold uts_machine, pre_machine.
  repeat (rewrite bind_assoc_pt; apply bind_congr; intros ? ? _).
  reflexivity.
Qed.

Lemma main_eq : forall t route evt ts staged0 entry0 c,
  uts_main ev rec t route evt ts staged0 entry0 c
  = bind (pre_main ev t route evt ts staged0 entry0) (tail_of ev rec t route) c.
Proof.
  intros; unfold uts_main, pre_main.
  repeat (rewrite bind_assoc_pt; apply bind_congr; intros ? ? _).
  apply machine_eq.
Qed.

Lemma body_eq : forall t route evt c,
  uts_body ev rec t route evt c = bind (uts_prefix ev t route evt) (tail_of ev rec t route) c.
Proof.
  intros; unfold uts_body, uts_prefix.
  rewrite bind_assoc_pt; apply bind_congr; intros c1 u _.
  rewrite bind_assoc_pt; apply bind_congr; intros c2 cst _.
  destruct (negb (g_has_task (c_graph cst) t)); [reflexivity|]. cbv zeta.
  rewrite bind_assoc_pt; apply bind_congr; intros c3 ts _.
  destruct (get_staged_task (c_ws cst) t route), (ws_task_idx (c_ws cst) t route);
    try apply main_eq; reflexivity.
Qed.

End BodyEq.

Section Tail.
Variable ev : string -> dict -> evalres.
Variable rec : string -> nat -> event -> M unit.

Definition wf_fin (idx : nat) : M unit :=
  w <- getws ;; if status_in (wstatus w) COMPLETED_STATUSES then upd_rec idx (fun r => r_set_term r true) else ret tt.

Definition uts_after (t : string) (route idx : nat) (queue : list (string * nat)) : M unit :=
  r <- get_rec idx ;;
  st <- (match r_status r with Some s => ret s | None => raise (exn_key "status") end) ;;
  unreachable <- wf_task_event_M t route st ;;
  log_unreachable unreachable ;;;
  forM_ queue (uts_call rec) ;;;
  w <- getws ;;
  if status_in (wstatus w) COMPLETED_STATUSES
  then upd_rec idx (fun r => r_set_term r true)
  else ret tt.

Lemma uts_after_eq : forall t route idx queue c,
  uts_after t route idx queue c =
  bind (get_rec idx)
       (fun r => st <- (match r_status r with Some s => ret s | None => raise (exn_key "status") end) ;;
                 (unreachable <- wf_task_event_M t route st ;; log_unreachable unreachable) ;;;
                 forM_ queue (uts_call rec) ;;; wf_fin idx) c.
Proof.
  intros. unfold uts_after. apply bind_congr; intros c2 r _. apply bind_congr; intros c3 st _.
  rewrite bind_assoc_pt. reflexivity.
Qed.

Definition uts_rest (t : string) (route : nat) (ts : task_spec) (idx : nat) (old_status new_status : status)
           (completion : option (dict * bool)) : M unit :=
  queue <- uts_queue ev t route idx ts old_status new_status completion ;; uts_after t route idx queue.

Lemma uts_tail_eq : forall t route ts idx old new compl,
  uts_tail ev rec t route ts idx old new compl =
  match compl with
  | Some (_, true) => rec t route retry_event
  | _ => uts_rest t route ts idx old new compl
  end.
Proof. reflexivity. Qed.

End Tail.

Lemma uts_fuel_ind : forall ev (P : string -> nat -> event -> cstate -> cstate -> result unit -> Prop),
  (forall t route evt c, P t route evt c c (Exc exn_out_of_fuel)) ->
  (forall rec, (forall t route evt c c' r, rec t route evt c = (c', r) -> P t route evt c c' r) ->
     forall t route evt c c' r, uts_body ev rec t route evt c = (c', r) -> P t route evt c c' r) ->
  forall fuel t route evt c c' r, update_task_state_fuel ev fuel t route evt c = (c', r) -> P t route evt c c' r.
Proof.
  intros ev P H0 HS; induction fuel as [|fuel IH]; intros t route evt c c' r H.
  - inversion H; subst; apply H0.
  - rewrite uts_unfold in H. eapply HS; [exact IH|exact H].
Qed.

Lemma uts_body_pres : forall ev (R : cstate -> cstate -> Prop), (forall x y z, R x y -> R y z -> R x z) ->
  forall rec t route evt,
  preserves R (uts_prefix ev t route evt) -> (forall p, preserves R (tail_of ev rec t route p)) ->
  preserves R (uts_body ev rec t route evt).
Proof.
  intros ev R Rtr rec t route evt Hp Ht c c' r H. rewrite body_eq in H.
  revert c c' r H. apply (preserves_bind _ Rtr); assumption.
Qed.

(* as in Frame.v: each lemma keeps the write hypotheses its piece reaches *)

Section PiecesFrame.
Variable ev : string -> dict -> evalres.
Variable R : cstate -> cstate -> Prop.
Hypothesis R_refl : forall c, R c c.
Hypothesis R_trans : forall a b c, R a b -> R b c -> R a c.

Hypothesis W_log : forall m t r tr res, preserves R (log_entry_error m t r tr res).
Hypothesis W_rec_status : forall i s, preserves R (set_rec_status i s).
Hypothesis W_wf_workflow : forall st, preserves R (wf_workflow_event_M st).
Hypothesis W_wf_task : forall t route st, preserves R (wf_task_event_M t route st).
Hypothesis W_init : preserves R (modify (fun c => set_init c true)).
Hypothesis W_root_ctx : forall d,
  preserves R (modws (fun w => ws_set_routes (ws_set_contexts w (app (contexts w) [d])) (app (routes w) [[]]))).
Hypothesis W_stage : forall s, preserves R (modws (fun w => ws_add_staged w s)).
Hypothesis W_restage : forall f t route,
  preserves R (modws (fun w => ws_set_staged w (staged_update f t route (staged w)))).
Hypothesis W_unstage : forall t route, preserves R (modws (fun w => ws_remove_staged_task w t route)).
Hypothesis W_new_rec : forall r k idx,
  preserves R (modws (fun w => ws_set_tasks (ws_set_sequence w (app (sequence w) [r])) (aset tkey_eqb k idx (tasks w)))).
Hypothesis W_rec_next : forall i k b, preserves R (upd_rec i (fun r => r_set_next r (aset trid_eqb k b (r_next r)))).
Hypothesis W_rec_out : forall i o, preserves R (upd_rec i (fun r => r_set_out r o)).
Hypothesis W_rec_term : forall i b, preserves R (upd_rec i (fun r => r_set_term r b)).
Hypothesis W_rec_retry : forall i rr, preserves R (upd_rec i (fun r => r_set_retry r rr)).
Hypothesis W_new_ctx : forall d, preserves R (modws (fun w => ws_set_contexts w (app (contexts w) [d]))).
Hypothesis W_new_route : forall l, preserves R (modws (fun w => ws_set_routes w (app (routes w) [l]))).

Local Hint Resolve frame_log_error frame_log_unreachable frame_request_status_core frame_ensure_ws frame_get_task_context
  frame_add_task_state frame_evaluate_task_retry frame_get_rec frame_process_transition : frame.
Ltac leaf := solve [ auto 3 with nocore frame ].
Ltac walk := pw R_refl R_trans leaf.

Lemma frame_need_staged : forall s0, preserves R (uts_need_staged s0).
Proof. intros; unfold uts_need_staged; walk. Qed.
Local Hint Resolve frame_need_staged : frame.
Lemma frame_sel1 : forall t s0 e0, preserves R (uts_sel1 ev t s0 e0).
Proof. intros; unfold uts_sel1; walk. Qed.
Local Hint Resolve frame_sel1 : frame.
Lemma frame_sel2 : forall t evt s0 r1 i, preserves R (uts_sel2 ev t evt s0 r1 i).
Proof. intros; unfold uts_sel2; walk. Qed.
Local Hint Resolve frame_sel2 : frame.
Lemma frame_unstage : forall t route evt s0, preserves R (uts_unstage t route evt s0).
Proof. intros; unfold uts_unstage; walk. Qed.
Local Hint Resolve frame_unstage : frame.
Lemma frame_item : forall t route evt s0, preserves R (uts_item t route evt s0).
Proof. intros; unfold uts_item; walk. Qed.
Local Hint Resolve frame_item : frame.
Lemma frame_logfail : forall t evt, preserves R (uts_logfail t evt).
Proof. intros; unfold uts_logfail; walk. Qed.
Local Hint Resolve frame_logfail : frame.
Lemma frame_before : forall t route evt s0, preserves R (uts_before t route evt s0).
Proof. intros; unfold uts_before; walk. Qed.
Lemma frame_setst : forall i ns, preserves R (uts_setst i ns).
Proof. intros; unfold uts_setst; walk. Qed.
Local Hint Resolve frame_setst : frame.
Lemma frame_retrying : forall t route idx r ns, preserves R (uts_retrying t route idx r ns).
Proof. intros; unfold uts_retrying; walk. Qed.
Local Hint Resolve frame_retrying : frame.
Lemma frame_completion : forall t route evt ts idx ns o0, preserves R (uts_completion ev t route evt ts idx ns o0).
Proof. intros; unfold uts_completion; walk. Qed.
Local Hint Resolve frame_completion : frame.
Lemma frame_queue : forall t route idx ts o n compl, preserves R (uts_queue ev t route idx ts o n compl).
Proof. intros; unfold uts_queue; walk. Qed.
Local Hint Resolve frame_queue : frame.
Lemma frame_pre_machine : forall t route evt ts idx, preserves R (pre_machine ev t route evt ts idx).
Proof. intros; unfold pre_machine; walk. Qed.
Local Hint Resolve frame_pre_machine : frame.
Lemma frame_pre_main : forall t route evt ts s0 e0, preserves R (pre_main ev t route evt ts s0 e0).
Proof. intros; unfold pre_main; walk. Qed.
Local Hint Resolve frame_pre_main : frame.
Lemma frame_prefix : forall t route evt, preserves R (uts_prefix ev t route evt).
Proof. intros; unfold uts_prefix; walk. Qed.

Lemma uts_after_pres : forall rec t route idx q,
  (forall n rt e, In (n, rt) q -> engine_event n = Some e -> preserves R (rec n rt e)) ->
  preserves R (uts_after rec t route idx q).
Proof.
  intros rec t route idx q Hrec. unfold uts_after.
  apply (preserves_bind _ R_trans); [leaf|intro r].
  apply (preserves_bind _ R_trans); [destruct (r_status r); walk|intro st].
  apply (preserves_bind _ R_trans); [leaf|intro unr].
  apply (preserves_bind _ R_trans); [leaf|intros _].
  apply (preserves_bind _ R_trans).
  - apply (preserves_forM_In _ R_refl R_trans). intros [n rt] Hin. unfold uts_call.
    destruct (engine_event n) as [e|] eqn:E; [exact (Hrec n rt e Hin E)|apply (preserves_raise _ R_refl)].
  - intros _. walk.
Qed.

End PiecesFrame.

Lemma wf_workflow_event_M_run : forall st c c' r, wf_workflow_event_M st c = (c', r) ->
  (exists e, wf_process_workflow_event (c_graph c) (c_ws c) st = Exc e /\ c' = c /\ r = Exc e) \/
  (exists new unr, wf_process_workflow_event (c_graph c) (c_ws c) st = Val (new, unr) /\
                   c' = set_ws c (ws_set_status (c_ws c) new) /\ r = Val unr).
Proof.
  intros st c c' r H. unfold wf_workflow_event_M in H.
  destruct (wf_process_workflow_event (c_graph c) (c_ws c) st) as [[new unr]|e]; inversion H; subst;
    [right; exists new, unr|left; exists e]; auto.
Qed.

Lemma wf_task_event_M_run : forall t route st c c' r, wf_task_event_M t route st c = (c', r) ->
  (exists e, wf_process_task_event (c_graph c) (c_ws c) t route st = Exc e /\ c' = c /\ r = Exc e) \/
  (exists new unr, wf_process_task_event (c_graph c) (c_ws c) t route st = Val (new, unr) /\
                   c' = set_ws c (ws_set_status (c_ws c) new) /\ r = Val unr).
Proof.
  intros t route st c c' r H. unfold wf_task_event_M in H.
  destruct (wf_process_task_event (c_graph c) (c_ws c) t route st) as [[new unr]|e]; inversion H; subst;
    [right; exists new, unr|left; exists e]; auto.
Qed.

Definition Rg (c c' : cstate) : Prop := c_graph c' = c_graph c.
Lemma Rg_refl : forall c, Rg c c.
Proof. intro; reflexivity. Qed.
Lemma Rg_trans : forall a b c, Rg a b -> Rg b c -> Rg a c.
Proof. unfold Rg; intros; congruence. Qed.

Create HintDb presg.

Section GraphKept.
Variable ev : string -> dict -> evalres.

Lemma pg_modws : forall f, preserves Rg (modws f).
Proof. intro f; apply (preserves_modws Rg); intro; reflexivity. Qed.
Lemma pg_modify : forall f, (forall c, c_graph (f c) = c_graph c) -> preserves Rg (modify f).
Proof. intros f Hf; apply (preserves_modify Rg); exact Hf. Qed.

Lemma pg_wf_workflow_event : forall st, preserves Rg (wf_workflow_event_M st).
Proof. apply (preserves_wf_workflow_event Rg Rg_refl); reflexivity. Qed.
Lemma pg_wf_task_event : forall t route st, preserves Rg (wf_task_event_M t route st).
Proof. apply (preserves_wf_task_event Rg Rg_refl); reflexivity. Qed.
Lemma pg_log_entry_error : forall m t r tr res, preserves Rg (log_entry_error m t r tr res).
Proof. intros; apply pg_modify; intro c; cbv zeta. destruct (existsb _ _); reflexivity. Qed.
Lemma pg_set_rec_status : forall i s, preserves Rg (set_rec_status i s).
Proof. intros; apply pg_modws. Qed.
Lemma pg_upd_rec : forall i f, preserves Rg (upd_rec i f).
Proof. intros; apply pg_modws. Qed.
Hint Resolve pg_modws pg_wf_workflow_event pg_wf_task_event pg_log_entry_error pg_set_rec_status pg_upd_rec : presg.
Hint Extern 1 (preserves Rg (modify _)) => apply pg_modify; intro; reflexivity : presg.

Lemma pg_log_unreachable : forall l, preserves Rg (log_unreachable l).
Proof. intros; apply (frame_log_unreachable Rg Rg_refl Rg_trans); auto with presg. Qed.
Lemma pg_get_rec : forall i, preserves Rg (get_rec i).
Proof. intros; apply (frame_get_rec Rg Rg_refl Rg_trans). Qed.
Lemma pg_request_status_core : forall st, preserves Rg (request_status_core st).
Proof. intros; apply (frame_request_status_core Rg Rg_refl Rg_trans); auto with presg. Qed.
Lemma pg_render_input : forall specs rt rolling errs, preserves Rg (render_input ev specs rt rolling errs).
Proof. intros; apply (frame_render_input ev Rg Rg_refl Rg_trans). Qed.
Lemma pg_ensure_ws : preserves Rg (ensure_ws ev).
Proof. apply (frame_ensure_ws ev Rg Rg_refl Rg_trans); auto with presg. Qed.
Lemma pg_setup_retry : forall t idxs, preserves Rg (setup_retry ev t idxs).
Proof. intros; apply (frame_setup_retry ev Rg Rg_refl Rg_trans). Qed.
Lemma pg_add_task_state : forall t r i p, preserves Rg (add_task_state ev t r i p).
Proof. intros; apply (frame_add_task_state ev Rg Rg_refl Rg_trans); auto with presg. Qed.
Lemma pg_evaluate_route : forall e r, preserves Rg (evaluate_route e r).
Proof. intros; apply (frame_evaluate_route Rg Rg_refl Rg_trans); auto with presg. Qed.
Lemma pg_evaluate_task_retry : forall r ctx, preserves Rg (evaluate_task_retry ev r ctx).
Proof. intros; apply (frame_evaluate_task_retry ev Rg Rg_refl Rg_trans). Qed.
Lemma pg_finalize_context : forall ts e ctx, preserves Rg (finalize_context ev ts e ctx).
Proof. intros; apply (frame_finalize_context ev Rg Rg_refl Rg_trans). Qed.
Lemma pg_process_transition : forall t route idx ts ctx e, preserves Rg (process_transition ev t route idx ts ctx e).
Proof. intros; apply (frame_process_transition ev Rg Rg_refl Rg_trans); auto with presg. Qed.

Lemma pg_need_staged : forall s0, preserves Rg (uts_need_staged s0).
Proof. intros; apply (frame_need_staged Rg Rg_refl). Qed.
Lemma pg_sel1 : forall t s0 e0, preserves Rg (uts_sel1 ev t s0 e0).
Proof. intros; apply (frame_sel1 ev Rg Rg_refl Rg_trans); auto with presg. Qed.
Lemma pg_sel2 : forall t evt s0 r1 i, preserves Rg (uts_sel2 ev t evt s0 r1 i).
Proof. intros; apply (frame_sel2 ev Rg Rg_refl Rg_trans); auto with presg. Qed.
Lemma pg_unstage : forall t route evt s0, preserves Rg (uts_unstage t route evt s0).
Proof. intros; apply (frame_unstage Rg Rg_refl); auto with presg. Qed.
Lemma pg_item : forall t route evt s0, preserves Rg (uts_item t route evt s0).
Proof. intros; apply (frame_item Rg Rg_refl); auto with presg. Qed.
Lemma pg_logfail : forall t evt, preserves Rg (uts_logfail t evt).
Proof. intros; apply (frame_logfail Rg Rg_refl); auto with presg. Qed.
Lemma pg_setst : forall i ns, preserves Rg (uts_setst i ns).
Proof. intros; apply (frame_setst Rg Rg_refl); auto with presg. Qed.
Lemma pg_retrying : forall t route idx r ns, preserves Rg (uts_retrying t route idx r ns).
Proof. intros; apply (frame_retrying Rg Rg_refl Rg_trans); auto with presg. Qed.
Lemma pg_completion : forall t route evt ts idx ns o0, preserves Rg (uts_completion ev t route evt ts idx ns o0).
Proof. intros; apply (frame_completion ev Rg Rg_refl Rg_trans); auto with presg. Qed.
Lemma pg_queue : forall t route idx ts o n compl, preserves Rg (uts_queue ev t route idx ts o n compl).
Proof. intros; apply (frame_queue ev Rg Rg_refl Rg_trans); auto with presg. Qed.
Lemma pg_pre_machine : forall t route evt ts idx, preserves Rg (pre_machine ev t route evt ts idx).
Proof. intros; apply (frame_pre_machine ev Rg Rg_refl Rg_trans); auto with presg. Qed.
Lemma pg_pre_main : forall t route evt ts s0 e0, preserves Rg (pre_main ev t route evt ts s0 e0).
Proof. intros; apply (frame_pre_main ev Rg Rg_refl Rg_trans); auto with presg. Qed.
Lemma pg_prefix : forall t route evt, preserves Rg (uts_prefix ev t route evt).
Proof. intros; apply (frame_prefix ev Rg Rg_refl Rg_trans); auto with presg. Qed.

Lemma pg_uts_fuel : forall fuel t route evt, preserves Rg (update_task_state_fuel ev fuel t route evt).
Proof. intros; apply (frame_update_task_state_fuel ev Rg Rg_refl Rg_trans); auto with presg. Qed.

End GraphKept.

Lemma F_retry_event_target : forall s t, tbl_step task_table s EV_TASK_RETRY_REQUESTED = Some t -> t = S_RETRYING.
Proof.
  intros s t H.
  assert (T : table_forall task_table
                (fun _ e t => negb (String.eqb e EV_TASK_RETRY_REQUESTED) || status_eqb t S_RETRYING) = true)
    by (vm_compute; reflexivity).
  pose proof (table_forall_step _ _ T _ _ _ H) as P; cbv beta in P.
  rewrite String.eqb_refl in P; cbn [negb orb] in P. apply status_eqb_eq; exact P.
Qed.

Lemma retrying_not_completed : status_in S_RETRYING COMPLETED_STATUSES = false.
Proof. reflexivity. Qed.

Lemma tpe_engine : forall w r n st ns, task_process_event w r (EvEngine n st) = Val ns ->
  tbl_step task_table (rstatus r) n = ns.
Proof.
  intros w r n st ns H; unfold task_process_event in H. cbn [ev_name] in H.
  destruct (negb (string_in n (app ACTION_EXECUTION_EVENTS ENGINE_OPERATION_EVENTS))); [discriminate|].
  apply task_table_step_val; exact H.
Qed.

Definition tpe_vocab (evt : event) : list string :=
  match evt with
  | EvWorkflow _ => WORKFLOW_EXECUTION_EVENTS
  | _ => app ACTION_EXECUTION_EVENTS ENGINE_OPERATION_EVENTS
  end.
Definition tpe_name (w : wstate) (r : trec) (evt : event) : result string :=
  match evt with
  | EvWorkflow st => Val (task_workflow_event_name w (r_id r) (r_route r) st)
  | EvItem item st _ _ => item_event_name w (r_id r) (r_route r) item st
  | _ => Val (ev_name evt)
  end.

Lemma tpe_eq : forall w r evt,
  task_process_event w r evt =
  if negb (string_in (ev_name evt) (tpe_vocab evt)) then Exc (exn_invalid_event (ev_name evt))
  else match tpe_name w r evt with
       | Val n => task_table_step (rstatus r) n
       | Exc x => Exc x
       end.
Proof. intros w r [st|st res|item st res acc|n st]; reflexivity. Qed.

Lemma tpe_val : forall w r evt ns, task_process_event w r evt = Val ns ->
  exists n, tpe_name w r evt = Val n /\ tbl_step task_table (rstatus r) n = ns.
Proof.
  intros w r evt ns H. rewrite tpe_eq in H. destruct (negb _); [discriminate|].
  destruct (tpe_name w r evt) as [n|x]; [|discriminate]. exists n. split; [reflexivity|apply task_table_step_val; exact H].
Qed.

Lemma task_table_step_exn : forall cur n e, task_table_step cur n = Exc e -> request_exn e.
Proof.
  intros cur n e H; unfold task_table_step in H. destruct (tbl_row task_table cur); inversion H.
  unfold request_exn; simpl; tauto.
Qed.

Lemma item_event_name_exn : forall w t route item st e, item_event_name w t route item st = Exc e ->
  e = mkexn "IndexError" "list assignment index out of range" /\
  exists s its, get_staged_task w t route = Some s /\ s_items s = Some its /\ Nat.ltb item (length its) = false.
Proof.
  intros w t route item st e H. unfold item_event_name in H.
  destruct (negb (status_in st item_requirements)); [discriminate|].
  destruct (get_staged_task w t route) as [s|] eqn:Es; [|discriminate].
  destruct (s_items s) as [its|] eqn:Ei; [|discriminate].
  destruct (negb (Nat.ltb item (length its))) eqn:El.
  - inversion H; subst. apply negb_true_iff in El. split; [reflexivity|exists s, its; auto].
  - repeat match type of H with (if ?b then _ else _) = _ => destruct b end; discriminate.
Qed.

Lemma tpe_exn : forall w r evt e, task_process_event w r evt = Exc e -> request_exn e \/ tpe_name w r evt = Exc e.
Proof.
  intros w r evt e H. rewrite tpe_eq in H. destruct (negb _); [inversion H; left; unfold request_exn; simpl; tauto|].
  destruct (tpe_name w r evt) as [n|x]; [left; eapply task_table_step_exn; exact H|right; inversion H; reflexivity].
Qed.

Lemma wf_task_event_exn : forall t route st, raises_only request_exn (wf_task_event_M t route st).
Proof.
  intros t route st c c' e H. apply wf_task_event_M_run in H.
  destruct H as [[x [E [_ Hx]]]|[new [unr [_ [_ Hx]]]]]; [inversion Hx; subst x|discriminate].
  unfold wf_process_task_event in E.
  destruct (negb (string_in _ _)); [inversion E; unfold request_exn; simpl; tauto|].
  destruct (tbl_row wf_table _); [|inversion E; unfold request_exn; simpl; tauto].
  destruct (aget _ _ _); [|discriminate]. destruct (_ && _); discriminate.
Qed.

Lemma get_rec_inv : forall i c c' r, get_rec i c = (c', Val r) -> c' = c /\ nth_error (sequence (c_ws c)) i = Some r.
Proof.
  intros i c c' r H; unfold get_rec, bind, getws in H.
  destruct (nth_error (sequence (c_ws c)) i); inversion H; subst; split; reflexivity.
Qed.

Lemma spec_task_state : forall (sp : wf_spec) t c c' r,
  (match spec_get_task sp t with Some ts => ret ts | None => raise (exn_key t) end) c = (c', r) -> c' = c.
Proof. intros sp t c c' r H. destruct (spec_get_task sp t); inversion H; reflexivity. Qed.

Lemma get_rec_run : forall idx c r, nth_error (sequence (c_ws c)) idx = Some r -> get_rec idx c = (c, Val r).
Proof. intros idx c r H. unfold get_rec, bind, getws. rewrite H. reflexivity. Qed.

Lemma get_rec_state : forall i c c' r, get_rec i c = (c', r) -> c' = c.
Proof.
  intros i c c' r H; unfold get_rec, bind, getws in H.
  destruct (nth_error (sequence (c_ws c)) i); inversion H; subst; reflexivity.
Qed.

Lemma lift_res_inv : forall A (x : result A) c c' r, lift_res x c = (c', r) -> c' = c /\ r = x.
Proof. intros A x c c' r H; destruct x; inversion H; subst; split; reflexivity. Qed.

Lemma setst_inv : forall idx ns c c' res r, uts_setst idx ns c = (c', res) ->
  nth_error (sequence (c_ws c)) idx = Some r ->
  res = Val tt /\ tasks (c_ws c') = tasks (c_ws c) /\ c_graph c' = c_graph c /\
  nth_error (sequence (c_ws c')) idx = Some (match ns with Some s => r_set_status r (Some s) | None => r end).
Proof.
  intros idx ns c c' res r H Hn; unfold uts_setst in H. destruct ns as [s|].
  - unfold set_rec_status, modws in H; inversion H; subst; simpl.
    rewrite tasks_update_rec. repeat split.
    exact (nth_update_rec_same (c_ws c) idx (fun r => r_set_status r (Some s)) r Hn).
  - inversion H; subst. repeat split; exact Hn.
Qed.

Lemma rstatus_set : forall r s, rstatus (r_set_status r (Some s)) = s.
Proof. reflexivity. Qed.

Definition Rk (c c' : cstate) : Prop :=
  sequence (c_ws c') = sequence (c_ws c) /\ tasks (c_ws c') = tasks (c_ws c).
Lemma Rk_refl : forall c, Rk c c.
Proof. intro; split; reflexivity. Qed.
Lemma Rk_trans : forall a b c, Rk a b -> Rk b c -> Rk a c.
Proof. unfold Rk; intros a b c [H1 H2] [H3 H4]; split; congruence. Qed.

Lemma pk_w_unstage : forall t route, preserves Rk (modws (fun w => ws_remove_staged_task w t route)).
Proof. intros; apply (preserves_modws Rk); intro c. split; [apply seq_remove_staged|apply tasks_remove_staged]. Qed.
Lemma pk_w_restage : forall f t route,
  preserves Rk (modws (fun w => ws_set_staged w (staged_update f t route (staged w)))).
Proof. intros; apply (preserves_modws Rk); intro c; split; reflexivity. Qed.
Lemma pk_w_log : forall m t r tr res, preserves Rk (log_entry_error m t r tr res).
Proof. intros; apply (preserves_modify Rk); intro c; cbv zeta. destruct (existsb _ _); split; reflexivity. Qed.

Lemma pk_unstage : forall t route evt s0, preserves Rk (uts_unstage t route evt s0).
Proof. intros; apply (frame_unstage Rk Rk_refl pk_w_unstage). Qed.
Lemma pk_item : forall t route evt s0, preserves Rk (uts_item t route evt s0).
Proof. intros; apply (frame_item Rk Rk_refl pk_w_restage). Qed.
Lemma pk_logfail : forall t evt, preserves Rk (uts_logfail t evt).
Proof. intros; apply (frame_logfail Rk Rk_refl pk_w_log). Qed.
Lemma pk_before : forall t route evt s0, preserves Rk (uts_before t route evt s0).
Proof. intros; apply (frame_before Rk Rk_refl Rk_trans); auto using pk_w_log, pk_w_restage, pk_w_unstage. Qed.

Section Completion.
Variable ev : string -> dict -> evalres.

Lemma evaluate_task_retry_pure : forall r ctx, state_pure (evaluate_task_retry ev r ctx).
Proof.
  intros r ctx; unfold evaluate_task_retry. destruct (r_retry r) as [rr|]; [|apply state_pure_ret].
  destruct (negb (py_is_int (rr_count rr))); [apply state_pure_raise|].
  destruct (Z.leb _ _); [apply state_pure_ret|].
  destruct (status_in (rstatus r) ABENDED_STATUSES && is_jnull (rr_when rr)); [apply state_pure_ret|].
  apply state_pure_bind; [apply evaluate_pure|intro; apply state_pure_ret].
Qed.

Lemma try_true_inv : forall (m : M bool) h c c' b, state_pure m -> (forall e, vpost (fun b => b = false) (h e)) ->
  try_catch m h c = (c', Val b) -> b = true -> c' = c /\ m c = (c, Val true).
Proof.
  intros m h c c' b Hp Hh H Hb; unfold try_catch in H. pose proof (Hp c) as Hc.
  destruct (m c) as [c1 [a|e]] eqn:E; simpl in Hc; subst c1.
  - inversion H; subst; split; reflexivity.
  - pose proof (Hh e _ _ _ H); congruence.
Qed.

Definition bounded (r : trec) : Prop :=
  forall rr, r_retry r = Some rr -> py_is_int (rr_count rr) = true ->
             (Z.of_nat (rr_tally rr) < py_int_value (rr_count rr))%Z.

Lemma retry_allowed_bounded : forall r, retry_allowed r true -> bounded r.
Proof.
  intros r H rr Hr Hi. destruct (H eq_refl) as [rr' [Hr' [_ Hlt]]]. rewrite Hr in Hr'; inversion Hr'; subst; exact Hlt.
Qed.

Lemma completion_inv : forall t route evt ts idx new old c c' compl,
  uts_completion ev t route evt ts idx new old c = (c', Val compl) ->
  (status_in new COMPLETED_STATUSES = false /\ compl = None /\ c' = c) \/
  (status_in new COMPLETED_STATUSES = true /\
   exists c1 r ctx b, Rk c c1 /\ c_graph c1 = c_graph c /\ nth_error (sequence (c_ws c1)) idx = Some r /\
     compl = Some (ctx, b) /\
     (b = true -> c' = c1 /\ tbl_transition_valid task_table new S_RETRYING = true /\ retry_allowed r true) /\
     (r_retry r = None -> b = false) /\ (b = true -> new <> old)).
Proof.
  intros t route evt ts idx new old c c' compl H. unfold uts_completion in H.
  destruct (status_in new COMPLETED_STATUSES) eqn:Ec; [right; split; [reflexivity|]|left; inversion H; auto].
  apply bind_val_inv' in H. destruct H as [c1 [u [E1 H]]].
  assert (K1 : Rk c c1 /\ c_graph c1 = c_graph c).
  { match type of E1 with ?m _ = _ =>
      assert (P1 : preserves Rk m) by (pw Rk_refl Rk_trans ltac:(first [apply pk_w_unstage|apply pk_w_restage]));
      assert (P2 : preserves Rg m) by (pw Rg_refl Rg_trans ltac:(apply pg_modws)) end.
    split; [eapply P1; exact E1|eapply P2; exact E1]. }
  cbv zeta in H.
  apply bind_val_inv' in H. destruct H as [c2 [r [E2 H]]].
  apply get_rec_inv in E2; destruct E2 as [-> Hr].
  apply bind_val_inv' in H. destruct H as [c3 [in_ctx [E3 H]]].
  assert (c3 = c1) as ->.
  { unfold get_task_context, bind, getws in E3. apply lift_res_inv in E3; destruct E3; assumption. }
  apply bind_val_inv' in H. destruct H as [c4 [w [E4 H]]]. inversion E4; subst c4 w; clear E4.
  apply bind_val_inv' in H. destruct H as [c5 [b [E5 H]]]. inversion H; subst c' compl; clear H.
  destruct K1 as [K1 K2].
  eexists c1, r, _, b.
  split; [exact K1|]. split; [exact K2|]. split; [exact Hr|]. split; [reflexivity|].
  assert (Guard : b = true -> c5 = c1 /\
            negb (status_eqb new old) && status_in (wstatus (c_ws c1)) ACTIVE_STATUSES
              && tbl_transition_valid task_table new S_RETRYING = true /\ retry_allowed r true).
  { intro Hb; subst b. apply try_true_inv in E5; try reflexivity.
    + destruct E5 as [-> E5]. split; [reflexivity|].
      destruct (negb (status_eqb new old) && status_in (wstatus (c_ws c1)) ACTIVE_STATUSES
                && tbl_transition_valid task_table new S_RETRYING) eqn:Eg; [|inversion E5].
      split; [reflexivity|]. eapply evaluate_task_retry_bound; exact E5.
    + match goal with |- state_pure (if ?g then _ else _) => destruct g end;
        [apply evaluate_task_retry_pure|apply state_pure_ret].
    + intro e. apply vpost_bind; intro. apply vpost_bind; intro. apply vpost_ret; reflexivity. }
  split; [|split].
  - intro Hb. destruct (Guard Hb) as [G1 [G2 G3]]. split; [exact G1|]. split; [|exact G3].
    apply andb_prop in G2; destruct G2 as [_ G2]; exact G2.
  - intro Hn. unfold try_catch in E5.
    assert (G : forall ctx, evaluate_task_retry ev r ctx c1 = (c1, Val false)) by (intro; unfold evaluate_task_retry; rewrite Hn; reflexivity).
    match type of E5 with context [if ?g then _ else _] => destruct g end;
      [rewrite G in E5|unfold ret in E5]; inversion E5; reflexivity.
  - intros Hb Heq. destruct (Guard Hb) as [_ [G2 _]]. apply andb_prop in G2; destruct G2 as [G2 _].
    apply andb_prop in G2; destruct G2 as [G2 _]. subst old. rewrite status_eqb_refl in G2. discriminate G2.
Qed.

End Completion.

Definition rr_bump (rr : retry_rec) : retry_rec :=
  {| rr_when := rr_when rr; rr_count := rr_count rr; rr_delay := rr_delay rr; rr_tally := S (rr_tally rr) |}.

Lemma uts_setst_run : forall idx ns c,
  uts_setst idx ns c =
  (match ns with Some s => set_ws c (ws_update_rec (c_ws c) idx (fun r => r_set_status r (Some s))) | None => c end, Val tt).
Proof. intros idx [s|] c; reflexivity. Qed.

Lemma uts_retrying_run : forall t route idx r st c,
  uts_retrying t route idx r st c =
  if status_eqb st S_RETRYING then
    match r_retry r with
    | None => (c, Exc (exn_key "retry"))
    | Some rr =>
        (set_ws c (ws_add_staged
                     (ws_remove_staged_task (ws_update_rec (c_ws c) idx (fun r0 => r_set_retry r0 (Some (rr_bump rr)))) t route)
                     (mk_staged t route (r_in r) (r_prev r) true (Some (rr_bump rr)))), Val tt)
    end
  else (c, Val tt).
Proof.
  intros t route idx r st c. unfold uts_retrying. destruct (status_eqb st S_RETRYING); [|reflexivity].
  destruct (r_retry r); reflexivity.
Qed.

Section Machine.
Variable ev : string -> dict -> evalres.

Definition stepped (r : trec) (ns : option status) : trec :=
  match ns with Some s => r_set_status r (Some s) | None => r end.

Lemma stepped_retry : forall r ns, r_retry (stepped r ns) = r_retry r.
Proof. intros r [s|]; reflexivity. Qed.
Lemma stepped_status : forall r ns, rstatus (stepped r ns) = match ns with Some s => s | None => rstatus r end.
Proof. intros r [s|]; reflexivity. Qed.

Definition setst_state (c : cstate) (idx : nat) (ns : option status) : cstate :=
  match ns with Some s => set_ws c (ws_update_rec (c_ws c) idx (fun r => r_set_status r (Some s))) | None => c end.
Lemma nth_setst_state : forall c idx ns r, nth_error (sequence (c_ws c)) idx = Some r ->
  nth_error (sequence (c_ws (setst_state c idx ns))) idx = Some (stepped r ns).
Proof.
  intros c idx [s|] r H; [|exact H].
  exact (nth_update_rec_same (c_ws c) idx (fun x => r_set_status x (Some s)) r H).
Qed.

Lemma pre_machine_steps : forall t route evt ts idx c,
  pre_machine ev t route evt ts idx c =
  match nth_error (sequence (c_ws c)) idx with
  | None => (c, Exc exn_index)
  | Some r =>
      match task_process_event (c_ws c) r evt with
      | Exc x => (c, Exc x)
      | Val ns =>
          (uts_retrying t route idx (stepped r ns) (rstatus (stepped r ns)) ;;;
           k <- uts_completion ev t route evt ts idx (rstatus (stepped r ns)) (rstatus r) ;;
           ret {| po_ts := ts; po_idx := idx; po_old := rstatus r; po_new := rstatus (stepped r ns); po_compl := k |})
            (setst_state c idx ns)
      end
  end.
Proof.
  intros t route evt ts idx c. unfold pre_machine.
  destruct (nth_error (sequence (c_ws c)) idx) as [r|] eqn:Hr.
  2: { unfold get_rec, bind, getws. rewrite Hr. reflexivity. }
  rewrite (bind_step _ _ _ _ _ _ _ (get_rec_run _ _ _ Hr)).
  rewrite (bind_step _ _ _ _ _ _ _ (eq_refl : getws c = (c, Val (c_ws c)))).
  destruct (task_process_event (c_ws c) r evt) as [ns|x]; [|reflexivity].
  rewrite (bind_step _ _ _ _ _ _ _ (eq_refl : lift_res (Val ns) c = (c, Val ns))).
  rewrite (bind_step _ _ _ _ _ _ _ (uts_setst_run idx ns c)). fold (setst_state c idx ns).
  rewrite (bind_step _ _ _ _ _ _ _ (get_rec_run _ _ _ (nth_setst_state c idx ns r Hr))). reflexivity.
Qed.

Lemma pre_machine_inv : forall t route evt ts idx c c' p,
  pre_machine ev t route evt ts idx c = (c', Val p) ->
  exists r ns c1 c2,
    nth_error (sequence (c_ws c)) idx = Some r /\
    task_process_event (c_ws c) r evt = Val ns /\
    uts_setst idx ns c = (c1, Val tt) /\
    nth_error (sequence (c_ws c1)) idx = Some (stepped r ns) /\
    tasks (c_ws c1) = tasks (c_ws c) /\ c_graph c1 = c_graph c /\
    uts_retrying t route idx (stepped r ns) (rstatus (stepped r ns)) c1 = (c2, Val tt) /\
    uts_completion ev t route evt ts idx (rstatus (stepped r ns)) (rstatus r) c2 = (c', Val (po_compl p)) /\
    po_ts p = ts /\ po_idx p = idx /\ po_old p = rstatus r /\ po_new p = rstatus (stepped r ns).
Proof.
  intros t route evt ts idx c c' p H. rewrite pre_machine_steps in H.
  destruct (nth_error (sequence (c_ws c)) idx) as [r|] eqn:Hr; [|discriminate].
  destruct (task_process_event (c_ws c) r evt) as [ns|] eqn:Ens; [|discriminate].
  apply bind_val_inv' in H. destruct H as [c2 [[] [E2 H]]].
  apply bind_val_inv' in H. destruct H as [c3 [k [E3 H]]]. inversion H; subst c3 p; clear H.
  exists r, ns, (setst_state c idx ns), c2. simpl.
  repeat (split; [first [assumption|reflexivity|apply uts_setst_run|apply nth_setst_state; assumption
                        |destruct ns; [apply tasks_update_rec|reflexivity]|destruct ns; reflexivity]|]).
  reflexivity.
Qed.

Lemma pre_machine_run : forall t route evt ts idx c r ns,
  nth_error (sequence (c_ws c)) idx = Some r -> task_process_event (c_ws c) r evt = Val ns ->
  rstatus (stepped r ns) <> S_RETRYING ->
  pre_machine ev t route evt ts idx c =
  bind (uts_completion ev t route evt ts idx (rstatus (stepped r ns)) (rstatus r))
       (fun k => ret {| po_ts := ts; po_idx := idx; po_old := rstatus r; po_new := rstatus (stepped r ns); po_compl := k |})
       (setst_state c idx ns).
Proof.
  intros t route evt ts idx c r ns Hr Ht Hnr. rewrite pre_machine_steps, Hr, Ht.
  unfold bind at 1. rewrite uts_retrying_run.
  destruct (status_eqb (rstatus (stepped r ns)) S_RETRYING) eqn:E; [apply status_eqb_eq in E; contradiction|reflexivity].
Qed.

(* when does the tail make no call at all *)
Definition norec_cond (c : cstate) (t : string) (p : pre_out) : Prop :=
  po_compl p = None \/
  exists ctx, po_compl p = Some (ctx, false) /\ (po_new p = po_old p \/ g_next_transitions (c_graph c) t = []).

Lemma pre_machine_retry_event : forall t route ts idx c c' p,
  pre_machine ev t route retry_event ts idx c = (c', Val p) -> norec_cond c' t p.
Proof.
  intros t route ts idx c c' p H.
  destruct (pre_machine_inv _ _ _ _ _ _ _ _ H) as [r [ns [c1 [c2 [Hr [Ens [_ [_ [_ [_ [_ [Ec [_ [_ [Ho Hn]]]]]]]]]]]]]]].
  apply tpe_engine in Ens. rewrite stepped_status in Hn, Ec.
  destruct (completion_inv _ _ _ _ _ _ _ _ _ _ _ Ec) as [[_ [Hc _]]|[Hcomp [c3 [r3 [ctx [b [_ [_ [_ [Hc [Hb _]]]]]]]]]]];
    [left; exact Hc|].
  destruct ns as [s|].
  - apply F_retry_event_target in Ens; subst s. rewrite retrying_not_completed in Hcomp; discriminate.
  - right; exists ctx. destruct b.
    + exfalso. destruct (Hb eq_refl) as [_ [Hv _]].
      destruct (F_task_retry_valid _ Hv) as [E|E].
      * rewrite E in Hcomp; rewrite retrying_not_completed in Hcomp; discriminate.
      * rewrite Ens in E; discriminate.
    + split; [exact Hc|left; congruence].
Qed.

End Machine.

Section Queue.
Variable ev : string -> dict -> evalres.

Definition cmd_pair (p : string * nat) : Prop := is_engine_command (fst p) = true.
Definition cmd_res (res : option (string * nat) * option (string * nat)) : Prop :=
  forall x, fst res = Some x -> cmd_pair x.

Definition cmds_of (rs : list (option (string * nat) * option (string * nat))) : list (string * nat) :=
  flat_map (fun '(q, _) => match q with Some x => [x] | None => [] end) rs.

Lemma uts_queue_inv : forall t route idx ts o n compl c c' q,
  uts_queue ev t route idx ts o n compl c = (c', Val q) ->
  (c' = c /\ q = [] /\ (compl = None \/ n = o)) \/
  exists ctx b c1 c2 rs c3 r4,
    compl = Some (ctx, b) /\
    (match g_next_transitions (c_graph c) t with [] => upd_rec idx (fun r => r_set_term r true) | _ => ret tt end) c = (c1, Val tt) /\
    mapM (process_transition ev t route idx ts ctx) (g_next_transitions (c_graph c) t) c1 = (c2, Val rs) /\
    (if existsb (fun '(n0, _) => String.eqb n0 "fail") (cmds_of rs)
     then forM_ (flat_map (fun '(_, x) => match x with Some y => [y] | None => [] end) rs)
            (fun '(n0, rt) => modws (fun w => ws_set_staged w (staged_update (fun s => s_set_run_on_fail s true) n0 rt (staged w))))
     else ret tt) c2 = (c3, Val tt) /\
    nth_error (sequence (c_ws c3)) idx = Some r4 /\
    (match g_next_transitions (c_graph c) t with
     | [] => ret tt
     | _ => if existsb (fun '(_, b0) => b0) (r_next r4) then ret tt else upd_rec idx (fun r => r_set_term r true)
     end) c3 = (c', Val tt) /\
    q = cmds_of rs.
Proof.
  intros t route idx ts o n compl c c' q H. unfold uts_queue in H.
  destruct compl as [[ctx b]|]; [|inversion H; left; auto].
  destruct (status_eqb n o) eqn:En; [apply status_eqb_eq in En; inversion H; left; auto|]. cbn [negb] in H.
  apply bind_val_inv' in H. destruct H as [c0 [cst [E0 H]]]. inversion E0; subst c0 cst; clear E0. cbv zeta in H.
  apply bind_val_inv' in H. destruct H as [c1 [[] [E1 H]]].
  apply bind_val_inv' in H. destruct H as [c2 [rs [E2 H]]].
  apply bind_val_inv' in H. destruct H as [c3 [[] [E3 H]]].
  apply bind_val_inv' in H. destruct H as [c4 [r4 [Eg H]]]. apply get_rec_inv in Eg. destruct Eg as [-> Hr4].
  apply bind_val_inv' in H. destruct H as [c5 [[] [E5 H]]]. inversion H; subst c' q; clear H.
  right. exists ctx, b, c1, c2, rs, c3, r4. repeat split; assumption.
Qed.

Lemma pt_cmd_dst : forall t route idx ts ctx e,
  vpost (fun v : option (string * nat) * option (string * nat) =>
           forall x, fst v = Some x -> fst x = e_dst e /\ is_engine_command (fst x) = true)
        (process_transition ev t route idx ts ctx e).
Proof.
  intros. unfold process_transition. apply vpost_bind; intros [[|]|]; try (apply vpost_ret; intros x Hx; discriminate).
  apply vpost_bind; intros [new_ctx errors]. destruct errors as [|e1 errs].
  2: { repeat (apply vpost_bind; intro). apply vpost_ret; intros x Hx; discriminate. }
  repeat (apply vpost_bind; intro).
  destruct (is_engine_command (e_dst e)) eqn:E.
  - apply vpost_ret; intros x Hx; inversion Hx; subst; split; [reflexivity|exact E].
  - match goal with |- vpost _ (if ?b then _ else _) => destruct b end; apply vpost_ret; intros x Hx; discriminate.
Qed.

(* process_transition in two parts -- the evaluation of the criteria with the recording of the decision, and what is
   done with the decision -- and what each part computes *)
Section TransitionRun.
Variable t : string.
Variables route idx : nat.
Variable ts : task_spec.
Variable ctx : dict.

Definition pt_decide (e : gedge) : M (option bool) :=
  try_catch
    (vs <- mapM (fun cr => evaluate ev cr ctx) (e_criteria e) ;;
     let b := forallb truthy vs in
     upd_rec idx (fun r => r_set_next r (aset trid_eqb (e_dst e, e_key e) b (r_next r))) ;;;
     ret (Some b))
    (fun x => log_error x (Some t) (Some route) (Some (e_dst e, e_key e)) ;;;
              request_status_core S_FAILED ;;; ret None).

Definition pt_act (e : gedge) (ok : option bool) : M (option (string * nat) * option (string * nat)) :=
  let tid := (e_dst e, e_key e) in
  match ok with
  | Some true =>
      fc <- finalize_context ev ts e ctx ;;
      let '(new_ctx, errors) := fc in
      match errors with
      | _ :: _ =>
          log_errors errors (Some t) (Some route) (Some tid) ;;;
          request_status_core S_FAILED ;;; ret (None, None)
      | [] =>
          r <- get_rec idx ;;
          w <- getws ;;
          out_idxs <- (match new_ctx with
                       | [] => ret (r_in r)
                       | _ =>
                           let ci := length (contexts w) in
                           modws (fun w => ws_set_contexts w (app (contexts w) [new_ctx])) ;;;
                           upd_rec idx (fun r => r_set_out r (Some (tid, ci))) ;;;
                           ret (app (r_in r) [ci])
                       end) ;;
          next_route <- evaluate_route e route ;;
          let nt := e_dst e in
          let backref := (t, e_key e) in
          w <- getws ;;
          (match get_staged_task w nt next_route with
           | Some _ =>
               match nat_remove_first 0 out_idxs with
               | None => raise (mkexn "ValueError" "list.remove(x): x not in list")
               | Some out' =>
                   modws (fun w => ws_set_staged w
                            (staged_update
                               (fun s => s_set_completed
                                           (s_set_items (s_set_in_prev s (app (s_in s) out')
                                                                       (aset trid_eqb backref idx (s_prev s)))
                                                        None) false)
                               nt next_route (staged w)))
               end
           | None =>
               modws (fun w => ws_add_staged w (mk_staged nt next_route out_idxs [(backref, idx)] false None))
           end) ;;;
          c <- get ;;
          let ready := inbound_eqb (get_inbound_criteria_status (c_graph c) (c_ws c) nt route) InbSatisfied in
          modws (fun w => ws_set_staged w (staged_update (fun s => s_set_ready s ready) nt next_route (staged w))) ;;;
          if is_engine_command nt then ret (Some (nt, next_route), None)
          else if ready then ret (None, Some (nt, next_route))
          else ret (None, None)
      end
  | _ => ret (None, None)
  end.

Lemma pt_split : forall e, process_transition ev t route idx ts ctx e = bind (pt_decide e) (pt_act e).
Proof. intros; reflexivity. Qed.


Lemma mapM_evaluate_pure : forall l, state_pure (mapM (fun cr => evaluate ev cr ctx) l).
Proof.
  induction l as [|x l IH]; simpl; [apply state_pure_ret|].
  apply state_pure_bind; [apply evaluate_pure|intro y].
  apply state_pure_bind; [exact IH|intro ys; apply state_pure_ret].
Qed.

Definition pt_decided (e : gedge) (vs : list json) (c : cstate) : cstate :=
  set_ws c (ws_update_rec (c_ws c) idx
              (fun r => r_set_next r (aset trid_eqb (e_dst e, e_key e) (forallb truthy vs) (r_next r)))).

(* the criteria are evaluated without touching the state; then the decision is recorded, or the error handled *)
Lemma pt_decide_run : forall e c, exists rv, mapM (fun cr => evaluate ev cr ctx) (e_criteria e) c = (c, rv) /\
  pt_decide e c =
  match rv with
  | Val vs => (pt_decided e vs c, Val (Some (forallb truthy vs)))
  | Exc x => (log_error x (Some t) (Some route) (Some (e_dst e, e_key e)) ;;; request_status_core S_FAILED ;;; ret None) c
  end.
Proof.
  intros e c. unfold pt_decide, try_catch. unfold bind at 1. pose proof (mapM_evaluate_pure (e_criteria e) c) as Hp.
  destruct (mapM (fun cr => evaluate ev cr ctx) (e_criteria e) c) as [cm [vs|x]]; simpl in Hp; subst cm; eexists; split; reflexivity.
Qed.

Lemma handler_returns_none : forall A (m k : M unit) c c' (v : option A), (m ;;; k ;;; ret None) c = (c', Val v) -> v = None.
Proof.
  intros A m k c c' v H. apply bind_val_inv' in H. destruct H as [ca [ua [_ H]]].
  apply bind_val_inv' in H. destruct H as [cb [ub [_ H]]]. inversion H; reflexivity.
Qed.

(* the states a true decision goes through: the snapshot published (if any) with the list handed to the target,
   the target staged or its entry extended, the ready flag; and the value returned *)
Definition published (e : gedge) (new_ctx : dict) (c : cstate) : cstate :=
  match new_ctx with
  | [] => c
  | _ => set_ws c (ws_update_rec (ws_set_contexts (c_ws c) (app (contexts (c_ws c)) [new_ctx])) idx
                                 (fun r => r_set_out r (Some ((e_dst e, e_key e), length (contexts (c_ws c))))))
  end.
Definition handed_over (r : trec) (new_ctx : dict) (c : cstate) : list nat :=
  match new_ctx with [] => r_in r | _ => app (r_in r) [length (contexts (c_ws c))] end.
Definition arrived (e : gedge) (nr : nat) (out : list nat) (c : cstate) : option cstate :=
  match get_staged_task (c_ws c) (e_dst e) nr with
  | Some _ =>
      match nat_remove_first 0 out with
      | None => None
      | Some out' =>
          Some (set_ws c (ws_set_staged (c_ws c)
                  (staged_update
                     (fun s => s_set_completed
                                 (s_set_items (s_set_in_prev s (app (s_in s) out')
                                                             (aset trid_eqb (t, e_key e) idx (s_prev s)))
                                              None) false)
                     (e_dst e) nr (staged (c_ws c)))))
      end
  | None => Some (set_ws c (ws_add_staged (c_ws c) (mk_staged (e_dst e) nr out [((t, e_key e), idx)] false None)))
  end.
Definition target_ready (e : gedge) (c : cstate) : bool :=
  inbound_eqb (get_inbound_criteria_status (c_graph c) (c_ws c) (e_dst e) route) InbSatisfied.
Definition flagged (e : gedge) (nr : nat) (c : cstate) : cstate :=
  set_ws c (ws_set_staged (c_ws c) (staged_update (fun s => s_set_ready s (target_ready e c)) (e_dst e) nr (staged (c_ws c)))).
Definition pt_result (e : gedge) (nr : nat) (c : cstate) : option (string * nat) * option (string * nat) :=
  if is_engine_command (e_dst e) then (Some (e_dst e, nr), None)
  else if target_ready e c then (None, Some (e_dst e, nr)) else (None, None).

Lemma pt_publish_run : forall e r new_ctx c,
  (match new_ctx with
   | [] => ret (r_in r)
   | _ => modws (fun w => ws_set_contexts w (app (contexts w) [new_ctx])) ;;;
          upd_rec idx (fun r0 => r_set_out r0 (Some ((e_dst e, e_key e), length (contexts (c_ws c))))) ;;;
          ret (app (r_in r) [length (contexts (c_ws c))])
   end) c = (published e new_ctx c, Val (handed_over r new_ctx c)).
Proof. intros e r [|kv d] c; reflexivity. Qed.

Lemma pt_stage_run : forall e nr out c,
  (match get_staged_task (c_ws c) (e_dst e) nr with
   | Some _ =>
       match nat_remove_first 0 out with
       | None => raise (mkexn "ValueError" "list.remove(x): x not in list")
       | Some out' =>
           modws (fun w => ws_set_staged w
                    (staged_update
                       (fun s => s_set_completed
                                   (s_set_items (s_set_in_prev s (app (s_in s) out')
                                                               (aset trid_eqb (t, e_key e) idx (s_prev s)))
                                                None) false)
                       (e_dst e) nr (staged w)))
       end
   | None => modws (fun w => ws_add_staged w (mk_staged (e_dst e) nr out [((t, e_key e), idx)] false None))
   end) c =
  match arrived e nr out c with
  | Some c' => (c', Val tt)
  | None => (c, Exc (mkexn "ValueError" "list.remove(x): x not in list"))
  end.
Proof.
  intros e nr out c. unfold arrived. destruct (get_staged_task (c_ws c) (e_dst e) nr); [destruct (nat_remove_first 0 out)|]; reflexivity.
Qed.

(* a returning run on a true decision, from the state c in which the decision stands recorded *)
Definition pt_true_outcome (e : gedge) (c c' : cstate) (res : option (string * nat) * option (string * nat)) : Prop :=
  exists cf new_ctx errors, finalize_context ev ts e ctx c = (cf, Val (new_ctx, errors)) /\
    match errors with
    | _ :: _ =>
        res = (None, None) /\
        exists c3, log_errors errors (Some t) (Some route) (Some (e_dst e, e_key e)) cf = (c3, Val tt) /\
                   request_status_core S_FAILED c3 = (c', Val tt)
    | [] =>
        exists r c3 nr c4, nth_error (sequence (c_ws cf)) idx = Some r /\
          evaluate_route e route (published e new_ctx cf) = (c3, Val nr) /\
          arrived e nr (handed_over r new_ctx cf) c3 = Some c4 /\
          c' = flagged e nr c4 /\ res = pt_result e nr c4
    end.

Lemma pt_act_true_inv : forall e c c' res, pt_act e (Some true) c = (c', Val res) -> pt_true_outcome e c c' res.
Proof.
  intros e c c' res H. unfold pt_act in H. cbv zeta in H.
  apply bind_val_inv' in H. destruct H as [c1 [[new_ctx errors] [E1 H]]]. exists c1, new_ctx, errors. split; [exact E1|].
  destruct errors as [|x errs].
  2: { apply bind_val_inv' in H. destruct H as [c3 [[] [E3 H]]]. apply bind_val_inv' in H. destruct H as [c4 [[] [E4 H]]].
       inversion H; subst. split; [reflexivity|]. exists c3. split; assumption. }
  apply bind_val_inv' in H. destruct H as [c2 [r [E2 H]]]. apply get_rec_inv in E2; destruct E2 as [-> Hr].
  apply bind_val_inv' in H. destruct H as [c3 [w [E3 H]]]. inversion E3; subst c3 w; clear E3.
  rewrite (bind_step _ _ _ _ _ _ _ (pt_publish_run e r new_ctx c1)) in H.
  apply bind_val_inv' in H. destruct H as [c5 [nr [E5 H]]].
  apply bind_val_inv' in H. destruct H as [c6 [w6 [E6 H]]]. inversion E6; subst c6 w6; clear E6.
  apply bind_val_inv' in H. destruct H as [c7 [[] [E7 H]]]. rewrite pt_stage_run in E7.
  destruct (arrived e nr (handed_over r new_ctx c1) c5) as [c7'|] eqn:Ea; inversion E7; subst c7'; clear E7.
  unfold bind at 1, get in H. cbv beta iota zeta in H.
  apply bind_val_inv' in H. destruct H as [c8 [u8 [E8 H]]]. unfold modws in E8. inversion E8; subst c8; clear E8.
  exists r, c5, nr, c7. split; [exact Hr|]. split; [exact E5|]. split; [exact Ea|].
  unfold flagged, pt_result, target_ready. destruct (is_engine_command (e_dst e)); [inversion H; split; reflexivity|].
  match type of H with (if ?b then _ else _) _ = _ => destruct b end; inversion H; split; reflexivity.
Qed.

(* a returning run of the whole: the three decisions *)
Lemma process_transition_val_inv : forall e c c' res, process_transition ev t route idx ts ctx e c = (c', Val res) ->
  exists rv, mapM (fun cr => evaluate ev cr ctx) (e_criteria e) c = (c, rv) /\
    match rv with
    | Exc x =>
        res = (None, None) /\
        exists c1, log_error x (Some t) (Some route) (Some (e_dst e, e_key e)) c = (c1, Val tt) /\
                   request_status_core S_FAILED c1 = (c', Val tt)
    | Val vs =>
        if forallb truthy vs then pt_true_outcome e (pt_decided e vs c) c' res
        else c' = pt_decided e vs c /\ res = (None, None)
    end.
Proof.
  intros e c c' res H. rewrite pt_split in H. apply bind_val_inv' in H. destruct H as [c1 [ok [E1 H]]].
  destruct (pt_decide_run e c) as [rv [Em E]]. rewrite E in E1; clear E. exists rv. split; [exact Em|]. destruct rv as [vs|x].
  - inversion E1; subst c1 ok; clear E1. destruct (forallb truthy vs); [exact (pt_act_true_inv _ _ _ _ H)|inversion H; split; reflexivity].
  - pose proof (handler_returns_none _ _ _ _ _ _ E1) as ->. inversion H; subst c1 res. split; [reflexivity|].
    apply bind_val_inv' in E1. destruct E1 as [ca [[] [Ea E1]]]. apply bind_val_inv' in E1. destruct E1 as [cb [[] [Eb E1]]].
    inversion E1; subst cb. exists ca. split; assumption.
Qed.
End TransitionRun.

Lemma process_transition_cmd : forall t route idx ts ctx e,
  vpost cmd_res (process_transition ev t route idx ts ctx e).
Proof.
  intros. eapply vpost_weaken; [|apply pt_cmd_dst]. intros v H x Hx. destruct (H x Hx) as [_ Hc]. exact Hc.
Qed.

Lemma cmds_of_results : forall A (l : list A) rs, Forall2 (fun _ res => cmd_res res) l rs ->
  Forall cmd_pair (flat_map (fun '(q, _) => match q with Some x => [x] | None => [] end) rs).
Proof.
  intros A l rs H; induction H as [|a [q q'] l rs Hq Hl IH]; simpl; [constructor|].
  destruct q as [x|]; simpl; [constructor; [apply Hq; reflexivity|exact IH]|exact IH].
Qed.

Lemma queue_cmds : forall t route idx ts old new compl,
  vpost (Forall cmd_pair) (uts_queue ev t route idx ts old new compl).
Proof.
  intros; unfold uts_queue. destruct compl as [[ctx b]|]; [|apply vpost_ret; constructor].
  destruct (negb (status_eqb new old)); [|apply vpost_ret; constructor].
  apply vpost_bind; intro c0. cbv zeta. apply vpost_bind; intro.
  eapply vpost_bind_strong;
    [apply (vpost_mapM _ _ (fun _ res => cmd_res res)); intro; apply process_transition_cmd | intros rs Hrs].
  repeat (apply vpost_bind; intro). apply vpost_ret. eapply cmds_of_results; exact Hrs.
Qed.

Lemma queue_nil : forall t route idx ts old new compl c c' q,
  uts_queue ev t route idx ts old new compl c = (c', Val q) ->
  (new = old \/ g_next_transitions (c_graph c) t = []) -> q = [].
Proof.
  intros t route idx ts old new compl c c' q H [->|Hc].
  - unfold uts_queue in H. destruct compl as [[ctx b]|]; [rewrite status_eqb_refl in H|]; inversion H; reflexivity.
  - destruct (uts_queue_inv _ _ _ _ _ _ _ _ _ _ H) as [[_ [-> _]]|[ctx [b [c1 [c2 [rs [c3 [r4 [_ [_ [E2 [_ [_ [_ ->]]]]]]]]]]]]]];
      [reflexivity|]. rewrite Hc in E2. inversion E2. reflexivity.
Qed.

Lemma tail_norec_eq : forall rec1 rec2 t route ts idx old new compl c,
  (compl = None \/ exists ctx, compl = Some (ctx, false) /\ (new = old \/ g_next_transitions (c_graph c) t = [])) ->
  uts_tail ev rec1 t route ts idx old new compl c = uts_tail ev rec2 t route ts idx old new compl c.
Proof.
  intros rec1 rec2 t route ts idx old new compl c H. unfold uts_tail.
  destruct H as [->|[ctx [-> H]]].
  - apply bind_congr; intros c1 q E. inversion E; subst. reflexivity.
  - apply bind_congr; intros c1 q E. rewrite (queue_nil _ _ _ _ _ _ _ _ _ _ E H). reflexivity.
Qed.

End Queue.

Section Select.
Variable ev : string -> dict -> evalres.

Lemma setup_retry_fresh : forall t idxs, vpost (fun rr => rr_tally rr = 0) (setup_retry ev t idxs).
Proof. intros; unfold setup_retry. vw ltac:(reflexivity). Qed.

Definition fresh_retry (o : option retry_rec) : Prop := forall rr, o = Some rr -> rr_tally rr = 0.

Lemma add_task_state_inv : forall t rt ins prev c c' idx,
  add_task_state ev t rt ins prev c = (c', Val idx) ->
  exists r, nth_error (sequence (c_ws c')) idx = Some r /\ r_status r = None /\ fresh_retry (r_retry r) /\
            (g_task_has_retry (c_graph c) t = false -> r_retry r = None) /\
            ws_task_idx (c_ws c') t rt = Some idx.
Proof.
  intros t rt ins prev c c' idx H. unfold add_task_state in H.
  apply bind_val_inv' in H. destruct H as [c0 [cst [E0 H]]]. inversion E0; subst c0 cst; clear E0.
  destruct (negb (g_has_task (c_graph c) t)); [inversion H|]. cbv zeta in H.
  apply bind_val_inv' in H. destruct H as [cm [retry [Er H]]].
  apply bind_val_inv' in H. destruct H as [c0 [w [E0 H]]]. inversion E0; subst c0 w; clear E0.
  apply bind_val_inv' in H. destruct H as [c1 [u [E1 H]]]. inversion E1; subst c1; clear E1.
  inversion H; subst c' idx; clear H.
  eexists. simpl. split; [|split; [|split; [|split]]].
  - rewrite nth_error_app2 by apply Nat.le_refl. rewrite Nat.sub_diag. reflexivity.
  - reflexivity.
  - simpl. match type of Er with ?m _ = _ => assert (V : vpost fresh_retry m) end; [|exact (V _ _ _ Er)].
    destruct (g_task_has_retry (c_graph c) t); [|apply vpost_ret; intros rr Hrr; discriminate].
    apply vpost_try_catch.
    + eapply vpost_bind_strong; [apply setup_retry_fresh|intros rr Hrr]. apply vpost_ret.
      intros rr' E; inversion E; subst; exact Hrr.
    + intro e. apply vpost_bind; intro. apply vpost_bind; intro. apply vpost_ret; intros rr Hrr; discriminate.
  - simpl. intro Hg. rewrite Hg in Er. inversion Er; reflexivity.
  - unfold ws_task_idx; simpl. apply aget_aset_same. apply tkey_eqb_refl.
Qed.

Lemma sel1_inv : forall t s0 e0 c c' idx1, uts_sel1 ev t s0 e0 c = (c', Val idx1) ->
  (e0 = Some idx1 /\ is_engine_command t = false /\ c' = c) \/
  (exists s, s0 = Some s /\ add_task_state ev t (s_route s) (s_in s) (s_prev s) c = (c', Val idx1)).
Proof.
  intros t s0 e0 c c' idx1 H. unfold uts_sel1 in H.
  assert (G : forall m, (s <- uts_need_staged s0 ;; m s) c = (c', Val idx1) ->
                        exists s, s0 = Some s /\ m s c = (c', Val idx1)).
  { intros m Hm. apply bind_val_inv' in Hm. destruct Hm as [c1 [s [E1 Hm]]].
    destruct s0 as [s'|]; inversion E1; subst. exists s; split; [reflexivity|exact Hm]. }
  destruct e0 as [i|].
  - destruct (is_engine_command t) eqn:Ec.
    + right. apply (G (fun s => add_task_state ev t (s_route s) (s_in s) (s_prev s))); exact H.
    + left. inversion H; subst; repeat split.
  - right. apply (G (fun s => add_task_state ev t (s_route s) (s_in s) (s_prev s))); exact H.
Qed.

Lemma sel2_inv : forall t evt s0 r1 idx1 c c' idx, uts_sel2 ev t evt s0 r1 idx1 c = (c', Val idx) ->
  (idx = idx1 /\ c' = c) \/
  (ostatus_in (r_status r1) COMPLETED_STATUSES = true /\
   exists s, s0 = Some s /\ add_task_state ev t (s_route s) (s_in s) (s_prev s) c = (c', Val idx)).
Proof.
  intros t evt s0 r1 idx1 c c' idx H. unfold uts_sel2 in H.
  destruct (ostatus_in (r_status r1) COMPLETED_STATUSES) eqn:Eo; cbn [andb] in H.
  - destruct (status_in (ev_status evt) STARTING_STATUSES); cbn [andb] in H.
    + destruct s0 as [s|]; [|left; inversion H; subst; split; reflexivity].
      destruct (negb (s_completed s)); [|left; inversion H; subst; split; reflexivity].
      right; split; [reflexivity|]. apply bind_val_inv' in H. destruct H as [c1 [s' [E1 H]]].
      inversion E1; subst. exists s'; split; [reflexivity|exact H].
    + left; inversion H; subst; split; reflexivity.
  - left; inversion H; subst; split; reflexivity.
Qed.

Lemma select_inv : forall t route evt s0 e0 c c1 idx1 r1 c2 idx c5,
  (forall s, s0 = Some s -> s_route s = route) -> e0 = ws_task_idx (c_ws c) t route ->
  uts_sel1 ev t s0 e0 c = (c1, Val idx1) -> nth_error (sequence (c_ws c1)) idx1 = Some r1 ->
  uts_sel2 ev t evt s0 r1 idx1 c1 = (c2, Val idx) -> Rk c2 c5 ->
  exists r, nth_error (sequence (c_ws c5)) idx = Some r /\ ws_task_idx (c_ws c5) t route = Some idx /\
    ((e0 = Some idx /\ is_engine_command t = false /\ Rk c c5) \/
     (r_status r = None /\ fresh_retry (r_retry r) /\ (g_task_has_retry (c_graph c) t = false -> r_retry r = None))).
Proof.
  intros t route evt s0 e0 c c1 idx1 r1 c2 idx c5 Hroute He0 E1 Hr1 E2 [Ks Kt].
  assert (G1 : c_graph c1 = c_graph c) by (eapply pg_sel1; exact E1).
  assert (New : forall s ca cb i, s0 = Some s -> add_task_state ev t (s_route s) (s_in s) (s_prev s) ca = (cb, Val i) ->
                  c_graph ca = c_graph c -> Rk cb c5 ->
                  exists r, nth_error (sequence (c_ws c5)) i = Some r /\ ws_task_idx (c_ws c5) t route = Some i /\
                    r_status r = None /\ fresh_retry (r_retry r) /\ (g_task_has_retry (c_graph c) t = false -> r_retry r = None)).
  { intros s ca cb i Hs Ha Hg [Hk1 Hk2]. destruct (add_task_state_inv _ _ _ _ _ _ _ Ha) as [r [Hn [Hst [Hf [Hnr Hp]]]]].
    exists r. rewrite (Hroute _ Hs) in Hp. unfold ws_task_idx in *. rewrite Hk1, Hk2, Hg in *. repeat (split; [assumption|]). assumption. }
  destruct (sel2_inv _ _ _ _ _ _ _ _ E2) as [[-> ->]|[_ [s [Hs Ha]]]].
  - destruct (sel1_inv _ _ _ _ _ _ E1) as [[-> [Hc ->]]|[s [Hs Ha]]].
    + exists r1. split; [rewrite Ks; exact Hr1|]. split; [unfold ws_task_idx in *; rewrite Kt; symmetry; exact He0|].
      left; split; [reflexivity|split; [exact Hc|split; assumption]].
    + destruct (New s c c1 idx1 Hs Ha eq_refl (conj Ks Kt)) as [r [Hn [Hp Hrest]]].
      exists r. split; [exact Hn|]. split; [exact Hp|right; exact Hrest].
  - destruct (New s c1 c2 idx Hs Ha G1 (conj Ks Kt)) as [r [Hn [Hp Hrest]]].
    exists r. split; [exact Hn|]. split; [exact Hp|right; exact Hrest].
Qed.

Lemma pre_main_inv : forall t route evt ts s0 e0 c c' p,
  pre_main ev t route evt ts s0 e0 c = (c', Val p) ->
  (forall s, s0 = Some s -> s_route s = route) -> e0 = ws_task_idx (c_ws c) t route ->
  exists idx c3 r,
    pre_machine ev t route evt ts idx c3 = (c', Val p) /\
    c_graph c3 = c_graph c /\
    nth_error (sequence (c_ws c3)) idx = Some r /\
    ws_task_idx (c_ws c3) t route = Some idx /\
    ((e0 = Some idx /\ is_engine_command t = false /\ Rk c c3) \/
     (r_status r = None /\ fresh_retry (r_retry r) /\ (g_task_has_retry (c_graph c) t = false -> r_retry r = None))).
Proof.
  intros t route evt ts s0 e0 c c' p H Hroute He0. unfold pre_main in H.
  apply bind_val_inv' in H. destruct H as [c1 [idx1 [E1 H]]].
  apply bind_val_inv' in H. destruct H as [c0 [r1 [E0 H]]]. apply get_rec_inv in E0; destruct E0 as [-> Hr1].
  apply bind_val_inv' in H. destruct H as [c2 [idx [E2 H]]].
  apply bind_val_inv' in H. destruct H as [c3 [u3 [E3 H]]].
  apply bind_val_inv' in H. destruct H as [c4 [u4 [E4 H]]].
  apply bind_val_inv' in H. destruct H as [c5 [u5 [E5 H]]].
  assert (K : Rk c2 c5).
  { eapply Rk_trans; [eapply pk_unstage; exact E3|]. eapply Rk_trans; [eapply pk_item; exact E4|eapply pk_logfail; exact E5]. }
  assert (G : c_graph c5 = c_graph c).
  { transitivity (c_graph c4); [eapply pg_logfail; exact E5|]. transitivity (c_graph c3); [eapply pg_item; exact E4|].
    transitivity (c_graph c2); [eapply pg_unstage; exact E3|]. transitivity (c_graph c1); [eapply pg_sel2; exact E2|].
    eapply pg_sel1; exact E1. }
  destruct (select_inv _ _ _ _ _ _ _ _ _ _ _ _ Hroute He0 E1 Hr1 E2 K) as [r [Hn [Hp Hd]]].
  exists idx, c5, r. split; [exact H|]. split; [exact G|]. split; [exact Hn|]. split; [exact Hp|exact Hd].
Qed.

End Select.

Lemma logfail_run : forall t evt c, exists cL, uts_logfail t evt c = (cL, Val tt) /\ c_ws cL = c_ws c /\ c_graph cL = c_graph c /\
  c_spec cL = c_spec c /\ c_init cL = c_init c.
Proof.
  intros t evt c. unfold uts_logfail. destruct (status_eqb (ev_status evt) S_FAILED); [|exists c; repeat split].
  unfold log_entry_error, modify. cbv zeta. eexists. split; [reflexivity|]. destruct (existsb _ _); repeat split.
Qed.

Definition append_rec (c : cstate) (r : trec) : cstate :=
  set_ws c (ws_set_tasks (ws_set_sequence (c_ws c) (app (sequence (c_ws c)) [r]))
                         (aset tkey_eqb (r_id r, r_route r) (length (sequence (c_ws c))) (tasks (c_ws c)))).

Definition new_trec (t : string) (route : nat) (in_idxs : list nat) (prev : list (trid * nat)) (retry : option retry_rec) : trec :=
  {| r_id := t; r_route := route; r_in := in_idxs; r_out := None; r_prev := prev; r_next := []; r_status := None;
     r_term := false; r_retry := retry |}.

Lemma nth_append_rec : forall c r, nth_error (sequence (c_ws (append_rec c r))) (length (sequence (c_ws c))) = Some r.
Proof. intros; simpl. rewrite nth_error_app2 by apply Nat.le_refl. rewrite Nat.sub_diag. reflexivity. Qed.

Section Runs.
Variable ev : string -> dict -> evalres.

Lemma prefix_inv : forall t route evt c c' p, uts_prefix ev t route evt c = (c', Val p) ->
  exists c1 ts, ensure_ws ev c = (c1, Val tt) /\
    pre_main ev t route evt ts (get_staged_task (c_ws c1) t route) (ws_task_idx (c_ws c1) t route) c1 = (c', Val p).
Proof.
  intros t route evt c c' p H. unfold uts_prefix in H.
  apply bind_val_inv' in H. destruct H as [c1 [[] [E1 H]]].
  apply bind_val_inv' in H. destruct H as [c0 [cst [E0 H]]]. inversion E0; subst c0 cst; clear E0.
  destruct (negb (g_has_task (c_graph c1) t)); [inversion H|]. cbv zeta in H.
  apply bind_val_inv' in H. destruct H as [c2 [ts [E2 H]]].
  apply spec_task_state in E2; subst c2.
  exists c1, ts. split; [exact E1|].
  destruct (get_staged_task (c_ws c1) t route), (ws_task_idx (c_ws c1) t route); try exact H. inversion H.
Qed.

Lemma prefix_to_machine : forall t route evt c c' p, uts_prefix ev t route evt c = (c', Val p) ->
  exists c1 ts idx c3 r,
    ensure_ws ev c = (c1, Val tt) /\
    pre_machine ev t route evt ts idx c3 = (c', Val p) /\
    c_graph c3 = c_graph c1 /\
    nth_error (sequence (c_ws c3)) idx = Some r /\
    ws_task_idx (c_ws c3) t route = Some idx /\
    ((ws_task_idx (c_ws c1) t route = Some idx /\ is_engine_command t = false /\ Rk c1 c3) \/
     (r_status r = None /\ fresh_retry (r_retry r) /\ (g_task_has_retry (c_graph c1) t = false -> r_retry r = None))).
Proof.
  intros t route evt c c' p H. destruct (prefix_inv _ _ _ _ _ _ H) as [c1 [ts [E1 Hm]]].
  apply pre_main_inv in Hm; [|intros s Hs; apply get_staged_matches in Hs; apply Hs|reflexivity].
  destruct Hm as [idx [c3 [r Hm]]]. exists c1, ts, idx, c3, r. split; [exact E1|exact Hm].
Qed.

Definition ats_retry (g : graph) (t : string) (route : nat) (in_idxs : list nat) : M (option retry_rec) :=
  if g_task_has_retry g t then
    try_catch (r <- setup_retry ev t in_idxs ;; ret (Some r))
              (fun e => log_error e (Some t) (Some route) None ;;; request_status_core S_FAILED ;;; ret None)
  else ret None.

Lemma add_task_state_run : forall t route ins prev c,
  add_task_state ev t route ins prev c =
  if negb (g_has_task (c_graph c) t) then (c, Exc (exn_invalid_task t))
  else
    let ins' := match ins with [] => [0] | _ => ins end in
    match ats_retry (c_graph c) t route ins' c with
    | (c1, Val retry) => (append_rec c1 (new_trec t route ins' prev retry), Val (length (sequence (c_ws c1))))
    | (c1, Exc e) => (c1, Exc e)
    end.
Proof.
  intros t route ins prev c. unfold add_task_state. unfold bind at 1, get. cbv beta iota.
  destruct (negb (g_has_task (c_graph c) t)); [reflexivity|]. cbv zeta. unfold ats_retry, bind at 1.
  match goal with |- match ?m c with _ => _ end = _ => destruct (m c) as [c1 [retry|e]] end; reflexivity.
Qed.


Lemma add_from_staged_run : forall t s0 c,
  add_from_staged ev t s0 c =
  match s0 with
  | Some s => add_task_state ev t (s_route s) (s_in s) (s_prev s) c
  | None => (c, Exc (exn_type "'NoneType' object is not subscriptable"))
  end.
Proof. intros t [s|] c; reflexivity. Qed.

Lemma pre_main_eq : forall t route evt ts s0 e0 c,
  pre_main ev t route evt ts s0 e0 c =
  bind (uts_select ev t evt s0 e0) (fun idx => uts_before t route evt s0 ;;; pre_machine ev t route evt ts idx) c.
Proof.
  intros. unfold pre_main, uts_select, uts_before. symmetry.
  rewrite bind_assoc_pt. apply bind_congr; intros c1 idx1 _.
  rewrite bind_assoc_pt. apply bind_congr; intros c2 r1 _.
  apply bind_congr; intros c3 idx _.
  rewrite bind_assoc_pt. apply bind_congr; intros c4 u4 _.
  rewrite bind_assoc_pt. reflexivity.
Qed.

(* the selection makes at most one record: the pointer's record is taken as it is, or one record is made *)
Lemma select_run : forall t evt s0 e0 c c' res,
  uts_select ev t evt s0 e0 c = (c', res) ->
  (exists i, e0 = Some i /\ is_engine_command t = false /\ c' = c /\
     match nth_error (sequence (c_ws c)) i with
     | Some r1 => cycle_cond evt s0 r1 = false /\ res = Val i
     | None => res = Exc exn_index
     end) \/
  (add_from_staged ev t s0 c = (c', res) /\
   (e0 = None \/ is_engine_command t = true \/
    exists i r1, e0 = Some i /\ nth_error (sequence (c_ws c)) i = Some r1 /\ cycle_cond evt s0 r1 = true)).
Proof.
  intros t evt s0 e0 c c' res H. unfold uts_select in H.
  assert (New : forall why : Prop, why -> (idx1 <- add_from_staged ev t s0 ;; r1 <- get_rec idx1 ;; uts_sel2 ev t evt s0 r1 idx1) c = (c', res) ->
                add_from_staged ev t s0 c = (c', res) /\ why).
  { intros why Hw Hn. split; [|exact Hw]. apply bind_inv in Hn. destruct Hn as [[c1 [idx1 [E1 Hn]]]|[e [E1 ->]]]; [|exact E1].
    rewrite add_from_staged_run in E1. destruct s0 as [s|]; [|discriminate E1].
    destruct (add_task_state_inv ev _ _ _ _ _ _ _ E1) as [r [Hr [Hst _]]].
    assert (Eg : get_rec idx1 c1 = (c1, Val r)) by (unfold get_rec, bind, getws; rewrite Hr; reflexivity).
    rewrite (bind_step _ _ _ _ _ _ _ Eg) in Hn. unfold uts_sel2 in Hn. rewrite Hst in Hn. cbn [ostatus_in andb] in Hn.
    inversion Hn; subst. rewrite add_from_staged_run. exact E1. }
  unfold uts_sel1 in H. fold (add_from_staged ev t s0) in H.
  destruct e0 as [i|]; [destruct (is_engine_command t) eqn:Ec|]; [right; apply New; [right; left; reflexivity|exact H]| |right; apply New; [left; reflexivity|exact H]].
  rewrite (bind_step _ _ _ _ _ _ _ (eq_refl : ret i c = (c, Val i))) in H.
  destruct (nth_error (sequence (c_ws c)) i) as [r1|] eqn:Er.
  - assert (Eg : get_rec i c = (c, Val r1)) by (unfold get_rec, bind, getws; rewrite Er; reflexivity).
    rewrite (bind_step _ _ _ _ _ _ _ Eg) in H. unfold uts_sel2 in H.
    fold (cycle_cond evt s0 r1) in H. fold (add_from_staged ev t s0) in H.
    destruct (cycle_cond evt s0 r1) eqn:Ecc.
    + right. split; [exact H|]. right; right. exists i, r1. auto.
    + left. exists i. inversion H; subst. rewrite Er. auto.
  - assert (Eg : get_rec i c = (c, Exc exn_index)) by (unfold get_rec, bind, getws; rewrite Er; reflexivity).
    rewrite (bind_exc _ _ _ _ _ _ _ Eg) in H. left. exists i. inversion H; subst. rewrite Er. auto.
Qed.

Lemma uts_select_inv : forall t route evt s0 e0 c c2 idx c5,
  (forall s, s0 = Some s -> s_route s = route) -> e0 = ws_task_idx (c_ws c) t route ->
  uts_select ev t evt s0 e0 c = (c2, Val idx) -> Rk c2 c5 ->
  exists r, nth_error (sequence (c_ws c5)) idx = Some r /\ ws_task_idx (c_ws c5) t route = Some idx /\
    ((e0 = Some idx /\ is_engine_command t = false /\ Rk c c5) \/
     (r_status r = None /\ fresh_retry (r_retry r) /\ (g_task_has_retry (c_graph c) t = false -> r_retry r = None))).
Proof.
  intros t route evt s0 e0 c c2 idx c5 Hroute He0 H K. unfold uts_select in H.
  apply bind_val_inv' in H. destruct H as [c1 [idx1 [E1 H]]].
  apply bind_val_inv' in H. destruct H as [c0 [r1 [E0 E2]]]. apply get_rec_inv in E0; destruct E0 as [-> Hr1].
  eapply select_inv; eassumption.
Qed.

Lemma prefix_run : forall t route evt c c' res,
  uts_prefix ev t route evt c = (c', res) ->
  exists c1 r1, ensure_ws ev c = (c1, r1) /\
    ((exists e, r1 = Exc e /\ c' = c1 /\ res = Exc e) \/
     (r1 = Val tt /\ c' = c1 /\
      ((g_has_task (c_graph c1) t = false /\ res = Exc (exn_invalid_task t)) \/
       (g_has_task (c_graph c1) t = true /\ spec_get_task (c_spec c1) t = None /\ res = Exc (exn_key t)) \/
       (g_has_task (c_graph c1) t = true /\ spec_get_task (c_spec c1) t <> None /\
        get_staged_task (c_ws c1) t route = None /\ ws_task_idx (c_ws c1) t route = None /\
        res = Exc (mkexn "InvalidTaskStateEntry" ("Task """ ++ t ++ """ is not staged or has not started yet."))))) \/
     (r1 = Val tt /\ exists ts, g_has_task (c_graph c1) t = true /\ spec_get_task (c_spec c1) t = Some ts /\
        (get_staged_task (c_ws c1) t route <> None \/ ws_task_idx (c_ws c1) t route <> None) /\
        pre_main ev t route evt ts (get_staged_task (c_ws c1) t route) (ws_task_idx (c_ws c1) t route) c1 = (c', res))).
Proof.
  intros t route evt c c' res H. unfold uts_prefix in H.
  apply bind_inv in H. destruct H as [[c1 [[] [E1 H]]]|[e [E1 ->]]].
  2: { exists c', (Exc e). split; [exact E1|left; exists e; auto]. }
  exists c1, (Val tt). split; [exact E1|right].
  rewrite (bind_step _ _ _ _ _ _ _ (eq_refl : get c1 = (c1, Val c1))) in H.
  destruct (g_has_task (c_graph c1) t) eqn:Eg; cbn [negb] in H; [|inversion H; subst; left; auto]. cbv zeta in H.
  destruct (spec_get_task (c_spec c1) t) as [ts|] eqn:Ets; [|inversion H; subst; left; auto 7].
  rewrite (bind_step _ _ _ _ _ _ _ (eq_refl : ret ts c1 = (c1, Val ts))) in H.
  destruct (get_staged_task (c_ws c1) t route) as [s|] eqn:Es, (ws_task_idx (c_ws c1) t route) as [j|] eqn:Ee.
  - right. split; [reflexivity|]. exists ts. split; [reflexivity|]. split; [reflexivity|]. split; [left; discriminate|exact H].
  - right. split; [reflexivity|]. exists ts. split; [reflexivity|]. split; [reflexivity|]. split; [left; discriminate|exact H].
  - right. split; [reflexivity|]. exists ts. split; [reflexivity|]. split; [reflexivity|]. split; [right; discriminate|exact H].
  - inversion H; subst. left. split; [reflexivity|]. split; [reflexivity|]. right; right.
    split; [reflexivity|]. split; [discriminate|]. auto.
Qed.

Lemma prefix_decided : forall t route evt c c' p ctx,
  uts_prefix ev t route evt c = (c', Val p) -> po_compl p = Some (ctx, true) ->
  ws_task_idx (c_ws c') t route = Some (po_idx p) /\
  exists r, nth_error (sequence (c_ws c')) (po_idx p) = Some r /\ retry_allowed r true /\
            tbl_step task_table (rstatus r) EV_TASK_RETRY_REQUESTED = Some S_RETRYING.
Proof.
  intros t route evt c c' p ctx H Hc.
  destruct (prefix_to_machine _ _ _ _ _ _ H) as [c1 [ts [idx [c3 [r [_ [Hm [_ [_ [Hp _]]]]]]]]]].
  destruct (pre_machine_inv ev _ _ _ _ _ _ _ _ Hm) as [r1 [ns [ca [cb Hx]]]].
  destruct Hx as [_ [_ [_ [Hna [Hta [_ [Ert [Eco [_ [Hidx [_ Hnew]]]]]]]]]]]. rewrite Hidx.
  destruct (completion_inv ev _ _ _ _ _ _ _ _ _ _ Eco) as [[_ [Hn _]]|[Hcs [c4 [r4 [ctx4 [b4 [[Ks Kt] [_ [Hr4 [Hc4 [Hb _]]]]]]]]]]].
  { rewrite Hn in Hc; discriminate. }
  rewrite Hc4 in Hc; inversion Hc; subst ctx4 b4. destruct (Hb eq_refl) as [-> [Hv Hal]].
  assert (cb = ca) as ->.
  { rewrite uts_retrying_run in Ert. destruct (status_eqb (rstatus (stepped r1 ns)) S_RETRYING) eqn:Es; [|inversion Ert; reflexivity].
    apply status_eqb_eq in Es. rewrite Es, retrying_not_completed in Hcs. discriminate. }
  split; [unfold ws_task_idx in *; rewrite Kt, Hta; exact Hp|].
  exists r4. split; [exact Hr4|]. split; [exact Hal|].
  rewrite Ks, Hna in Hr4. inversion Hr4; subst r4.
  destruct (F_task_retry_valid _ Hv) as [E|E]; [rewrite E, retrying_not_completed in Hcs; discriminate|exact E].
Qed.

End Runs.

(* engine commands have no outgoing transitions and no retry policy (true of every composed graph) *)
Definition graph_commands_inert (g : graph) : Prop :=
  forall cmd, is_engine_command cmd = true -> g_next_transitions g cmd = [] /\ g_task_has_retry g cmd = false.

Section Termination.
Variable ev : string -> dict -> evalres.

Lemma prefix_retry_event : forall t route c c' p,
  uts_prefix ev t route retry_event c = (c', Val p) -> norec_cond c' t p.
Proof.
  intros t route c c' p H. destruct (prefix_to_machine ev _ _ _ _ _ _ H) as [c1 [ts [idx [c3 [r [_ [Hm _]]]]]]].
  eapply pre_machine_retry_event; exact Hm.
Qed.

Lemma retrying_none_inv : forall t route idx r st c c', r_retry r = None ->
  uts_retrying t route idx r st c = (c', Val tt) -> c' = c.
Proof.
  intros t route idx r st c c' Hn H. unfold uts_retrying in H. rewrite Hn in H.
  destruct (status_eqb st S_RETRYING); inversion H; reflexivity.
Qed.

Lemma prefix_cmd_no_retry : forall t route evt c c' p,
  is_engine_command t = true -> g_task_has_retry (c_graph c) t = false ->
  uts_prefix ev t route evt c = (c', Val p) -> forall ctx b, po_compl p = Some (ctx, b) -> b = false.
Proof.
  intros t route evt c c' p Hcmd Hnr H ctx b Hc.
  destruct (prefix_to_machine ev _ _ _ _ _ _ H) as [c1 [ts [idx [c3 [r [E1 [Hm [Hg [Hr [_ Hd]]]]]]]]]].
  assert (G1 : c_graph c1 = c_graph c) by (eapply pg_ensure_ws; exact E1).
  destruct Hd as [[_ [Hd _]]|[_ [_ Hd]]]; [congruence|]. rewrite G1 in Hd. specialize (Hd Hnr).
  destruct (pre_machine_inv _ _ _ _ _ _ _ _ _ Hm) as [r0 [ns [c4 [c5 [Hr0 [_ [_ [Hn [_ [_ [Ert [Ec _]]]]]]]]]]]].
  rewrite Hr in Hr0; inversion Hr0; subst r0; clear Hr0.
  assert (Hs : r_retry (stepped r ns) = None) by (rewrite stepped_retry; exact Hd).
  apply (retrying_none_inv _ _ _ _ _ _ _ Hs) in Ert; subst c5.
  destruct (completion_inv _ _ _ _ _ _ _ _ _ _ _ Ec) as [[_ [Hn0 _]]|[_ [c6 [r6 [ctx6 [b6 [[Ks _] [_ [Hr6 [Hc6 [_ Hb6]]]]]]]]]]].
  - rewrite Hn0 in Hc; discriminate.
  - rewrite Hc6 in Hc; inversion Hc; subst. apply Hb6. rewrite Ks, Hn in Hr6. inversion Hr6; subst; exact Hs.
Qed.

Lemma body_norec_retry : forall rec1 rec2 t route c,
  uts_body ev rec1 t route retry_event c = uts_body ev rec2 t route retry_event c.
Proof.
  intros. rewrite !body_eq. apply bind_congr; intros c1 p E. unfold tail_of.
  apply tail_norec_eq. exact (prefix_retry_event _ _ _ _ _ E).
Qed.

Lemma body_norec_cmd : forall rec1 rec2 n rt e c, graph_commands_inert (c_graph c) -> is_engine_command n = true ->
  uts_body ev rec1 n rt e c = uts_body ev rec2 n rt e c.
Proof.
  intros rec1 rec2 n rt e c Hi Hn. rewrite !body_eq. apply bind_congr; intros c1 p E. unfold tail_of.
  destruct (Hi n Hn) as [Ht Hr]. apply tail_norec_eq.
  destruct (po_compl p) as [[ctx b]|] eqn:Ec; [right|left; reflexivity].
  rewrite (prefix_cmd_no_retry _ _ _ _ _ _ Hn Hr E ctx b Ec). exists ctx; split; [reflexivity|right].
  rewrite (pg_prefix ev _ _ _ _ _ _ E). exact Ht.
Qed.

(* two callees that answer alike on the only calls a nested call can make: the retry re-entry and engine commands *)
Definition agree (rec1 rec2 : string -> nat -> event -> M unit) : Prop :=
  (forall t route c, rec1 t route retry_event c = rec2 t route retry_event c) /\
  (forall n rt e c, graph_commands_inert (c_graph c) -> is_engine_command n = true -> rec1 n rt e c = rec2 n rt e c).

Lemma bind_congr_m : forall A B (m1 m2 : M A) (f : A -> M B) c, m1 c = m2 c -> bind m1 f c = bind m2 f c.
Proof. intros A B m1 m2 f c H; unfold bind; rewrite H; reflexivity. Qed.

Lemma forM_agree : forall rec1 rec2, agree rec1 rec2 -> (forall t r e, preserves Rg (rec1 t r e)) ->
  forall q c, Forall cmd_pair q -> graph_commands_inert (c_graph c) ->
  forM_ q (uts_call rec1) c = forM_ q (uts_call rec2) c.
Proof.
  intros rec1 rec2 [HA HB] Hg q; induction q as [|[n rt] q IH]; intros c Hq Hi; [reflexivity|].
  inversion Hq as [|x l Hx Hl]; subst. cbn [forM_].
  assert (E : uts_call rec1 (n, rt) c = uts_call rec2 (n, rt) c).
  { unfold uts_call. destruct (engine_event n); [apply HB; [exact Hi|exact Hx]|reflexivity]. }
  unfold bind. rewrite <- E. destruct (uts_call rec1 (n, rt) c) as [c1 [u|x]] eqn:E1; [|reflexivity].
  apply IH; [exact Hl|].
  assert (G : c_graph c1 = c_graph c).
  { unfold uts_call in E1. destruct (engine_event n); [eapply Hg; exact E1|inversion E1]. }
  rewrite G; exact Hi.
Qed.

Lemma tail_agree : forall rec1 rec2, agree rec1 rec2 -> (forall t r e, preserves Rg (rec1 t r e)) ->
  forall t route ts idx old new compl c, graph_commands_inert (c_graph c) ->
  uts_tail ev rec1 t route ts idx old new compl c = uts_tail ev rec2 t route ts idx old new compl c.
Proof.
  intros rec1 rec2 Ha Hg t route ts idx old new compl c Hi. rewrite !uts_tail_eq.
  assert (G : forall compl',
    uts_rest ev rec1 t route ts idx old new compl' c = uts_rest ev rec2 t route ts idx old new compl' c).
  { intro compl'. unfold uts_rest, uts_after. apply bind_congr; intros c1 q E1.
    pose proof (queue_cmds ev _ _ _ _ _ _ _ _ _ _ E1) as Hq.
    assert (G1 : c_graph c1 = c_graph c) by (eapply pg_queue; exact E1).
    apply bind_congr; intros c2 r E2. apply get_rec_state in E2; subst c2.
    apply bind_congr; intros c3 st E3.
    assert (c3 = c1) as -> by (destruct (r_status r); inversion E3; reflexivity).
    apply bind_congr; intros c4 unr E4.
    assert (G4 : c_graph c4 = c_graph c1) by (eapply pg_wf_task_event; exact E4).
    apply bind_congr; intros c5 u E5.
    assert (G5 : c_graph c5 = c_graph c4) by (eapply pg_log_unreachable; exact E5).
    apply bind_congr_m. apply forM_agree; try assumption. rewrite G5, G4, G1; exact Hi. }
  destruct compl as [[ctx [|]]|]; [apply (proj1 Ha)|apply G|apply G].
Qed.

Lemma body_agree : forall rec1 rec2, agree rec1 rec2 -> (forall t r e, preserves Rg (rec1 t r e)) ->
  forall t route evt c, graph_commands_inert (c_graph c) ->
  uts_body ev rec1 t route evt c = uts_body ev rec2 t route evt c.
Proof.
  intros rec1 rec2 Ha Hg t route evt c Hi. rewrite !body_eq. apply bind_congr; intros c1 p E. unfold tail_of.
  apply tail_agree; try assumption. rewrite (pg_prefix ev _ _ _ _ _ _ E); exact Hi.
Qed.

Lemma uts_agree : forall m k, agree (update_task_state_fuel ev (S m)) (update_task_state_fuel ev (S k)).
Proof.
  intros m k; split; intros.
  - rewrite (uts_unfold ev m), (uts_unfold ev k). apply body_norec_retry.
  - rewrite (uts_unfold ev m), (uts_unfold ev k). apply body_norec_cmd; assumption.
Qed.

(* fuel 2 already gives the result of any larger fuel: no call is made at depth 3, so the recursion bound of the
   model is never the reason for a result (every evaluator, every event, every state over an inert-command graph) *)
Theorem fuel_irrelevant : forall n t route evt c, graph_commands_inert (c_graph c) ->
  update_task_state_fuel ev (2 + n) t route evt c = update_task_state_fuel ev 2 t route evt c.
Proof.
  intros n t route evt c Hi. cbn [Nat.add].
  rewrite (uts_unfold ev (S n)), (uts_unfold ev 1). apply body_agree; [apply uts_agree| |exact Hi].
  intros; apply pg_uts_fuel.
Qed.

Corollary fuel_irrelevant_3 : forall n t route evt c, graph_commands_inert (c_graph c) ->
  update_task_state_fuel ev (3 + n) t route evt c = update_task_state ev t route evt c.
Proof.
  intros n t route evt c Hi. unfold update_task_state.
  rewrite (fuel_irrelevant (S n) _ _ _ _ Hi), (fuel_irrelevant 1 _ _ _ _ Hi). reflexivity.
Qed.

End Termination.

Definition oof (e : exn) : Prop := x_cls e = "OutOfFuel".
Definition nf {A} (m : M A) : Prop := forall c c' e, m c = (c', Exc e) -> ~ oof e.

(* the evaluator has no exception class of that name (the classes it reports are Python class names) *)
Definition ev_no_fuel_exn (ev : string -> dict -> evalres) : Prop :=
  forall s ctx e, ev s ctx = EvErr e -> ~ oof e.

Ltac not_oof := unfold oof; cbn; discriminate.

(* [nf m] is [raises_only (fun e => ~ oof e) m] unfolded: the walk of Hoare.v applies; a leaf is handed back as [nf],
   also under a handler of expression errors, where less is asked of it *)
Ltac nw leaf :=
  lazymatch goal with |- nf ?m => change (raises_only (fun e => ~ oof e) m) end;
  rw not_oof
     ltac:(idtac; lazymatch goal with |- raises_only _ ?m =>
             first [ change (nf m)
                   | apply (raises_only_sub (fun e => ~ oof e)); [intros e H _; exact H|change (nf m)] ];
             leaf end).

Create HintDb nfdb.

Section NoFuelError.
Variable ev : string -> dict -> evalres.
Hypothesis Hev : ev_no_fuel_exn ev.

Lemma nf_lift_eval : forall s ctx, nf (lift_eval (ev s ctx)).
Proof.
  intros s ctx c c' e H. destruct (ev s ctx) as [v|x] eqn:E; inversion H; subst. eapply Hev; exact E.
Qed.

Lemma nf_evaluate : forall stmt ctx, nf (evaluate ev stmt ctx).
Proof.
  apply (evaluate_closed ev (fun A m => nf m)); intros;
    first [apply (ro_ret _)|apply (ro_bind _); assumption|apply nf_lift_eval|apply (ro_raise _); not_oof].
Qed.

Ltac leaf :=
  first
    [ assumption
    | apply nf_evaluate
    | apply nf_lift_eval
    | match goal with IH : forall _ _ _, nf _ |- _ => apply IH end
    | match goal with IH : forall _ _, nf _ |- _ => apply IH end
    | match goal with IH : forall _ _ _ _, nf _ |- _ => apply IH end
    | eauto 3 with nfdb ].
Ltac walk := nw leaf.

Lemma request_exn_nf : forall e, request_exn e -> ~ oof e.
Proof. intros e H E. unfold request_exn, oof in *. rewrite E in H. simpl in H. intuition discriminate. Qed.

Lemma nf_wf_workflow_event : forall st, nf (wf_workflow_event_M st).
Proof. intro st; exact (raises_only_sub _ _ request_exn_nf _ _ (wf_workflow_event_exn st)). Qed.
Hint Resolve nf_wf_workflow_event : nfdb.

Lemma nf_wf_task_event : forall t route st, nf (wf_task_event_M t route st).
Proof. intros t route st; exact (raises_only_sub _ _ request_exn_nf _ _ (wf_task_event_exn t route st)). Qed.
Hint Resolve nf_wf_task_event : nfdb.

Lemma tpe_nf : forall w r evt e, task_process_event w r evt = Exc e -> ~ oof e.
Proof.
  intros w r evt e H. destruct (tpe_exn _ _ _ _ H) as [Hr|Hn]; [exact (request_exn_nf e Hr)|].
  destruct evt; try discriminate Hn. apply item_event_name_exn in Hn. destruct Hn as [-> _]. not_oof.
Qed.

Lemma nf_tpe : forall w r evt, nf (lift_res (task_process_event w r evt)).
Proof. intros; apply (ro_lift_res _); intros e H; eapply tpe_nf; exact H. Qed.
Hint Resolve nf_tpe : nfdb.

Lemma nf_get_task_context : forall idxs, nf (get_task_context idxs).
Proof.
  intros; unfold get_task_context. apply (ro_bind _); [apply (ro_getws _)|intro w]. apply (ro_lift_res _).
  generalize (@nil (string * json)). induction idxs as [|i idxs IH]; intros acc e H; simpl in H; [discriminate|].
  destruct (nth_error (contexts w) i); [eapply IH; exact H|inversion H; not_oof].
Qed.
Hint Resolve nf_get_task_context : nfdb.

Lemma nf_log_entry_error : forall m t r tr res, nf (log_entry_error m t r tr res).
Proof. intros; unfold log_entry_error; walk. Qed.
Hint Resolve nf_log_entry_error : nfdb.
Lemma nf_log_error : forall e t r tr, nf (log_error e t r tr).
Proof. intros; unfold log_error; auto with nfdb. Qed.
Hint Resolve nf_log_error : nfdb.
Lemma nf_log_errors : forall es t r tr, nf (log_errors es t r tr).
Proof. intros; unfold log_errors; walk. Qed.
Hint Resolve nf_log_errors : nfdb.
Lemma nf_log_unreachable : forall l, nf (log_unreachable l).
Proof. intros; unfold log_unreachable; walk. Qed.
Hint Resolve nf_log_unreachable : nfdb.
Lemma nf_set_rec_status : forall i s, nf (set_rec_status i s).
Proof. intros; unfold set_rec_status; walk. Qed.
Hint Resolve nf_set_rec_status : nfdb.
Lemma nf_upd_rec : forall i f, nf (upd_rec i f).
Proof. intros; unfold upd_rec; walk. Qed.
Hint Resolve nf_upd_rec : nfdb.
Lemma nf_get_rec : forall i, nf (get_rec i).
Proof. intros; unfold get_rec; walk. Qed.
Hint Resolve nf_get_rec : nfdb.
Lemma nf_request_status_core : forall st, nf (request_status_core st).
Proof. intros; unfold request_status_core; walk. Qed.
Hint Resolve nf_request_status_core : nfdb.
Lemma nf_render_input : forall specs rt rolling errs, nf (render_input ev specs rt rolling errs).
Proof. induction specs as [|[n d] specs IH]; intros; simpl; walk. Qed.
Hint Resolve nf_render_input : nfdb.
Lemma nf_render_vars : forall specs rolling rendered errs, nf (render_vars ev specs rolling rendered errs).
Proof. induction specs as [|[n d] specs IH]; intros; simpl; walk. Qed.
Hint Resolve nf_render_vars : nfdb.
Lemma nf_ensure_ws : nf (ensure_ws ev).
Proof. unfold ensure_ws; walk. Qed.
Hint Resolve nf_ensure_ws : nfdb.
Lemma nf_setup_retry : forall t idxs, nf (setup_retry ev t idxs).
Proof. intros; unfold setup_retry; walk. Qed.
Hint Resolve nf_setup_retry : nfdb.
Lemma nf_add_task_state : forall t r i p, nf (add_task_state ev t r i p).
Proof. intros; unfold add_task_state; walk. Qed.
Hint Resolve nf_add_task_state : nfdb.
Lemma nf_evaluate_route : forall e r, nf (evaluate_route e r).
Proof. intros; unfold evaluate_route; walk. Qed.
Hint Resolve nf_evaluate_route : nfdb.
Lemma nf_evaluate_task_retry : forall r ctx, nf (evaluate_task_retry ev r ctx).
Proof. intros; unfold evaluate_task_retry; walk. Qed.
Hint Resolve nf_evaluate_task_retry : nfdb.
Lemma nf_finalize_context : forall ts e ctx, nf (finalize_context ev ts e ctx).
Proof. intros; unfold finalize_context; walk. Qed.
Hint Resolve nf_finalize_context : nfdb.
Lemma nf_process_transition : forall t route idx ts ctx e, nf (process_transition ev t route idx ts ctx e).
Proof. intros; unfold process_transition; walk. Qed.
Hint Resolve nf_process_transition : nfdb.

Lemma nf_pre_main : forall t route evt ts s0 e0, nf (pre_main ev t route evt ts s0 e0).
Proof.
  intros; unfold pre_main, pre_machine, uts_sel1, uts_sel2, uts_need_staged, uts_unstage, uts_item,
    uts_logfail, uts_setst, uts_retrying, uts_completion; walk.
Qed.
Hint Resolve nf_pre_main : nfdb.
Lemma nf_prefix : forall t route evt, nf (uts_prefix ev t route evt).
Proof. intros; unfold uts_prefix; walk. Qed.

Lemma nf_tail : forall rec, (forall t route evt, nf (rec t route evt)) ->
  forall t route ts idx o n compl, nf (uts_tail ev rec t route ts idx o n compl).
Proof. intros rec Hrec; intros; unfold uts_tail, uts_call, uts_queue; walk. Qed.

Lemma nf_body : forall rec, (forall t route evt, nf (rec t route evt)) ->
  forall t route evt, nf (uts_body ev rec t route evt).
Proof.
  intros rec Hrec t route evt c c' e H. rewrite body_eq in H. revert c c' e H.
  apply (ro_bind _); [apply nf_prefix|intro p; apply nf_tail; exact Hrec].
Qed.

(* the bounded model of update_task_state never answers "out of fuel" *)
Theorem update_task_state_never_out_of_fuel : forall t route evt c c' e,
  graph_commands_inert (c_graph c) ->
  update_task_state ev t route evt c = (c', Exc e) -> x_cls e <> "OutOfFuel".
Proof.
  intros t route evt c c' e Hi H. unfold update_task_state in H.
  assert (E : update_task_state_fuel ev 2 t route evt c
              = uts_body ev (uts_body ev (fun _ _ _ => ret tt)) t route evt c).
  { rewrite (uts_unfold ev 1). apply body_agree; [| |exact Hi].
    - split; intros; rewrite (uts_unfold ev 0); [apply body_norec_retry|apply body_norec_cmd; assumption].
    - intros; apply pg_uts_fuel. }
  rewrite <- (fuel_irrelevant ev 1 _ _ _ _ Hi) in E. cbn [Nat.add] in E. rewrite E in H.
  revert H. apply nf_body. intros; apply nf_body. intros; apply (ro_ret _).
Qed.

End NoFuelError.

(* every record with an integer retry count has made at most max(count, 0) retries *)
Definition tally_inv (c : cstate) : Prop :=
  forall rec rr, In rec (sequence (c_ws c)) -> r_retry rec = Some rr -> py_is_int (rr_count rr) = true ->
                 (Z.of_nat (rr_tally rr) <= Z.max (py_int_value (rr_count rr)) 0)%Z.

(* the tally relation (elsewhere Rt names a transitivity argument) *)
Definition Rt (c c' : cstate) : Prop := tally_inv c -> tally_inv c'.
Lemma Rt_refl : forall c, Rt c c.
Proof. intros c H; exact H. Qed.
Lemma Rt_trans : forall a b c, Rt a b -> Rt b c -> Rt a c.
Proof. unfold Rt; intros; auto. Qed.

Lemma tally_seq_eq : forall c c', sequence (c_ws c') = sequence (c_ws c) -> Rt c c'.
Proof. intros c c' H Hi; unfold tally_inv; rewrite H; exact Hi. Qed.

Lemma tally_update_rec : forall c i f, (forall r, r_retry (f r) = r_retry r) ->
  Rt c (set_ws c (ws_update_rec (c_ws c) i f)).
Proof.
  intros c i f Hf Hi. unfold tally_inv, ws_update_rec. destruct (nth_error (sequence (c_ws c)) i) as [r0|] eqn:E; [|exact Hi].
  simpl. intros r rr Hin Hr Hint. apply In_set_nth in Hin. destruct Hin as [->|Hin].
  - rewrite Hf in Hr. eapply Hi; [eapply nth_error_In; exact E|exact Hr|exact Hint].
  - eapply Hi; eassumption.
Qed.

Create HintDb prest.

Section TallyKept.
Variable ev : string -> dict -> evalres.

Lemma pt_modws : forall f, (forall w, sequence (f w) = sequence w) -> preserves Rt (modws f).
Proof. intros f Hf; apply (preserves_modws Rt); intro c. apply tally_seq_eq, Hf. Qed.
Lemma pt_modify : forall f, (forall c, sequence (c_ws (f c)) = sequence (c_ws c)) -> preserves Rt (modify f).
Proof. intros f Hf; apply (preserves_modify Rt); intro c. apply tally_seq_eq, Hf. Qed.
Lemma pt_upd_rec : forall i f, (forall r, r_retry (f r) = r_retry r) -> preserves Rt (upd_rec i f).
Proof. intros i f Hf; unfold upd_rec. apply (preserves_modws Rt); intro c. apply tally_update_rec; exact Hf. Qed.
Lemma pt_set_rec_status : forall i s, preserves Rt (set_rec_status i s).
Proof. intros; unfold set_rec_status. apply (preserves_modws Rt); intro c. apply tally_update_rec; reflexivity. Qed.
Lemma pt_wf_workflow_event : forall st, preserves Rt (wf_workflow_event_M st).
Proof. apply (preserves_wf_workflow_event Rt Rt_refl); intros; apply tally_seq_eq; reflexivity. Qed.
Lemma pt_wf_task_event : forall t route st, preserves Rt (wf_task_event_M t route st).
Proof. apply (preserves_wf_task_event Rt Rt_refl); intros; apply tally_seq_eq; reflexivity. Qed.
Lemma pt_log_entry_error : forall m t r tr res, preserves Rt (log_entry_error m t r tr res).
Proof. intros; apply pt_modify; intro c; cbv zeta. destruct (existsb _ _); reflexivity. Qed.
Hint Resolve pt_modws pt_modify pt_upd_rec pt_set_rec_status pt_wf_workflow_event pt_wf_task_event pt_log_entry_error
  seq_remove_staged : prest.
Ltac walk := pw Rt_refl Rt_trans ltac:(solve [auto with prest]).

Lemma pt_log_error : forall e t r tr, preserves Rt (log_error e t r tr).
Proof. intros; apply (frame_log_error Rt); auto with prest. Qed.
Hint Resolve pt_log_error : prest.
Lemma pt_log_errors : forall es t r tr, preserves Rt (log_errors es t r tr).
Proof. intros; apply (frame_log_errors Rt Rt_refl Rt_trans); auto with prest. Qed.
Lemma pt_get_rec : forall i, preserves Rt (get_rec i).
Proof. intros; apply (frame_get_rec Rt Rt_refl Rt_trans). Qed.
Hint Resolve pt_get_rec : prest.
Lemma pt_request_status_core : forall st, preserves Rt (request_status_core st).
Proof. intros; apply (frame_request_status_core Rt Rt_refl Rt_trans); auto with prest. Qed.
Hint Resolve pt_request_status_core : prest.
Lemma pt_render_input : forall specs rt rolling errs, preserves Rt (render_input ev specs rt rolling errs).
Proof. intros; apply (frame_render_input ev Rt Rt_refl Rt_trans). Qed.
Lemma pt_render_vars : forall specs rolling rendered errs, preserves Rt (render_vars ev specs rolling rendered errs).
Proof. intros; apply (frame_render_vars ev Rt Rt_refl Rt_trans). Qed.
Lemma pt_ensure_ws : preserves Rt (ensure_ws ev).
Proof. apply (frame_ensure_ws ev Rt Rt_refl Rt_trans); auto with prest. Qed.
Hint Resolve pt_ensure_ws : prest.
Theorem pt_request_workflow_status : forall st, preserves Rt (request_workflow_status ev st).
Proof. intros; apply (frame_request_workflow_status ev Rt Rt_refl Rt_trans); auto with prest. Qed.
Lemma pt_get_task_context : forall idxs, preserves Rt (get_task_context idxs).
Proof. intros; apply (frame_get_task_context Rt Rt_refl Rt_trans). Qed.
Lemma pt_render_task : forall ts ctx, preserves Rt (render_task ev ts ctx).
Proof. intros; apply (frame_render_task ev Rt Rt_refl Rt_trans). Qed.
Lemma pt_next_task_for : forall s, preserves Rt (next_task_for ev s).
Proof. intros; apply (frame_next_task_for ev Rt Rt_refl Rt_trans); auto with prest. Qed.
Theorem pt_get_next_tasks : preserves Rt (get_next_tasks ev).
Proof. apply (frame_get_next_tasks ev Rt Rt_refl Rt_trans); auto with prest. Qed.
Lemma pt_setup_retry : forall t idxs, preserves Rt (setup_retry ev t idxs).
Proof. intros; apply (frame_setup_retry ev Rt Rt_refl Rt_trans). Qed.
Hint Resolve pt_setup_retry : prest.

Lemma pt_add_task_state : forall t rt ins prev, preserves Rt (add_task_state ev t rt ins prev).
Proof.
  intros; unfold add_task_state. apply (preserves_bind _ Rt_trans); [apply (preserves_get _ Rt_refl)|intro c0].
  destruct (negb (g_has_task (c_graph c0) t)); [apply (preserves_raise _ Rt_refl)|]. cbv zeta.
  apply (preserves_bind_v _ Rt_trans _ _ fresh_retry).
  - destruct (g_task_has_retry (c_graph c0) t); [|apply vpost_ret; intros rr Hrr; discriminate].
    apply vpost_try_catch.
    + eapply vpost_bind_strong; [apply setup_retry_fresh|intros rr Hrr]. apply vpost_ret.
      intros rr' E; inversion E; subst; exact Hrr.
    + intro e. apply vpost_bind; intro. apply vpost_bind; intro. apply vpost_ret; intros rr Hrr; discriminate.
  - walk.
  - intros retry Hf. apply (preserves_bind _ Rt_trans); [apply (preserves_getws _ Rt_refl)|intro w].
    apply (preserves_bind _ Rt_trans); [|intro; apply (preserves_ret _ Rt_refl)].
    apply (preserves_modws Rt); intros c Hi. unfold tally_inv; simpl. intros r rr Hin Hr Hint.
    apply in_app_or in Hin. destruct Hin as [Hin|[<-|[]]]; [eapply Hi; eassumption|].
    simpl in Hr. rewrite (Hf _ Hr). simpl. lia.
Qed.
Hint Resolve pt_add_task_state : prest.

Lemma pt_evaluate_route : forall e r, preserves Rt (evaluate_route e r).
Proof. intros; apply (frame_evaluate_route Rt Rt_refl Rt_trans); auto with prest. Qed.
Lemma pt_evaluate_task_retry : forall r ctx, preserves Rt (evaluate_task_retry ev r ctx).
Proof. intros; apply (frame_evaluate_task_retry ev Rt Rt_refl Rt_trans). Qed.
Lemma pt_finalize_context : forall ts e ctx, preserves Rt (finalize_context ev ts e ctx).
Proof. intros; apply (frame_finalize_context ev Rt Rt_refl Rt_trans). Qed.
Lemma pt_process_transition : forall t route idx ts ctx e, preserves Rt (process_transition ev t route idx ts ctx e).
Proof. intros; apply (frame_process_transition ev Rt Rt_refl Rt_trans); auto with prest. Qed.
Lemma pt_merge_term_contexts : forall l acc, preserves Rt (merge_term_contexts l acc).
Proof. intros; apply (frame_merge_term_contexts Rt Rt_refl Rt_trans). Qed.
Theorem pt_render_workflow_output : preserves Rt (render_workflow_output ev).
Proof. apply (frame_render_workflow_output ev Rt Rt_refl Rt_trans); auto with prest. Qed.
Lemma pt_request_task_rerun : forall t r b, preserves Rt (request_task_rerun ev t r b).
Proof. intros; unfold request_task_rerun; walk. Qed.
Hint Resolve pt_request_task_rerun : prest.
Theorem pt_request_workflow_rerun : forall reqs, preserves Rt (request_workflow_rerun ev reqs).
Proof. intros; unfold request_workflow_rerun; walk. Qed.

Lemma pt_need_staged : forall s0, preserves Rt (uts_need_staged s0).
Proof. intros; apply (frame_need_staged Rt Rt_refl). Qed.
Hint Resolve pt_need_staged : prest.
Lemma pt_sel1 : forall t s0 e0, preserves Rt (uts_sel1 ev t s0 e0).
Proof. intros; unfold uts_sel1; walk. Qed.
Lemma pt_sel2 : forall t evt s0 r1 i, preserves Rt (uts_sel2 ev t evt s0 r1 i).
Proof. intros; unfold uts_sel2; walk. Qed.
Lemma pt_select : forall t evt s0 e0, preserves Rt (uts_select ev t evt s0 e0).
Proof. intros; unfold uts_select; pw Rt_refl Rt_trans ltac:(first [apply pt_sel1|apply pt_sel2|apply pt_get_rec]). Qed.
Lemma pt_before : forall t route evt s0, preserves Rt (uts_before t route evt s0).
Proof. intros; apply (frame_before Rt Rt_refl Rt_trans); auto with prest. Qed.
Lemma pt_setst : forall i ns, preserves Rt (uts_setst i ns).
Proof. intros; apply (frame_setst Rt Rt_refl); auto with prest. Qed.
Lemma pt_completion : forall t route evt ts idx ns o0, preserves Rt (uts_completion ev t route evt ts idx ns o0).
Proof. intros; apply (frame_completion ev Rt Rt_refl Rt_trans); auto with prest. Qed.
Lemma pt_queue : forall t route idx ts o n compl, preserves Rt (uts_queue ev t route idx ts o n compl).
Proof. intros; apply (frame_queue ev Rt Rt_refl Rt_trans); auto with prest. Qed.

End TallyKept.

(* the index is kept, no record is added, none changes its retry data or becomes retrying *)
Definition Rnr (c c' : cstate) : Prop :=
  tasks (c_ws c') = tasks (c_ws c) /\
  forall i r', nth_error (sequence (c_ws c')) i = Some r' ->
    exists r, nth_error (sequence (c_ws c)) i = Some r /\ r_retry r' = r_retry r /\
              (rstatus r' = S_RETRYING -> rstatus r = S_RETRYING).
Lemma Rnr_refl : forall c, Rnr c c.
Proof. intro c; split; [reflexivity|]. intros i r H; exists r; auto. Qed.
Lemma Rnr_trans : forall a b c, Rnr a b -> Rnr b c -> Rnr a c.
Proof.
  intros a b c [T1 H1] [T2 H2]; split; [congruence|]. intros i r' H.
  destruct (H2 _ _ H) as [r1 [Hr1 [E1 S1]]]. destruct (H1 _ _ Hr1) as [r0 [Hr0 [E0 S0]]].
  exists r0; repeat split; [exact Hr0|congruence|auto].
Qed.

Lemma Rnr_same : forall c c', sequence (c_ws c') = sequence (c_ws c) -> tasks (c_ws c') = tasks (c_ws c) -> Rnr c c'.
Proof. intros c c' Hs Ht; split; [exact Ht|]. rewrite Hs. intros i r H; exists r; auto. Qed.

Lemma workflow_event_never_retrying : forall w r st s,
  task_process_event w r (EvWorkflow st) = Val (Some s) -> s <> S_RETRYING.
Proof.
  intros w r st s H Hs; subst s. unfold task_process_event in H.
  destruct (negb (string_in (ev_name (EvWorkflow st)) WORKFLOW_EXECUTION_EVENTS)); [discriminate|].
  apply task_table_step_val in H. apply F_task_retrying_only_by_retry in H. destruct H as [H _].
  unfold task_workflow_event_name in H.
  repeat match type of H with context [if ?b then _ else _] => destruct b end;
    repeat match type of H with context [match ?x with _ => _ end] => destruct x end;
    cbn in H; discriminate H.
Qed.

(* a status request moves task statuses by workflow events (never into retrying) and, when refused, puts the
   statuses of the then active tasks back: enough for a relation that admits every status but `retrying` *)
Lemma request_status_core_not_retrying : forall (R : cstate -> cstate -> Prop),
  (forall c, R c c) -> (forall a b c, R a b -> R b c -> R a c) ->
  (forall m t r tr res, preserves R (log_entry_error m t r tr res)) ->
  (forall i s, s <> S_RETRYING -> preserves R (set_rec_status i (Some s))) ->
  (forall st, preserves R (wf_workflow_event_M st)) ->
  forall st, preserves R (request_status_core st).
Proof.
  intros R R_refl R_trans W_log W_status W_wf st; unfold request_status_core.
  apply (preserves_bind _ R_trans); [apply (preserves_getws _ R_refl)|intro w0]. cbv zeta.
  apply (preserves_bind _ R_trans).
  { apply (preserves_forM _ R_refl R_trans); intros [i r0].
    apply (preserves_bind _ R_trans); [apply (preserves_getws _ R_refl)|intro w].
    destruct (nth_error (sequence w) i) as [r|]; [|apply (preserves_ret _ R_refl)].
    apply (preserves_bind_v _ R_trans _ _ (fun ns => forall s, ns = Some s -> s <> S_RETRYING)).
    - intros c c' ns H s Hs; subst ns. apply lift_res_inv in H; destruct H as [_ H].
      eapply workflow_event_never_retrying; symmetry; exact H.
    - apply (preserves_lift_res _ R_refl).
    - intros [s|] Hns; [apply W_status; apply Hns; reflexivity|apply (preserves_ret _ R_refl)]. }
  intros _.
  apply (preserves_bind _ R_trans); [apply W_wf|intro unr].
  apply (preserves_bind _ R_trans); [apply (frame_log_unreachable R R_refl R_trans W_log)|intros _].
  apply (preserves_bind _ R_trans); [apply (preserves_getws _ R_refl)|intro w1].
  destruct (_ && _ && _); [apply (preserves_ret _ R_refl)|].
  destruct (_ && _ && _); [apply (preserves_ret _ R_refl)|].
  destruct (_ && _); [|apply (preserves_ret _ R_refl)].
  apply (preserves_bind _ R_trans); [|intro; apply (preserves_raise _ R_refl)].
  apply (preserves_forM_In _ R_refl R_trans). intros [i r] Hin.
  unfold ws_tasks_by_status in Hin. apply filter_In in Hin. destruct Hin as [_ Hin].
  apply andb_prop in Hin; destruct Hin as [Hin _].
  destruct (r_status r) as [s|]; [|discriminate].
  apply W_status. intro; subst s. discriminate Hin.
Qed.

Section LazyState.
Variable ev : string -> dict -> evalres.

Lemma pn_modws : forall f, (forall w, sequence (f w) = sequence w /\ tasks (f w) = tasks w) -> preserves Rnr (modws f).
Proof. intros f Hf; apply (preserves_modws Rnr); intro c. apply Rnr_same; apply Hf. Qed.
Lemma pn_modify : forall f, (forall c, c_ws (f c) = c_ws c) -> preserves Rnr (modify f).
Proof. intros f Hf; apply (preserves_modify Rnr); intro c. apply Rnr_same; rewrite Hf; reflexivity. Qed.

Lemma pn_set_status : forall i s, s <> S_RETRYING -> preserves Rnr (set_rec_status i (Some s)).
Proof.
  intros i s Hs. unfold set_rec_status. apply (preserves_modws Rnr); intro c. split.
  - simpl. apply tasks_update_rec.
  - simpl. intros j r' H. destruct (Nat.eq_dec i j) as [<-|Hn].
    + destruct (nth_error (sequence (c_ws c)) i) as [r|] eqn:E.
      * rewrite (nth_update_rec_same _ _ (fun r => r_set_status r (Some s)) _ E) in H. inversion H; subst.
        exists r; repeat split. simpl. intro; contradiction.
      * unfold ws_update_rec in H. rewrite E in H. congruence.
    + rewrite nth_update_rec_other in H by exact Hn. exists r'; auto.
Qed.
Lemma pn_wf_workflow_event : forall st, preserves Rnr (wf_workflow_event_M st).
Proof. apply (preserves_wf_workflow_event Rnr Rnr_refl); intros; apply Rnr_same; reflexivity. Qed.
Lemma pn_log_entry_error : forall m t r tr res, preserves Rnr (log_entry_error m t r tr res).
Proof. intros; apply pn_modify; intro c; cbv zeta. destruct (existsb _ _); reflexivity. Qed.
Lemma pn_request_status_core : forall st, preserves Rnr (request_status_core st).
Proof.
  apply (request_status_core_not_retrying Rnr Rnr_refl Rnr_trans pn_log_entry_error pn_set_status pn_wf_workflow_event).
Qed.

Lemma pn_ensure_ws : preserves Rnr (ensure_ws ev).
Proof.
  unfold ensure_ws.
  pw Rnr_refl Rnr_trans ltac:(first [apply pn_request_status_core|apply (frame_log_errors Rnr Rnr_refl Rnr_trans pn_log_entry_error)
    |apply (frame_render_input ev Rnr Rnr_refl Rnr_trans)|apply (frame_render_vars ev Rnr Rnr_refl Rnr_trans)
    |apply pn_modify; intro; reflexivity|apply pn_modws; intro; split; reflexivity]).
Qed.

End LazyState.

(* the record may take the event without exceeding its count: it has retries left, or the event is a provider
   report that does not find it retrying (rec_ok: or the record is new) *)
Definition rec_ok0 (evt : event) (r : trec) : Prop :=
  bounded r \/ (provider_event evt = true /\ (ev_status evt = S_RUNNING \/ rstatus r <> S_RETRYING)).
Definition rec_ok (evt : event) (r : trec) : Prop := r_status r = None \/ rec_ok0 evt r.

(* what a call needs of the record its (task, route) pointer names: nothing if the task is an engine
   command (those always get a new record) *)
Definition entry_ok (evt : event) (c : cstate) (t : string) (route : nat) : Prop :=
  is_engine_command t = true \/
  forall i r, ws_task_idx (c_ws c) t route = Some i -> nth_error (sequence (c_ws c)) i = Some r -> rec_ok0 evt r.

Lemma entry_ok_Rnr : forall evt c c' t route, entry_ok evt c t route -> Rnr c c' -> entry_ok evt c' t route.
Proof.
  intros evt c c' t route [H|H] [Ht Hs]; [left; exact H|right]. intros i r' Hp Hn.
  unfold ws_task_idx in *. rewrite Ht in Hp. destruct (Hs _ _ Hn) as [r [Hr [Er Est]]].
  destruct (H _ _ Hp Hr) as [Hb|[Hpe Hd]].
  - left. intros rr Hrr; apply Hb; congruence.
  - right; split; [exact Hpe|]. destruct Hd as [Hd|Hd]; [left; exact Hd|right; intro E; apply Hd; apply Est; exact E].
Qed.

Lemma tpe_step : forall w r evt ns, task_process_event w r evt = Val ns ->
  exists name, tbl_step task_table (rstatus r) name = ns.
Proof.
  intros w r evt ns H; unfold task_process_event in H. destruct evt.
  - destruct (negb _); [discriminate|]. eexists; apply task_table_step_val; exact H.
  - destruct (negb _); [discriminate|]. eexists; apply task_table_step_val; exact H.
  - destruct (negb _); [discriminate|]. destruct (item_event_name _ _ _ _ _); [|discriminate].
    eexists; apply task_table_step_val; exact H.
  - destruct (negb _); [discriminate|]. eexists; apply task_table_step_val; exact H.
Qed.

Lemma tpe_provider : forall w r evt ns, provider_event evt = true -> task_process_event w r evt = Val ns ->
  exists name, tbl_step task_table (rstatus r) name = ns /\ name <> EV_TASK_RETRY_REQUESTED /\
               (ev_status evt = S_RUNNING -> name = "action_running").
Proof.
  intros w r evt ns Hp H; unfold task_process_event in H. destruct evt; try discriminate Hp.
  - destruct (negb _); [discriminate|]. eexists; split; [apply task_table_step_val; exact H|]. split.
    + cbn; discriminate.
    + cbn; intro Hs; subst st; reflexivity.
  - destruct (negb _); [discriminate|].
    destruct (item_event_name w (r_id r) (r_route r) item st) as [n|x] eqn:En; [|discriminate].
    exists n. split; [apply task_table_step_val; exact H|].
    unfold item_event_name in En. cbv zeta in En.
    destruct (negb (status_in st item_requirements)) eqn:Eq.
    + inversion En; subst n. split; [cbn; discriminate|cbn; intro Hs; subst st; reflexivity].
    + split; [|cbn; intro Hs; subst st; discriminate Eq].
      destruct (get_staged_task w (r_id r) (r_route r)); [|inversion En; cbn; discriminate].
      destruct (s_items s); [|inversion En; cbn; discriminate]. destruct (negb (Nat.ltb item (length l))); [discriminate|].
      repeat match type of En with (if ?b then _ else _) = _ => destruct b end; inversion En; cbn; discriminate.
Qed.

Lemma unset_not_completed : ~ In S_UNSET COMPLETED_STATUSES.
Proof. simpl; intuition discriminate. Qed.

Lemma retrying_running : tbl_step task_table S_RETRYING "action_running" = Some S_RUNNING.
Proof. vm_compute; reflexivity. Qed.

Lemma machine_no_overrun : forall w r evt ns, rec_ok evt r -> task_process_event w r evt = Val ns ->
  rstatus (stepped r ns) = S_RETRYING -> bounded r.
Proof.
  intros w r evt ns Hok H Hs. rewrite stepped_status in Hs.
  destruct Hok as [Hnone|[Hb|[Hp Hd]]]; [exfalso| exact Hb |exfalso].
  - destruct (tpe_step _ _ _ _ H) as [name Hn]. unfold rstatus in Hn, Hs. rewrite Hnone in Hn, Hs.
    destruct ns as [s|]; [subst s|discriminate Hs].
    apply F_task_retrying_only_by_retry in Hn. destruct Hn as [_ Hn]. exact (unset_not_completed Hn).
  - destruct (tpe_provider _ _ _ _ Hp H) as [name [Hn [Hne Hrun]]].
    destruct ns as [s|].
    + subst s. apply F_task_retrying_only_by_retry in Hn. destruct Hn as [Hn _]. exact (Hne Hn).
    + destruct Hd as [Hd|Hd]; [|exact (Hd Hs)].
      rewrite (Hrun Hd), Hs, retrying_running in Hn. discriminate Hn.
Qed.

Lemma bounded_stepped : forall r ns, bounded r -> bounded (stepped r ns).
Proof. intros r ns H rr Hr; apply H. rewrite stepped_retry in Hr; exact Hr. Qed.

Section RetryBound.
Variable ev : string -> dict -> evalres.

Lemma retrying_tally : forall t route idx r st c c' res,
  tally_inv c -> nth_error (sequence (c_ws c)) idx = Some r -> (st = S_RETRYING -> bounded r) ->
  uts_retrying t route idx r st c = (c', res) ->
  tally_inv c' /\ tasks (c_ws c') = tasks (c_ws c).
Proof.
  intros t route idx r st c c' res Hi Hn Hb H. unfold uts_retrying in H.
  destruct (status_eqb st S_RETRYING) eqn:E; [|inversion H; subst; split; [exact Hi|reflexivity]].
  apply status_eqb_eq in E. specialize (Hb E).
  destruct (r_retry r) as [rr|] eqn:Er; [|inversion H; subst; split; [exact Hi|reflexivity]].
  cbv zeta in H. unfold bind, upd_rec, modws in H. cbv beta iota in H. inversion H; subst c' res; clear H.
  split.
  - apply (tally_seq_eq (set_ws c (ws_update_rec (c_ws c) idx
             (fun r0 => r_set_retry r0 (Some {| rr_when := rr_when rr; rr_count := rr_count rr;
                                                rr_delay := rr_delay rr; rr_tally := S (rr_tally rr) |}))))).
    + simpl. rewrite seq_remove_staged. reflexivity.
    + unfold tally_inv, ws_update_rec. rewrite Hn. simpl. intros x rrx Hin Hr Hint.
      apply In_set_nth in Hin. destruct Hin as [->|Hin]; [|eapply Hi; eassumption].
      cbn [r_retry r_set_retry] in Hr. inversion Hr; subst rrx; clear Hr. cbn [rr_tally rr_count] in *.
      specialize (Hb rr Er Hint). rewrite Nat2Z.inj_succ. lia.
  - simpl. rewrite tasks_remove_staged. simpl. apply tasks_update_rec.
Qed.

Ltac binv H c1 a E :=
  apply bind_inv in H; destruct H as [[c1 [a [E H]]]|[?e [E ->]]].

Lemma machine_tally : forall t route evt ts idx c c' res,
  (forall r, nth_error (sequence (c_ws c)) idx = Some r -> rec_ok evt r) -> tally_inv c ->
  pre_machine ev t route evt ts idx c = (c', res) -> tally_inv c'.
Proof.
  intros t route evt ts idx c c' res Hok Hi H. unfold pre_machine in H.
  binv H c0 r E0; [|apply get_rec_state in E0; subst; exact Hi].
  apply get_rec_inv in E0; destruct E0 as [-> Hr].
  binv H c0 w E0; [|inversion E0]. inversion E0; subst c0 w; clear E0.
  binv H c0 ns E0; [|apply lift_res_inv in E0; destruct E0 as [-> _]; exact Hi].
  apply lift_res_inv in E0; destruct E0 as [-> Ens]. symmetry in Ens.
  binv H c1 u1 E1; [|destruct (setst_inv _ _ _ _ _ _ E1 Hr) as [F _]; discriminate F].
  destruct (setst_inv _ _ _ _ _ _ E1 Hr) as [_ [_ [_ Hn1]]]. fold (stepped r ns) in Hn1.
  pose proof (pt_setst _ _ _ _ _ E1 Hi) as Hi1.
  binv H c0 r' E0; [|apply get_rec_state in E0; subst; exact Hi1].
  apply get_rec_inv in E0; destruct E0 as [-> Hr']. rewrite Hn1 in Hr'; inversion Hr'; subst r'; clear Hr'.
  assert (Hb : rstatus (stepped r ns) = S_RETRYING -> bounded (stepped r ns)).
  { intro Hs. apply bounded_stepped. eapply machine_no_overrun; [apply Hok; exact Hr|exact Ens|exact Hs]. }
  binv H c2 u2 E2; [|exact (proj1 (retrying_tally _ _ _ _ _ _ _ _ Hi1 Hn1 Hb E2))].
  pose proof (proj1 (retrying_tally _ _ _ _ _ _ _ _ Hi1 Hn1 Hb E2)) as Hi2.
  binv H c3 compl E3; [inversion H; subst|]; eapply pt_completion; eassumption.
Qed.

Lemma main_tally : forall t route evt ts s0 e0 c c' res,
  (forall s, s0 = Some s -> s_route s = route) -> e0 = ws_task_idx (c_ws c) t route ->
  entry_ok evt c t route -> tally_inv c ->
  pre_main ev t route evt ts s0 e0 c = (c', res) -> tally_inv c'.
Proof.
  intros t route evt ts s0 e0 c c' res Hroute He0 Hok Hi H. rewrite pre_main_eq in H.
  binv H c2 idx E2; [|eapply pt_select; eassumption].
  pose proof (pt_select ev _ _ _ _ _ _ _ E2 Hi) as Hi2.
  binv H c5 u5 E5; [|eapply pt_before; eassumption].
  pose proof (pt_before _ _ _ _ _ _ _ E5 Hi2) as Hi5.
  destruct (uts_select_inv ev _ _ _ _ _ _ _ _ _ Hroute He0 E2 (pk_before _ _ _ _ _ _ _ E5)) as [r [Hn [Hp Hd]]].
  eapply machine_tally; [|exact Hi5|exact H].
  intros r' Hr'. rewrite Hn in Hr'; inversion Hr'; subst r'; clear Hr'.
  destruct Hd as [[He [Hc [Ks Kt]]]|[Hd _]]; [right|left; exact Hd].
  destruct Hok as [Hok|Hok]; [congruence|]. apply (Hok idx); [rewrite <- He0; exact He|rewrite <- Ks; exact Hn].
Qed.

Lemma prefix_tally : forall t route evt c c' res,
  entry_ok evt c t route -> tally_inv c -> uts_prefix ev t route evt c = (c', res) -> tally_inv c'.
Proof.
  intros t route evt c c' res Hok Hi H.
  destruct (prefix_run ev _ _ _ _ _ _ H) as [c1 [r1 [E1 Hc]]].
  pose proof (pt_ensure_ws ev _ _ _ E1 Hi) as Hi1.
  destruct Hc as [[e [_ [-> _]]]|[[_ [-> _]]|[-> [ts [_ [_ [_ Hm]]]]]]]; [exact Hi1|exact Hi1|].
  eapply main_tally; [|reflexivity| |exact Hi1|exact Hm].
  - intros s Hs; apply get_staged_matches in Hs; apply Hs.
  - eapply entry_ok_Rnr; [exact Hok|eapply pn_ensure_ws; exact E1].
Qed.

(* a callee that keeps the bound when entered under the protocol *)
Definition call_ok (rec : string -> nat -> event -> M unit) : Prop :=
  forall t route evt c c' r, entry_ok evt c t route -> tally_inv c -> rec t route evt c = (c', r) -> tally_inv c'.

Lemma tail_tally : forall rec, call_ok rec -> forall t route ts idx old new compl c c' res,
  tally_inv c ->
  (forall ctx, compl = Some (ctx, true) ->
     ws_task_idx (c_ws c) t route = Some idx /\ exists r, nth_error (sequence (c_ws c)) idx = Some r /\ bounded r) ->
  uts_tail ev rec t route ts idx old new compl c = (c', res) -> tally_inv c'.
Proof.
  intros rec Hrec t route ts idx old new compl c c' res Hi Hc H. rewrite uts_tail_eq in H.
  assert (P : preserves Rt (uts_rest ev rec t route ts idx old new compl)).
  { apply (preserves_bind_v _ Rt_trans _ _ (Forall cmd_pair)); [apply queue_cmds|apply pt_queue|intros q Hq].
    apply (uts_after_pres Rt Rt_refl Rt_trans pt_log_entry_error pt_wf_task_event);
      [intros; apply pt_upd_rec; reflexivity|].
    intros n rt e Hin _ c0 c1 r0 E Hi0. rewrite Forall_forall in Hq.
    eapply Hrec; [left; exact (Hq _ Hin)|exact Hi0|exact E]. }
  destruct compl as [[ctx [|]]|]; [|exact (P _ _ _ H Hi)|exact (P _ _ _ H Hi)].
  eapply Hrec; [|exact Hi|exact H]. right. intros i r Hp Hn.
  destruct (Hc ctx eq_refl) as [Hp' [r' [Hn' Hb]]].
  rewrite Hp in Hp'; inversion Hp'; subst i. rewrite Hn in Hn'; inversion Hn'; subst r'. left; exact Hb.
Qed.

Lemma uts_fuel_tally : forall fuel, call_ok (update_task_state_fuel ev fuel).
Proof.
  intros fuel t route evt c c' r Hok Hi H. revert Hok Hi.
  refine (uts_fuel_ind ev (fun t route evt c c' _ => entry_ok evt c t route -> tally_inv c -> tally_inv c')
            _ _ fuel t route evt c c' r H); [auto|].
  clear. intros rec Hrec t route evt c c' r H Hok Hi. rewrite body_eq in H.
  binv H c1 p E1; [|eapply prefix_tally; eassumption].
  eapply (tail_tally rec); [intros ? ? ? ? ? ? ? ? E; eapply Hrec; eassumption|eapply prefix_tally; eassumption| |exact H].
  intros ctx Hc. destruct (prefix_decided ev _ _ _ _ _ _ _ E1 Hc) as [Hp [r0 [Hn [Hal _]]]].
  split; [exact Hp|exists r0; split; [exact Hn|apply retry_allowed_bounded; exact Hal]].
Qed.

(* The protocol hypothesis.  The record the event is addressed to is not retrying, or the event is the
   acknowledgement `running` (which takes a retrying record to running).  It is needed: any other event
   delivered to a record that is retrying leaves it retrying, and the code then counts one more retry
   (a duplicate report of the failed attempt increments the tally past the count; see the Example
   [duplicate_report_overruns] in props/C13b.v). *)
Definition not_retrying_target (c : cstate) (t : string) (route : nat) (evt : event) : Prop :=
  ev_status evt = S_RUNNING \/
  forall i r, ws_task_idx (c_ws c) t route = Some i -> nth_error (sequence (c_ws c)) i = Some r ->
              rstatus r <> S_RETRYING.

Theorem retry_tally_bounded_step : forall t route evt c c' r,
  provider_event evt = true -> tally_inv c -> not_retrying_target c t route evt ->
  update_task_state ev t route evt c = (c', r) -> tally_inv c'.
Proof.
  intros t route evt c c' r Hp Hi Hn H. unfold update_task_state in H.
  eapply uts_fuel_tally; [|exact Hi|exact H]. right. intros i rec Hpt Hnth. right; split; [exact Hp|].
  destruct Hn as [Hn|Hn]; [left; exact Hn|right; eapply Hn; eassumption].
Qed.

End RetryBound.

Lemma preserves_fst : forall (R : cstate -> cstate -> Prop) A (m : M A), preserves R m -> forall c, R c (fst (m c)).
Proof. intros R A m H c. destruct (m c) as [c' r] eqn:E. exact (H _ _ _ E). Qed.

Lemma fst_bind_ret : forall A B (m : M A) (k : A -> B) c, fst (bind m (fun a => ret (k a)) c) = fst (m c).
Proof. intros; unfold bind. destruct (m c) as [c1 [a|e]]; reflexivity. Qed.

Section Operations.
Variable ev : string -> dict -> evalres.

Definition api_state (op : api_op) (c : cstate) : cstate :=
  match op with
  | OpSerialize | OpPersist => fst (ensure_ws ev c)
  | OpRequest st => fst (request_workflow_status ev st c)
  | OpGetNext => fst (get_next_tasks ev c)
  | OpEvent t r e => fst (update_task_state ev t r e c)
  | OpRender => fst (render_workflow_output ev c)
  | OpRerun reqs => fst (request_workflow_rerun ev reqs c)
  end.

Lemma api_exec_state : forall op c, fst (api_exec ev op c) = api_state op c.
Proof.
  intros op c. destruct op; try (cbn [api_exec api_state]; apply (fst_bind_ret _ _ _ (fun _ => RUnit))).
  - cbn [api_exec api_state]. apply (fst_bind_ret _ _ _ ROffers).
  - rewrite persist_is_serialize. cbn [api_exec api_state]. apply (fst_bind_ret _ _ _ (fun _ => RUnit)).
Qed.

(* every operation of the history is allowed in the state it meets (C18Proofs.hist is another thing) *)
Fixpoint hist (ok : cstate -> api_op -> Prop) (ops : list api_op) (c : cstate) : Prop :=
  match ops with
  | [] => True
  | op :: ops' => ok c op /\ hist ok ops' (fst (api_exec ev op c))
  end.


Lemma run_ops_inv : forall (I : cstate -> Prop) (ok : cstate -> api_op -> Prop),
  (forall op c, ok c op -> I c -> I (fst (api_exec ev op c))) ->
  forall ops c, hist ok ops c -> I c -> I (run_ops ev ops c).
Proof.
  intros I ok Hstep; induction ops as [|op ops IH]; intros c Hh Hi; [exact Hi|].
  destruct Hh as [H1 H2]. exact (IH _ H2 (Hstep _ _ H1 Hi)).
Qed.

End Operations.

Section Histories.
Variable ev : string -> dict -> evalres.

Definition op_ok (c : cstate) (op : api_op) : Prop :=
  match op with
  | OpEvent t route evt => provider_event evt = true /\ not_retrying_target c t route evt
  | _ => True
  end.

Theorem api_exec_tally : forall op c c' r, op_ok c op -> tally_inv c -> api_exec ev op c = (c', r) -> tally_inv c'.
Proof.
  intros op c c' r Hok Hi H. replace c' with (fst (api_exec ev op c)) by (rewrite H; reflexivity).
  rewrite api_exec_state. destruct op; cbn [api_state].
  - exact (preserves_fst Rt _ _ (pt_ensure_ws ev) c Hi).
  - exact (preserves_fst Rt _ _ (pt_request_workflow_status ev st) c Hi).
  - exact (preserves_fst Rt _ _ (pt_get_next_tasks ev) c Hi).
  - destruct Hok as [Hp Hn]. destruct (update_task_state ev t route e c) as [c1 r1] eqn:E.
    exact (retry_tally_bounded_step ev _ _ _ _ _ _ Hp Hi Hn E).
  - exact (preserves_fst Rt _ _ (pt_render_workflow_output ev) c Hi).
  - exact (preserves_fst Rt _ _ (pt_request_workflow_rerun ev reqs) c Hi).
  - exact (preserves_fst Rt _ _ (pt_ensure_ws ev) c Hi).
Qed.

Fixpoint hist_ok (ops : list api_op) (c : cstate) : Prop :=
  match ops with
  | [] => True
  | op :: ops' => op_ok c op /\ hist_ok ops' (fst (api_exec ev op c))
  end.

Theorem retry_tally_bounded_history : forall ops c, hist_ok ops c -> tally_inv c -> tally_inv (run_ops ev ops c).
Proof.
  induction ops as [|op ops IH]; intros c Hh Hi; [exact Hi|].
  destruct Hh as [Hop Hh]. unfold run_ops; simpl. apply IH; [exact Hh|].
  destruct (api_exec ev op c) as [c' r] eqn:E. simpl. eapply api_exec_tally; eassumption.
Qed.

End Histories.

(* decidable forms of the hypotheses: used to show, by computation on concrete runs, that they are satisfiable
   -- and what happens when not *)

Definition inert_b (g : graph) : bool :=
  forallb (fun '(cmd, _) => match g_next_transitions g cmd with [] => true | _ => false end
                            && negb (g_task_has_retry g cmd)) ENGINE_EVENT_MAP.

Lemma inert_b_sound : forall g, inert_b g = true -> graph_commands_inert g.
Proof.
  intros g H cmd Hc. unfold is_engine_command, ahas in Hc.
  destruct (aget String.eqb cmd ENGINE_EVENT_MAP) as [v|] eqn:E; [|discriminate].
  apply aget_In in E. unfold inert_b in H. rewrite forallb_forall in H. specialize (H _ E). cbv beta iota in H.
  apply andb_prop in H; destruct H as [H1 H2]. split.
  - destruct (g_next_transitions g cmd); [reflexivity|discriminate].
  - apply negb_true_iff in H2; exact H2.
Qed.

Definition tally_ok_b (r : trec) : bool :=
  match r_retry r with
  | Some rr => negb (py_is_int (rr_count rr))
               || Z.leb (Z.of_nat (rr_tally rr)) (Z.max (py_int_value (rr_count rr)) 0)
  | None => true
  end.
Definition tally_inv_b (c : cstate) : bool := forallb tally_ok_b (sequence (c_ws c)).

Lemma tally_inv_b_iff : forall c, tally_inv_b c = true <-> tally_inv c.
Proof.
  intro c; unfold tally_inv_b, tally_inv; rewrite forallb_forall; split.
  - intros H r rr Hin Hr Hint. specialize (H _ Hin). unfold tally_ok_b in H. rewrite Hr, Hint in H.
    cbn [negb orb] in H. apply Z.leb_le; exact H.
  - intros H r Hin. unfold tally_ok_b. destruct (r_retry r) as [rr|] eqn:Er; [|reflexivity].
    destruct (py_is_int (rr_count rr)) eqn:Ei; [|reflexivity]. cbn [negb orb]. apply Z.leb_le. eapply H; eassumption.
Qed.

Definition nrt_b (c : cstate) (t : string) (route : nat) (evt : event) : bool :=
  status_eqb (ev_status evt) S_RUNNING ||
  match ws_task_idx (c_ws c) t route with
  | Some i => match nth_error (sequence (c_ws c)) i with
              | Some r => negb (status_eqb (rstatus r) S_RETRYING)
              | None => true
              end
  | None => true
  end.

Lemma nrt_b_sound : forall c t route evt, nrt_b c t route evt = true -> not_retrying_target c t route evt.
Proof.
  intros c t route evt H. unfold nrt_b in H. apply orb_prop in H. destruct H as [H|H].
  - left; apply status_eqb_eq; exact H.
  - right. intros i r Hp Hn. rewrite Hp, Hn in H. apply negb_true_iff in H. intro E; rewrite E in H; discriminate.
Qed.

Section HistoriesB.
Variable ev : string -> dict -> evalres.

Definition op_ok_b (c : cstate) (op : api_op) : bool :=
  match op with
  | OpEvent t route evt => provider_event evt && nrt_b c t route evt
  | _ => true
  end.

Fixpoint hist_ok_b (ops : list api_op) (c : cstate) : bool :=
  match ops with
  | [] => true
  | op :: ops' => op_ok_b c op && hist_ok_b ops' (fst (api_exec ev op c))
  end.

Lemma hist_ok_b_sound : forall ops c, hist_ok_b ops c = true -> hist_ok ev ops c.
Proof.
  induction ops as [|op ops IH]; intros c H; simpl in *; [exact I|].
  apply andb_prop in H; destruct H as [H1 H2]. split; [|apply IH; exact H2].
  destruct op; simpl in *; try exact I. apply andb_prop in H1; destruct H1 as [Hp Hn].
  split; [exact Hp|apply nrt_b_sound; exact Hn].
Qed.

End HistoriesB.
