(* SysNextProofs.v -- the queue step of a completion report leaves every satisfied next task waiting in
   staging (the premise [queue_hnt_prop] of the system invariant of SysProofs.v), over graphs whose edges
   out of one task have distinct (destination, key) pairs.  With that premise discharged: the invariant of
   every protocol history, its readings as the C02 / C03 link theorems, and the replay of a protocol history
   as conductor API calls. *)
From Coq Require Import String List Bool ZArith Arith Lia.
From Orq Require Import GenStatuses GenEvents GenTables GenSpecMeta Base State Machines Codec Conductor Decode Api Driver ProviderSys.
From Orq Require Import F_tables F_names F_sys ListFacts StateFacts Hoare ValuePost StatusReach C04Proofs C05Proofs C02C03Proofs OffersProofs InertProofs RetryProofs SysProofs.
Import ListNotations.
Open Scope string_scope.
Open Scope monad_scope.


Definition ekey (e : gedge) : trid := (e_dst e, e_key e).

(* the "satisfied" test of get_inbound_criteria_status: it reads records only *)
Definition sat (g : graph) (w : wstate) (dst : string) (route : nat) : bool :=
  let evl := inbound_evaluation g w dst route in
  Z.leb (inbound_requirement g dst (length evl))
        (Z.of_nat (length (filter (fun '(_, v) => match v with Some true => true | _ => false end) evl))).

Lemma criteria_sat : forall g w dst route,
  inbound_eqb (get_inbound_criteria_status g w dst route) InbSatisfied = sat g w dst route.
Proof.
  intros. unfold get_inbound_criteria_status, sat. cbv zeta.
  destruct (Z.leb _ _); [reflexivity|]. destruct (_ && _); reflexivity.
Qed.

Lemma criteria_unsat_wip : forall g w dst route, sat g w dst route = false ->
  inbound_eqb (get_inbound_criteria_status g w dst route) InbNotSatisfied = false ->
  has_active_tasks w || has_staged_tasks w = true.
Proof.
  intros g w dst route Hs H. unfold get_inbound_criteria_status in H. unfold sat in Hs. cbv zeta in *. rewrite Hs in H.
  destruct (existsb _ _ && (has_active_tasks w || has_staged_tasks w)) eqn:E; [|discriminate H].
  apply andb_prop in E. tauto.
Qed.

Lemma sat_same : forall g w w' dst route, tasks w' = tasks w -> sequence w' = sequence w ->
  sat g w' dst route = sat g w dst route.
Proof.
  intros g w w' dst route Ht Hs. unfold sat, inbound_evaluation, ws_task_entry, ws_task_idx. rewrite Ht, Hs. reflexivity.
Qed.

Definition Rnx (idx : nat) (c c' : cstate) : Prop :=
  tasks (c_ws c') = tasks (c_ws c) /\
  (forall j, j <> idx -> nth_error (sequence (c_ws c')) j = nth_error (sequence (c_ws c)) j) /\
  (forall r, nth_error (sequence (c_ws c)) idx = Some r ->
     exists r', nth_error (sequence (c_ws c')) idx = Some r' /\ r_next r' = r_next r /\ sig r' = sig r).
Lemma Rnx_refl : forall idx c, Rnx idx c c.
Proof. intros idx c; split; [reflexivity|]. split; [auto|]. intros r H; exists r; auto. Qed.
Lemma Rnx_trans : forall idx a b c, Rnx idx a b -> Rnx idx b c -> Rnx idx a c.
Proof.
  intros idx a b c [A1 [A2 A3]] [B1 [B2 B3]]. split; [congruence|]. split.
  - intros j Hj. rewrite (B2 _ Hj). apply A2; exact Hj.
  - intros r Hr. destruct (A3 _ Hr) as [r1 [H1 [H2 H3]]]. destruct (B3 _ H1) as [r2 [H4 [H5 H6]]].
    exists r2. split; [exact H4|split; congruence].
Qed.
Lemma Rnx_same_seq : forall idx c c', tasks (c_ws c') = tasks (c_ws c) -> sequence (c_ws c') = sequence (c_ws c) -> Rnx idx c c'.
Proof. intros idx c c' H1 H2. unfold Rnx. rewrite H1, H2. split; [reflexivity|]. split; [auto|]. intros r H; exists r; auto. Qed.
Lemma Rlt_Rnx : forall idx c c', Rlt c c' -> Rnx idx c c'.
Proof. intros idx c c' [A1 [A2 _]]. apply Rnx_same_seq; assumption. Qed.
Lemma Rnx_upd : forall idx c f, (forall r, r_next (f r) = r_next r /\ sig (f r) = sig r) ->
  Rnx idx c (set_ws c (ws_update_rec (c_ws c) idx f)).
Proof.
  intros idx c f Hf. unfold Rnx. simpl. rewrite tasks_update_rec. split; [reflexivity|]. split.
  - intros j Hj. apply nth_update_rec_other. congruence.
  - intros r Hr. exists (f r). split; [apply nth_update_rec_same; exact Hr|apply Hf].
Qed.


Definition pt_frame (idx : nat) (tid : trid) (b : option bool) (c c' : cstate) : Prop :=
  tasks (c_ws c') = tasks (c_ws c) /\ c_graph c' = c_graph c /\
  (forall j, j <> idx -> nth_error (sequence (c_ws c')) j = nth_error (sequence (c_ws c)) j) /\
  (forall r, nth_error (sequence (c_ws c)) idx = Some r ->
     exists r', nth_error (sequence (c_ws c')) idx = Some r' /\ sig r' = sig r /\
       r_next r' = match b with Some v => aset trid_eqb tid v (r_next r) | None => r_next r end).

Definition staged_carried (dst : string) (v : bool) (c c' : cstate) : Prop :=
  forall s, In s (staged (c_ws c)) -> stg_plain s ->
    exists s', In s' (staged (c_ws c')) /\ s_id s' = s_id s /\ stg_plain s' /\
               (s_ready s' = s_ready s \/ (s_id s = dst /\ s_ready s' = v)).

Lemma staged_carried_same : forall dst v c c', staged (c_ws c') = staged (c_ws c) -> staged_carried dst v c c'.
Proof. intros dst v c c' H s Hin Hp. exists s. rewrite H. auto. Qed.

Section Next.
Variable ev : string -> dict -> evalres.

Lemma Rnx_pt_frame : forall idx tid c c', Rnx idx c c' -> c_graph c' = c_graph c -> pt_frame idx tid None c c'.
Proof.
  intros idx tid c c' [A1 [A2 A3]] G. split; [exact A1|]. split; [exact G|]. split; [exact A2|].
  intros r Hr. destruct (A3 _ Hr) as [r' [H1 [H2 H3]]]. exists r'; auto.
Qed.

Lemma pt_frame_then : forall idx tid b c c1 c', pt_frame idx tid b c c1 -> Rnx idx c1 c' -> c_graph c' = c_graph c1 ->
  pt_frame idx tid b c c'.
Proof.
  intros idx tid b c c1 c' [A1 [A2 [A3 A4]]] [B1 [B2 B3]] G. split; [congruence|]. split; [congruence|]. split.
  - intros j Hj. rewrite (B2 _ Hj). apply A3; exact Hj.
  - intros r Hr. destruct (A4 _ Hr) as [r1 [H1 [H2 H3]]]. destruct (B3 _ H1) as [r2 [H4 [H5 H6]]].
    exists r2. split; [exact H4|]. split; congruence.
Qed.

Lemma vlt_finalize_context : forall ts e ctx, vpres Rlt (finalize_context ev ts e ctx).
Proof.
  intros ts e ctx. unfold finalize_context. destruct (nth_error (ts_next ts) (e_ref e)); [|apply vp_raise].
  destruct (string_in (e_dst e) (tr_do t)); [apply vlt_render_vars|apply vp_ret; apply Rlt_refl].
Qed.

Lemma evaluate_route_eff : forall e route c c' nr, evaluate_route e route c = (c', Val nr) ->
  sequence (c_ws c') = sequence (c_ws c) /\ tasks (c_ws c') = tasks (c_ws c) /\
  staged (c_ws c') = staged (c_ws c) /\ c_graph c' = c_graph c.
Proof.
  intros e route c3 c4 next_route E4.
  unfold evaluate_route in E4. unfold bind at 1 in E4. unfold get at 1 in E4.
  destruct (negb (spec_is_split_task (c_spec c3) (e_dst e)) || g_in_cycle (c_graph c3) (e_dst e)); [inversion E4; subst; auto|].
  destruct (nth_error (routes (c_ws c3)) route); [|inversion E4].
  destruct (existsb _ l); [inversion E4; subst; auto|].
  apply bind_val_inv' in E4. destruct E4 as [c5 [u5 [E5 E4]]]. unfold modws in E5. inversion E5; subst c5. inversion E4; subst. simpl. auto.
Qed.

Lemma arrived_eff : forall t idx e next_route out_idxs c4 c5,
  arrived t idx e next_route out_idxs c4 = Some c5 ->
  sequence (c_ws c5) = sequence (c_ws c4) /\ tasks (c_ws c5) = tasks (c_ws c4) /\ c_graph c5 = c_graph c4 /\
  (exists s0, find (stg_matches (e_dst e) next_route) (staged (c_ws c5)) = Some s0 /\ stg_plain s0) /\
  (forall s, In s (staged (c_ws c4)) -> stg_plain s ->
     exists s', In s' (staged (c_ws c5)) /\ s_id s' = s_id s /\ s_route s' = s_route s /\ stg_plain s' /\ s_ready s' = s_ready s).
Proof.
  intros t idx e next_route out_idxs c4 c5 E5. unfold arrived in E5.
  destruct (get_staged_task (c_ws c4) (e_dst e) next_route) as [sx|] eqn:Eg.
  - destruct (nat_remove_first 0 out_idxs) as [l0|]; [|discriminate E5]. inversion E5; subst c5; clear E5. simpl.
    split; [reflexivity|]. split; [reflexivity|]. split; [reflexivity|]. split.
    + unfold get_staged_task in Eg. rewrite find_staged_update_same, Eg by reflexivity.
      eexists. split; [reflexivity|]. split; reflexivity.
    + intros s Hin Hp. destruct (su_fwd (fun s => s_set_completed (s_set_items (s_set_in_prev s (app (s_in s) l0)
                       (aset trid_eqb (t, e_key e) idx (s_prev s))) None) false) (e_dst e) next_route _ _ Hin) as [s' [Hs' [->|[_ ->]]]].
      * exists s. auto.
      * eexists. split; [exact Hs'|]. simpl. repeat split; reflexivity.
  - inversion E5; subst c5; clear E5. simpl.
    split; [reflexivity|]. split; [reflexivity|]. split; [reflexivity|]. split.
    + exists (mk_staged (e_dst e) next_route out_idxs [((t, e_key e), idx)] false None). split; [|split; reflexivity].
      apply find_app_last; [exact Eg|]. unfold stg_matches, mk_staged; simpl. now rewrite String.eqb_refl, Nat.eqb_refl.
    + intros s Hin Hp. exists s. split; [apply in_or_app; left; exact Hin|auto].
Qed.

Lemma published_eff : forall idx e new_ctx c,
  Rnx idx c (published idx e new_ctx c) /\ staged (c_ws (published idx e new_ctx c)) = staged (c_ws c) /\
  c_graph (published idx e new_ctx c) = c_graph c.
Proof.
  intros idx e [|p0 l0] c; [split; [apply Rnx_refl|split; reflexivity]|]. unfold published.
  split; [|split; [simpl; rewrite staged_update_rec; reflexivity|reflexivity]].
  eapply Rnx_trans; [apply (Rnx_same_seq idx c (set_ws c (ws_set_contexts (c_ws c) (app (contexts (c_ws c)) [p0 :: l0])))); reflexivity|].
  apply (Rnx_upd idx (set_ws c (ws_set_contexts (c_ws c) (app (contexts (c_ws c)) [p0 :: l0])))). intro; split; reflexivity.
Qed.

Lemma process_transition_eff : forall t route idx ts ctx e c c' res,
  process_transition ev t route idx ts ctx e c = (c', Val res) ->
  (pt_frame idx (ekey e) None c c' /\ staged (c_ws c') = staged (c_ws c) /\ wstatus (c_ws c') = S_FAILED) \/
  (pt_frame idx (ekey e) (Some false) c c' /\ staged (c_ws c') = staged (c_ws c)) \/
  (pt_frame idx (ekey e) (Some true) c c' /\ staged (c_ws c') = staged (c_ws c) /\ wstatus (c_ws c') = S_FAILED) \/
  (pt_frame idx (ekey e) (Some true) c c' /\
   (exists s, In s (staged (c_ws c')) /\ s_id s = e_dst e /\ stg_plain s /\
              s_ready s = sat (c_graph c') (c_ws c') (e_dst e) route) /\
   staged_carried (e_dst e) (sat (c_graph c') (c_ws c') (e_dst e) route) c c').
Proof.
  intros t route idx ts ctx e c c' res H.
  destruct (process_transition_val_inv ev _ _ _ _ _ _ _ _ _ H) as [rv [_ Hrv]]. clear H. destruct rv as [vs|x].
  2: { destruct Hrv as [_ [ca [E3 E4]]].
       pose proof (Rlt_trans _ _ _ (vlt_log_error _ _ _ _ _ _ _ E3) (vlt_request_failed _ _ _ E4)) as L1.
       left. split; [apply Rnx_pt_frame; [apply Rlt_Rnx; exact L1|apply L1]|]. split; [apply L1|].
       eapply request_failed_fails; exact E4. }
  set (b := forallb truthy vs) in *. set (c1 := pt_decided idx e vs c) in *.
  assert (P1 : pt_frame idx (ekey e) (Some b) c c1).
  { unfold c1, pt_decided, pt_frame. simpl. rewrite tasks_update_rec. split; [reflexivity|]. split; [reflexivity|]. split.
    - intros j Hj. apply nth_update_rec_other. congruence.
    - intros r Hr. eexists. split; [apply nth_update_rec_same; exact Hr|]. split; reflexivity. }
  assert (St1 : staged (c_ws c1) = staged (c_ws c)) by (unfold c1, pt_decided; simpl; apply staged_update_rec).
  destruct b.
  2: { destruct Hrv as [-> _]. right; left. split; [exact P1|exact St1]. }
  destruct Hrv as [c2 [new_ctx [errors [E2 Hout]]]].
  pose proof (vlt_finalize_context _ _ _ _ _ _ E2) as L2.
  destruct errors as [|e1 errs].
  2: { destruct Hout as [_ [c3 [E3 E4]]].
       pose proof (vlt_log_errors _ _ _ _ _ _ _ E3) as L3. pose proof (vlt_request_failed _ _ _ E4) as L4.
       pose proof (Rlt_trans _ _ _ (Rlt_trans _ _ _ L2 L3) L4) as L.
       right; right; left. split; [eapply pt_frame_then; [exact P1|apply Rlt_Rnx; exact L|apply L]|].
       split; [rewrite <- St1; apply L|eapply request_failed_fails; exact E4]. }
  destruct Hout as [r [c4 [next_route [c5 [Hr [E4 [Ea [Hc' _]]]]]]]].
  destruct (published_eff idx e new_ctx c2) as [L3 [St3 G3]]. set (c3 := published idx e new_ctx c2) in *.
  destruct (evaluate_route_eff _ _ _ _ _ E4) as [Q4 [T4 [St4 G4]]].
  destruct (arrived_eff _ _ _ _ _ _ _ Ea) as [Q5 [T5 [G5 [[s0 [Hf0 Hp0]] Hcar]]]].
  unfold flagged, target_ready in Hc'. rewrite criteria_sat in Hc'.
  assert (Qc' : sequence (c_ws c') = sequence (c_ws c5) /\ tasks (c_ws c') = tasks (c_ws c5) /\ c_graph c' = c_graph c5)
    by (rewrite Hc'; simpl; auto).
  destruct Qc' as [Q6 [T6 G6]].
  assert (Hsat : sat (c_graph c5) (c_ws c5) (e_dst e) route = sat (c_graph c') (c_ws c') (e_dst e) route).
  { rewrite G6. symmetry. apply sat_same; assumption. }
  assert (Fr : pt_frame idx (ekey e) (Some true) c c').
  { assert (G2 : c_graph c2 = c_graph c1) by apply L2.
    eapply pt_frame_then; [exact P1| |congruence].
    eapply Rnx_trans; [apply Rlt_Rnx; exact L2|]. eapply Rnx_trans; [exact L3|].
    apply Rnx_same_seq; congruence. }
  right; right; right. split; [exact Fr|]. rewrite <- Hsat.
  split.
  - exists (s_set_ready s0 (sat (c_graph c5) (c_ws c5) (e_dst e) route)). split.
    + rewrite Hc'. simpl.
      apply (su_hit (fun s => s_set_ready s (sat (c_graph c5) (c_ws c5) (e_dst e) route)) (e_dst e) next_route _ s0 Hf0).
    + simpl. apply find_some in Hf0. destruct Hf0 as [_ Hm]. apply stg_matches_id in Hm. destruct Hp0. repeat split; tauto.
  - intros s Hin Hp. assert (Hin4 : In s (staged (c_ws c4))) by (rewrite St4, St3; destruct L2 as [_ [_ [X _]]]; rewrite X, St1; exact Hin).
    destruct (Hcar _ Hin4 Hp) as [s' [J1 [J2 [J2' [J3 J4]]]]].
    destruct (su_fwd (fun s => s_set_ready s (sat (c_graph c5) (c_ws c5) (e_dst e) route)) (e_dst e) next_route _ _ J1) as [s'' [K1 [->|[Km ->]]]].
    + exists s'. rewrite Hc'. simpl. auto.
    + eexists. rewrite Hc'. simpl. split; [exact K1|]. simpl. split; [exact J2|]. split; [exact J3|]. right.
      apply stg_matches_id in Km. destruct Km as [Km _]. split; [congruence|reflexivity].
Qed.

End Next.

Lemma next_transitions_in : forall g t e, In e (g_next_transitions g t) ->
  In e (g_prev_transitions g (e_dst e)) /\ e_src e = t.
Proof.
  intros g t e H. unfold g_next_transitions in H. apply in_sort_by in H. apply filter_In in H. destruct H as [Hin Hs].
  apply String.eqb_eq in Hs. split; [|exact Hs]. unfold g_prev_transitions. apply filter_In. split; [exact Hin|apply String.eqb_refl].
Qed.

Lemma inbound_evaluation_stable : forall g w w' dst route idx r r' e0,
  tasks_ok w -> tasks w' = tasks w ->
  (forall j, j <> idx -> nth_error (sequence w') j = nth_error (sequence w) j) ->
  nth_error (sequence w) idx = Some r -> nth_error (sequence w') idx = Some r' -> r_id r' = r_id r ->
  In e0 (g_prev_transitions g dst) -> e_src e0 = r_id r ->
  aget trid_eqb (dst, e_key e0) (r_next r) = Some true -> aget trid_eqb (dst, e_key e0) (r_next r') = Some true ->
  inbound_evaluation g w' dst route = inbound_evaluation g w dst route.
Proof.
  intros g w w' dst route idx r r' e0 [_ Ht] Htk Hoth Hr Hr' Hid Hin Hsrc He He'.
  unfold inbound_evaluation. apply map_ext. intro src. f_equal.
  unfold ws_task_entry, ws_task_idx. rewrite Htk.
  destruct (aget tkey_eqb (src, route) (tasks w)) as [i|] eqn:Ea; [|reflexivity].
  destruct (Nat.eq_dec i idx) as [->|Hne]; [|rewrite (Hoth _ Hne); reflexivity].
  rewrite Hr, Hr'. f_equal.
  destruct (Ht _ _ (aget_in tkey_eqb tkey_eqb_eq _ _ _ Ea)) as [r0 [Hr0 Hk]]. rewrite Hr in Hr0; inversion Hr0; subst r0.
  unfold key_of in Hk. inversion Hk as [[Hk1 Hk2]].
  assert (W : forall rr, aget trid_eqb (dst, e_key e0) (r_next rr) = Some true ->
          existsb (fun e => String.eqb (e_src e) (r_id r) &&
                            match aget trid_eqb (dst, e_key e) (r_next rr) with Some true => true | _ => false end)
                  (g_prev_transitions g dst) = true).
  { intros rr Hrr. apply existsb_exists. exists e0. split; [exact Hin|]. rewrite Hsrc, String.eqb_refl, Hrr. reflexivity. }
  rewrite (W r He), (W r' He'). reflexivity.
Qed.

Lemma sat_stable : forall g w w' dst route idx r r' e0,
  tasks_ok w -> tasks w' = tasks w ->
  (forall j, j <> idx -> nth_error (sequence w') j = nth_error (sequence w) j) ->
  nth_error (sequence w) idx = Some r -> nth_error (sequence w') idx = Some r' -> r_id r' = r_id r ->
  In e0 (g_prev_transitions g dst) -> e_src e0 = r_id r ->
  aget trid_eqb (dst, e_key e0) (r_next r) = Some true -> aget trid_eqb (dst, e_key e0) (r_next r') = Some true ->
  sat g w' dst route = sat g w dst route.
Proof.
  intros. unfold sat. rewrite (inbound_evaluation_stable g w w' dst route idx r r' e0); auto.
Qed.

Lemma sat_no_barrier : forall g w dst route i r e0,
  g_has_barrier g dst = false ->
  aget tkey_eqb (e_src e0, route) (tasks w) = Some i -> nth_error (sequence w) i = Some r ->
  In e0 (g_prev_transitions g dst) -> aget trid_eqb (dst, e_key e0) (r_next r) = Some true ->
  sat g w dst route = true.
Proof.
  intros g w dst route i r e0 Hb Ha Hr Hin He. unfold sat. cbv zeta.
  assert (Hreq : forall n, inbound_requirement g dst n = 1%Z).
  { intro n. unfold inbound_requirement. unfold g_has_barrier in Hb. destruct (g_barrier g dst) as [| | | |s|l|d]; try reflexivity; try discriminate Hb.
    destruct s as [|a s]; [reflexivity|]. discriminate Hb. }
  rewrite Hreq.
  set (evl := inbound_evaluation g w dst route).
  assert (Hin' : In (e_src e0, Some true) evl).
  { unfold evl, inbound_evaluation. apply in_map_iff. exists (e_src e0). split.
    - f_equal. unfold ws_task_entry, ws_task_idx. rewrite Ha, Hr. f_equal. apply existsb_exists. exists e0.
      split; [exact Hin|]. rewrite String.eqb_refl, He. reflexivity.
    - apply In_dedup_by. apply in_map_iff. exists e0; split; [reflexivity|exact Hin]. }
  assert (Hf : In (e_src e0, Some true) (filter (fun '(_, v) => match v with Some true => true | _ => false end) evl))
    by (apply filter_In; split; [exact Hin'|reflexivity]).
  destruct (filter _ evl) as [|x l]; [destruct Hf|]. simpl. apply Z.leb_le. lia.
Qed.

Section Loop.
Variable ev : string -> dict -> evalres.
Variables (t : string) (route idx : nat) (ts : task_spec) (ctx : dict) (g : graph).

Definition Good (e : gedge) (c : cstate) : Prop :=
  exists s, In s (staged (c_ws c)) /\ s_id s = e_dst e /\ stg_plain s /\
            (s_ready s = true \/ sat g (c_ws c) (e_dst e) route = false).

Definition entry_val (e : gedge) (c : cstate) (v : option bool) : Prop :=
  exists r, nth_error (sequence (c_ws c)) idx = Some r /\ aget trid_eqb (ekey e) (r_next r) = v.

Definition base (c : cstate) : Prop :=
  winv c /\ c_graph c = g /\ aget tkey_eqb (t, route) (tasks (c_ws c)) = Some idx.

Lemma base_step : forall e c c' res, base c -> process_transition ev t route idx ts ctx e c = (c', Val res) -> base c'.
Proof.
  intros e c c' res [Hw [Hg Hp]] H. split; [exact (vw_process_transition ev _ _ _ _ _ _ _ _ _ H Hw)|].
  destruct (vfr_process_transition ev _ _ _ _ _ _ _ _ _ H) as [T [_ [_ [G _]]]]. split; [congruence|rewrite T; exact Hp].
Qed.

Lemma failed_step : forall e c c' res, process_transition ev t route idx ts ctx e c = (c', Val res) ->
  wstatus (c_ws c) = S_FAILED -> wstatus (c_ws c') = S_FAILED.
Proof.
  intros e c c' res H Hf. destruct (vfr_process_transition ev _ _ _ _ _ _ _ _ _ H) as [_ [_ [[W|W] _]]]; congruence.
Qed.

Lemma frame_of_eff : forall e c c' res, process_transition ev t route idx ts ctx e c = (c', Val res) ->
  exists b, pt_frame idx (ekey e) b c c'.
Proof.
  intros e c c' res H. destruct (process_transition_eff ev _ _ _ _ _ _ _ _ _ H) as [[F _]|[[F _]|[[F _]|[F _]]]]; eexists; exact F.
Qed.

Lemma pt_keeps_good : forall e0 e c c' res, base c -> In e0 (g_next_transitions g t) -> ekey e <> ekey e0 ->
  process_transition ev t route idx ts ctx e c = (c', Val res) ->
  entry_val e0 c (Some true) -> Good e0 c -> entry_val e0 c' (Some true) /\ Good e0 c'.
Proof.
  intros e0 e c c' res [Hw [Hg Hp]] Hin0 Hne H [r [Hr He]] [s [Hs [Hid [Hpl Hrd]]]].
  destruct (next_transitions_in _ _ _ Hin0) as [Hprev Hsrc].
  destruct (proj2 (proj1 Hw) _ _ (aget_in tkey_eqb tkey_eqb_eq _ _ _ Hp)) as [r0 [Hr0 Hk0]]. rewrite Hr in Hr0; inversion Hr0; subst r0.
  assert (Hrid : r_id r = t) by (unfold key_of in Hk0; congruence).
  destruct (frame_of_eff _ _ _ _ H) as [b [T [G [Oth Rec]]]].
  destruct (Rec _ Hr) as [r' [Hr' [Hsig Hnext]]].
  assert (He' : aget trid_eqb (ekey e0) (r_next r') = Some true).
  { rewrite Hnext. destruct b as [v|]; [rewrite (ListFacts.aget_aset_other trid_eqb trid_eqb_eq) by (intro X; apply Hne; symmetry; exact X)|]; exact He. }
  assert (Hid' : r_id r' = r_id r) by (unfold sig in Hsig; congruence).
  assert (Hsat : sat g (c_ws c') (e_dst e0) route = sat g (c_ws c) (e_dst e0) route).
  { apply (sat_stable g (c_ws c) (c_ws c') (e_dst e0) route idx r r' e0 (proj1 Hw) T Oth Hr Hr' Hid' Hprev);
      [congruence|exact He|exact He']. }
  split; [exists r'; auto|].
  assert (Same : staged (c_ws c') = staged (c_ws c) -> Good e0 c').
  { intro St. exists s. rewrite St, Hsat. auto. }
  destruct (process_transition_eff ev _ _ _ _ _ _ _ _ _ H) as [[_ [St _]]|[[_ St]|[[_ [St _]]|[_ [_ Car]]]]]; try (apply Same; exact St).
  destruct (Car _ Hs Hpl) as [s' [H1 [H2 [H3 H4]]]]. exists s'. split; [exact H1|]. split; [congruence|]. split; [exact H3|].
  rewrite Hsat. destruct H4 as [H4|[H4 H5]].
  - rewrite H4. exact Hrd.
  - rewrite G, Hg in H5. assert (Hd : e_dst e = e_dst e0) by congruence. rewrite Hd, Hsat in H5.
    rewrite H5. destruct (sat g (c_ws c) (e_dst e0) route); auto.
Qed.

Lemma pt_sets_good : forall e c c' res, base c -> process_transition ev t route idx ts ctx e c = (c', Val res) ->
  (exists r, nth_error (sequence (c_ws c)) idx = Some r) ->
  wstatus (c_ws c') = S_FAILED \/ entry_val e c' (Some false) \/ (entry_val e c' (Some true) /\ Good e c').
Proof.
  intros e c c' res [Hw [Hg Hp]] H [r Hr].
  destruct (process_transition_eff ev _ _ _ _ _ _ _ _ _ H) as [[_ [_ F]]|[[F _]|[[_ [_ F]]|[F [[s [H1 [H2 [H3 H4]]]] _]]]]]; auto.
  - right; left. destruct F as [_ [_ [_ Rec]]]. destruct (Rec _ Hr) as [r' [Hr' [_ Hn]]]. exists r'. split; [exact Hr'|].
    rewrite Hn. apply aget_aset_same, trid_eqb_refl.
  - right; right. pose proof F as [_ [G [_ Rec]]]. destruct (Rec _ Hr) as [r' [Hr' [_ Hn]]]. split.
    + exists r'. split; [exact Hr'|]. rewrite Hn. apply aget_aset_same, trid_eqb_refl.
    + exists s. rewrite G, Hg in H4. split; [exact H1|]. split; [exact H2|]. split; [exact H3|].
      rewrite H4. destruct (sat g (c_ws c') (e_dst e) route); auto.
Qed.

Lemma entry_kept : forall e0 e c c' res v, ekey e <> ekey e0 ->
  process_transition ev t route idx ts ctx e c = (c', Val res) -> entry_val e0 c v -> entry_val e0 c' v.
Proof.
  intros e0 e c c' res v Hne H [r [Hr He]]. destruct (frame_of_eff _ _ _ _ H) as [b [_ [_ [_ Rec]]]].
  destruct (Rec _ Hr) as [r' [Hr' [_ Hn]]]. exists r'. split; [exact Hr'|]. rewrite Hn.
  destruct b as [x|]; [rewrite (ListFacts.aget_aset_other trid_eqb trid_eqb_eq) by (intro X; apply Hne; symmetry; exact X)|]; exact He.
Qed.

Lemma idx_kept : forall e c c' res, process_transition ev t route idx ts ctx e c = (c', Val res) ->
  (exists r, nth_error (sequence (c_ws c)) idx = Some r) -> exists r', nth_error (sequence (c_ws c')) idx = Some r'.
Proof.
  intros e c c' res H [r Hr]. destruct (frame_of_eff _ _ _ _ H) as [b [_ [_ [_ Rec]]]]. destruct (Rec _ Hr) as [r' [Hr' _]]. exists r'; exact Hr'.
Qed.

Definition outcome (e : gedge) (c : cstate) : Prop :=
  wstatus (c_ws c) = S_FAILED \/ entry_val e c (Some false) \/ (entry_val e c (Some true) /\ Good e c).

Lemma outcome_step : forall e0 e c c' res, base c -> In e0 (g_next_transitions g t) -> ekey e <> ekey e0 ->
  process_transition ev t route idx ts ctx e c = (c', Val res) -> outcome e0 c -> outcome e0 c'.
Proof.
  intros e0 e c c' res Hb Hin Hne H [O|[O|[O1 O2]]].
  - left. eapply failed_step; eassumption.
  - right; left. eapply entry_kept; eassumption.
  - right; right. eapply pt_keeps_good; eassumption.
Qed.

Lemma outcome_carried : forall e0 l c c' rs, In e0 (g_next_transitions g t) ->
  (forall e, In e l -> ekey e <> ekey e0) -> (forall e, In e l -> In e (g_next_transitions g t)) -> base c ->
  mapM (process_transition ev t route idx ts ctx) l c = (c', Val rs) -> outcome e0 c -> outcome e0 c'.
Proof.
  intros e0 l. induction l as [|e l IH]; intros c c' rs Hin0 Hk Hl Hb Hm Ho; simpl in Hm; [inversion Hm; subst; exact Ho|].
  apply bind_val_inv' in Hm. destruct Hm as [cx [rx [Ex Hm]]].
  apply bind_val_inv' in Hm. destruct Hm as [cy [ry [Ey Hm]]]. inversion Hm; subst cy rs; clear Hm.
  eapply IH; [exact Hin0|intros e' He'; apply Hk; right; exact He'|intros e' He'; apply Hl; right; exact He'
             |eapply base_step; eassumption|exact Ey|].
  eapply outcome_step; [exact Hb|exact Hin0|apply Hk; left; reflexivity|exact Ex|exact Ho].
Qed.

Lemma loop_outcomes : forall l c c' rs, NoDup (map ekey l) -> (forall e, In e l -> In e (g_next_transitions g t)) ->
  base c -> (exists r, nth_error (sequence (c_ws c)) idx = Some r) ->
  mapM (process_transition ev t route idx ts ctx) l c = (c', Val rs) ->
  base c' /\ (exists r, nth_error (sequence (c_ws c')) idx = Some r) /\ forall e, In e l -> outcome e c'.
Proof.
  induction l as [|e l IH]; intros c c' rs Hnd Hl Hb Hr H; simpl in H.
  - inversion H; subst. split; [exact Hb|]. split; [exact Hr|]. intros e [].
  - apply bind_val_inv' in H. destruct H as [c1 [res [E1 H]]].
    apply bind_val_inv' in H. destruct H as [c2 [rs' [E2 H]]]. inversion H; subst c2 rs; clear H.
    inversion Hnd as [|x xs Hx Hnd']; subst.
    pose proof (base_step _ _ _ _ Hb E1) as Hb1. pose proof (idx_kept _ _ _ _ E1 Hr) as Hr1.
    destruct (IH _ _ _ Hnd' (fun e' He' => Hl e' (or_intror He')) Hb1 Hr1 E2) as [Hb2 [Hr2 Hout]].
    split; [exact Hb2|]. split; [exact Hr2|]. intros e0 [->|Hin]; [|apply Hout; exact Hin].
    (* the head: its outcome right after its own step, carried through the rest *)
    apply (outcome_carried e0 l c1 c' rs' (Hl e0 (or_introl eq_refl))); [| |exact Hb1|exact E2|].
    + intros e' He' X. apply Hx. rewrite <- X. apply in_map. exact He'.
    + intros e' He'. apply Hl. right; exact He'.
    + exact (pt_sets_good _ _ _ _ Hb E1 Hr).
Qed.

End Loop.

Section Final.
Variable ev : string -> dict -> evalres.

Lemma run_on_fail_eff : forall l c c',
  forM_ l (fun '(n, rt) => modws (fun w => ws_set_staged w (staged_update (fun s => s_set_run_on_fail s true) n rt (staged w)))) c = (c', Val tt) ->
  sequence (c_ws c') = sequence (c_ws c) /\ tasks (c_ws c') = tasks (c_ws c) /\ wstatus (c_ws c') = wstatus (c_ws c) /\
  c_graph c' = c_graph c /\
  forall s, In s (staged (c_ws c)) -> exists s', In s' (staged (c_ws c')) /\ s_id s' = s_id s /\ (stg_plain s -> stg_plain s') /\ s_ready s' = s_ready s.
Proof.
  induction l as [|[n rt] l IH]; intros c c' H; simpl in H.
  - inversion H; subst. repeat split; auto. intros s Hs; exists s; auto.
  - apply bind_val_inv' in H. destruct H as [c1 [u [E1 H]]]. unfold modws in E1. inversion E1; subst c1; clear E1.
    destruct (IH _ _ H) as [A1 [A2 [A3 [A4 A5]]]]. simpl in *. repeat split; auto.
    intros s Hs. destruct (su_fwd (fun s => s_set_run_on_fail s true) n rt _ _ Hs) as [s1 [H1 [->|[_ ->]]]].
    + apply A5; exact H1.
    + destruct (A5 _ H1) as [s' [B1 [B2 [B3 B4]]]]. exists s'. simpl in *. auto.
Qed.

Definition Rterm (idx : nat) (c c' : cstate) : Prop :=
  Rnx idx c c' /\ staged (c_ws c') = staged (c_ws c) /\ wstatus (c_ws c') = wstatus (c_ws c) /\ c_graph c' = c_graph c.

Lemma term_upd : forall idx c c' u, upd_rec idx (fun r => r_set_term r true) c = (c', Val u) -> Rterm idx c c'.
Proof.
  intros idx c c' u H. unfold upd_rec, modws in H. inversion H; subst c'. split; [apply Rnx_upd; intro; split; reflexivity|].
  simpl. rewrite staged_update_rec, wstatus_update_rec. auto.
Qed.
Lemma Rterm_refl : forall idx c, Rterm idx c c.
Proof. intros; split; [apply Rnx_refl|auto]. Qed.

Lemma entry_val_Rnx : forall idx e c c' v, Rnx idx c c' -> entry_val idx e c v -> entry_val idx e c' v.
Proof.
  intros idx e c c' v [_ [_ R]] [r [Hr He]]. destruct (R _ Hr) as [r' [Hr' [Hn _]]]. exists r'. split; [exact Hr'|congruence].
Qed.

Theorem queue_hnt : forall g, (forall t, NoDup (map ekey (g_next_transitions g t))) -> queue_hnt_prop ev g.
Proof.
  intros g Hnd t route idx ts old new ctx cp cq q Hg Hw Hp H Hneq Hst Hnt.
  pose proof (vw_queue ev _ _ _ _ _ _ _ _ _ _ H Hw) as Hwq.
  destruct (uts_queue_inv ev _ _ _ _ _ _ _ _ _ _ H) as [[_ [_ [X|X]]]|[ctx' [b' [c1 [c2 [rs [c3 [r4 [X [E1 [E2 [E3 [Hr4 [E5 _]]]]]]]]]]]]]];
    [discriminate X | contradiction | clear H]. injection X as <- _. rewrite Hg in E1, E2, E5.
  assert (T1 : Rterm idx cp c1) by (destruct (g_next_transitions g t); [eapply term_upd; exact E1|inversion E1; subst; apply Rterm_refl]).
  assert (T5 : Rterm idx c3 cq).
  { destruct (g_next_transitions g t); [inversion E5; subst; apply Rterm_refl|].
    destruct (existsb _ (r_next r4)); [inversion E5; subst; apply Rterm_refl|eapply term_upd; exact E5]. }
  assert (T3 : sequence (c_ws c3) = sequence (c_ws c2) /\ tasks (c_ws c3) = tasks (c_ws c2) /\ wstatus (c_ws c3) = wstatus (c_ws c2) /\
               c_graph c3 = c_graph c2 /\
               forall s, In s (staged (c_ws c2)) -> exists s', In s' (staged (c_ws c3)) /\ s_id s' = s_id s /\ (stg_plain s -> stg_plain s') /\ s_ready s' = s_ready s).
  { destruct (existsb _ _); [eapply run_on_fail_eff; exact E3|]. inversion E3; subst. repeat split; auto. intros s Hs; exists s; auto. }
  destruct T1 as [N1 [S1 [W1 G1]]]. destruct T5 as [N5 [S5 [W5 G5]]]. destruct T3 as [Q3 [K3 [W3 [G3 Car3]]]].
  destruct (proj2 (proj1 Hw) _ _ (aget_in tkey_eqb tkey_eqb_eq _ _ _ Hp)) as [rp [Hrp Hkp]].
  assert (Hb1 : base t route idx g c1).
  { split; [|split; [congruence|destruct N1 as [X _]; rewrite X; exact Hp]].
    destruct (g_next_transitions g t); [|inversion E1; subst; exact Hw].
    unfold upd_rec, modws in E1. inversion E1; subst c1. apply winv_update_rec; [intro; reflexivity|exact Hw]. }
  assert (Hr1 : exists r, nth_error (sequence (c_ws c1)) idx = Some r).
  { destruct N1 as [_ [_ X]]. destruct (X _ Hrp) as [r' [Y _]]. exists r'; exact Y. }
  destruct (loop_outcomes ev t route idx ts ctx g _ _ _ _ (Hnd t) (fun e He => He) Hb1 Hr1 E2) as [[Hw2 [G2 P2]] [Hr2 Hout]].
  assert (Gq : c_graph cq = g) by congruence.
  unfold has_next_tasks, has_next in Hnt. rewrite Gq in Hnt.
  assert (Pq : aget tkey_eqb (t, route) (tasks (c_ws cq)) = Some idx).
  { destruct N5 as [X _]. rewrite X, K3. exact P2. }
  unfold ws_task_entry, ws_task_idx in Hnt. rewrite Pq in Hnt.
  destruct (nth_error (sequence (c_ws cq)) idx) as [rq|] eqn:Erq; [|discriminate].
  destruct (negb (ostatus_in (r_status rq) COMPLETED_STATUSES)); [discriminate|].
  apply existsb_exists in Hnt. destruct Hnt as [e0 [Hin0 Hcl]].
  destruct (String.eqb (e_dst e0) "continue"); [discriminate|].
  destruct (aget trid_eqb (e_dst e0, e_key e0) (r_next rq)) as [[|]|] eqn:Ent; try discriminate.
  assert (Hwst : wstatus (c_ws cq) = wstatus (c_ws c2)) by congruence.
  assert (Ev : forall v, entry_val idx e0 c2 v -> v = Some true).
  { intros v Hv. assert (X : entry_val idx e0 c3 v) by (destruct Hv as [r [A B]]; exists r; rewrite Q3; auto).
    apply (entry_val_Rnx idx e0 c3 cq v N5) in X. destruct X as [r [A B]]. rewrite Erq in A. inversion A; subst r.
    unfold ekey in B. congruence. }
  destruct (Hout _ Hin0) as [O|[O|[O1 [s [Hs [Hid [Hpl Hrd]]]]]]].
  { rewrite <- Hwst in O. rewrite O in Hst. destruct Hst as [X|[X|[X|[X|[]]]]]; discriminate X. }
  { specialize (Ev _ O). discriminate. }
  destruct (Car3 _ Hs) as [s' [Hs' [Hid' [Hpl' Hrd']]]]. rewrite <- S5 in Hs'.
  destruct (next_transitions_in _ _ _ Hin0) as [Hprev Hsrc].
  destruct Hrd as [Hrd|Hrd].
  { right. unfold stgb. apply has_staged_iff. exists s'. split; [exact Hs'|]. split; [congruence|apply (Hpl' Hpl)]. }
  (* the criteria were not satisfied when the entry was made ready: they are not now *)
  assert (Hsatq : sat g (c_ws cq) (e_dst e0) route = false).
  { destruct O1 as [r2 [Hr2' He2]].
    assert (Hr3 : nth_error (sequence (c_ws c3)) idx = Some r2) by (rewrite Q3; exact Hr2').
    destruct N5 as [Tq [Oq Rq]]. destruct (Rq _ Hr3) as [rq' [Hrq' [Hnq Hsq]]]. rewrite Erq in Hrq'. inversion Hrq'; subst rq'.
    destruct (proj2 (proj1 Hw2) _ _ (aget_in tkey_eqb tkey_eqb_eq _ _ _ P2)) as [r2' [Hr2'' Hk2]]. rewrite Hr2' in Hr2''. inversion Hr2''; subst r2'.
    assert (Hid2 : r_id r2 = t) by (unfold key_of in Hk2; congruence).
    assert (Tok3 : tasks_ok (c_ws c3)).
    { destruct Hw2 as [[A B] _]. split; [rewrite K3; exact A|]. intros k i Hk. rewrite K3 in Hk. rewrite Q3. apply B; exact Hk. }
    assert (X1 : r_id rq = r_id r2) by (unfold sig in Hsq; congruence).
    assert (X2 : e_src e0 = r_id r2) by congruence.
    assert (X3 : aget trid_eqb (e_dst e0, e_key e0) (r_next r2) = Some true) by (unfold ekey in He2; exact He2).
    rewrite (sat_stable g (c_ws c3) (c_ws cq) (e_dst e0) route idx r2 rq e0 Tok3 Tq Oq Hr3 Erq X1 Hprev X2 X3 Ent).
    rewrite (sat_same g (c_ws c2) (c_ws c3)); [exact Hrd|exact K3|exact Q3]. }
  destruct (g_has_barrier g (e_dst e0)) eqn:Ebar.
  - cbn [negb] in Hcl. apply negb_true_iff in Hcl.
    pose proof (criteria_unsat_wip g (c_ws cq) (e_dst e0) route Hsatq Hcl) as Hor.
    apply orb_prop in Hor. destruct Hor as [Ha|Hs2]; [left; apply (has_active_iff cq Hwq); exact Ha|right; exact Hs2].
  - exfalso. rewrite (sat_no_barrier g (c_ws cq) (e_dst e0) route idx rq e0 Ebar) in Hsatq; [discriminate| |exact Erq|exact Hprev|exact Ent].
    rewrite Hsrc. exact Pq.
Qed.

End Final.

Lemma trid_nodup_b_sound : forall l, trid_nodup_b l = true -> NoDup l.
Proof.
  induction l as [|x l IH]; intro H; [constructor|]. simpl in H. apply andb_prop in H. destruct H as [H1 H2].
  constructor; [|apply IH; exact H2]. intro Hin. apply negb_true_iff in H1.
  assert (X : existsb (trid_eqb x) l = true) by (apply existsb_exists; exists x; split; [exact Hin|apply trid_eqb_refl]).
  congruence.
Qed.

Lemma edge_keys_unique_sound : forall g, edge_keys_unique_b g = true -> forall t, NoDup (map ekey (g_next_transitions g t)).
Proof.
  intros g H t. destruct (g_next_transitions g t) as [|e l] eqn:E; [constructor|].
  assert (Hin : In e (g_next_transitions g t)) by (rewrite E; left; reflexivity).
  destruct (next_transitions_in _ _ _ Hin) as [Hp Hs]. unfold g_prev_transitions in Hp. apply filter_In in Hp. destruct Hp as [Hp _].
  unfold edge_keys_unique_b in H. rewrite forallb_forall in H. specialize (H _ Hp). rewrite Hs, E in H.
  apply trid_nodup_b_sound. exact H.
Qed.

Lemma sys_graph_ok_sound : forall g, sys_graph_ok g = true ->
  graph_commands_inert g /\ (forall t, In t (g_roots g) -> is_engine_command t = false) /\ g_roots g <> [] /\
  (forall t, NoDup (map ekey (g_next_transitions g t))).
Proof.
  intros g H. unfold sys_graph_ok in H. apply andb_prop in H. destruct H as [H H4]. apply andb_prop in H. destruct H as [H H3].
  apply andb_prop in H. destruct H as [H1 H2].
  split; [apply inert_b_sound; exact H1|]. split.
  - intros t Ht. unfold roots_not_cmds_b in H2. rewrite forallb_forall in H2. apply negb_true_iff. apply H2; exact Ht.
  - split; [unfold has_root_b in H3; destruct (g_roots g); [discriminate|discriminate]|apply edge_keys_unique_sound; exact H4].
Qed.

Section Theorems.
Variable ev : string -> dict -> evalres.
Variable sp : wf_spec.
Variable g : graph.
Variables inputs parent : dict.
Hypothesis Hni : no_items sp = true.
Hypothesis Hok : sys_graph_ok g = true.

Theorem reachable_cinv : forall ops, let s := sys_run ev ops (sys_init sp g inputs parent) in
  s_fault s = false ->
  (s_c s = init_cstate sp g inputs parent /\ s_inflight s = []) \/ cinv sp g (s_c s) (s_inflight s).
Proof.
  intros ops s Hf. destruct (sys_graph_ok_sound _ Hok) as [H1 [H2 [H3 H4]]].
  exact (sys_reachable_inv ev sp g inputs parent Hni H1 H2 H3 (queue_hnt ev g H4) ops Hf).
Qed.

Lemma pstat_entry : forall c k x, pstat c k = Some x <->
  exists r, ws_task_entry (c_ws c) (fst k) (snd k) = Some r /\ r_status r = x.
Proof.
  intros c [t rt] x. unfold pstat, ws_task_entry, ws_task_idx. simpl.
  destruct (aget tkey_eqb (t, rt) (tasks (c_ws c))) as [i|]; [|split; [discriminate|intros [r [H _]]; discriminate]].
  destruct (nth_error (sequence (c_ws c)) i) as [r|]; [|split; [discriminate|intros [r [H _]]; discriminate]].
  split; [intro H; inversion H; exists r; auto|intros [r' [H1 H2]]; inversion H1; subst; reflexivity].
Qed.

(* (I1) every action in flight has a record, reachable through the pointer map, that is running (an active status) *)
Theorem link_inflight_has_active_record : forall ops, let s := sys_run ev ops (sys_init sp g inputs parent) in
  s_fault s = false -> forall k, In k (s_inflight s) ->
  exists r, ws_task_entry (c_ws (s_c s)) (fst k) (snd k) = Some r /\ r_status r = Some S_RUNNING /\
            ostatus_in (r_status r) ACTIVE_STATUSES = true.
Proof.
  intros ops s Hf k Hk. destruct (reachable_cinv ops Hf) as [[_ HF]|I]; [fold s in HF; rewrite HF in Hk; destruct Hk|].
  destruct I as (_ & _ & _ & _ & _ & _ & _ & _ & I9 & _). apply I9 in Hk. apply pstat_entry in Hk.
  destruct Hk as [r [H1 H2]]. exists r. split; [exact H1|]. split; [exact H2|rewrite H2; reflexivity].
Qed.

(* (I2) every task execution the conductor counts active (get_tasks_by_status(ACTIVE_STATUSES): pointed records with an
   active status) is in flight at the provider *)
Theorem link_active_record_in_flight : forall ops, let s := sys_run ev ops (sys_init sp g inputs parent) in
  s_fault s = false -> forall i r, In (i, r) (ws_tasks_by_status (c_ws (s_c s)) ACTIVE_STATUSES) ->
  In (r_id r, r_route r) (s_inflight s) /\ r_status r = Some S_RUNNING.
Proof.
  intros ops s Hf i r Hin. destruct (reachable_cinv ops Hf) as [[Hc _]|I].
  { fold s in Hc. rewrite Hc in Hin. simpl in Hin. destruct Hin. }
  fold s in I. destruct I as (_ & _ & _ & I4 & I5 & _ & _ & _ & _ & I10 & _).
  destruct (tasks_by_status_In _ _ _ _ Hin) as [Hn Ha].
  unfold ws_tasks_by_status in Hin. apply filter_In in Hin. destruct Hin as [_ Hf2]. apply andb_prop in Hf2. destruct Hf2 as [_ Hp].
  apply ws_pointed_iff in Hp. destruct Hp as [k Hk].
  destruct (proj2 (proj1 I4) _ _ Hk) as [r0 [Hr0 Hk0]]. rewrite Hn in Hr0. inversion Hr0; subst r0.
  assert (Hps : pstat (s_c s) k = Some (r_status r)).
  { unfold pstat. rewrite (In_aget tkey_eqb tkey_eqb_eq _ _ _ (proj1 (proj1 I4)) Hk), Hn. reflexivity. }
  destruct (I5 _ _ Hps) as [st [Hx Hs]]. rewrite Hx in Ha. simpl in Ha.
  pose proof (active_simple_running _ Hs Ha) as E. subst st. rewrite Hx in Hps.
  split; [|exact Hx]. unfold key_of in Hk0. rewrite Hk0. apply I10. exact Hps.
Qed.

(* auxiliary invariants: no engine command is ever in flight; every pointed record has one of the five statuses
   running / succeeded / failed / canceled / retrying; no engine command waits in staging between protocol steps *)
Theorem link_auxiliary : forall ops, let s := sys_run ev ops (sys_init sp g inputs parent) in
  s_fault s = false ->
  (forall k, In k (s_inflight s) -> is_engine_command (fst k) = false) /\
  (forall t rt r, ws_task_entry (c_ws (s_c s)) t rt = Some r -> exists st, r_status r = Some st /\ In st simple_statuses) /\
  (forall e, In e (staged (c_ws (s_c s))) -> is_engine_command (s_id e) = false /\ s_items e = None /\ s_completed e = false).
Proof.
  intros ops s Hf. destruct (reachable_cinv ops Hf) as [[Hc HF]|I].
  { fold s in Hc, HF. rewrite Hc, HF. simpl. split; [intros k []|]. split; [intros t rt r H; discriminate|intros e []]. }
  fold s in I. destruct I as (_ & _ & _ & I4 & I5 & I6 & _ & _ & _ & _ & I11).
  split; [exact I11|]. split.
  - intros t rt r H. apply (I5 (t, rt)). apply pstat_entry. exists r. auto.
  - intros e He. split; [apply (ncmd_zero _ I6 _ He)|apply (proj2 I4 _ He)].
Qed.

Lemma no_act_when_idle : forall c, cinv sp g c [] -> ~ act c.
Proof.
  intros c (_ & _ & _ & _ & I5 & _ & _ & _ & _ & I10 & _) [k [st [Hp Ha]]].
  destruct (I5 _ _ Hp) as [st' [Hx Hs]]. inversion Hx; subst st'.
  rewrite (active_simple_running _ Hs Ha) in Hp. exact (I10 _ Hp).
Qed.

Lemma act_when_inflight : forall c F k, cinv sp g c F -> In k F -> act c.
Proof.
  intros c F k (_ & _ & _ & _ & _ & _ & _ & _ & I9 & _) Hk. exists k, S_RUNNING. split; [apply I9; exact Hk|reflexivity].
Qed.

Lemma inflight_when_act : forall c F, cinv sp g c F -> act c -> F <> [].
Proof.
  intros c F (_ & _ & _ & _ & I5 & _ & _ & _ & _ & I10 & _) [k [st [Hp Ha]]] E.
  destruct (I5 _ _ Hp) as [st' [Hx Hs]]. inversion Hx; subst st'.
  rewrite (active_simple_running _ Hs Ha) in Hp. specialize (I10 _ Hp). rewrite E in I10. destruct I10.
Qed.

(* succeeded: nothing in flight, nothing waiting to run, every pointed record completed or waiting for its retry *)
Theorem C02_succeeded_partial : forall ops, let s := sys_run ev ops (sys_init sp g inputs parent) in
  s_fault s = false -> wstatus (c_ws (s_c s)) = S_SUCCEEDED ->
  s_inflight s = [] /\ has_staged_tasks (c_ws (s_c s)) = false /\
  ws_tasks_by_status (c_ws (s_c s)) ACTIVE_STATUSES = [] /\
  (forall t rt r, ws_task_entry (c_ws (s_c s)) t rt = Some r ->
     ostatus_in (r_status r) COMPLETED_STATUSES = true \/ r_status r = Some S_RETRYING).
Proof.
  intros ops s Hf Hst. destruct (reachable_cinv ops Hf) as [[Hc _]|I].
  { fold s in Hc. rewrite Hc in Hst. discriminate Hst. }
  fold s in I. pose proof I as (_ & _ & _ & I4 & I5 & _ & I7 & _ & _ & _ & _).
  destruct I7 as [_ [K2 [K3 _]]]. rewrite Hst in K2, K3.
  assert (Hna : ~ act (s_c s)) by (apply K2; simpl; auto).
  assert (HF : s_inflight s = []).
  { destruct (s_inflight s) as [|k l] eqn:E; [reflexivity|]. exfalso. apply Hna. apply (act_when_inflight _ _ k I). left; reflexivity. }
  split; [exact HF|]. split; [apply K3; reflexivity|]. split.
  - destruct (ws_tasks_by_status (c_ws (s_c s)) ACTIVE_STATUSES) as [|p l] eqn:E; [reflexivity|]. exfalso. apply Hna.
    apply (has_active_iff _ I4). unfold has_active_tasks. rewrite E. reflexivity.
  - intros t rt r Hr. assert (Hp : pstat (s_c s) (t, rt) = Some (r_status r)) by (apply pstat_entry; exists r; auto).
    destruct (I5 _ _ Hp) as [st [Hx Hs]]. rewrite Hx.
    destruct Hs as [E|[E|[E|[E|[E|[]]]]]]; subst st; simpl; auto.
    exfalso. apply Hna. exists (t, rt), S_RUNNING. rewrite Hp, Hx. split; reflexivity.
Qed.

(* paused or canceled: no action is in flight *)
Theorem C02_paused_canceled_idle : forall ops, let s := sys_run ev ops (sys_init sp g inputs parent) in
  s_fault s = false -> In (wstatus (c_ws (s_c s))) [S_PAUSED; S_CANCELED] -> s_inflight s = [].
Proof.
  intros ops s Hf Hst. destruct (reachable_cinv ops Hf) as [[_ HF]|I]; [exact HF|].
  fold s in I. pose proof I as (_ & _ & _ & _ & _ & _ & I7 & _). destruct I7 as [_ [K2 _]].
  assert (Hna : ~ act (s_c s)) by (apply K2; simpl in Hst; simpl; intuition).
  destruct (s_inflight s) as [|k l] eqn:E; [reflexivity|]. exfalso. apply Hna. apply (act_when_inflight _ _ k I). left; reflexivity.
Qed.

(* pausing or canceling: at least one action is in flight *)
Theorem C02_pausing_canceling_busy : forall ops, let s := sys_run ev ops (sys_init sp g inputs parent) in
  s_fault s = false -> In (wstatus (c_ws (s_c s))) [S_PAUSING; S_CANCELING] -> s_inflight s <> [].
Proof.
  intros ops s Hf Hst. destruct (reachable_cinv ops Hf) as [[Hc _]|I].
  { fold s in Hc. rewrite Hc in Hst. simpl in Hst. intuition discriminate. }
  fold s in I. pose proof I as (_ & _ & _ & _ & _ & _ & I7 & _). destruct I7 as [_ [_ [_ [K4 _]]]].
  apply (inflight_when_act _ _ I). apply K4; exact Hst.
Qed.

(* nothing in flight and the poll offers nothing: after that poll the workflow is at rest (or was never started) *)
Theorem C03_quiescent_rests : forall ops c1, let s := sys_run ev ops (sys_init sp g inputs parent) in
  s_fault s = false -> s_inflight s = [] -> get_next_tasks ev (s_c s) = (c1, Val []) ->
  In (wstatus (c_ws c1)) [S_SUCCEEDED; S_FAILED; S_CANCELED; S_PAUSED; S_UNSET].
Proof.
  intros ops c1 s Hf HF Hg.
  assert (Hc0 : exists c0, cinv sp g c0 [] /\ get_next_tasks ev c0 = (c1, Val [])).
  { destruct (reachable_cinv ops Hf) as [[Hc _]|I]; [|fold s in I; rewrite HF in I; exists (s_c s); split; [exact I|exact Hg]].
    fold s in Hc. rewrite Hc in Hg. destruct (sys_graph_ok_sound _ Hok) as [H1 [H2 [H3 H4]]].
    destruct (ensure_ws ev (init_cstate sp g inputs parent)) as [cx [[]|e]] eqn:E;
      pose proof (get_next_ensure ev _ _ _ E) as Y; rewrite Y in Hg; [|discriminate Hg].
    exists cx. split; [exact (fresh_cinv ev sp g inputs parent H2 H3 cx E)|exact Hg]. }
  destruct Hc0 as [c0 [I E0]]. pose proof I as (I1 & _ & I3 & I4 & _ & _ & I7 & _).
  assert (Hn' : no_items (c_spec c0) = true) by (rewrite I1; exact Hni).
  destruct (get_next_eff ev _ _ _ I3 Hn' E0) as [L [_ Hnil]].
  pose proof (no_act_when_idle _ I) as Hna.
  destruct L as [_ [_ [_ [_ [_ [Wl _]]]]]].
  destruct I7 as [K1 [_ [_ [K4 K5]]]].
  assert (Cases : In (wstatus (c_ws c0)) [S_PAUSING; S_CANCELING] \/ In (wstatus (c_ws c0)) [S_RUNNING; S_RESUMING] \/
                  In (wstatus (c_ws c0)) [S_SUCCEEDED; S_FAILED; S_CANCELED; S_PAUSED; S_UNSET]).
  { simpl in K1. repeat (destruct K1 as [<-|K1]; [simpl; auto 9|]). destruct K1. }
  destruct Cases as [C|[C|C]].
  - exfalso. exact (Hna (K4 C)).
  - destruct (K5 C) as [A|S]; [exfalso; exact (Hna A)|].
    rewrite (Hnil eq_refl); [simpl; auto| |exact S].
    destruct C as [C|[C|[]]]; rewrite <- C; reflexivity.
  - destruct Wl as [W|W]; rewrite W; [exact C|simpl; auto].
Qed.

(* equivalently: a workflow that reports running, resuming, pausing or canceling has an action in flight, or
   the poll offers a task (or fails the workflow because the task on offer cannot be rendered) *)
Theorem C03_transitional_has_work : forall ops c1 offers, let s := sys_run ev ops (sys_init sp g inputs parent) in
  s_fault s = false -> In (wstatus (c_ws (s_c s))) [S_RUNNING; S_RESUMING; S_PAUSING; S_CANCELING] ->
  get_next_tasks ev (s_c s) = (c1, Val offers) ->
  s_inflight s <> [] \/ offers <> [] \/ wstatus (c_ws c1) = S_FAILED.
Proof.
  intros ops c1 offers s Hf Hst Hg.
  destruct (s_inflight s) as [|k l] eqn:HF; [|left; discriminate]. right.
  destruct offers as [|o l]; [|left; discriminate]. right.
  destruct (reachable_cinv ops Hf) as [[Hc _]|I].
  { fold s in Hc. rewrite Hc in Hst. simpl in Hst. intuition discriminate. }
  fold s in I. rewrite HF in I. pose proof I as (I1 & _ & I3 & _ & _ & _ & I7 & _).
  assert (Hn' : no_items (c_spec (s_c s)) = true) by (rewrite I1; exact Hni).
  destruct (get_next_eff ev _ _ _ I3 Hn' Hg) as [_ [_ Hnil]].
  pose proof (no_act_when_idle _ I) as Hna. destruct I7 as [_ [_ [_ [K4 K5]]]].
  assert (C : In (wstatus (c_ws (s_c s))) [S_RUNNING; S_RESUMING]).
  { simpl in Hst. destruct Hst as [E|[E|[E|[E|[]]]]]; [simpl; auto|simpl; auto| |];
      exfalso; apply Hna; apply K4; rewrite <- E; simpl; auto. }
  destruct (K5 C) as [A|S]; [exfalso; exact (Hna A)|].
  apply Hnil; [reflexivity| |exact S]. destruct C as [C|[C|[]]]; rewrite <- C; reflexivity.
Qed.


(* paused (or pausing) only after a pause request *)
Theorem C03_paused_needs_request : forall ops, let s := sys_run ev ops (sys_init sp g inputs parent) in
  s_fault s = false -> In (wstatus (c_ws (s_c s))) [S_PAUSING; S_PAUSED] ->
  existsb pause_request ops = true.
Proof.
  intros ops s Hf Hst. destruct (existsb pause_request ops) eqn:E; [reflexivity|exfalso].
  assert (Hall : forallb (fun op => negb (pause_request op)) ops = true).
  { apply forallb_forall. intros op Hop. apply negb_true_iff. destruct (pause_request op) eqn:Ep; [|reflexivity].
    assert (X : existsb pause_request ops = true) by (apply existsb_exists; exists op; auto). congruence. }
  destruct (sys_graph_ok_sound _ Hok) as [H1 [H2 [H3 H4]]].
  exact (sys_reachable_np ev sp g inputs parent Hni H1 H2 H3 (queue_hnt ev g H4) ops Hall Hf Hst).
Qed.

End Theorems.

Section Replay.
Variable ev : string -> dict -> evalres.

Lemma run_ops_app : forall l1 l2 c, run_ops ev (app l1 l2) c = run_ops ev l2 (run_ops ev l1 c).
Proof. intros; unfold run_ops; apply fold_left_app. Qed.

Lemma sys_ack_run : forall keys s,
  s_c (fold_left (sys_ack ev) keys s) = run_ops ev (map (fun k => OpEvent (fst k) (snd k) ack_event) keys) (s_c s).
Proof.
  induction keys as [|k keys IH]; intro s; [reflexivity|]. cbn [fold_left map]. rewrite IH.
  unfold run_ops. cbn [fold_left]. f_equal. unfold sys_ack.
  destruct (api_exec ev (OpEvent (fst k) (snd k) ack_event) (s_c s)) as [c' r]. reflexivity.
Qed.

Lemma sys_step_is_history : forall s op,
  s_c (sys_step ev s op) = run_ops ev (sys_api_ops_step ev s op) (s_c s).
Proof.
  intros s op. destruct op; cbn [sys_step sys_api_ops_step].
  - unfold sys_request. destruct (status_in S_RUNNING request_statuses) eqn:Es; [|vm_compute in Es; discriminate].
    unfold run_ops. cbn [fold_left]. destruct (api_exec ev (OpRequest S_RUNNING) (s_c s)) as [c' r]. reflexivity.
  - unfold sys_poll. destruct (get_next_tasks ev (s_c s)) as [c1 [offers|e]] eqn:E.
    + rewrite sys_ack_run. cbn [s_c]. unfold run_ops at 2. cbn [fold_left api_exec]. unfold bind at 1. rewrite E. cbn [fst].
      rewrite map_map. reflexivity.
    + cbn [s_c]. unfold run_ops. cbn [fold_left api_exec]. unfold bind. rewrite E. reflexivity.
  - unfold sys_report. destruct (akey_in (t, route) (s_inflight s) && status_in st report_statuses); [|reflexivity].
    unfold run_ops. cbn [fold_left]. destruct (api_exec ev (OpEvent t route (EvAction st result)) (s_c s)) as [c' r]. reflexivity.
  - unfold sys_request. destruct (status_in st request_statuses); [|reflexivity].
    unfold run_ops. cbn [fold_left]. destruct (api_exec ev (OpRequest st) (s_c s)) as [c' r]. reflexivity.
  - unfold sys_call. unfold run_ops. cbn [fold_left]. destruct (api_exec ev OpRender (s_c s)) as [c' r]. reflexivity.
  - unfold sys_call. unfold run_ops. cbn [fold_left]. destruct (api_exec ev OpPersist (s_c s)) as [c' r]. reflexivity.
Qed.

Theorem sys_run_is_history : forall ops s,
  s_c (sys_run ev ops s) = run_ops ev (sys_api_ops ev ops s) (s_c s).
Proof.
  induction ops as [|op ops IH]; intro s; [reflexivity|]. simpl. rewrite run_ops_app, <- sys_step_is_history. apply IH.
Qed.

End Replay.
