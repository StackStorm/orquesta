(* C18Proofs.v -- execution history is append-only: contexts and routes only grow at the end, task
   execution records are never removed or reordered, and id / route / inbound contexts / predecessors
   of an existing record never change -- in every API call, whether it returns or raises. *)
From Coq Require Import String List Bool ZArith Arith Lia.
From Orq Require Import GenStatuses GenEvents GenTables GenSpecMeta Base State Machines Codec Conductor Decode Api.
From Orq Require Import F_tables ListFacts Hoare Frame C05Proofs.
Import ListNotations.
Open Scope monad_scope.

Definition prefix {A} (l l' : list A) : Prop := exists t, l' = app l t.

Lemma prefix_refl : forall A (l : list A), prefix l l.
Proof. intros; exists []; rewrite app_nil_r; reflexivity. Qed.
Lemma prefix_trans : forall A (a b c : list A), prefix a b -> prefix b c -> prefix a c.
Proof. intros A a b c [t1 H1] [t2 H2]; subst; exists (app t1 t2); rewrite app_assoc; reflexivity. Qed.
Lemma prefix_of_app : forall A (l t : list A), prefix l (app l t).
Proof. intros; exists t; reflexivity. Qed.

(* the fields of a record that are fixed once it exists *)
Definition rec_fixed (r r' : trec) : Prop :=
  r_id r' = r_id r /\ r_route r' = r_route r /\ r_in r' = r_in r /\ r_prev r' = r_prev r.

Definition seq_grows (s s' : list trec) : Prop :=
  forall i r, nth_error s i = Some r -> exists r', nth_error s' i = Some r' /\ rec_fixed r r'.

Definition R18 (c c' : cstate) : Prop :=
  prefix (contexts (c_ws c)) (contexts (c_ws c')) /\
  prefix (routes (c_ws c)) (routes (c_ws c')) /\
  seq_grows (sequence (c_ws c)) (sequence (c_ws c')).

Lemma rec_fixed_refl : forall r, rec_fixed r r.
Proof. intro; repeat split. Qed.
Lemma rec_fixed_trans : forall a b c, rec_fixed a b -> rec_fixed b c -> rec_fixed a c.
Proof. intros a b c [A1 [A2 [A3 A4]]] [B1 [B2 [B3 B4]]]; repeat split; congruence. Qed.

Lemma seq_grows_refl : forall s, seq_grows s s.
Proof. intros s i r H; exists r; split; [exact H|apply rec_fixed_refl]. Qed.
Lemma seq_grows_trans : forall a b c, seq_grows a b -> seq_grows b c -> seq_grows a c.
Proof.
  intros a b c H1 H2 i r H. destruct (H1 i r H) as [r1 [Hr1 F1]]. destruct (H2 i r1 Hr1) as [r2 [Hr2 F2]].
  exists r2; split; [exact Hr2|eapply rec_fixed_trans; eauto].
Qed.

Lemma R18_refl : forall c, R18 c c.
Proof. intro; repeat split; try apply prefix_refl; apply seq_grows_refl. Qed.
Lemma R18_trans : forall a b c, R18 a b -> R18 b c -> R18 a c.
Proof.
  intros a b c [A1 [A2 A3]] [B1 [B2 B3]]; repeat split;
    [eapply prefix_trans; eauto|eapply prefix_trans; eauto|eapply seq_grows_trans; eauto].
Qed.

Definition hist (c : cstate) := (contexts (c_ws c), routes (c_ws c), sequence (c_ws c)).

Lemma R18_same_hist : forall c c', hist c' = hist c -> R18 c c'.
Proof.
  intros c c' H; unfold hist in H; inversion H as [[H1 H2 H3]]; unfold R18; rewrite H1, H2, H3.
  repeat split; try apply prefix_refl; apply seq_grows_refl.
Qed.

Lemma seq_grows_app : forall s t, seq_grows s (app s t).
Proof.
  intros s t i r H; exists r; split; [|apply rec_fixed_refl].
  rewrite nth_error_app1; [exact H|]. apply nth_error_Some; congruence.
Qed.

Lemma seq_grows_update : forall w i f, (forall r, rec_fixed r (f r)) ->
  seq_grows (sequence w) (sequence (ws_update_rec w i f)).
Proof.
  intros w i f Hf. unfold ws_update_rec. destruct (nth_error (sequence w) i) as [r0|] eqn:E; [|apply seq_grows_refl].
  simpl. intros j r Hj. destruct (Nat.eq_dec i j) as [->|Hn].
  - rewrite (nth_error_set_nth_same _ _ _ _ _ E). rewrite E in Hj; inversion Hj; subst.
    exists (f r); split; [reflexivity|apply Hf].
  - rewrite nth_error_set_nth_other by exact Hn. exists r; split; [exact Hj|apply rec_fixed_refl].
Qed.

Lemma R18_update_rec : forall c i f, (forall r, rec_fixed r (f r)) ->
  R18 c (set_ws c (ws_update_rec (c_ws c) i f)).
Proof.
  intros c i f Hf; unfold R18; simpl. repeat split.
  - unfold ws_update_rec; destruct (nth_error _ _); simpl; apply prefix_refl.
  - unfold ws_update_rec; destruct (nth_error _ _); simpl; apply prefix_refl.
  - apply seq_grows_update; exact Hf.
Qed.

Lemma hist_remove_staged : forall c t r, hist (set_ws c (ws_remove_staged_task (c_ws c) t r)) = hist c.
Proof.
  intros; unfold hist, ws_remove_staged_task; simpl.
  destruct (get_staged_task (c_ws c) t r); [|reflexivity]. destruct (items_any_active s); reflexivity.
Qed.

Section WithEval.
Variable ev : string -> dict -> evalres.

Lemma p18_modify : forall f, (forall c, hist (f c) = hist c) -> preserves R18 (modify f).
Proof. intros f Hf; apply (preserves_modify R18); intro c; apply R18_same_hist, Hf. Qed.
Lemma p18_modws : forall f, (forall c, hist (set_ws c (f (c_ws c))) = hist c) -> preserves R18 (modws f).
Proof. intros f Hf; apply (preserves_modws R18); intro c; apply R18_same_hist, Hf. Qed.
Lemma p18_append : forall f,
  (forall w, prefix (contexts w) (contexts (f w)) /\ prefix (routes w) (routes (f w)) /\
             seq_grows (sequence w) (sequence (f w))) ->
  preserves R18 (modws f).
Proof. intros f Hf; apply (preserves_modws R18); intro c; apply (Hf (c_ws c)). Qed.

Lemma p18_wf_workflow_event : forall st, preserves R18 (wf_workflow_event_M st).
Proof. apply (preserves_wf_workflow_event R18 R18_refl); intros; apply R18_same_hist; reflexivity. Qed.
Lemma p18_wf_task_event : forall t route st, preserves R18 (wf_task_event_M t route st).
Proof. apply (preserves_wf_task_event R18 R18_refl); intros; apply R18_same_hist; reflexivity. Qed.
Lemma p18_log_entry_error : forall m t r tr res, preserves R18 (log_entry_error m t r tr res).
Proof. intros; apply p18_modify; intro c; unfold hist; destruct (existsb _ _); reflexivity. Qed.
Lemma p18_upd_rec : forall i f, (forall r, rec_fixed r (f r)) -> preserves R18 (upd_rec i f).
Proof. intros i f Hf; unfold upd_rec. apply (preserves_modws R18); intro; apply R18_update_rec; exact Hf. Qed.
Lemma p18_upd_rec_status : forall i s, preserves R18 (set_rec_status i s).
Proof. intros; apply p18_upd_rec; intro; repeat split. Qed.
Lemma p18_unstage : forall t route, preserves R18 (modws (fun w => ws_remove_staged_task w t route)).
Proof. intros; apply p18_modws; intro; apply hist_remove_staged. Qed.
Lemma p18_root_ctx : forall d,
  preserves R18 (modws (fun w => ws_set_routes (ws_set_contexts w (app (contexts w) [d])) (app (routes w) [[]]))).
Proof. intros; apply p18_append; intro; repeat split; first [apply prefix_of_app|apply seq_grows_refl]. Qed.
Lemma p18_new_ctx : forall d, preserves R18 (modws (fun w => ws_set_contexts w (app (contexts w) [d]))).
Proof. intros; apply p18_append; intro; repeat split; first [apply prefix_of_app|apply prefix_refl|apply seq_grows_refl]. Qed.
Lemma p18_new_route : forall l, preserves R18 (modws (fun w => ws_set_routes w (app (routes w) [l]))).
Proof. intros; apply p18_append; intro; repeat split; first [apply prefix_of_app|apply prefix_refl|apply seq_grows_refl]. Qed.
Lemma p18_new_rec : forall r k idx,
  preserves R18 (modws (fun w => ws_set_tasks (ws_set_sequence w (app (sequence w) [r])) (aset tkey_eqb k idx (tasks w)))).
Proof. intros; apply p18_append; intro; repeat split; first [apply prefix_refl|apply seq_grows_app]. Qed.

Create HintDb pres18.
Hint Extern 1 (rec_fixed _ _) => repeat split : pres18.
Hint Resolve p18_modify p18_modws p18_upd_rec p18_wf_workflow_event p18_wf_task_event
  p18_log_entry_error p18_upd_rec_status p18_unstage p18_root_ctx p18_new_ctx p18_new_route p18_new_rec : pres18.

Lemma p18_log_error : forall e t r tr, preserves R18 (log_error e t r tr).
Proof. intros; unfold log_error; apply p18_log_entry_error. Qed.
Lemma p18_log_errors : forall es t r tr, preserves R18 (log_errors es t r tr).
Proof. intros; apply (frame_log_errors R18 R18_refl R18_trans); auto with pres18. Qed.
Lemma p18_log_unreachable : forall l, preserves R18 (log_unreachable l).
Proof. intros; apply (frame_log_unreachable R18 R18_refl R18_trans); auto with pres18. Qed.
Lemma p18_request_status_core : forall st, preserves R18 (request_status_core st).
Proof. intros; apply (frame_request_status_core R18 R18_refl R18_trans); auto with pres18. Qed.
Lemma p18_render_input : forall specs rt rolling errs, preserves R18 (render_input ev specs rt rolling errs).
Proof. intros; apply (frame_render_input ev R18 R18_refl R18_trans). Qed.
Lemma p18_render_vars : forall specs rolling rendered errs, preserves R18 (render_vars ev specs rolling rendered errs).
Proof. intros; apply (frame_render_vars ev R18 R18_refl R18_trans). Qed.
Lemma p18_ensure_ws : preserves R18 (ensure_ws ev).
Proof. apply (frame_ensure_ws ev R18 R18_refl R18_trans); auto with pres18. Qed.
Lemma p18_request_workflow_status : forall st, preserves R18 (request_workflow_status ev st).
Proof. intros; apply (frame_request_workflow_status ev R18 R18_refl R18_trans); auto with pres18. Qed.
Lemma p18_get_task_context : forall idxs, preserves R18 (get_task_context idxs).
Proof. intros; apply (frame_get_task_context R18 R18_refl R18_trans). Qed.
Lemma p18_render_task : forall ts ctx, preserves R18 (render_task ev ts ctx).
Proof. intros; apply (frame_render_task ev R18 R18_refl R18_trans). Qed.
Lemma p18_next_task_for : forall s, preserves R18 (next_task_for ev s).
Proof. intros; apply (frame_next_task_for ev R18 R18_refl R18_trans); auto with pres18. Qed.
Lemma p18_get_next_tasks : preserves R18 (get_next_tasks ev).
Proof. apply (frame_get_next_tasks ev R18 R18_refl R18_trans); auto with pres18. Qed.
Lemma p18_setup_retry : forall t idxs, preserves R18 (setup_retry ev t idxs).
Proof. intros; apply (frame_setup_retry ev R18 R18_refl R18_trans). Qed.
Lemma p18_evaluate_route : forall e r, preserves R18 (evaluate_route e r).
Proof. intros; apply (frame_evaluate_route R18 R18_refl R18_trans); auto with pres18. Qed.
Lemma p18_evaluate_task_retry : forall r ctx, preserves R18 (evaluate_task_retry ev r ctx).
Proof. intros; apply (frame_evaluate_task_retry ev R18 R18_refl R18_trans). Qed.
Lemma p18_finalize_context : forall ts e ctx, preserves R18 (finalize_context ev ts e ctx).
Proof. intros; apply (frame_finalize_context ev R18 R18_refl R18_trans). Qed.
Lemma p18_get_rec : forall i, preserves R18 (get_rec i).
Proof. intros; apply (frame_get_rec R18 R18_refl R18_trans). Qed.
Lemma p18_process_transition : forall t route idx ts ctx e,
  preserves R18 (process_transition ev t route idx ts ctx e).
Proof. intros; apply (frame_process_transition ev R18 R18_refl R18_trans); auto with pres18. Qed.
Lemma p18_update_task_state_fuel : forall fuel t route evt,
  preserves R18 (update_task_state_fuel ev fuel t route evt).
Proof. intros; apply (frame_update_task_state_fuel ev R18 R18_refl R18_trans); auto with pres18. Qed.
Lemma p18_update_task_state : forall t route evt, preserves R18 (update_task_state ev t route evt).
Proof. intros; apply p18_update_task_state_fuel. Qed.
Lemma p18_merge_term_contexts : forall l acc, preserves R18 (merge_term_contexts l acc).
Proof. intros; apply (frame_merge_term_contexts R18 R18_refl R18_trans). Qed.
Lemma p18_render_workflow_output : preserves R18 (render_workflow_output ev).
Proof. apply (frame_render_workflow_output ev R18 R18_refl R18_trans); auto with pres18. Qed.
Lemma p18_request_task_rerun : forall t r b, preserves R18 (request_task_rerun ev t r b).
Proof. intros; apply (frame_request_task_rerun ev R18 R18_refl R18_trans); auto with pres18. Qed.
Lemma p18_request_workflow_rerun : forall reqs, preserves R18 (request_workflow_rerun ev reqs).
Proof. intros; apply (frame_request_workflow_rerun ev R18 R18_refl R18_trans); auto with pres18. Qed.

(* every API call except the persist round trip (covered by C05) *)
Definition is_persist (op : api_op) : bool := match op with OpPersist => true | _ => false end.

Lemma api_exec_append_only : forall op, is_persist op = false -> preserves R18 (api_exec ev op).
Proof.
  intros op Hop. apply (preserves_api_exec ev R18 R18_refl R18_trans); [apply p18_ensure_ws|].
  destruct op; try discriminate Hop.
  - exact I.
  - apply p18_request_workflow_status.
  - apply p18_get_next_tasks.
  - apply p18_update_task_state.
  - apply p18_render_workflow_output.
  - apply p18_request_workflow_rerun.
Qed.

Theorem history_append_only : forall ops c, forallb (fun op => negb (is_persist op)) ops = true ->
  R18 c (run_ops ev ops c).
Proof.
  apply (preserves_run_ops ev R18 (fun op => negb (is_persist op)) R18_refl R18_trans).
  intros op Hop. apply api_exec_append_only. apply negb_true_iff; exact Hop.
Qed.

End WithEval.
