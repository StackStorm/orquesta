(* RecordedProofs.v -- C11, second sentence: an expression that fails to evaluate at run time is RECORDED
   (an error entry naming the task / transition concerned), the workflow FAILS (or stays canceled), and
   NOTHING MORE IS OFFERED (but clean-up tasks flagged for a failed workflow).
   The three claims: (a) recorded, (b) failed or canceled, (c) nothing more offered.  In order: what the engine's
   own request "fail the workflow" does, from every lifecycle status; each handler that contains an evaluation
   failure records it and settles the workflow, (a)+(b) at one site; error entries are never lost and a settled
   workflow stays settled within a call, so (a)+(b) lift to whole API calls; get_next_tasks returns nothing in the
   call in which a staged task fails to render, and nothing but clean-up afterwards, (c). *)
From Coq Require Import String List Bool ZArith Arith Lia.
From Orq Require Import GenStatuses GenEvents GenTables GenSpecMeta Base State Machines Codec Conductor Decode Api.
From Orq Require Import F_tables Hoare Frame ValuePost StatusReach C04Proofs C05Proofs C11Proofs InertProofs OffersProofs RetryProofs StateFacts ListFacts.
Import ListNotations.
Open Scope string_scope.
Open Scope monad_scope.

Create HintDb presf.

(* failed, or canceled: the two statuses a failure request leaves the workflow in, both final *)
Definition settled (c : cstate) : Prop := wstatus (c_ws c) = S_FAILED \/ wstatus (c_ws c) = S_CANCELED.

Definition lifecycle (c : cstate) : Prop := In (wstatus (c_ws c)) wf_statuses.

Lemma with_seq_fields : forall c s, c_errors (with_seq c s) = c_errors c /\ wstatus (c_ws (with_seq c s)) = wstatus (c_ws c)
  /\ c_graph (with_seq c s) = c_graph c /\ staged (c_ws (with_seq c s)) = staged (c_ws c).
Proof. intros; repeat split. Qed.

(* the request the handlers make: it never touches the error log; it leaves the workflow failed, or canceled if
   it was canceled -- and only in that last case does it answer with an exception (the documented refusal) *)
Lemma fail_request : forall c c' r, lifecycle c -> request_status_core S_FAILED c = (c', r) ->
  c_errors c' = c_errors c /\ staged (c_ws c') = staged (c_ws c) /\
  ((wstatus (c_ws c) = S_CANCELED /\ wstatus (c_ws c') = S_CANCELED) \/
   (wstatus (c_ws c) <> S_CANCELED /\ wstatus (c_ws c') = S_FAILED /\ r = Val tt)).
Proof.
  intros c c' r Hl H. rewrite rsc_failed_run in H. unfold lifecycle in Hl.
  assert (T : forall s, In s wf_statuses -> tbl_step wf_table s "workflow_failed"
                = if status_eqb s S_CANCELED || status_eqb s S_FAILED then None else Some S_FAILED).
  { intros s Hs; destruct s; simpl in Hs; try (exfalso; intuition discriminate); vm_compute; reflexivity. }
  rewrite (T _ Hl) in H. clear T.
  destruct (status_eqb (wstatus (c_ws c)) S_CANCELED) eqn:Ec; cbn [orb] in H.
  - apply status_eqb_eq in Ec. rewrite Ec in H. inversion H; subst c'. repeat split. left; split; exact Ec.
  - assert (Hne : wstatus (c_ws c) <> S_CANCELED) by (intro E; rewrite E in Ec; discriminate).
    destruct (status_eqb (wstatus (c_ws c)) S_FAILED) eqn:Ef.
    + apply status_eqb_eq in Ef. rewrite Ef in H. inversion H; subst c' r. repeat split. right; repeat split; [exact Hne|exact Ef].
    + inversion H; subst c' r. repeat split. right; repeat split. exact Hne.
Qed.

Lemma fail_request_settled : forall c c' r, lifecycle c -> request_status_core S_FAILED c = (c', r) ->
  settled c' /\ c_errors c' = c_errors c.
Proof.
  intros c c' r Hl H. destruct (fail_request _ _ _ Hl H) as [He [_ [[_ Hc]|[_ [Hf _]]]]]; split; auto; [right|left]; assumption.
Qed.

Definition entry_of (e : exn) (task : option string) (route : option nat) (trans : option trid) : errent :=
  mk_errent "error" (x_cls e ++ ": " ++ x_msg e) task route trans JNull.

(* recorded: the error log holds the entry (the log drops an entry equal to one it already has) *)
Definition recorded (c : cstate) (en : errent) : Prop := existsb (errent_eqb en) (c_errors c) = true.

(* entries that do not stem from a contained failure: the note beside a failed action (the message literal of
   conducting.py, update_task_state, for an event whose status is failed), and the unreachable-join note the workflow
   machine asks for when it fails the workflow itself (log_unreachable: the class name of exc.UnreachableJoinError
   followed by ": ", as log_error composes every message) *)
Definition note_failed : string := "Execution failed. See result for details.".
Definition handled_entry (en : errent) : Prop :=
  er_message en <> note_failed /\ starts_with "UnreachableJoinError: " (er_message en) = false.

Lemma settled_reach : forall c c', Rst c c' -> settled c -> settled c'.
Proof.
  intros c c' R [H|H]; unfold Rst in R; rewrite H in R;
    [left; apply reach_from_failed; exact R|right; apply reach_from_canceled; exact R].
Qed.

(* what one call may do: move the status along the table, append error entries, and -- if an appended entry stems
   from a contained failure -- leave the workflow settled *)
Definition Rf (c c' : cstate) : Prop :=
  Rst c c' /\ exists l, c_errors c' = app (c_errors c) l /\
                        (lifecycle c -> (exists en, In en l /\ handled_entry en) -> settled c').

Lemma Rf_refl : forall c, Rf c c.
Proof. intro c; split; [apply Rst_refl|]. exists []. rewrite app_nil_r. split; [reflexivity|]. intros _ [en [[] _]]. Qed.
Lemma Rf_trans : forall a b c, Rf a b -> Rf b c -> Rf a c.
Proof.
  intros a b c [R1 [l1 [E1 S1]]] [R2 [l2 [E2 S2]]]. split; [eapply Rst_trans; eassumption|].
  exists (app l1 l2). split; [rewrite E2, E1, app_assoc; reflexivity|]. intros Hl [en [Hin Hh]].
  apply in_app_or in Hin. destruct Hin as [Hin|Hin].
  - eapply settled_reach; [exact R2|]. apply S1; [exact Hl|exists en; auto].
  - apply S2; [|exists en; auto]. unfold lifecycle in *. eapply reach_keeps_lifecycle; [exact R1|exact Hl].
Qed.

Lemma Rf_quiet : forall c c', Rst c c' -> c_errors c' = c_errors c -> Rf c c'.
Proof. intros c c' R E; split; [exact R|]. exists []. rewrite app_nil_r. split; [exact E|]. intros _ [en [[] _]]. Qed.

Lemma Rf_errors_prefix : forall c c' en, Rf c c' -> recorded c en -> recorded c' en.
Proof.
  intros c c' en [_ [l [E _]]] H. unfold recorded in *. rewrite E, existsb_app, H. reflexivity.
Qed.

Lemma errent_eqb_refl : forall en, er_result en = None -> errent_eqb en en = true.
Proof.
  intros [ty msg t r tr res] Hres. simpl in Hres. subst res. unfold errent_eqb; simpl.
  rewrite !String.eqb_refl. cbn [andb].
  assert (O1 : opt_eqb String.eqb t t = true) by (destruct t; simpl; [apply String.eqb_refl|reflexivity]).
  assert (O2 : opt_eqb Nat.eqb r r = true) by (destruct r; simpl; [apply Nat.eqb_refl|reflexivity]).
  assert (O3 : opt_eqb trid_eqb tr tr = true).
  { destruct tr as [[a b]|]; simpl; [|reflexivity]. unfold trid_eqb; simpl. rewrite String.eqb_refl, Nat.eqb_refl; reflexivity. }
  rewrite O1, O2, O3. reflexivity.
Qed.

Lemma log_error_spec : forall e t r tr c, exists c1,
  log_error e t r tr c = (c1, Val tt) /\ c_ws c1 = c_ws c /\ recorded c1 (entry_of e t r tr) /\
  (c_errors c1 = c_errors c \/ c_errors c1 = app (c_errors c) [entry_of e t r tr]).
Proof.
  intros e t r tr c. unfold log_error, log_entry_error, modify. cbv zeta. fold (entry_of e t r tr).
  destruct (existsb (errent_eqb (entry_of e t r tr)) (c_errors c)) eqn:E.
  - exists c. repeat split; auto.
  - eexists. split; [reflexivity|]. split; [reflexivity|]. split; [|right; reflexivity].
    unfold recorded; simpl. rewrite existsb_app. simpl. rewrite errent_eqb_refl by reflexivity. rewrite orb_true_r. reflexivity.
Qed.

Definition logs_only (m : M unit) : Prop :=
  forall c, exists c1 l, m c = (c1, Val tt) /\ c_ws c1 = c_ws c /\ c_errors c1 = app (c_errors c) l.

Lemma logs_only_log_error : forall e t r tr, logs_only (log_error e t r tr).
Proof.
  intros e t r tr c. destruct (log_error_spec e t r tr c) as [c1 [H1 [H2 [_ [H3|H3]]]]].
  - exists c1, []. rewrite app_nil_r. auto.
  - exists c1, [entry_of e t r tr]. auto.
Qed.

Lemma logs_only_log_errors : forall es t r tr, logs_only (log_errors es t r tr).
Proof.
  intros es t r tr. unfold log_errors. induction es as [|e es IH]; intro c; cbn [forM_].
  - exists c, []. rewrite app_nil_r. auto.
  - destruct (logs_only_log_error e t r tr c) as [c1 [l1 [H1 [W1 E1]]]]. destruct (IH c1) as [c2 [l2 [H2 [W2 E2]]]].
    exists c2, (app l1 l2). unfold bind. rewrite H1, H2. split; [reflexivity|]. split; [congruence|]. rewrite E2, E1, app_assoc; reflexivity.
Qed.

Lemma log_errors_records : forall es t r tr c c1 res, log_errors es t r tr c = (c1, res) ->
  forall e, In e es -> recorded c1 (entry_of e t r tr).
Proof.
  intros es t r tr. unfold log_errors. induction es as [|e0 es IH]; intros c c1 res H e Hin; [destruct Hin|].
  cbn [forM_] in H. destruct (log_error_spec e0 t r tr c) as [ca [Ha [_ [Ra _]]]]. unfold bind in H. rewrite Ha in H.
  destruct Hin as [<-|Hin]; [|eapply IH; eassumption].
  destruct (logs_only_log_errors es t r tr ca) as [cb [l [Hb [_ Eb]]]]. unfold log_errors in Hb. rewrite Hb in H. inversion H; subst.
  unfold recorded in *. rewrite Eb, existsb_app, Ra. reflexivity.
Qed.

(* the error log grows by entries that are not handled entries *)
Definition Rben (c c' : cstate) : Prop :=
  exists l, c_errors c' = app (c_errors c) l /\ Forall (fun en => ~ handled_entry en) l.
Lemma Rben_refl : forall c, Rben c c.
Proof. intro c; exists []; rewrite app_nil_r; split; [reflexivity|constructor]. Qed.
Lemma Rben_trans : forall a b c, Rben a b -> Rben b c -> Rben a c.
Proof.
  intros a b c [l1 [E1 F1]] [l2 [E2 F2]]. exists (app l1 l2). split; [rewrite E2, E1, app_assoc; reflexivity|].
  apply Forall_app; split; assumption.
Qed.

Lemma Rben_same : forall c c', c_errors c' = c_errors c -> Rben c c'.
Proof. intros c c' E; exists []; rewrite app_nil_r; split; [exact E|constructor]. Qed.

Lemma Rf_of_ben : forall c c', Rst c c' -> Rben c c' -> Rf c c'.
Proof.
  intros c c' R [l [E F]]. split; [exact R|]. exists l. split; [exact E|]. intros _ [en [Hin Hh]].
  rewrite Forall_forall in F. exfalso. exact (F en Hin Hh).
Qed.

Lemma pben_log_unreachable : forall l, preserves Rben (log_unreachable l).
Proof.
  intro l. unfold log_unreachable. apply (preserves_forM _ Rben_refl Rben_trans). intros s c c' r H.
  match type of H with log_error ?e ?t ?ro ?tr _ = _ => destruct (log_error_spec e t ro tr c) as [c1 [H1 [_ [_ [E|E]]]]] end;
    rewrite H1 in H; inversion H; subst c'.
  - exists []. rewrite app_nil_r. split; [exact E|constructor].
  - eexists. split; [exact E|]. constructor; [|constructor]. intros [_ Hh]. unfold entry_of, mk_errent in Hh. simpl in Hh. discriminate Hh.
Qed.

Lemma pben_request_status_core : forall st, preserves Rben (request_status_core st).
Proof.
  intro st. unfold request_status_core, set_rec_status.
  pw Rben_refl Rben_trans
     ltac:(first [ apply (preserves_modws Rben); intro; apply Rben_same; reflexivity | apply pben_log_unreachable
                 | intros c0 c1 r0 H0; unfold wf_workflow_event_M in H0;
                   destruct (wf_process_workflow_event (c_graph c0) (c_ws c0) st) as [[? ?]|?]; inversion H0; subst;
                   apply Rben_same; reflexivity ]).
Qed.

Lemma Rf_request_status_core : forall st, preserves Rf (request_status_core st).
Proof.
  intros st c c' r H. apply Rf_of_ben; [eapply pres_request_status_core; exact H|eapply pben_request_status_core; exact H].
Qed.

(* the unit every handler is built from: log, then fail the workflow.  Whatever was logged, the workflow is
   settled afterwards (and stays so through the continuation) *)
Lemma unit_fail : forall A (pre : M unit) (k : unit -> M A), logs_only pre -> (forall u, preserves Rf (k u)) ->
  preserves Rf (pre ;;; (u <- request_status_core S_FAILED ;; k u)).
Proof.
  intros A pre k Hpre Hk c c' r H. destruct (Hpre c) as [c1 [l [H1 [W1 E1]]]].
  unfold bind at 1 in H. rewrite H1 in H.
  assert (Step : forall c2 r2, request_status_core S_FAILED c1 = (c2, r2) -> Rf c c2).
  { intros c2 r2 H2. split.
    - unfold Rst. rewrite <- W1. eapply pres_request_status_core; exact H2.
    - destruct (pben_request_status_core _ _ _ _ H2) as [l2 [E2 _]].
      exists (app l l2). split; [rewrite E2, E1, app_assoc; reflexivity|].
      intros Hl _. apply (fail_request_settled c1 c2 r2); [unfold lifecycle in *; rewrite W1; exact Hl|exact H2]. }
  apply bind_inv in H. destruct H as [[c2 [u [E2 H]]]|[x [E2 ->]]].
  - eapply Rf_trans; [eapply Step; exact E2|eapply Hk; exact H].
  - eapply Step; exact E2.
Qed.

Lemma unit_fail0 : forall (pre : M unit), logs_only pre -> preserves Rf (pre ;;; request_status_core S_FAILED).
Proof.
  intros pre Hpre c c' r H. destruct (Hpre c) as [c1 [l [H1 [W1 E1]]]].
  unfold bind at 1 in H. rewrite H1 in H. split.
  - unfold Rst. rewrite <- W1. eapply pres_request_status_core; exact H.
  - destruct (pben_request_status_core _ _ _ _ H) as [l2 [E2 _]].
    exists (app l l2). split; [rewrite E2, E1, app_assoc; reflexivity|].
    intros Hl _. apply (fail_request_settled c1 c' r); [unfold lifecycle in *; rewrite W1; exact Hl|exact H].
Qed.

Lemma Rf_modws : forall f, (forall w, wstatus (f w) = wstatus w) -> preserves Rf (modws f).
Proof.
  intros f Hf. apply (preserves_modws Rf); intro c. apply Rf_quiet; [|reflexivity].
  unfold Rst; simpl. rewrite Hf. apply wr_refl.
Qed.

Section Everywhere.
Variable ev : string -> dict -> evalres.

Lemma pf_wf_workflow_event : forall st, preserves Rf (wf_workflow_event_M st).
Proof.
  intros st c c' r H. apply Rf_quiet; [eapply pres_wf_workflow_event; exact H|].
  apply wf_workflow_event_M_inv in H. destruct (wf_process_workflow_event _ _ _) as [[n u]|e]; destruct H as [-> _]; reflexivity.
Qed.
Lemma pf_wf_task_event : forall t route st, preserves Rf (wf_task_event_M t route st).
Proof.
  intros t route st c c' r H. apply Rf_quiet; [eapply pres_wf_task_event; exact H|].
  apply wf_task_event_M_inv in H. destruct (wf_process_task_event _ _ _ _ _) as [[n u]|e]; destruct H as [-> _]; reflexivity.
Qed.
Lemma pf_log_unreachable : forall l, preserves Rf (log_unreachable l).
Proof. intros l c c' r H. apply Rf_of_ben; [eapply pres_log_unreachable; exact H|eapply pben_log_unreachable; exact H]. Qed.
Lemma pf_request_status_core : forall st, preserves Rf (request_status_core st).
Proof. exact Rf_request_status_core. Qed.
Lemma pf_upd_rec : forall i f, preserves Rf (upd_rec i f).
Proof. intros; apply Rf_modws; intro; apply wstatus_update_rec. Qed.
Lemma pf_set_rec_status : forall i s, preserves Rf (set_rec_status i s).
Proof. intros; apply Rf_modws; intro; apply wstatus_update_rec. Qed.
Lemma pf_init : preserves Rf (modify (fun c => set_init c true)).
Proof. apply (preserves_modify Rf); intro c; apply Rf_quiet; [apply wr_refl|reflexivity]. Qed.

(* the note beside a failed action is not a contained failure *)
Lemma pf_failed_action : forall t res, preserves Rf (log_entry_error note_failed (Some t) None None res).
Proof.
  intros t res c c' r H. unfold log_entry_error, modify in H. inversion H; subst c' r. cbv zeta.
  destruct (existsb _ (c_errors c)); [apply Rf_refl|]. apply Rf_of_ben; [unfold Rst; simpl; apply wr_refl|].
  eexists. split; [reflexivity|]. constructor; [|constructor]. intros [Hm _]. apply Hm. reflexivity.
Qed.

Lemma pf_fail : forall A e t r tr (k : unit -> M A), (forall u, preserves Rf (k u)) ->
  preserves Rf (log_error e t r tr ;;; (u <- request_status_core S_FAILED ;; k u)).
Proof. intros A e t r tr k; apply unit_fail, logs_only_log_error. Qed.
Lemma pf_fails : forall A e0 es t r tr (k : unit -> M A), (forall u, preserves Rf (k u)) ->
  preserves Rf (log_errors (e0 :: es) t r tr ;;; (u <- request_status_core S_FAILED ;; k u)).
Proof. intros A e0 es t r tr k; apply unit_fail, logs_only_log_errors. Qed.
Lemma pf_fails0 : forall e0 es t r tr, preserves Rf (log_errors (e0 :: es) t r tr ;;; request_status_core S_FAILED).
Proof. intros; apply unit_fail0, logs_only_log_errors. Qed.

Hint Resolve Rf_modws wstatus_update_rec wstatus_remove_staged pf_upd_rec pf_set_rec_status pf_wf_task_event pf_init
  pf_log_unreachable pf_failed_action pf_fail pf_fails pf_fails0 : presf.

Lemma pf_get_rec : forall i, preserves Rf (get_rec i).
Proof. intros; apply (frame_get_rec Rf Rf_refl Rf_trans). Qed.
Lemma pf_render_input : forall specs rt rolling errs, preserves Rf (render_input ev specs rt rolling errs).
Proof. intros; apply (frame_render_input ev Rf Rf_refl Rf_trans). Qed.
Lemma pf_render_vars : forall specs rolling rendered errs, preserves Rf (render_vars ev specs rolling rendered errs).
Proof. intros; apply (frame_render_vars ev Rf Rf_refl Rf_trans). Qed.
Lemma pf_ensure_ws : preserves Rf (ensure_ws ev).
Proof. apply (hframe_ensure_ws ev Rf Rf_refl Rf_trans); auto with presf. Qed.
Theorem pf_request_workflow_status : forall st, preserves Rf (request_workflow_status ev st).
Proof. intro st; apply (preserves_bind _ Rf_trans); [apply pf_ensure_ws|intro; apply pf_request_status_core]. Qed.
Lemma pf_get_task_context : forall idxs, preserves Rf (get_task_context idxs).
Proof. intros; apply (frame_get_task_context Rf Rf_refl Rf_trans). Qed.
Lemma pf_setup_retry : forall t idxs, preserves Rf (setup_retry ev t idxs).
Proof. intros; apply (frame_setup_retry ev Rf Rf_refl Rf_trans). Qed.
Lemma pf_add_task_state : forall t r i p, preserves Rf (add_task_state ev t r i p).
Proof. intros; apply (hframe_add_task_state ev Rf Rf_refl Rf_trans); auto with presf. Qed.
Lemma pf_evaluate_route : forall e r, preserves Rf (evaluate_route e r).
Proof. intros; apply (frame_evaluate_route Rf Rf_refl Rf_trans); auto with presf. Qed.
Lemma pf_evaluate_task_retry : forall r ctx, preserves Rf (evaluate_task_retry ev r ctx).
Proof. intros; apply (frame_evaluate_task_retry ev Rf Rf_refl Rf_trans). Qed.
Lemma pf_finalize_context : forall ts e ctx, preserves Rf (finalize_context ev ts e ctx).
Proof. intros; apply (frame_finalize_context ev Rf Rf_refl Rf_trans). Qed.
Lemma pf_process_transition : forall t route idx ts ctx e, preserves Rf (process_transition ev t route idx ts ctx e).
Proof. intros; apply (hframe_process_transition ev Rf Rf_refl Rf_trans); auto with presf. Qed.
Theorem pf_update_task_state : forall t route evt, preserves Rf (update_task_state ev t route evt).
Proof. intros; apply (hframe_update_task_state ev Rf Rf_refl Rf_trans); auto with presf. Qed.

End Everywhere.

(* preparing an offer touches neither the error log nor the workflow status *)
Definition Re (c c' : cstate) : Prop := c_errors c' = c_errors c /\ wstatus (c_ws c') = wstatus (c_ws c).
Lemma Re_refl : forall c, Re c c.
Proof. intro; split; reflexivity. Qed.
Lemma Re_trans : forall a b c, Re a b -> Re b c -> Re a c.
Proof. intros a b c [A1 A2] [B1 B2]; split; congruence. Qed.

Section NextTasks.
Variable ev : string -> dict -> evalres.

Lemma pe_next_task_for : forall s, preserves Re (next_task_for ev s).
Proof.
  intros; apply (frame_next_task_for ev Re Re_refl Re_trans).
  intros; apply (preserves_modws Re); intro; split; reflexivity.
Qed.

Definition gnt_elem (s : stg) : M (option offer * bool) :=
  try_catch (o <- next_task_for ev s ;; ret (o, false))
            (fun e => log_error e (Some (s_id s)) (Some (s_route s)) None ;;; ret (None, true)).

(* flag false: the preparation returned and nothing was logged; flag true: it raised, and the failure is recorded
   with the task's id and route *)
Lemma gnt_elem_spec : forall s c c1 res, gnt_elem s c = (c1, res) ->
  exists v, res = Val v /\ wstatus (c_ws c1) = wstatus (c_ws c) /\
    ((snd v = false /\ c_errors c1 = c_errors c /\ next_task_for ev s c = (c1, Val (fst v))) \/
     (v = (None, true) /\ exists c0 e, next_task_for ev s c = (c0, Exc e) /\
        recorded c1 (entry_of e (Some (s_id s)) (Some (s_route s)) None) /\
        exists l, c_errors c1 = app (c_errors c) l)).
Proof.
  intros s c c1 res H. unfold gnt_elem, try_catch in H. unfold bind at 1 in H.
  destruct (next_task_for ev s c) as [c0 [o|e]] eqn:En.
  - inversion H; subst. exists (o, false). destruct (pe_next_task_for s _ _ _ En) as [E1 E2].
    split; [reflexivity|]. split; [exact E2|]. left. auto.
  - destruct (pe_next_task_for s _ _ _ En) as [E1 E2].
    destruct (log_error_spec e (Some (s_id s)) (Some (s_route s)) None c0) as [ca [Ha [Wa [Ra Ea]]]].
    unfold bind in H. rewrite Ha in H. inversion H; subst. exists (None, true). split; [reflexivity|].
    split; [rewrite Wa; exact E2|]. right. split; [reflexivity|]. exists c0, e. split; [reflexivity|]. split; [exact Ra|].
    destruct Ea as [Ea|Ea]; [exists []; rewrite app_nil_r; congruence|eexists; rewrite Ea, E1; reflexivity].
Qed.

Lemma gnt_loop_spec : forall todo c c' res, mapM gnt_elem todo c = (c', res) ->
  exists rs l, res = Val rs /\ wstatus (c_ws c') = wstatus (c_ws c) /\ c_errors c' = app (c_errors c) l /\
    (existsb snd rs = false -> l = []) /\
    Forall2 (fun s v => snd v = true ->
               exists cx c0 e, next_task_for ev s cx = (c0, Exc e) /\
                               recorded c' (entry_of e (Some (s_id s)) (Some (s_route s)) None)) todo rs.
Proof.
  induction todo as [|s todo IH]; intros c c' res H.
  - inversion H; subst. exists [], []. rewrite app_nil_r. repeat split; auto.
  - cbn [mapM] in H. apply bind_inv in H. destruct H as [[c1 [v [E1 H]]]|[x [E1 ->]]].
    2: { destruct (gnt_elem_spec _ _ _ _ E1) as [v [Hv _]]. discriminate Hv. }
    destruct (gnt_elem_spec _ _ _ _ E1) as [v' [Hv [W1 Hd]]]. inversion Hv; subst v'.
    apply bind_inv in H. destruct H as [[c2 [vs [E2 H]]]|[x [E2 ->]]].
    2: { destruct (IH _ _ _ E2) as [rs [l [Hr _]]]. discriminate Hr. }
    destruct (IH _ _ _ E2) as [rs [l2 [Hr [W2 [Er [Hn F2]]]]]]. inversion Hr; subst vs. inversion H; subst c' res.
    assert (Pre : exists l1, c_errors c1 = app (c_errors c) l1 /\ (snd v = false -> l1 = [])).
    { destruct Hd as [[Hf [He _]]|[Hv' [_ [_ [_ [_ [l1 El]]]]]]].
      - exists []. rewrite app_nil_r. auto.
      - exists l1. split; [exact El|]. subst v. simpl. discriminate. }
    destruct Pre as [l1 [E1' N1]].
    exists (v :: rs), (app l1 l2). split; [reflexivity|]. split; [congruence|]. split; [rewrite Er, E1', app_assoc; reflexivity|].
    split.
    + simpl. intro Hx. apply orb_false_elim in Hx. destruct Hx as [Hx1 Hx2]. rewrite (N1 Hx1), (Hn Hx2). reflexivity.
    + constructor; [|exact F2]. intro Hs. destruct Hd as [[Hf _]|[_ [c0 [e [En [Rc _]]]]]]; [congruence|].
      exists c, c0, e. split; [exact En|]. unfold recorded in *. rewrite Er, existsb_app, Rc. reflexivity.
Qed.

Theorem get_next_tasks_spec : forall c c' res, c_init c = true -> get_next_tasks ev c = (c', res) ->
  Rf c c' /\
  (forall offers, res = Val offers -> c_errors c' <> c_errors c -> offers = [] /\ (lifecycle c -> settled c')).
Proof.
  intros c c' res Hi H. unfold get_next_tasks in H.
  rewrite (bind_step _ _ _ _ _ _ _ (ensure_ws_inited ev c Hi)) in H.
  rewrite (bind_step _ _ _ _ _ _ _ (eq_refl : getws c = (c, Val (c_ws c)))) in H. cbv zeta in H.
  match type of H with (if ?b then _ else _) _ = _ => destruct b end.
  { inversion H; subst. split; [apply Rf_refl|]. intros offers _ Hne. exfalso; apply Hne; reflexivity. }
  fold gnt_elem in H.
  match type of H with bind (mapM ?f ?todo) _ _ = _ => change f with gnt_elem in H; set (td := todo) in * end.
  apply bind_inv in H. destruct H as [[c1 [rs [E1 H]]]|[x [E1 ->]]].
  2: { destruct (gnt_loop_spec _ _ _ _ E1) as [rs [l [Hr _]]]. discriminate Hr. }
  destruct (gnt_loop_spec _ _ _ _ E1) as [rs' [l [Hr [W1 [El [Hn _]]]]]]. inversion Hr; subst rs'.
  destruct (existsb snd rs) eqn:Ex.
  - assert (U : preserves Rf (request_status_core S_FAILED ;;; ret (@nil offer))).
    { intros cx cy ry Hx. apply bind_inv in Hx. destruct Hx as [[cz [u [Ez Hx]]]|[x [Ez _]]];
        [inversion Hx; subst|]; eapply Rf_request_status_core; exact Ez. }
    assert (S : lifecycle c -> settled c').
    { intro Hl. apply bind_inv in H. destruct H as [[cz [u [Ez H]]]|[x [Ez _]]]; [inversion H; subst|];
        (eapply fail_request_settled; [unfold lifecycle in *; rewrite W1; exact Hl|exact Ez]). }
    destruct (U _ _ _ H) as [R2 [l2 [E2 _]]]. split.
    + split; [unfold Rst in *; rewrite W1 in R2; exact R2|]. exists (app l l2).
      split; [rewrite E2, El, app_assoc; reflexivity|]. intros Hl _. exact (S Hl).
    + intros offers -> _. apply bind_inv in H. destruct H as [[cz [u [Ez H]]]|[x [Ez Hx]]]; [|discriminate Hx].
      inversion H. split; [reflexivity|exact S].
  - inversion H; subst c' res. rewrite (Hn eq_refl), app_nil_r in El. split.
    + apply Rf_quiet; [unfold Rst; rewrite W1; apply wr_refl|exact El].
    + intros offers _ Hne. exfalso; apply Hne; exact El.
Qed.

End NextTasks.

Section Sites.
Variable ev : string -> dict -> evalres.

(* (a)+(b) at a guarded site: if the guarded computation ends in an exception, the handler records it under the
   site's task / route / transition and the workflow is settled; the handler itself answers with its default, or
   -- only when the workflow was canceled -- with the documented refusal of the failure request *)
Lemma guarded_site : forall A (m : M A) t r tr (d : A) c c0 e c' res,
  m c = (c0, Exc e) ->
  try_catch m (fun x => log_error x t r tr ;;; request_status_core S_FAILED ;;; ret d) c = (c', res) ->
  recorded c' (entry_of e t r tr) /\
  (lifecycle c0 -> settled c' /\ (res = Val d \/ (exists x, res = Exc x) /\ wstatus (c_ws c0) = S_CANCELED)).
Proof.
  intros A m t r tr d c c0 e c' res Hm H. unfold try_catch in H. rewrite Hm in H.
  destruct (log_error_spec e t r tr c0) as [ca [Ha [Wa [Ra _]]]]. unfold bind at 1 in H. rewrite Ha in H.
  assert (L : lifecycle c0 -> lifecycle ca) by (unfold lifecycle; rewrite Wa; auto).
  assert (Rec : forall cb rb, request_status_core S_FAILED ca = (cb, rb) -> recorded cb (entry_of e t r tr)).
  { intros cb rb Eb. destruct (pben_request_status_core _ _ _ _ Eb) as [l [E _]]. unfold recorded in *. rewrite E, existsb_app, Ra. reflexivity. }
  apply bind_inv in H. destruct H as [[cb [u [Eb H]]]|[x [Eb ->]]].
  - inversion H; subst c' res. split; [eapply Rec; exact Eb|]. intro Hl.
    split; [apply (fail_request_settled _ _ _ (L Hl) Eb)|left; reflexivity].
  - split; [eapply Rec; exact Eb|]. intro Hl. split; [apply (fail_request_settled _ _ _ (L Hl) Eb)|].
    right. split; [eexists; reflexivity|]. destruct (fail_request _ _ _ (L Hl) Eb) as [_ [_ [[Hc _]|[_ [_ Hv]]]]]; [|discriminate Hv].
    rewrite <- Wa; exact Hc.
Qed.

(* the same for the collecting sites: every collected failure is recorded, and the workflow is settled *)
Lemma collected_site : forall es t r tr c c' res, es <> [] ->
  (log_errors es t r tr ;;; request_status_core S_FAILED) c = (c', res) ->
  (forall e, In e es -> recorded c' (entry_of e t r tr)) /\ (lifecycle c -> settled c').
Proof.
  intros es t r tr c c' res Hne H. destruct (logs_only_log_errors es t r tr c) as [ca [l [Ha [Wa Ea]]]].
  unfold bind at 1 in H. rewrite Ha in H. split.
  - intros e Hin. pose proof (log_errors_records _ _ _ _ _ _ _ Ha e Hin) as Ra.
    destruct (pben_request_status_core _ _ _ _ H) as [l2 [E _]]. unfold recorded in *. rewrite E, existsb_app, Ra. reflexivity.
  - intro Hl. apply (fail_request_settled ca c' res); [unfold lifecycle in *; rewrite Wa; exact Hl|exact H].
Qed.

Lemma render_vars_step : forall name expr specs rolling rendered errs c,
  render_vars ev ((name, expr) :: specs) rolling rendered errs c =
  match evaluate ev expr rolling c with
  | (c1, Val x) => render_vars ev specs (dset name x rolling) (dset name x rendered) errs c1
  | (c1, Exc e) => if x_expr e then render_vars ev specs rolling rendered (app errs [e]) c1 else (c1, Exc e)
  end.
Proof.
  intros. cbn [render_vars]. unfold bind at 1, try_catch_expr, bind at 1.
  destruct (evaluate ev expr rolling c) as [c1 [x|e]]; [reflexivity|]. destruct (x_expr e); reflexivity.
Qed.

Lemma render_input_step : forall name dflt specs runtime rolling errs c,
  render_input ev ((name, dflt) :: specs) runtime rolling errs c =
  match evaluate ev (match dget name runtime with Some x => x | None => dflt end) rolling c with
  | (c1, Val x) => render_input ev specs runtime (dset name x rolling) errs c1
  | (c1, Exc e) => if x_expr e then render_input ev specs runtime rolling (app errs [e]) c1 else (c1, Exc e)
  end.
Proof.
  intros. cbn [render_input]. cbv zeta. unfold bind at 1, try_catch_expr, bind at 1.
  destruct (evaluate ev _ rolling c) as [c1 [x|e]]; [reflexivity|]. destruct (x_expr e); reflexivity.
Qed.

Lemma render_vars_keeps : forall specs rolling rendered errs c c' out errs',
  render_vars ev specs rolling rendered errs c = (c', Val (out, errs')) -> exists l, errs' = app errs l.
Proof.
  induction specs as [|[name expr] specs IH]; intros rolling rendered errs c c' out errs' H.
  - inversion H; subst. exists []; rewrite app_nil_r; reflexivity.
  - rewrite render_vars_step in H. destruct (evaluate ev expr rolling c) as [c1 [x|e]]; [eapply IH; exact H|].
    destruct (x_expr e); [|inversion H]. destruct (IH _ _ _ _ _ _ _ H) as [l E]. exists (e :: l). rewrite E, <- app_assoc. reflexivity.
Qed.

Lemma render_input_keeps : forall specs runtime rolling errs c c' out errs',
  render_input ev specs runtime rolling errs c = (c', Val (out, errs')) -> exists l, errs' = app errs l.
Proof.
  induction specs as [|[name dflt] specs IH]; intros runtime rolling errs c c' out errs' H.
  - inversion H; subst. exists []; rewrite app_nil_r; reflexivity.
  - rewrite render_input_step in H. destruct (evaluate ev _ rolling c) as [c1 [x|e]]; [eapply IH; exact H|].
    destruct (x_expr e); [|inversion H]. destruct (IH _ _ _ _ _ _ _ H) as [l E]. exists (e :: l). rewrite E, <- app_assoc. reflexivity.
Qed.

(* retry set-up (count / delay expressions) when a record is created *)
Lemma retry_setup_recorded : forall t rt ins prev c c0 e c' res,
  g_has_task (c_graph c) t = true -> g_task_has_retry (c_graph c) t = true ->
  setup_retry ev t (match ins with [] => [0] | _ => ins end) c = (c0, Exc e) ->
  add_task_state ev t rt ins prev c = (c', res) ->
  recorded c' (entry_of e (Some t) (Some rt) None) /\ (lifecycle c -> settled c').
Proof.
  intros t rt ins prev c c0 e c' res Hg Hr Hs H. unfold add_task_state in H.
  rewrite (bind_step _ _ _ _ _ _ _ (eq_refl : get c = (c, Val c))) in H. rewrite Hg, Hr in H. cbn [negb] in H. cbv zeta in H.
  assert (Hl0 : lifecycle c -> lifecycle c0).
  { intro Hl. unfold lifecycle in *. pose proof (pres_setup_retry ev _ _ _ _ _ Hs) as R. eapply reach_keeps_lifecycle; [exact R|exact Hl]. }
  apply bind_inv in H. destruct H as [[c1 [retry [E1 H]]]|[x [E1 ->]]].
  - assert (Hm : (r <- setup_retry ev t (match ins with [] => [0] | _ => ins end) ;; ret (Some r)) c = (c0, Exc e))
      by (unfold bind; rewrite Hs; reflexivity).
    destruct (guarded_site _ _ _ _ _ _ _ _ _ _ _ Hm E1) as [R1 S1].
    rewrite (bind_step _ _ _ _ _ _ _ (eq_refl : getws c1 = (c1, Val (c_ws c1)))) in H.
    unfold bind at 1, modws at 1 in H. inversion H; subst c' res. split.
    + unfold recorded in *. simpl. exact R1.
    + intro Hl. destruct (S1 (Hl0 Hl)) as [[Sf|Sc] _]; [left|right]; simpl; assumption.
  - assert (Hm : (r <- setup_retry ev t (match ins with [] => [0] | _ => ins end) ;; ret (Some r)) c = (c0, Exc e))
      by (unfold bind; rewrite Hs; reflexivity).
    destruct (guarded_site _ _ _ _ _ _ _ _ _ _ _ Hm E1) as [R1 S1]. split; [exact R1|]. intro Hl. apply (S1 (Hl0 Hl)).
Qed.

Lemma criteria_pure : forall ctx l, state_pure (mapM (fun cr => evaluate ev cr ctx) l).
Proof.
  intros ctx l; induction l as [|x l IH]; simpl; [apply state_pure_ret|].
  apply state_pure_bind; [apply evaluate_pure|intro]. apply state_pure_bind; [exact IH|intro; apply state_pure_ret].
Qed.

(* a transition criterion *)
Lemma criteria_failure_recorded : forall t route idx ts ctx e0 c c0 e c' res,
  mapM (fun cr => evaluate ev cr ctx) (e_criteria e0) c = (c0, Exc e) ->
  process_transition ev t route idx ts ctx e0 c = (c', res) ->
  recorded c' (entry_of e (Some t) (Some route) (Some (e_dst e0, e_key e0))) /\ (lifecycle c -> settled c').
Proof.
  intros t route idx ts ctx e0 c c0 e c' res Hm H. unfold process_transition in H.
  assert (Hc0 : c0 = c).
  { pose proof (criteria_pure ctx (e_criteria e0) c) as P. rewrite Hm in P. exact P. }
  subst c0.
  apply bind_inv in H. destruct H as [[c1 [ok [E1 H]]]|[x [E1 ->]]].
  - assert (Hb : (vs <- mapM (fun cr => evaluate ev cr ctx) (e_criteria e0) ;;
                  upd_rec idx (fun r => r_set_next r (aset trid_eqb (e_dst e0, e_key e0) (forallb truthy vs) (r_next r))) ;;;
                  ret (Some (forallb truthy vs))) c = (c, Exc e)) by (unfold bind at 1; rewrite Hm; reflexivity).
    destruct (guarded_site _ _ _ _ _ _ _ _ _ _ _ Hb E1) as [R1 S1].
    assert (Hok : ok = None).
    { unfold try_catch in E1. rewrite Hb in E1. apply bind_inv in E1. destruct E1 as [[ca [u [_ E1]]]|[x [_ Hx]]]; [|discriminate Hx].
      apply bind_inv in E1. destruct E1 as [[cb [u2 [_ E1]]]|[x [_ Hx]]]; [|discriminate Hx]. inversion E1; reflexivity. }
    subst ok. inversion H; subst c' res. split; [exact R1|]. intro Hl. apply (S1 Hl).
  - assert (Hb : (vs <- mapM (fun cr => evaluate ev cr ctx) (e_criteria e0) ;;
                  upd_rec idx (fun r => r_set_next r (aset trid_eqb (e_dst e0, e_key e0) (forallb truthy vs) (r_next r))) ;;;
                  ret (Some (forallb truthy vs))) c = (c, Exc e)) by (unfold bind at 1; rewrite Hm; reflexivity).
    destruct (guarded_site _ _ _ _ _ _ _ _ _ _ _ Hb E1) as [R1 S1]. split; [exact R1|]. intro Hl. apply (S1 Hl).
Qed.

End Sites.

Section Calls.
Variable ev : string -> dict -> evalres.

Lemma collected_site_k : forall A (d : A) es t r tr c c' res,
  (log_errors es t r tr ;;; request_status_core S_FAILED ;;; ret d) c = (c', res) ->
  (forall e, In e es -> recorded c' (entry_of e t r tr)) /\ (lifecycle c -> settled c').
Proof.
  intros A d es t r tr c c' res H. destruct (logs_only_log_errors es t r tr c) as [ca [l [Ha [Wa Ea]]]].
  unfold bind at 1 in H. rewrite Ha in H.
  assert (G : forall cb rb, request_status_core S_FAILED ca = (cb, rb) ->
            (forall e, In e es -> recorded cb (entry_of e t r tr)) /\ (lifecycle c -> settled cb)).
  { intros cb rb Eb. split.
    - intros e Hin. pose proof (log_errors_records _ _ _ _ _ _ _ Ha e Hin) as Ra.
      destruct (pben_request_status_core _ _ _ _ Eb) as [l2 [E _]]. unfold recorded in *. rewrite E, existsb_app, Ra. reflexivity.
    - intro Hl. apply (fail_request_settled ca cb rb); [unfold lifecycle in *; rewrite Wa; exact Hl|exact Eb]. }
  apply bind_inv in H. destruct H as [[cb [u [Eb H]]]|[x [Eb ->]]]; [inversion H; subst|]; eapply G; exact Eb.
Qed.

(* a publish expression of a transition that is taken *)
Lemma publish_failure_recorded : forall t route idx ts ctx e0 c c1 c2 new_ctx x xs c' res,
  try_catch
    (vs <- mapM (fun cr => evaluate ev cr ctx) (e_criteria e0) ;;
     upd_rec idx (fun r => r_set_next r (aset trid_eqb (e_dst e0, e_key e0) (forallb truthy vs) (r_next r))) ;;;
     ret (Some (forallb truthy vs)))
    (fun x => log_error x (Some t) (Some route) (Some (e_dst e0, e_key e0)) ;;; request_status_core S_FAILED ;;; ret None)
    c = (c1, Val (Some true)) ->
  finalize_context ev ts e0 ctx c1 = (c2, Val (new_ctx, x :: xs)) ->
  process_transition ev t route idx ts ctx e0 c = (c', res) ->
  (forall y, In y (x :: xs) -> recorded c' (entry_of y (Some t) (Some route) (Some (e_dst e0, e_key e0)))) /\
  (lifecycle c2 -> settled c').
Proof.
  intros t route idx ts ctx e0 c c1 c2 new_ctx x xs c' res Ht Hf H. unfold process_transition in H.
  rewrite (bind_step _ _ _ _ _ _ _ Ht) in H. rewrite (bind_step _ _ _ _ _ _ _ Hf) in H.
  eapply collected_site_k; exact H.
Qed.

(* the retry condition, evaluated when a task completes *)
Lemma retry_condition_recorded : forall r ctx t route c c0 e c' res,
  evaluate_task_retry ev r ctx c = (c0, Exc e) ->
  try_catch (evaluate_task_retry ev r ctx)
            (fun x => log_error x (Some t) (Some route) None ;;; request_status_core S_FAILED ;;; ret false) c = (c', res) ->
  recorded c' (entry_of e (Some t) (Some route) None) /\
  (lifecycle c0 -> settled c' /\ (res = Val false \/ (exists x, res = Exc x) /\ wstatus (c_ws c0) = S_CANCELED)).
Proof. intros r ctx t route c c0 e c' res Hm H. exact (guarded_site _ _ _ _ _ _ _ _ _ _ _ Hm H). Qed.

(* workflow input and vars, rendered when the workflow state is created *)
Lemma input_vars_failures_recorded : forall c c' res, c_init c = false -> ensure_ws ev c = (c', res) ->
  forall c1 rin ierrs c2 rv verrs,
    render_input ev (wf_input (c_spec c)) (c_inputs c) (c_parent c) [] (set_init c true) = (c1, Val (rin, ierrs)) ->
    render_vars ev (wf_vars (c_spec c)) (merge_dicts (c_parent c) rin) [] [] c1 = (c2, Val (rv, verrs)) ->
    app ierrs verrs <> [] ->
    (forall e, In e (app ierrs verrs) -> recorded c' (entry_of e None None None)) /\ (lifecycle c2 -> settled c').
Proof.
  intros c c' res Hi H c1 rin ierrs c2 rv verrs H1 H2 Hne. unfold ensure_ws in H.
  rewrite (bind_step _ _ _ _ _ _ _ (eq_refl : get c = (c, Val c))) in H. rewrite Hi in H.
  unfold bind at 1 in H. unfold modify at 1 in H. cbv beta iota zeta in H.
  rewrite (bind_step _ _ _ _ _ _ _ H1) in H. cbv beta iota zeta in H.
  rewrite (bind_step _ _ _ _ _ _ _ H2) in H. cbv beta iota zeta in H.
  destruct (app ierrs verrs) as [|e0 es] eqn:Ee; [congruence|].
  apply bind_inv in H. destruct H as [[c3 [u [E3 H]]]|[x [E3 ->]]].
  - destruct (collected_site (e0 :: es) None None None c2 c3 (Val u)) as [R S]; [discriminate|exact E3|].
    assert (T : Rf c3 c').
    { match type of H with ?m _ = _ => assert (P : preserves Rf m) end; [|eapply P; exact H].
      pw Rf_refl Rf_trans ltac:(apply Rf_modws; intro; reflexivity). }
    split; [intros e Hin; eapply Rf_errors_prefix; [exact T|apply R; exact Hin]|].
    intro Hl. destruct T as [T _]. eapply settled_reach; [exact T|apply S; exact Hl].
  - destruct (collected_site (e0 :: es) None None None c2 c' (Exc x)) as [R S]; [discriminate|exact E3|]. split; assumption.
Qed.

Lemma pe_terminal_context : preserves Re get_workflow_terminal_context.
Proof.
  unfold get_workflow_terminal_context, get_task_context.
  assert (Pm : forall l acc, preserves Re (merge_term_contexts l acc)).
  { induction l as [|[i r] l IH]; intros; simpl; unfold get_task_context; pw Re_refl Re_trans ltac:(first [apply IH]). }
  pw Re_refl Re_trans ltac:(first [apply Pm]).
Qed.
Lemma pe_render_vars : forall specs rolling rendered errs, preserves Re (render_vars ev specs rolling rendered errs).
Proof. intros; apply (frame_render_vars ev Re Re_refl Re_trans). Qed.

(* output expressions: recorded without a task; the workflow fails unless it is canceled *)
Lemma render_output_core : forall c c' res,
  (c0 <- get ;;
   let st := wstatus (c_ws c0) in
   if status_in st COMPLETED_STATUSES && match c_output c0 with None => true | Some _ => false end then
     tctx <- get_workflow_terminal_context ;;
     let wctx := merge_dicts tctx (state_ctx (c_ws c0)) in
     ro <- render_vars ev (wf_output (c_spec c0)) wctx [] [] ;;
     let '(outputs, errors) := ro in
     (match outputs with [] => ret tt | _ => modify (fun c => set_output c (Some outputs)) end) ;;;
     match errors with
     | [] => ret tt
     | _ => log_errors errors None None None ;;;
            if status_in st [S_EXPIRED; S_ABANDONED; S_CANCELED] then ret tt else request_status_core S_FAILED
     end
   else ret tt) c = (c', res) ->
  Rf c c' /\
  forall c1 tctx c2 outputs errors,
    status_in (wstatus (c_ws c)) COMPLETED_STATUSES && match c_output c with None => true | Some _ => false end = true ->
    get_workflow_terminal_context c = (c1, Val tctx) ->
    render_vars ev (wf_output (c_spec c)) (merge_dicts tctx (state_ctx (c_ws c))) [] [] c1 = (c2, Val (outputs, errors)) ->
    errors <> [] ->
    (forall e, In e errors -> recorded c' (entry_of e None None None)) /\ (lifecycle c -> settled c').
Proof.
  intros c c' res H. rewrite (bind_step _ _ _ _ _ _ _ (eq_refl : get c = (c, Val c))) in H. cbv zeta in H.
  destruct (status_in (wstatus (c_ws c)) COMPLETED_STATUSES && match c_output c with None => true | Some _ => false end) eqn:Eg.
  2: { inversion H; subst. split; [apply Rf_refl|]. intros; discriminate. }
  apply bind_inv in H. destruct H as [[c1 [tctx [E1 H]]]|[x [E1 ->]]].
  2: { destruct (pe_terminal_context _ _ _ E1) as [A B]. split; [apply Rf_quiet; [unfold Rst; rewrite B; apply wr_refl|exact A]|].
       intros ? ? ? ? ? _ Hg. rewrite Hg in E1. discriminate. }
  destruct (pe_terminal_context _ _ _ E1) as [A1 B1].
  apply bind_inv in H. destruct H as [[c2 [ro [E2 H]]]|[x [E2 ->]]].
  2: { destruct (pe_render_vars _ _ _ _ _ _ _ E2) as [A B].
       split; [apply Rf_quiet; [unfold Rst; rewrite B, B1; apply wr_refl|congruence]|].
       intros ? ? ? ? ? _ Hg Hr. rewrite Hg in E1. inversion E1; subst. rewrite Hr in E2. discriminate. }
  destruct (pe_render_vars _ _ _ _ _ _ _ E2) as [A2 B2]. destruct ro as [outputs errors].
  apply bind_inv in H. destruct H as [[c3 [u3 [E3 H]]]|[x [E3 ->]]].
  2: { exfalso. destruct outputs; [|unfold modify in E3]; inversion E3. }
  assert (Q3 : c_errors c3 = c_errors c /\ c_ws c3 = c_ws c2).
  { destruct outputs; [inversion E3; subst; split; [congruence|reflexivity]|]. unfold modify in E3. inversion E3; subst. simpl. split; [congruence|reflexivity]. }
  destruct Q3 as [A3 W3].
  assert (St3 : wstatus (c_ws c3) = wstatus (c_ws c)) by (rewrite W3; congruence).
  assert (Core : Rf c c' /\ (errors <> [] -> (forall e, In e errors -> recorded c' (entry_of e None None None)) /\ (lifecycle c -> settled c'))).
  { destruct errors as [|e0 es].
    - inversion H; subst. split; [apply Rf_quiet; [unfold Rst; rewrite St3; apply wr_refl|exact A3]|]. intro Hn; congruence.
    - destruct (logs_only_log_errors (e0 :: es) None None None c3) as [ca [l [Ha [Wa Ea]]]].
      pose proof (log_errors_records _ _ _ _ _ _ _ Ha) as Ra.
      unfold bind at 1 in H. rewrite Ha in H.
      destruct (status_in (wstatus (c_ws c)) [S_EXPIRED; S_ABANDONED; S_CANCELED]) eqn:Ecx.
      + inversion H; subst c' res.
        assert (Hs : lifecycle c -> settled ca).
        { intro Hl. right. rewrite Wa, St3. unfold lifecycle in Hl. destruct (wstatus (c_ws c)); simpl in Hl, Ecx; try discriminate;
            try reflexivity; exfalso; intuition discriminate. }
        split; [|intros _; split; [exact Ra|exact Hs]].
        split; [unfold Rst; rewrite Wa, St3; apply wr_refl|]. exists l. split; [rewrite Ea, A3; reflexivity|]. intros Hl _; exact (Hs Hl).
      + assert (Hs : lifecycle c -> settled c').
        { intro Hl. apply (fail_request_settled ca c' res); [unfold lifecycle in *; rewrite Wa, St3; exact Hl|exact H]. }
        destruct (pben_request_status_core _ _ _ _ H) as [l2 [E2' _]].
        split.
        * split; [unfold Rst; rewrite <- St3, <- Wa; eapply pres_request_status_core; exact H|].
          exists (app l l2). split; [rewrite E2', Ea, A3, app_assoc; reflexivity|]. intros Hl _; exact (Hs Hl).
        * intros _. split; [|exact Hs]. intros e Hin. specialize (Ra e Hin). unfold recorded in *. rewrite E2', existsb_app, Ra. reflexivity. }
  destruct Core as [C1 C2]. split; [exact C1|].
  intros c1' tctx' c2' outputs' errors' _ Hg Hr Hne. rewrite Hg in E1. inversion E1; subst c1' tctx'.
  rewrite Hr in E2. inversion E2; subst. apply C2; exact Hne.
Qed.

Lemma pf_render_workflow_output : preserves Rf (render_workflow_output ev).
Proof.
  unfold render_workflow_output. apply (preserves_bind _ Rf_trans); [apply pf_ensure_ws|intros _].
  intros c c' res H. apply (render_output_core _ _ _ H).
Qed.

Lemma pf_get_next_tasks : preserves Rf (get_next_tasks ev).
Proof.
  intros c c' res H. unfold get_next_tasks in H.
  apply bind_inv in H. destruct H as [[c1 [u [E1 H]]]|[x [E1 ->]]]; [|eapply pf_ensure_ws; exact E1].
  eapply Rf_trans; [eapply pf_ensure_ws; exact E1|].
  assert (Hi : c_init c1 = true) by (eapply ensure_ws_init_after; exact E1).
  assert (H' : get_next_tasks ev c1 = (c', res)).
  { unfold get_next_tasks. rewrite (bind_step _ _ _ _ _ _ _ (ensure_ws_inited ev c1 Hi)). exact H. }
  apply (get_next_tasks_spec ev c1 c' res Hi H').
Qed.

Theorem api_exec_Rf : forall op, is_rerun op = false -> preserves Rf (api_exec ev op).
Proof.
  intros op Hop. apply (preserves_api_exec ev Rf Rf_refl Rf_trans); [apply pf_ensure_ws|].
  destruct op; try discriminate Hop.
  - exact I.
  - apply pf_request_workflow_status.
  - apply pf_get_next_tasks.
  - apply pf_update_task_state.
  - apply pf_render_workflow_output.
  - intro c; apply Rf_quiet; [apply wr_refl|reflexivity].
Qed.

Theorem contained_failure_fails : forall op c c' r l, is_rerun op = false -> lifecycle c ->
  api_exec ev op c = (c', r) -> c_errors c' = app (c_errors c) l ->
  (exists en, In en l /\ handled_entry en) -> settled c'.
Proof.
  intros op c c' r l Hop Hl H El Hen. destruct (api_exec_Rf op Hop _ _ _ H) as [_ [l' [E S]]].
  rewrite E in El. apply app_inv_head in El. subst l'. apply S; assumption.
Qed.

Theorem errors_only_appended : forall op c c' r, is_rerun op = false -> api_exec ev op c = (c', r) ->
  exists l, c_errors c' = app (c_errors c) l.
Proof. intros op c c' r Hop H. destruct (api_exec_Rf op Hop _ _ _ H) as [_ [l [E _]]]. exists l; exact E. Qed.

Theorem lifecycle_kept : forall op c c' r, is_rerun op = false -> lifecycle c -> api_exec ev op c = (c', r) -> lifecycle c'.
Proof. intros op c c' r Hop Hl H. destruct (api_exec_Rf op Hop _ _ _ H) as [R _]. eapply reach_keeps_lifecycle; [exact R|exact Hl]. Qed.

(* (c) nothing further is offered: in the call itself (get_next_tasks_spec), and afterwards *)
Theorem settled_offers_only_cleanup : forall c c' l, c_init c = true -> settled c -> get_next_tasks ev c = (c', Val l) ->
  forall o, In o l -> wstatus (c_ws c) = S_FAILED /\
                      exists s, In s (staged (c_ws c)) /\ s_run_on_fail s = true /\ o_id o = s_id s /\ o_route o = s_route s.
Proof.
  intros c c' l Hi Hs H o Ho. destruct Hs as [Hs|Hs].
  2: { rewrite (no_offers_when_done ev c Hi) in H; [inversion H; subst; destruct Ho|]. rewrite Hs; simpl; tauto. }
  split; [exact Hs|].
  unfold get_next_tasks, bind in H. rewrite (ensure_ws_inited ev c Hi) in H. unfold getws in H. cbv beta iota in H.
  rewrite Hs in H. change (status_eqb S_FAILED S_FAILED) with true in H. cbv iota in H.
  change (status_in S_FAILED RUNNING_STATUSES) with false in H. cbn [negb andb] in H.
  destruct (filter s_run_on_fail (staged_filtered (c_ws c))) as [|s0 rem] eqn:Er; [inversion H; subst; destruct Ho|].
  cbv iota in H. rewrite <- Er in H.
  match type of H with context [mapM ?f ?todo] => destruct (mapM f todo c) as [c1 [rs|e]] eqn:Em; [|inversion H] end.
  destruct (existsb snd rs).
  { destruct (request_status_core S_FAILED c1) as [c2 [u|e]]; inversion H; subst; destruct Ho. }
  inversion H; subst c' l; clear H. apply in_sort_by in Ho.
  assert (Hf : Forall2 (fun s (r : option offer * bool) => offer_of s (fst r))
                       (filter s_run_on_fail (staged_filtered (c_ws c))) rs).
  { eapply (vpost_mapM _ _ (fun s (r : option offer * bool) => offer_of s (fst r))); [|exact Em].
    intro s. apply vpost_try_catch.
    - eapply vpost_bind_strong; [apply (next_task_for_id ev)|]. intros a Ha. apply vpost_ret; exact Ha.
    - intro e. apply vpost_bind; intro. apply vpost_ret. intros o' Ho'; discriminate. }
  destruct (Forall2_offers _ _ Hf o Ho) as [s [Hin [E1 E2]]]. apply filter_In in Hin. destruct Hin as [Hin Hrf].
  unfold staged_filtered in Hin. apply filter_In in Hin. exists s. tauto.
Qed.

End Calls.
