(* PauseProofs.v -- C09, step-level facts about pause / resume.

   What is proved here (every evaluator unless said otherwise):
   (1) a pause-class request (pausing, paused) changes NOTHING but the workflow status and the
       statuses of records, not even the error log -- as an equality of whole conductor states
       after forgetting those statuses ([pause_request_changes_statuses_only]); a resume-class request
       likewise, except that it may log unreachable joins when it completes the workflow
       ([status_request_changes_statuses_and_log_only]);
   (2) when no active task carries an item table, the pause request changes the workflow status only
       ([pause_of_plain_tasks_changes_workflow_status_only]);
   (3) the task machine treats a completion report the same way whether the record is running or
       was pushed to pausing: every event that completes the task from one completes it, with the same
       status, from the other ([F_task_completion_same_when_pausing]); the only differences are the
       held-back continuations (stay pausing / become paused instead of running);
   (4) the workflow machine: a task event fails / cancels the pausing workflow exactly when it fails /
       cancels the running one, never completes or continues it, and rests on a dormant event
       ([F_wf_pausing_mirrors_running]); the retry decision is gated on an ACTIVE workflow status and
       pausing is active ([pausing_is_active]);
   (5) resume-class requests on a paused workflow give resuming / running, or succeeded when nothing
       is left (F_tables.F_wf_resume_request), and the next poll works from exactly the staged entries
       the paused state held ([resume_polls_the_held_entries]).
   The commutation of a whole update_task_state call with the pause request needs a two-run simulation of
   the call: PauseCommuteProofs.  It is FALSE for an evaluator that reads the workflow status out of
   __state ([pause_not_transparent_for_status_reading_condition], replayed on the engine). *)
From Coq Require Import String List Bool ZArith Arith Lia.
From Orq Require Import GenStatuses GenEvents GenTables GenSpecMeta Base State Machines Codec Conductor Decode Api.
From Orq Require Import F_tables Hoare Frame ValuePost StatusReach C04Proofs C09C10Proofs RetryProofs InertProofs QueryProofs ListFacts StateFacts.
Import ListNotations.
Open Scope string_scope.
Open Scope monad_scope.


(* forget the workflow status and the status of every record *)
Definition strip_ws (w : wstate) : wstate :=
  {| contexts := contexts w; routes := routes w;
     sequence := map (fun r => r_set_status r None) (sequence w);
     staged := staged w; wstatus := S_UNSET; tasks := tasks w; reruns := reruns w |}.
Definition strip (c : cstate) : cstate := set_ws c (strip_ws (c_ws c)).
(* ... and the error log *)
Definition strip_log (c : cstate) : cstate := set_errors (strip c) [].

Definition Rmeta (c c' : cstate) : Prop :=
  c_spec c' = c_spec c /\ c_graph c' = c_graph c /\ c_inputs c' = c_inputs c /\ c_parent c' = c_parent c /\
  c_init c' = c_init c /\ c_log c' = c_log c /\ c_output c' = c_output c.
Lemma Rmeta_refl : forall c, Rmeta c c.
Proof. intro; repeat split. Qed.
Lemma Rmeta_trans : forall a b c, Rmeta a b -> Rmeta b c -> Rmeta a c.
Proof. unfold Rmeta; intros; intuition congruence. Qed.

Lemma pm_log_entry_error : forall m t r tr res, preserves Rmeta (log_entry_error m t r tr res).
Proof.
  intros. unfold log_entry_error. apply (preserves_modify Rmeta). intro c. cbv zeta.
  destruct (existsb _ (c_errors c)); repeat split.
Qed.
Lemma pm_set_rec_status : forall j s, preserves Rmeta (set_rec_status j s).
Proof. intros; unfold set_rec_status. apply (preserves_modws Rmeta); intro; repeat split. Qed.
Lemma pm_wf_workflow_event : forall st, preserves Rmeta (wf_workflow_event_M st).
Proof.
  intros st c c' r H. unfold wf_workflow_event_M in H.
  destruct (wf_process_workflow_event (c_graph c) (c_ws c) st) as [[new unr]|e]; inversion H; subst; repeat split.
Qed.
Lemma pm_request_status_core : forall st, preserves Rmeta (request_status_core st).
Proof.
  exact (frame_request_status_core Rmeta Rmeta_refl Rmeta_trans pm_log_entry_error pm_set_rec_status pm_wf_workflow_event).
Qed.

Lemma map_strip_F2 : forall l l', Forall2 rec_same_but_status l l' ->
  map (fun r => r_set_status r None) l' = map (fun r => r_set_status r None) l.
Proof.
  intros l l' F; induction F as [|x y l l' H F IH]; simpl; [reflexivity|]. rewrite IH. f_equal.
  destruct H as [H1 [H2 [H3 [H4 [H5 [H6 [H7 H8]]]]]]]. destruct x, y; simpl in *; subst; reflexivity.
Qed.

(* any status request, accepted or rejected: the state differs from the state before in statuses and
   in the error log only *)
Theorem status_request_changes_statuses_and_log_only : forall st c c' r,
  request_status_core st c = (c', r) -> strip_log c' = strip_log c.
Proof.
  intros st c c' r H.
  destruct (pctl_request_status_core st c c' r H) as [E1 [E2 [E3 [E4 [E5 [E6 F]]]]]].
  destruct (pm_request_status_core st c c' r H) as [M1 [M2 [M3 [M4 [M5 [M6 M7]]]]]].
  pose proof (map_strip_F2 _ _ F) as Es.
  unfold strip_log, strip, strip_ws, set_errors, set_ws. cbn [c_spec c_graph c_inputs c_parent c_init c_ws c_errors c_log c_output].
  rewrite M1, M2, M3, M4, M5, M6, M7, E1, E2, E3, E4, E5, Es. reflexivity.
Qed.

Definition Rerr (c c' : cstate) : Prop := c_errors c' = c_errors c.
Lemma Rerr_refl : forall c, Rerr c c.
Proof. intro; reflexivity. Qed.
Lemma Rerr_trans : forall a b c, Rerr a b -> Rerr b c -> Rerr a c.
Proof. unfold Rerr; intros; congruence. Qed.

Lemma pe_set_rec_status : forall j s, preserves Rerr (set_rec_status j s).
Proof. intros; unfold set_rec_status. apply (preserves_modws Rerr). intro; reflexivity. Qed.

Lemma request_keeps_log : forall st c c' r,
  (forall g w p, wf_process_workflow_event g w st = Val p -> snd p = []) ->
  request_status_core st c = (c', r) -> c_errors c' = c_errors c.
Proof.
  intros st c c' r Hnu H. rewrite request_status_core_eq in H.
  apply bind_inv in H.
  assert (P1 : preserves Rerr (forM_ (ws_tasks_by_status (c_ws c) ACTIVE_STATUSES) (push_body st))).
  { apply (preserves_forM _ Rerr_refl Rerr_trans). intros [i r0]. unfold push_body.
    pw Rerr_refl Rerr_trans ltac:(apply pe_set_rec_status). }
  destruct H as [[c1 [u [E1 H]]]|[x [E1 _]]]; [|eapply P1; exact E1].
  transitivity (c_errors c1); [|eapply P1; exact E1].
  unfold request_tail in H. apply bind_inv in H.
  destruct H as [[c2 [unr [E2 H]]]|[x [E2 _]]].
  2: { unfold wf_workflow_event_M in E2.
       destruct (wf_process_workflow_event (c_graph c1) (c_ws c1) st) as [[new u2]|e]; inversion E2; reflexivity. }
  assert (Hunr : unr = [] /\ c_errors c2 = c_errors c1).
  { unfold wf_workflow_event_M in E2.
    destruct (wf_process_workflow_event (c_graph c1) (c_ws c1) st) as [[new u2]|e] eqn:Ew; inversion E2; subst.
    split; [exact (Hnu _ _ _ Ew)|reflexivity]. }
  destruct Hunr as [-> Ec2]. transitivity (c_errors c2); [|exact Ec2].
  match type of H with ?m c2 = _ => assert (P : preserves Rerr m) end.
  { unfold log_unreachable. cbn [forM_].
    pw Rerr_refl Rerr_trans ltac:(apply pe_set_rec_status). }
  eapply P; exact H.
Qed.

Definition pause_class (st : status) : Prop := st = S_PAUSING \/ st = S_PAUSED.

(* a pause-class workflow event never completes the workflow, so it reports no unreachable join *)
Lemma pause_event_reports_nothing : forall st g w p, pause_class st ->
  wf_process_workflow_event g w st = Val p -> snd p = [].
Proof.
  intros st g w p Hst H. unfold wf_process_workflow_event in H.
  destruct (negb (string_in (wf_workflow_event_name w st) WORKFLOW_EXECUTION_EVENTS)); [discriminate|].
  destruct (tbl_row wf_table (wstatus w)) as [row|] eqn:Er; [|discriminate].
  destruct (aget String.eqb (wf_workflow_event_name w st) row) as [new|] eqn:Ea; [|inversion H; reflexivity].
  destruct (negb (status_eqb new (wstatus w)) && status_eqb new S_SUCCEEDED) eqn:Eb; [|inversion H; reflexivity].
  exfalso. apply andb_prop in Eb. destruct Eb as [_ Es]. apply status_eqb_eq in Es. subst new.
  assert (St : tbl_step wf_table (wstatus w) (wf_workflow_event_name w st) = Some S_SUCCEEDED)
    by (unfold tbl_step; rewrite Er; exact Ea).
  apply F_wf_succeeded_only_when_completed in St.
  unfold wf_workflow_event_name in St.
  destruct Hst as [-> | ->];
    replace (status_in S_PAUSING (PAUSE_STATUSES ++ CANCEL_STATUSES)) with true in St by reflexivity;
    replace (status_in S_PAUSED (PAUSE_STATUSES ++ CANCEL_STATUSES)) with true in St by reflexivity;
    replace (status_in S_PAUSING [S_RUNNING; S_RESUMING]) with false in St by reflexivity;
    replace (status_in S_PAUSED [S_RUNNING; S_RESUMING]) with false in St by reflexivity;
    rewrite andb_false_r in St; cbn [andb] in St;
    destruct (has_active_tasks w); vm_compute in St; intuition discriminate.
Qed.

(* (1) a pause-class request changes nothing but the workflow status and record statuses *)
Theorem pause_request_changes_statuses_only : forall st c c' r, pause_class st ->
  request_status_core st c = (c', r) -> strip c' = strip c.
Proof.
  intros st c c' r Hst H.
  pose proof (status_request_changes_statuses_and_log_only st c c' r H) as Hs.
  pose proof (request_keeps_log st c c' r (fun g w p => pause_event_reports_nothing st g w p Hst) H) as He.
  destruct c as [sp g inp par ini w er lg out], c' as [sp' g' inp' par' ini' w' er' lg' out'].
  unfold strip_log, strip, set_errors, set_ws in *.
  cbn [c_spec c_graph c_inputs c_parent c_init c_ws c_errors c_log c_output] in *.
  pose proof (f_equal c_ws Hs) as Ew. cbn [c_ws] in Ew. inversion Hs; subst. rewrite Ew. reflexivity.
Qed.

Theorem pause_api_changes_statuses_only : forall ev st c c' r, pause_class st -> c_init c = true ->
  request_workflow_status ev st c = (c', r) -> strip c' = strip c.
Proof.
  intros ev st c c' r Hst Hi H. unfold request_workflow_status, bind in H.
  rewrite (ensure_ws_inited ev c Hi) in H. eapply pause_request_changes_statuses_only; eassumption.
Qed.


Lemma F_task_base_pause_absent : forall s st, pause_class st ->
  tbl_step task_table s (WORKFLOW_EVENT_PREFIX ++ status_name st) = None.
Proof. intros s st [-> | ->]; destruct s; vm_compute; reflexivity. Qed.

Lemma push_noop : forall st l x,
  (forall i r0, In (i, r0) l -> exists r, nth_error (sequence (c_ws x)) i = Some r /\
                                        task_process_event (c_ws x) r (EvWorkflow st) = Val None) ->
  forM_ l (push_body st) x = (x, Val tt).
Proof.
  intros st. induction l as [|[i r0] l IH]; intros x H; [reflexivity|]. cbn [forM_]. unfold bind.
  destruct (H i r0 (or_introl eq_refl)) as [r [Hn Et]].
  rewrite (push_body_run st i r0 x r None Hn Et). rewrite with_seq_same. apply IH.
  intros j rj Hj. apply (H j rj). right; exact Hj.
Qed.

Definition no_item_tables (c : cstate) : Prop :=
  forall i r, In (i, r) (ws_tasks_by_status (c_ws c) ACTIVE_STATUSES) ->
    match get_staged_task (c_ws c) (r_id r) (r_route r) with Some s => s_items s = None | None => True end.

(* what follows the loop, when the loop has moved no record: the machine's answer is written, the joins it reports
   are logged, and the request returns or is refused (refused only when the status did not move) *)
Lemma request_tail_run : forall st c new unr active c' r,
  wf_process_workflow_event (c_graph c) (c_ws c) st = Val (new, unr) ->
  (forall i r0, In (i, r0) active -> nth_error (sequence (c_ws c)) i = Some r0) ->
  request_tail st (wstatus (c_ws c)) active c = (c', r) ->
  log_unreachable unr (set_ws c (ws_set_status (c_ws c) new)) = (c', Val tt) /\ (r = Val tt \/ new = wstatus (c_ws c)).
Proof.
  intros st c new unr active c' r Ew HL H. unfold request_tail, bind at 1, wf_workflow_event_M in H. rewrite Ew in H.
  destruct (log_unreachable_run unr (set_ws c (ws_set_status (c_ws c) new))) as [c1 [E1 W1]].
  unfold bind at 1 in H. rewrite E1 in H. unfold bind at 1, getws in H. cbv beta iota in H. rewrite W1 in H.
  cbn [c_ws set_ws wstatus ws_set_status] in H.
  assert (Hend : forall m : M unit, (m = ret tt \/
            (new = wstatus (c_ws c) /\
             m = (forM_ active (fun '(i, r) => set_rec_status i (r_status r)) ;;;
                  raise (exn_invalid_wf_transition (wstatus (c_ws c)) (WORKFLOW_EVENT_PREFIX ++ status_name st))))) ->
            m c1 = (c', r) -> c1 = c' /\ (r = Val tt \/ new = wstatus (c_ws c))).
  { intros m [-> |[En ->]] Hm.
    - inversion Hm; subst. split; [reflexivity|left; reflexivity].
    - unfold bind in Hm. rewrite restore_loop_run in Hm. inversion Hm; subst c' r. split; [|right; exact En].
      assert (S1 : sequence (c_ws c1) = sequence (c_ws c)) by (rewrite W1; reflexivity).
      rewrite S1, (restore_moved _ (sequence (c_ws c)) (sequence (c_ws c)) HL (moved_refl _ _)), <- S1.
      symmetry. apply with_seq_same. }
  cut (c1 = c' /\ (r = Val tt \/ new = wstatus (c_ws c))); [intros [<- Hr]; split; [exact E1|exact Hr]|].
  eapply Hend; [|exact H].
  destruct (status_eqb st S_PAUSED && status_eqb (wstatus (c_ws c)) S_PAUSING && status_eqb new S_PAUSING); [left; reflexivity|].
  destruct (status_eqb st S_CANCELED && status_eqb (wstatus (c_ws c)) S_CANCELING && status_eqb new S_CANCELING); [left; reflexivity|].
  destruct (negb (status_eqb st (wstatus (c_ws c)))); cbn [andb]; [|left; reflexivity].
  destruct (status_eqb (wstatus (c_ws c)) new) eqn:E; [|left; reflexivity].
  right. split; [symmetry; apply status_eqb_eq; exact E|reflexivity].
Qed.

Theorem pause_of_plain_tasks_changes_workflow_status_only : forall st c c' r, pause_class st ->
  no_item_tables c -> request_status_core st c = (c', r) ->
  c' = set_ws c (ws_set_status (c_ws c) (wstatus (c_ws c'))).
Proof.
  intros st c c' r Hst Hni H. rewrite request_status_core_eq in H. unfold bind at 1 in H.
  assert (HL : forall i r0, In (i, r0) (ws_tasks_by_status (c_ws c) ACTIVE_STATUSES) ->
                 nth_error (sequence (c_ws c)) i = Some r0 /\ ostatus_in (r_status r0) ACTIVE_STATUSES = true)
    by (intros i r0 Hin; apply tasks_by_status_In; exact Hin).
  rewrite push_noop in H.
  2: { intros i r0 Hin. destruct (HL i r0 Hin) as [Hn Ha]. exists r0. split; [exact Hn|].
       unfold task_process_event. cbn [ev_name].
       assert (Ev : string_in (WORKFLOW_EVENT_PREFIX ++ status_name st) WORKFLOW_EXECUTION_EVENTS = true)
         by (destruct Hst as [-> | ->]; vm_compute; reflexivity).
       rewrite Ev. cbn [negb]. unfold task_workflow_event_name.
       assert (Ep : status_in st (PAUSE_STATUSES ++ CANCEL_STATUSES) = true) by (destruct Hst as [-> | ->]; reflexivity).
       rewrite Ep. specialize (Hni i r0 Hin).
       assert (En : (match get_staged_task (c_ws c) (r_id r0) (r_route r0) with
                     | Some s => match s_items s with
                                 | Some items =>
                                     ((WORKFLOW_EVENT_PREFIX ++ status_name st)
                                      ++ (if existsb (fun x => status_in x ACTIVE_STATUSES) items then "_task_active" else "_task_dormant")
                                      ++ (if existsb (fun x => negb (status_in x COMPLETED_STATUSES)) items then "_items_incomplete" else "_items_completed"))%string
                                 | None => (WORKFLOW_EVENT_PREFIX ++ status_name st)%string
                                 end
                     | None => (WORKFLOW_EVENT_PREFIX ++ status_name st)%string
                     end) = (WORKFLOW_EVENT_PREFIX ++ status_name st)%string).
       { destruct (get_staged_task (c_ws c) (r_id r0) (r_route r0)) as [s|]; [rewrite Hni|]; reflexivity. }
       rewrite En. destruct (active_record_has_row r0 Ha) as [row Hrow]. unfold task_table_step. rewrite Hrow.
       pose proof (F_task_base_pause_absent (rstatus r0) st Hst) as F. unfold tbl_step in F. rewrite Hrow in F.
       rewrite F. reflexivity. }
  destruct (wf_process_workflow_event (c_graph c) (c_ws c) st) as [[new unr]|e] eqn:Ew.
  2: { unfold request_tail, bind at 1, wf_workflow_event_M in H. rewrite Ew in H. inversion H; subst.
       symmetry; apply set_status_same. }
  assert (unr = []) as -> by (exact (pause_event_reports_nothing st _ _ _ Hst Ew)).
  destruct (request_tail_run st c new [] _ c' r Ew (fun i r0 Hin => proj1 (HL i r0 Hin)) H) as [E _].
  inversion E; subst c'. reflexivity.
Qed.


Definition ostatus_eqb (a b : option status) : bool :=
  match a, b with Some x, Some y => status_eqb x y | None, None => true | _, _ => false end.

(* a report that completes the task does so with the same status from running and from pausing *)
Lemma F_task_completion_same_when_pausing : forall e t, starts_with "action_" e = true ->
  status_in t COMPLETED_STATUSES = true ->
  (tbl_step task_table S_RUNNING e = Some t <-> tbl_step task_table S_PAUSING e = Some t).
Proof.
  intros e t Hp Hc.
  assert (T1 : table_forall task_table
                 (fun s e t => negb (status_eqb s S_RUNNING && starts_with "action_" e && status_in t COMPLETED_STATUSES)
                               || ostatus_eqb (tbl_step task_table S_PAUSING e) (Some t)) = true) by (vm_compute; reflexivity).
  assert (T2 : table_forall task_table
                 (fun s e t => negb (status_eqb s S_PAUSING && starts_with "action_" e && status_in t COMPLETED_STATUSES)
                               || ostatus_eqb (tbl_step task_table S_RUNNING e) (Some t)) = true) by (vm_compute; reflexivity).
  split; intro H.
  - pose proof (table_forall_step _ _ T1 _ _ _ H) as P. cbv beta in P. rewrite status_eqb_refl, Hp, Hc in P.
    cbn [andb negb orb] in P. destruct (tbl_step task_table S_PAUSING e) as [y|]; [|discriminate].
    simpl in P. apply status_eqb_eq in P. subst; reflexivity.
  - pose proof (table_forall_step _ _ T2 _ _ _ H) as P. cbv beta in P. rewrite status_eqb_refl, Hp, Hc in P.
    cbn [andb negb orb] in P. destruct (tbl_step task_table S_RUNNING e) as [y|]; [|discriminate].
    simpl in P. apply status_eqb_eq in P. subst; reflexivity.
Qed.

(* a report never takes a pausing task back to running *)
Lemma F_task_report_never_resumes : forall e t, starts_with "action_" e = true ->
  tbl_step task_table S_PAUSING e = Some t -> t <> S_RUNNING.
Proof.
  intros e t Hp H.
  assert (T : table_forall task_table
                (fun s e t => negb (status_eqb s S_PAUSING && starts_with "action_" e) || negb (status_eqb t S_RUNNING)) = true)
    by (vm_compute; reflexivity).
  pose proof (table_forall_step _ _ T _ _ _ H) as P. cbv beta in P. rewrite status_eqb_refl, Hp in P.
  cbn [andb negb orb] in P. intro E; subst. discriminate.
Qed.

Lemma item_event_name_action : forall w t route item st n,
  item_event_name w t route item st = Val n -> starts_with "action_" n = true.
Proof.
  intros w t route item st n H. unfold item_event_name in H. unfold starts_with.
  assert (B0 : String.prefix "action_" (ACTION_EVENT_PREFIX ++ status_name st) = true) by apply prefix_app.
  assert (B : forall x, String.prefix "action_" ((ACTION_EVENT_PREFIX ++ status_name st) ++ x) = true)
    by (intro x; rewrite app_assoc_s; apply prefix_app).
  assert (B2 : forall x y, String.prefix "action_" (((ACTION_EVENT_PREFIX ++ status_name st) ++ x) ++ y) = true)
    by (intros x y; rewrite !app_assoc_s; apply prefix_app).
  destruct (negb (status_in st item_requirements)); [injection H as <-; exact B0|].
  destruct (get_staged_task w t route) as [s|]; [|injection H as <-; exact B0].
  destruct (s_items s) as [items|]; [|injection H as <-; exact B0].
  destruct (negb (Nat.ltb item (length items))); [discriminate|]. cbv zeta in H.
  repeat match type of H with (if ?b then _ else _) = _ => destruct b end;
    injection H as <-; apply B2.
Qed.

Lemma item_event_name_staged : forall w w' t route item st, staged w' = staged w ->
  item_event_name w' t route item st = item_event_name w t route item st.
Proof. intros w w' t route item st E. unfold item_event_name, get_staged_task. rewrite E. reflexivity. Qed.

(* the task machine step of a provider report: whether the record is still running or was pushed to
   pausing by the request, the report completes the task in exactly the same cases, with the same
   status (the workflow status itself is not read by the task machine) *)
Theorem task_machine_commutes_with_pause : forall w w' r r' evt t,
  provider_event evt = true -> staged w' = staged w ->
  r_id r' = r_id r -> r_route r' = r_route r -> rstatus r = S_RUNNING -> rstatus r' = S_PAUSING ->
  status_in t COMPLETED_STATUSES = true ->
  (task_process_event w r evt = Val (Some t) <-> task_process_event w' r' evt = Val (Some t)).
Proof.
  intros w w' r r' evt t Hp Es Hi Hr Sr Sr' Hc.
  assert (Rr : exists row, tbl_row task_table S_RUNNING = Some row) by (vm_compute; eexists; reflexivity).
  assert (Rp : exists row, tbl_row task_table S_PAUSING = Some row) by (vm_compute; eexists; reflexivity).
  destruct Rr as [rowr Rr]. destruct Rp as [rowp Rp].
  assert (G : forall n, starts_with "action_" n = true ->
            (task_table_step S_RUNNING n = Val (Some t) <-> task_table_step S_PAUSING n = Val (Some t))).
  { intros n Hn. pose proof (F_task_completion_same_when_pausing n t Hn Hc) as F.
    unfold tbl_step in F. unfold task_table_step. rewrite Rr, Rp in *. destruct F as [F1 F2].
    split; intro H; injection H as H1; [pose proof (F1 H1)|pose proof (F2 H1)]; congruence. }
  unfold task_process_event. rewrite Sr, Sr'. destruct evt as [st|st res|item st res acc|n st]; simpl in Hp; try discriminate.
  - destruct (negb _); [split; intro; discriminate|]. apply G. cbn [ev_name]. apply prefix_app.
  - destruct (negb _); [split; intro; discriminate|]. rewrite Hi, Hr, (item_event_name_staged w w' _ _ _ _ Es).
    destruct (item_event_name w (r_id r) (r_route r) item st) as [n|x] eqn:En; [|split; intro; discriminate].
    apply G. eapply item_event_name_action; exact En.
Qed.


Lemma F_wf_pausing_mirrors_running : forall e x, starts_with "task_" e = true ->
  tbl_step wf_table S_RUNNING e = Some x ->
  match tbl_step wf_table S_PAUSING e with
  | Some y => (x = S_FAILED <-> y = S_FAILED) /\ (x = S_CANCELED <-> y = S_CANCELED) /\
              (x = S_SUCCEEDED -> y = S_PAUSED) /\ In y [S_PAUSING; S_PAUSED; S_FAILED; S_CANCELING; S_CANCELED]
  | None => x = S_RUNNING
  end.
Proof.
  intros e x Hp H.
  assert (T : table_forall wf_table
     (fun s e x => negb (status_eqb s S_RUNNING && starts_with "task_" e) ||
        match tbl_step wf_table S_PAUSING e with
        | Some y => Bool.eqb (status_eqb x S_FAILED) (status_eqb y S_FAILED) &&
                    Bool.eqb (status_eqb x S_CANCELED) (status_eqb y S_CANCELED) &&
                    (negb (status_eqb x S_SUCCEEDED) || status_eqb y S_PAUSED) &&
                    status_in y [S_PAUSING; S_PAUSED; S_FAILED; S_CANCELING; S_CANCELED]
        | None => status_eqb x S_RUNNING
        end) = true) by (vm_compute; reflexivity).
  pose proof (table_forall_step _ _ T _ _ _ H) as P. cbv beta in P. rewrite status_eqb_refl, Hp in P.
  cbn [andb negb orb] in P. destruct (tbl_step wf_table S_PAUSING e) as [y|]; [|apply status_eqb_eq; exact P].
  apply andb_prop in P; destruct P as [P P4]. apply andb_prop in P; destruct P as [P P3].
  apply andb_prop in P; destruct P as [P1 P2].
  apply Bool.eqb_prop in P1. apply Bool.eqb_prop in P2.
  split; [|split; [|split]].
  - split; intro E; apply status_eqb_eq; [rewrite <- P1|rewrite P1]; apply status_eqb_eq; exact E.
  - split; intro E; apply status_eqb_eq; [rewrite <- P2|rewrite P2]; apply status_eqb_eq; exact E.
  - intro E; subst x. cbn [negb orb] in P3. simpl in P3. apply status_eqb_eq; exact P3.
  - apply status_in_In; exact P4.
Qed.

Lemma pausing_is_active :
  status_in S_PAUSING ACTIVE_STATUSES = true /\ status_in S_RUNNING ACTIVE_STATUSES = true /\
  status_in S_PAUSED ACTIVE_STATUSES = false.
Proof. repeat split. Qed.


Theorem resume_polls_the_held_entries : forall st c c' r, request_status_core st c = (c', r) ->
  staged (c_ws c') = staged (c_ws c) /\ staged_filtered (c_ws c') = staged_filtered (c_ws c).
Proof.
  intros st c c' r H. destruct (pctl_request_status_core st c c' r H) as [_ [_ [E _]]].
  split; [exact E|]. unfold staged_filtered. rewrite E. reflexivity.
Qed.


(* t1 --(when "isrunning")--> t2.  The evaluator answers "isrunning" by reading the workflow status
   out of the __state entry of the context. *)
Definition p_ev (s : string) (ctx : dict) : evalres :=
  if String.eqb s "isrunning" then
    EvOk (JBool (match dget "__state" ctx with
                 | Some (JDict d) => match dget "status" d with Some (JStr x) => String.eqb x "running" | _ => false end
                 | _ => false
                 end))
  else EvOk (JBool true).
Definition p_task (nx : list transition_spec) : task_spec :=
  {| ts_action := JNull; ts_input := JNull; ts_with := None; ts_delay := JNull; ts_join := JNull; ts_next := nx |}.
Definition p_spec (cond : string) : wf_spec :=
  {| wf_input := []; wf_vars := []; wf_output := [];
     wf_tasks := [("t1", p_task [{| tr_when := JStr cond; tr_publish := []; tr_do := ["t2"] |}]); ("t2", p_task [])] |}.
Definition p_graph (cond : string) : graph :=
  {| g_nodes := [{| n_id := "t1"; n_barrier := JNull; n_splits := None; n_retry := JNull |};
                 {| n_id := "t2"; n_barrier := JNull; n_splits := None; n_retry := JNull |}];
     g_edges := [{| e_src := "t1"; e_dst := "t2"; e_key := 0; e_ref := 0; e_criteria := [JStr cond] |}] |}.
Definition p_init (cond : string) : cstate :=
  {| c_spec := p_spec cond; c_graph := p_graph cond; c_inputs := []; c_parent := []; c_init := false;
     c_ws := empty_ws; c_errors := []; c_log := []; c_output := None |}.
Definition p_start : list api_op := [OpRequest S_RUNNING; OpGetNext; OpEvent "t1" 0 (EvAction S_RUNNING JNull)].
Definition p_report : api_op := OpEvent "t1" 0 (EvAction S_SUCCEEDED JNull).
(* the unpaused run, and the run paused while t1 is in flight and resumed once at rest *)
Definition p_plain : list api_op := p_start ++ [p_report].
Definition p_paused : list api_op := p_start ++ [OpRequest S_PAUSING; p_report; OpRequest S_RESUMING].
Definition p_obs (c : cstate) := (wstatus (c_ws c), map s_id (staged (c_ws c)), map r_status (sequence (c_ws c))).

(* REFUTED for a condition that reads the workflow status: unpaused, t2 is staged and the workflow
   goes on; paused, the condition is evaluated while the status is "pausing", t2 is never staged, and
   the resume finds nothing left and completes the workflow *)
Theorem pause_not_transparent_for_status_reading_condition :
  p_obs (run_ops p_ev p_plain (p_init "isrunning")) = (S_RUNNING, ["t2"], [Some S_SUCCEEDED]) /\
  p_obs (run_ops p_ev p_paused (p_init "isrunning")) = (S_SUCCEEDED, [], [Some S_SUCCEEDED]).
Proof. split; vm_compute; reflexivity. Qed.

(* the same workflow with a condition that does not read __state: the paused-and-resumed run ends in
   exactly the state of the unpaused run, statuses apart (resuming instead of running) *)
Example pause_transparent_on_blind_example :
  strip (run_ops p_ev p_paused (p_init "ok")) = strip (run_ops p_ev p_plain (p_init "ok")) /\
  p_obs (run_ops p_ev p_paused (p_init "ok")) = (S_RESUMING, ["t2"], [Some S_SUCCEEDED]) /\
  p_obs (run_ops p_ev p_plain (p_init "ok")) = (S_RUNNING, ["t2"], [Some S_SUCCEEDED]).
Proof. repeat split; vm_compute; reflexivity. Qed.

(* and at rest in between: paused, with the report fully processed -- t2 staged, nothing offered *)
Example pause_holds_back_on_blind_example :
  let c := run_ops p_ev (p_start ++ [OpRequest S_PAUSING; p_report]) (p_init "ok") in
  p_obs c = (S_PAUSED, ["t2"], [Some S_SUCCEEDED]) /\ get_next_tasks p_ev c = (c, Val []).
Proof. split; vm_compute; reflexivity. Qed.

Lemma strip_unfold : forall c,
  strip c = set_ws c {| contexts := contexts (c_ws c); routes := routes (c_ws c);
                        sequence := map (fun r => r_set_status r None) (sequence (c_ws c));
                        staged := staged (c_ws c); wstatus := S_UNSET; tasks := tasks (c_ws c);
                        reruns := reruns (c_ws c) |}.
Proof. reflexivity. Qed.
