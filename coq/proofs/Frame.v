(* Frame.v -- every function of the conductor changes the state only through a short list of primitive
   writes.  For a preorder [R] on states, [preserves R] of each function is proved here once, from
   [preserves R] of the primitive writes it reaches; when a section closes each lemma keeps exactly the
   hypotheses its function uses, so the hypothesis list of a lemma is the write footprint of the function.
   Four layers, for relations that admit less and less of the writes one by one:
   Frame (hypotheses W_, lemmas frame_): every write is a hypothesis of its own;
   Staging (S_, sframe_): the writes to staging site by site;
   Handlers (H_, hframe_): "log, then fail the workflow" as a unit;
   Requests (H_rsc, rframe_; with the creation of the workflow state given as well, cframe_): request_status_core
   as a unit.
   A function is walked in the innermost layer it needs, and its lemmas in the outer layers follow from that one.
   An inner layer must not use the coarser hypotheses it stands for, or they would enter the footprint: its
   proofs [clear] them first ([auto] would pick them up otherwise).  Lemmas of the same layer that a walk needs
   are put in the context with [pose proof], where the leaf's [auto] finds them. *)
From Coq Require Import String List Bool ZArith Arith.
From Orq Require Import GenStatuses GenEvents GenTables GenSpecMeta Base State Machines Codec Conductor.
From Orq Require Import Hoare.
Import ListNotations.
Open Scope monad_scope.

Section Frame.
Variable ev : string -> dict -> evalres.
Variable R : cstate -> cstate -> Prop.
Hypothesis R_refl : forall c, R c c.
Hypothesis R_trans : forall a b c, R a b -> R b c -> R a c.

Hypothesis W_log : forall m t r tr res, preserves R (log_entry_error m t r tr res).
Hypothesis W_rec_status : forall i s, preserves R (set_rec_status i s).
Hypothesis W_wf_workflow : forall st, preserves R (wf_workflow_event_M st).
Hypothesis W_wf_task : forall t route st, preserves R (wf_task_event_M t route st).
Hypothesis W_init : preserves R (modify (fun c => set_init c true)).
Hypothesis W_root_ctx : forall d,
  preserves R (modws (fun w => ws_set_routes (ws_set_contexts w (app (contexts w) [d])) (app (routes w) [[]]))).
Hypothesis W_stage : forall s, preserves R (modws (fun w => ws_add_staged w s)).
Hypothesis W_restage : forall f t route,
  preserves R (modws (fun w => ws_set_staged w (staged_update f t route (staged w)))).
Hypothesis W_unstage : forall t route, preserves R (modws (fun w => ws_remove_staged_task w t route)).
Hypothesis W_new_rec : forall r k idx,
  preserves R (modws (fun w => ws_set_tasks (ws_set_sequence w (app (sequence w) [r])) (aset tkey_eqb k idx (tasks w)))).
Hypothesis W_rec_next : forall i k b, preserves R (upd_rec i (fun r => r_set_next r (aset trid_eqb k b (r_next r)))).
Hypothesis W_rec_out : forall i o, preserves R (upd_rec i (fun r => r_set_out r o)).
Hypothesis W_rec_term : forall i b, preserves R (upd_rec i (fun r => r_set_term r b)).
Hypothesis W_rec_retry : forall i rr, preserves R (upd_rec i (fun r => r_set_retry r rr)).
Hypothesis W_new_ctx : forall d, preserves R (modws (fun w => ws_set_contexts w (app (contexts w) [d]))).
Hypothesis W_new_route : forall l, preserves R (modws (fun w => ws_set_routes w (app (routes w) [l]))).
Hypothesis W_output : forall o, preserves R (modify (fun c => set_output c o)).
Hypothesis W_forget_errors : forall p, preserves R (modify (fun c => set_errors c (filter p (c_errors c)))).
Hypothesis W_reruns : forall l, preserves R (modws (fun w => ws_set_reruns w (app (reruns w) [l]))).
Hypothesis W_resuming : preserves R (modws (fun w => ws_set_status w S_RESUMING)).

Create HintDb frame.
Ltac leaf := solve [ auto 2 with nocore frame ].
Ltac walk := pw R_refl R_trans leaf.

Lemma frame_log_error : forall e t r tr, preserves R (log_error e t r tr).
Proof. intros; unfold log_error; apply W_log. Qed.
Local Hint Resolve frame_log_error : frame.

Lemma frame_log_errors : forall es t r tr, preserves R (log_errors es t r tr).
Proof. intros; unfold log_errors; walk. Qed.
Local Hint Resolve frame_log_errors : frame.

Lemma frame_log_unreachable : forall l, preserves R (log_unreachable l).
Proof. intros; unfold log_unreachable; walk. Qed.
Local Hint Resolve frame_log_unreachable : frame.

(* not a hint: the Requests layer has request_status_core as a hypothesis, and its walks must not reach this lemma *)
Lemma frame_request_status_core : forall st, preserves R (request_status_core st).
Proof. intros; unfold request_status_core; walk. Qed.

Lemma frame_render_input : forall specs rt rolling errs, preserves R (render_input ev specs rt rolling errs).
Proof. induction specs as [|[n d] specs IH]; intros; simpl; walk. Qed.
Local Hint Resolve frame_render_input : frame.

Lemma frame_render_vars : forall specs rolling rendered errs, preserves R (render_vars ev specs rolling rendered errs).
Proof. induction specs as [|[n d] specs IH]; intros; simpl; walk. Qed.
Local Hint Resolve frame_render_vars : frame.

Lemma frame_get_task_context : forall idxs, preserves R (get_task_context idxs).
Proof. intros; unfold get_task_context; walk. Qed.
Local Hint Resolve frame_get_task_context : frame.

Lemma frame_render_task : forall ts ctx, preserves R (render_task ev ts ctx).
Proof. intros; unfold render_task; walk. Qed.
Local Hint Resolve frame_render_task : frame.

Lemma frame_setup_retry : forall t idxs, preserves R (setup_retry ev t idxs).
Proof. intros; unfold setup_retry; walk. Qed.
Local Hint Resolve frame_setup_retry : frame.

Lemma frame_evaluate_route : forall e r, preserves R (evaluate_route e r).
Proof. intros; unfold evaluate_route; walk. Qed.
Local Hint Resolve frame_evaluate_route : frame.

Lemma frame_evaluate_task_retry : forall r ctx, preserves R (evaluate_task_retry ev r ctx).
Proof. intros; unfold evaluate_task_retry; walk. Qed.
Local Hint Resolve frame_evaluate_task_retry : frame.

Lemma frame_finalize_context : forall ts e ctx, preserves R (finalize_context ev ts e ctx).
Proof. intros; unfold finalize_context; walk. Qed.
Local Hint Resolve frame_finalize_context : frame.

Lemma frame_get_rec : forall i, preserves R (get_rec i).
Proof. intros; unfold get_rec; walk. Qed.
Local Hint Resolve frame_get_rec : frame.

Lemma frame_merge_term_contexts : forall l acc, preserves R (merge_term_contexts l acc).
Proof. induction l as [|[i r] l IH]; intros; simpl; walk. Qed.
Local Hint Resolve frame_merge_term_contexts : frame.

(* The writes to staging, site by site, for relations that admit only some of them: entries are added for the roots,
   for the target of a transition (not ready), and for a task that runs again (retry, rerun: ready); an entry is
   rewritten in its items, its flags, or -- on arrival of a further transition -- its contexts and predecessors.
   W_stage / W_restage are cleared in the proofs of this section, so that the closed lemmas do not ask for them. *)
Section Staging.
Hypothesis S_root : forall t, preserves R (modws (fun w => ws_add_staged w (mk_staged t 0 [0] [] true None))).
Hypothesis S_arrival : forall nt route out backref idx,
  preserves R (modws (fun w => ws_add_staged w (mk_staged nt route out [(backref, idx)] false None))).
Hypothesis S_again : forall t route ins prev rt,
  preserves R (modws (fun w => ws_add_staged w (mk_staged t route ins prev true rt))).
Hypothesis S_items : forall o t route,
  preserves R (modws (fun w => ws_set_staged w (staged_update (fun e => s_set_items e o) t route (staged w)))).
Hypothesis S_items_map : forall (g : list status -> list status) t route,
  preserves R (modws (fun w => ws_set_staged w
    (staged_update (fun e => s_set_items e (match s_items e with Some l => Some (g l) | None => None end)) t route (staged w)))).
Hypothesis S_completed : forall b t route,
  preserves R (modws (fun w => ws_set_staged w (staged_update (fun s => s_set_completed s b) t route (staged w)))).
Hypothesis S_run_on_fail : forall b t route,
  preserves R (modws (fun w => ws_set_staged w (staged_update (fun s => s_set_run_on_fail s b) t route (staged w)))).
Hypothesis S_ready : forall b t route,
  preserves R (modws (fun w => ws_set_staged w (staged_update (fun s => s_set_ready s b) t route (staged w)))).
Hypothesis S_arrival_upd : forall out backref idx t route,
  preserves R (modws (fun w => ws_set_staged w
    (staged_update (fun s => s_set_completed (s_set_items (s_set_in_prev s (app (s_in s) out)
                                                             (aset trid_eqb backref idx (s_prev s))) None) false)
                   t route (staged w)))).

(* an entry staged ready is a root, or else a task that runs again: S_root is tried before S_again, which it is an
   instance of *)
Ltac sleaf :=
  first [ solve [ auto 2 using S_root, S_arrival, S_items, S_items_map, S_completed, S_run_on_fail, S_ready, S_arrival_upd
                    with nocore frame ]
        | apply S_again ].

Lemma sframe_next_task_for : forall s, preserves R (next_task_for ev s).
Proof. intros; unfold next_task_for; clear W_stage W_restage; pw R_refl R_trans sleaf. Qed.
Local Hint Resolve sframe_next_task_for : frame.

(* For relations that an exception handler keeps only as a whole (between the log entry and the failure of the
   workflow the relation may not hold): the handlers are hypotheses, so are the two notes that are logged on their
   own; W_log / W_wf_workflow are cleared in the proofs, so that the closed lemmas do not ask for them. *)
Section Handlers.
Hypothesis H_fail : forall A e t r tr (k : unit -> M A), (forall u, preserves R (k u)) ->
  preserves R (log_error e t r tr ;;; (u <- request_status_core S_FAILED ;; k u)).
Hypothesis H_fails : forall A e0 es t r tr (k : unit -> M A), (forall u, preserves R (k u)) ->
  preserves R (log_errors (e0 :: es) t r tr ;;; (u <- request_status_core S_FAILED ;; k u)).
Hypothesis H_fails0 : forall e0 es t r tr,
  preserves R (log_errors (e0 :: es) t r tr ;;; request_status_core S_FAILED).
Hypothesis H_unreachable : forall l, preserves R (log_unreachable l).
Hypothesis H_failed_action : forall t res,
  preserves R (log_entry_error "Execution failed. See result for details."%string (Some t) None None res).

Ltac hleaf := first [ sleaf | solve [ auto 2 using H_unreachable, H_failed_action with nocore frame ] ].
Ltac hwalk := clear W_log W_wf_workflow W_stage W_restage; pwh R_refl R_trans H_fail H_fails H_fails0 hleaf.

Lemma hframe_ensure_ws : preserves R (ensure_ws ev).
Proof. unfold ensure_ws; hwalk. Qed.

Lemma hframe_add_task_state : forall t r i p, preserves R (add_task_state ev t r i p).
Proof. intros; unfold add_task_state; hwalk. Qed.

Lemma hframe_process_transition : forall t route idx ts ctx e,
  preserves R (process_transition ev t route idx ts ctx e).
Proof. intros; unfold process_transition; hwalk. Qed.

Lemma hframe_update_task_state_fuel : forall fuel t route evt,
  preserves R (update_task_state_fuel ev fuel t route evt).
Proof.
  induction fuel as [|fuel IH]; intros t route evt; simpl; [apply (preserves_raise _ R_refl)|].
  pose proof hframe_ensure_ws; pose proof hframe_add_task_state; pose proof hframe_process_transition. hwalk.
Qed.

Lemma hframe_update_task_state : forall t route evt, preserves R (update_task_state ev t route evt).
Proof. intros; apply hframe_update_task_state_fuel. Qed.
End Handlers.

(* For relations that a status request keeps only as a whole (it may write record statuses that the relation does
   not admit one by one): request_status_core is a hypothesis; W_rec_status and W_wf_workflow are cleared in the proofs,
   so that the closed lemmas do not ask for them.  update_task_state is left out: it sets a record status by itself. *)
Section Requests.
Hypothesis H_rsc : forall st, preserves R (request_status_core st).

Lemma rframe_fail : forall A (pre : M unit) (k : unit -> M A), preserves R pre -> (forall u, preserves R (k u)) ->
  preserves R (pre ;;; (u <- request_status_core S_FAILED ;; k u)).
Proof.
  intros A pre k Hp Hk. apply (preserves_bind _ R_trans); [exact Hp|intros _].
  apply (preserves_bind _ R_trans); [apply H_rsc|exact Hk].
Qed.
Lemma rframe_fail0 : forall pre : M unit, preserves R pre -> preserves R (pre ;;; request_status_core S_FAILED).
Proof. intros pre Hp. apply (preserves_bind _ R_trans); [exact Hp|intros _; apply H_rsc]. Qed.

Ltac rleaf := first [ sleaf | solve [ auto 3 using rframe_fail, rframe_fail0, H_rsc with nocore frame ] ].
Ltac rwalk := clear W_rec_status W_wf_workflow W_stage W_restage; pw R_refl R_trans rleaf.

Lemma rframe_ensure_ws : preserves R (ensure_ws ev).
Proof. apply hframe_ensure_ws; rleaf. Qed.

Lemma rframe_add_task_state : forall t r i p, preserves R (add_task_state ev t r i p).
Proof. intros; apply hframe_add_task_state; rleaf. Qed.

Lemma rframe_process_transition : forall t route idx ts ctx e,
  preserves R (process_transition ev t route idx ts ctx e).
Proof. intros; apply hframe_process_transition; rleaf. Qed.

Lemma rframe_request_task_rerun : forall t route reset, preserves R (request_task_rerun ev t route reset).
Proof. intros; pose proof rframe_add_task_state. unfold request_task_rerun; rwalk. Qed.

(* the calls that begin by creating the workflow state, or rerun tasks one by one, for relations that keep these two
   steps for reasons of their own (the first stages the roots only) *)
Section Created.
Hypothesis H_ensure : preserves R (ensure_ws ev).
Hypothesis H_task_rerun : forall t route reset, preserves R (request_task_rerun ev t route reset).

Lemma cframe_request_workflow_status : forall st, preserves R (request_workflow_status ev st).
Proof. intro st. apply (preserves_bind _ R_trans); [exact H_ensure|intro; apply H_rsc]. Qed.

Lemma cframe_get_next_tasks : preserves R (get_next_tasks ev).
Proof. pose proof H_ensure. unfold get_next_tasks; rwalk. Qed.

Lemma cframe_render_workflow_output : preserves R (render_workflow_output ev).
Proof. pose proof H_ensure. unfold render_workflow_output, get_workflow_terminal_context; rwalk. Qed.

Lemma cframe_request_workflow_rerun : forall reqs, preserves R (request_workflow_rerun ev reqs).
Proof.
  intros; pose proof H_ensure; pose proof H_task_rerun. unfold request_workflow_rerun; rwalk.
Qed.
End Created.

Lemma rframe_request_workflow_status : forall st, preserves R (request_workflow_status ev st).
Proof. exact (cframe_request_workflow_status rframe_ensure_ws). Qed.

Lemma rframe_get_next_tasks : preserves R (get_next_tasks ev).
Proof. exact (cframe_get_next_tasks rframe_ensure_ws). Qed.

Lemma rframe_render_workflow_output : preserves R (render_workflow_output ev).
Proof. exact (cframe_render_workflow_output rframe_ensure_ws). Qed.

Lemma rframe_request_workflow_rerun : forall reqs, preserves R (request_workflow_rerun ev reqs).
Proof. exact (cframe_request_workflow_rerun rframe_ensure_ws rframe_request_task_rerun). Qed.
End Requests.
End Staging.

Ltac from_writes := intros; first [apply W_stage | apply W_restage | apply frame_request_status_core].

Lemma frame_next_task_for : forall s, preserves R (next_task_for ev s).
Proof. apply sframe_next_task_for; from_writes. Qed.

Lemma frame_fail : forall A (pre : M unit) (k : unit -> M A), preserves R pre -> (forall u, preserves R (k u)) ->
  preserves R (pre ;;; (u <- request_status_core S_FAILED ;; k u)).
Proof. apply rframe_fail; from_writes. Qed.
Lemma frame_fail0 : forall pre : M unit, preserves R pre -> preserves R (pre ;;; request_status_core S_FAILED).
Proof. apply rframe_fail0; from_writes. Qed.

Lemma frame_ensure_ws : preserves R (ensure_ws ev).
Proof. apply rframe_ensure_ws; from_writes. Qed.

Lemma frame_request_workflow_status : forall st, preserves R (request_workflow_status ev st).
Proof. apply rframe_request_workflow_status; from_writes. Qed.

Lemma frame_get_next_tasks : preserves R (get_next_tasks ev).
Proof. apply rframe_get_next_tasks; from_writes. Qed.

Lemma frame_add_task_state : forall t r i p, preserves R (add_task_state ev t r i p).
Proof. apply rframe_add_task_state; from_writes. Qed.

Lemma frame_process_transition : forall t route idx ts ctx e,
  preserves R (process_transition ev t route idx ts ctx e).
Proof. apply rframe_process_transition; from_writes. Qed.

Lemma frame_update_task_state_fuel : forall fuel t route evt,
  preserves R (update_task_state_fuel ev fuel t route evt).
Proof. intros; apply hframe_update_task_state_fuel; first [from_writes | auto 3 using frame_fail, frame_fail0 with nocore frame]. Qed.

Lemma frame_update_task_state : forall t route evt, preserves R (update_task_state ev t route evt).
Proof. intros; apply frame_update_task_state_fuel. Qed.

Lemma frame_render_workflow_output : preserves R (render_workflow_output ev).
Proof. apply rframe_render_workflow_output; from_writes. Qed.

Lemma frame_request_task_rerun : forall t route reset, preserves R (request_task_rerun ev t route reset).
Proof. apply rframe_request_task_rerun; from_writes. Qed.

Lemma frame_request_workflow_rerun : forall reqs, preserves R (request_workflow_rerun ev reqs).
Proof. apply rframe_request_workflow_rerun; from_writes. Qed.

End Frame.
