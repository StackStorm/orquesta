(* C20Proofs.v -- the documented shorthands denote what their long forms denote (model level).
   Specification-side definitions (rendering of a list of pairs, the value class) and all lemmas;
   props/C20.v restates the property theorems. *)
From Coq Require Import String Ascii List Bool ZArith Arith Lia DecimalString.
From Coq Require Decimal DecimalFacts DecimalPos DecimalZ.
From Orq Require Import GenParams Base State Params ListFacts.
Import ListNotations.
Open Scope string_scope.

Fixpoint all_chars (p : ascii -> bool) (s : string) : bool :=
  match s with "" => true | String c s' => p c && all_chars p s' end.

Definition no_char (q : ascii) (s : string) : bool := all_chars (fun c => negb (Ascii.eqb c q)) s.
Definition all_space (s : string) : bool := all_chars is_space s.
Definition is_sepchar (c : ascii) : bool := is_ch 32 c || is_ch 44 c || is_ch 59 c.
Definition sep_ok (s : string) : bool := all_chars is_sepchar s.
Definition word_key (k : string) : bool := negb (String.eqb k "") && all_chars is_word k.

Definition starts_space (s : string) : bool := match s with String c _ => is_space c | "" => false end.
Fixpoint ends_space (s : string) : bool :=
  match s with
  | "" => false
  | String c s' => match s' with "" => is_space c | _ => ends_space s' end
  end.
Fixpoint ends_with (suf s : string) : bool :=
  String.eqb s suf || match s with "" => false | String _ s' => ends_with suf s' end.

(* a digit run that JSON accepts as an integer part: non-empty, no leading zero unless it is "0" *)
Definition canon_digits (ds : string) : bool :=
  all_chars is_digit ds && negb (String.eqb ds "") && negb (leading_zero ds).
Definition digits1 (ds : string) : bool := all_chars is_digit ds && negb (String.eqb ds "").

(* body of an expression: no newline, the closing pair occurs only at the very end *)
Fixpoint body_ok (c1 c2 : ascii) (body : string) : bool :=
  match body with
  | "" => true
  | String a b' =>
      negb (Ascii.eqb a ch_nl)
      && negb (Ascii.eqb a c1 && match b' with "" => Ascii.eqb c1 c2 | String b _ => Ascii.eqb b c2 end)
      && body_ok c1 c2 b'
  end.

(* the values that have both notations *)
Inductive ival :=
  | VInt (neg : bool) (digits : string)
  | VDec (neg : bool) (ip fp : string)
  | VBool (b : bool) (spelling : string)
  | VNull
  | VDq (content : string)
  | VSq (content : string)
  | VYaql (body : string)
  | VJinja (body : string).

Definition sign (neg : bool) : string := if neg then "-" else "".

Definition text (v : ival) : string :=
  match v with
  | VInt n ds => sign n ++ ds
  | VDec n ip fp => sign n ++ ip ++ String "." fp
  | VBool _ sp => sp
  | VNull => "null"
  | VDq c => String ch_dq (c ++ str1 ch_dq)
  | VSq c => String ch_sq (c ++ str1 ch_sq)
  | VYaql b => String "<" (String "%" (b ++ "%>"))
  | VJinja b => String "{" (String "{" (b ++ "}}"))
  end.

(* what the long form carries *)
Definition denote (v : ival) : json :=
  match v with
  | VInt n ds => JInt (z_of_numeral (sign n ++ ds))
  | VDec n ip fp => JFloat (sign n ++ ip ++ String "." fp)
  | VBool b _ => JBool b
  | VNull => JNull
  | VDq c => JStr c
  | VSq c => JStr c
  | VYaql b => JStr (String "<" (String "%" (b ++ "%>")))
  | VJinja b => JStr (String "{" (String "{" (b ++ "}}")))
  end.

Definition ok_val (v : ival) : bool :=
  match v with
  | VInt _ ds => canon_digits ds
  | VDec _ ip fp => canon_digits ip && digits1 fp
  | VBool b sp => String.eqb (lower sp) (if b then "true" else "false")
  | VNull => true
  | VDq c => no_char ch_dq c && negb (curly c) && negb (first_is ch_sq c)
             && negb (ends_with (str1 ch_sq) c) && negb (ends_with (String ch_sq (str1 ch_nl)) c)
  | VSq c => no_char ch_sq c && negb (curly c)
  | VYaql b => body_ok "%" ">" b
  | VJinja b => body_ok "}" "}" b
  end.

Definition entry := (string * ival * string)%type.      (* key, value, separator after it *)

Fixpoint render (l : list entry) : string :=
  match l with
  | [] => ""
  | (k, v, sep) :: l' => k ++ String "=" (text v ++ sep ++ render l')
  end.

Definition entry_ok (e : entry) : bool :=
  let '(k, v, sep) := e in word_key k && ok_val v && sep_ok sep.

(* every separator but the last is non-empty *)
Fixpoint seps_ok (l : list entry) : bool :=
  match l with
  | [] => true
  | (_, _, sep) :: l' => match l' with [] => true | _ => negb (String.eqb sep "") end && seps_ok l'
  end.

Definition denote_all (l : list entry) : list (string * json) :=
  map (fun e : entry => let '(k, v, _) := e in (k, denote v)) l.

(* A character of a class differs from every character outside it; the second premise is a
   computation on a literal. *)
Lemma class_neq : forall (p : ascii -> bool) c q, p c = true -> p q = false -> Ascii.eqb c q = false.
Proof. intros p c q Hc Hq. apply Ascii.eqb_neq. intros ->. congruence. Qed.

Lemma class_neq_sym : forall (p : ascii -> bool) c q, p c = true -> p q = false -> Ascii.eqb q c = false.
Proof. intros p c q Hc Hq. rewrite Ascii.eqb_sym. exact (class_neq p c q Hc Hq). Qed.

Lemma ch_is : forall k c, is_ch k c = true -> c = ascii_of_nat k.
Proof. intros k c H. apply Nat.eqb_eq in H. rewrite <- H. symmetry. apply ascii_nat_embedding. Qed.

Lemma class_not_ch : forall (p : ascii -> bool) k c, p c = true -> p (ascii_of_nat k) = false -> is_ch k c = false.
Proof.
  intros p k c Hc Hk. destruct (is_ch k c) eqn:E; [apply ch_is in E; congruence | reflexivity].
Qed.

(* Two classes are disjoint because they are disjoint intervals of [code c]. *)
Lemma in_range_iff : forall lo hi c, in_range lo hi c = true <-> lo <= code c <= hi.
Proof. intros. unfold in_range. rewrite andb_true_iff, !Nat.leb_le. tauto. Qed.

Lemma range_out : forall lo hi c, code c < lo \/ hi < code c -> in_range lo hi c = false.
Proof.
  intros lo hi c H. destruct (in_range lo hi c) eqn:E; [apply in_range_iff in E; lia | reflexivity].
Qed.

Lemma word_out : forall c,
  code c < 48 \/ 57 < code c < 65 \/ 90 < code c < 95 \/ code c = 96 \/ 122 < code c -> is_word c = false.
Proof.
  intros c H. unfold is_word, is_digit, is_upper, is_lower. rewrite !range_out by lia.
  apply Nat.eqb_neq. lia.
Qed.

Lemma space_code : forall c, is_space c = true -> 9 <= code c <= 13 \/ 28 <= code c <= 32.
Proof. intros c H. unfold is_space in H. rewrite orb_true_iff, !in_range_iff in H. exact H. Qed.

Lemma space_out : forall c, 13 < code c < 28 \/ 32 < code c -> is_space c = false.
Proof. intros c H. unfold is_space. now rewrite !range_out by lia. Qed.

(* the characters whose lower-case form is a lower-case letter are the letters *)
Definition is_letter (c : ascii) : bool := is_lower (lower_char c).

Lemma letter_code : forall c, is_letter c = true -> 65 <= code c <= 90 \/ 97 <= code c <= 122.
Proof.
  intros c H. unfold is_letter, lower_char in H. destruct (is_upper c) eqn:U.
  - left. now apply in_range_iff.
  - right. now apply in_range_iff.
Qed.

Lemma sep_is : forall c, is_sepchar c = true -> c = " "%char \/ c = ","%char \/ c = ";"%char.
Proof.
  intros c H. unfold is_sepchar in H. rewrite !orb_true_iff in H.
  destruct H as [[H | H] | H]; apply ch_is in H; [left | right; left | right; right]; exact H.
Qed.

Lemma word_not_eq : forall c, is_word c = true -> is_ch 61 c = false.
Proof. intros c H. exact (class_not_ch is_word 61 c H eq_refl). Qed.

Lemma digit_not_space : forall c, is_digit c = true -> is_space c = false.
Proof. intros c H. apply in_range_iff in H. apply space_out. lia. Qed.

Lemma digit_lower : forall c, is_digit c = true -> lower_char c = c.
Proof.
  intros c H. apply in_range_iff in H. unfold lower_char, is_upper. now rewrite range_out by lia.
Qed.

Lemma digit_not_jws : forall c, is_digit c = true -> is_jws c = false.
Proof. intros c H. unfold is_jws. now rewrite !(class_not_ch is_digit _ c H) by reflexivity. Qed.

(* a character that can stand in an unquoted scalar *)
Definition plain (c : ascii) : bool :=
  negb (Ascii.eqb c ch_dq) && negb (Ascii.eqb c ch_sq) && negb (is_space c).

Lemma digit_plain : forall c, is_digit c = true -> plain c = true.
Proof.
  intros c H. unfold plain.
  now rewrite (class_neq is_digit c ch_dq H), (class_neq is_digit c ch_sq H), (digit_not_space c H).
Qed.

Lemma letter_plain : forall c, is_letter c = true -> plain c = true.
Proof.
  intros c H. unfold plain. rewrite (class_neq is_letter c ch_dq H), (class_neq is_letter c ch_sq H) by reflexivity.
  apply letter_code in H. now rewrite space_out by lia.
Qed.

Lemma all_chars_app : forall p a b, all_chars p (a ++ b) = all_chars p a && all_chars p b.
Proof. induction a; simpl; intros; [reflexivity | rewrite IHa; now rewrite andb_assoc]. Qed.

Lemma all_chars_impl : forall (p q : ascii -> bool) s,
  (forall c, p c = true -> q c = true) -> all_chars p s = true -> all_chars q s = true.
Proof.
  induction s; simpl; intros Hpq H; [reflexivity|].
  apply andb_true_iff in H as [H1 H2]. rewrite (Hpq _ H1), (IHs Hpq H2). reflexivity.
Qed.

Lemma span_app : forall p ds r, all_chars p ds = true ->
  match r with "" => true | String c _ => negb (p c) end = true ->
  span p (ds ++ r) = (ds, r).
Proof.
  induction ds; simpl; intros r H Hr.
  - destruct r; simpl; [reflexivity|]. apply negb_true_iff in Hr. now rewrite Hr.
  - apply andb_true_iff in H as [H1 H2]. rewrite H1, (IHds r H2 Hr). reflexivity.
Qed.

Lemma span_spec : forall p s w r, span p s = (w, r) -> s = w ++ r /\ all_chars p w = true.
Proof.
  induction s; simpl; intros w r H.
  - inversion H; subst; auto.
  - destruct (p a) eqn:E.
    + destruct (span p s) as [a0 b0] eqn:E2. inversion H; subst.
      destruct (IHs a0 r eq_refl) as [-> Hw]. simpl. now rewrite E, Hw.
    + inversion H; subst; auto.
Qed.

Lemma lstrip_nospace : forall s, starts_space s = false -> lstrip s = s.
Proof. destruct s; simpl; intros H; [reflexivity | now rewrite H]. Qed.

Lemma rstrip_spaces : forall w, all_space w = true -> rstrip w = "".
Proof.
  induction w; simpl; intros H; [reflexivity|].
  apply andb_true_iff in H as [H1 H2]. rewrite (IHw H2), H1. reflexivity.
Qed.

Lemma rstrip_app_spaces : forall s w, all_space w = true -> rstrip (s ++ w) = rstrip s.
Proof.
  induction s; simpl; intros w H; [now apply rstrip_spaces | now rewrite (IHs w H)].
Qed.

Lemma rstrip_id : forall s, ends_space s = false -> rstrip s = s.
Proof.
  induction s; simpl; intros H; [reflexivity|].
  destruct s as [|b s'].
  - simpl. now rewrite H.
  - rewrite (IHs H). reflexivity.
Qed.

Lemma lstrip_app_spaces : forall w s, all_space w = true -> lstrip (w ++ s) = lstrip s.
Proof.
  induction w; simpl; intros s H; [reflexivity|].
  apply andb_true_iff in H as [H1 H2]. now rewrite H1, (IHw s H2).
Qed.

Lemma ends_space_snoc : forall a x, ends_space (a ++ str1 x) = is_space x.
Proof.
  induction a; simpl; intros x; [reflexivity|].
  destruct (a0 ++ str1 x) eqn:E; [destruct a0; discriminate E|]. rewrite <- E. apply IHa.
Qed.

Lemma strip_core : forall t w, starts_space t = false -> ends_space t = false -> all_space w = true ->
  strip (t ++ w) = t.
Proof.
  intros t w H1 H2 Hw. unfold strip.
  destruct t as [|c t'].
  - simpl. assert (E : lstrip w = "").
    { clear -Hw. induction w; simpl in *; [reflexivity|].
      apply andb_true_iff in Hw as [A B]. rewrite A. auto. }
    now rewrite E.
  - assert (E : lstrip (String c t' ++ w) = String c t' ++ w) by (apply lstrip_nospace; exact H1).
    rewrite E, rstrip_app_spaces by exact Hw. now apply rstrip_id.
Qed.

Lemma strip_id : forall t, starts_space t = false -> ends_space t = false -> strip t = t.
Proof. intros t H1 H2. rewrite <- (app_nil_r_s t) at 1. now apply strip_core. Qed.

Lemma count_char_app : forall q a b, count_char q (a ++ b) = count_char q a + count_char q b.
Proof. induction a; simpl; intros; [reflexivity | rewrite IHa; lia]. Qed.

Lemma count_none : forall q s, no_char q s = true -> count_char q s = 0.
Proof.
  induction s; simpl; intros H; [reflexivity|].
  apply andb_true_iff in H as [H1 H2]. apply negb_true_iff in H1. rewrite H1, (IHs H2). reflexivity.
Qed.

Lemma rm_first_other : forall q s, first_is q s = false -> rm_first q s = s.
Proof. destruct s; simpl; intros H; [reflexivity | now rewrite H]. Qed.

Lemma rm_last_dollar_snoc : forall q c, no_char q c = true -> rm_last_dollar q (c ++ str1 q) = c.
Proof.
  induction c; simpl; intros H.
  - now rewrite Ascii.eqb_refl.
  - apply andb_true_iff in H as [H1 H2]. apply negb_true_iff in H1. rewrite H1. simpl.
    now rewrite (IHc H2).
Qed.

Lemma rm_last_dollar_keep : forall q s,
  ends_with (str1 q) s = false -> ends_with (String q (str1 ch_nl)) s = false -> rm_last_dollar q s = s.
Proof.
  induction s; intros H1 H2; [reflexivity|].
  simpl in H1, H2. apply orb_false_iff in H1 as [A1 B1]. apply orb_false_iff in H2 as [A2 B2].
  simpl. destruct (Ascii.eqb a q) eqn:E.
  - apply Ascii.eqb_eq in E; subst a.
    assert (N1 : String.eqb s "" = false).
    { apply String.eqb_neq. intros ->. apply String.eqb_neq in A1. now apply A1. }
    assert (N2 : String.eqb s (str1 ch_nl) = false).
    { apply String.eqb_neq. intros ->. apply String.eqb_neq in A2. now apply A2. }
    rewrite N1, N2. simpl. now rewrite (IHs B1 B2).
  - simpl. now rewrite (IHs B1 B2).
Qed.

Lemma ends_with_snoc_other : forall suf a x y, suf = str1 y \/ (exists z, suf = String z (str1 y)) ->
  Ascii.eqb x y = false -> ends_with suf (a ++ str1 x) = false.
Proof.
  intros suf a x y Hs Hxy. induction a; simpl.
  - destruct Hs as [-> | [z ->]]; simpl.
    + rewrite Hxy. reflexivity.
    + destruct (Ascii.eqb x z); reflexivity.
  - rewrite IHa. rewrite orb_false_r.
    destruct Hs as [-> | [z ->]]; simpl.
    + destruct (Ascii.eqb a y); [|reflexivity]. destruct a0; reflexivity.
    + destruct (Ascii.eqb a z); [|reflexivity].
      destruct a0 as [|b a1]; simpl; [now rewrite Hxy|].
      destruct (Ascii.eqb b y); [|reflexivity]. destruct a1; reflexivity.
Qed.

Lemma rm_last_dollar_snoc_other : forall q a x, Ascii.eqb x q = false -> Ascii.eqb x ch_nl = false ->
  rm_last_dollar q (a ++ str1 x) = a ++ str1 x.
Proof.
  intros q a x H1 H2. apply rm_last_dollar_keep.
  - exact (ends_with_snoc_other _ a x q (or_introl eq_refl) H1).
  - exact (ends_with_snoc_other _ a x ch_nl (or_intror (ex_intro _ q eq_refl)) H2).
Qed.

Lemma first_is_snoc_cons : forall q c a x, first_is q (String c (a ++ str1 x)) = Ascii.eqb c q.
Proof. reflexivity. Qed.

Lemma until_char_app : forall q c r, no_char q c = true -> until_char q (c ++ String q r) = Some (c, r).
Proof.
  induction c; simpl; intros r H.
  - now rewrite Ascii.eqb_refl.
  - apply andb_true_iff in H as [H1 H2]. apply negb_true_iff in H1. now rewrite H1, (IHc r H2).
Qed.

Lemma until_close_cons2 : forall c1 c2 a b s,
  until_close c1 c2 (String a (String b s)) =
  if Ascii.eqb a c1 && Ascii.eqb b c2 then Some ("", s)
  else if Ascii.eqb a ch_nl then None
  else match until_close c1 c2 (String b s) with Some (x, y) => Some (String a x, y) | None => None end.
Proof. reflexivity. Qed.

Lemma until_close_app : forall c1 c2 body r, body_ok c1 c2 body = true ->
  until_close c1 c2 (body ++ String c1 (String c2 r)) = Some (body, r).
Proof.
  induction body; intros r H.
  - simpl. now rewrite !Ascii.eqb_refl.
  - simpl in H. apply andb_true_iff in H as [H H3]. apply andb_true_iff in H as [H1 H2].
    apply negb_true_iff in H1. apply negb_true_iff in H2.
    assert (IH := IHbody r H3).
    destruct body as [|b body'].
    + simpl. simpl in H2. rewrite H2, H1. simpl. now rewrite !Ascii.eqb_refl.
    + change ((String a (String b body')) ++ String c1 (String c2 r))
        with (String a (String b (body' ++ String c1 (String c2 r)))).
      change ((String b body') ++ String c1 (String c2 r))
        with (String b (body' ++ String c1 (String c2 r))) in IH.
      rewrite until_close_cons2, H2, H1, IH. reflexivity.
Qed.


Lemma scan_skip : forall m r, scan (String.length m) "" (m ++ r) = scan 0 "" r.
Proof. induction m; simpl; intros r; [reflexivity | apply IHm]. Qed.

Lemma scan_key : forall k acc r, all_chars is_word k = true -> scan 0 acc (k ++ r) = scan 0 (acc ++ k) r.
Proof.
  induction k; simpl; intros acc r H.
  - now rewrite app_nil_r_s.
  - apply andb_true_iff in H as [H1 H2]. rewrite H1, (IHk _ r H2), app_assoc_s. reflexivity.
Qed.

Lemma scan_eq : forall key s', String.eqb key "" = false ->
  scan 0 key (String "=" s') =
  match m_value s' with
  | Some (v, _) => (key, v) :: scan (String.length v) "" s'
  | None => scan 0 "" s'
  end.
Proof. intros key s' H. simpl. rewrite H. reflexivity. Qed.

Definition inert (c : ascii) : bool := negb (is_word c) && negb (is_ch 61 c).

Lemma scan_inert : forall p r, all_chars inert p = true -> scan 0 "" (p ++ r) = scan 0 "" r.
Proof.
  induction p; simpl; intros r H; [reflexivity|].
  apply andb_true_iff in H as [H1 H2]. unfold inert in H1. apply andb_true_iff in H1 as [A B].
  apply negb_true_iff in A. apply negb_true_iff in B. rewrite A, B. simpl. now apply IHp.
Qed.

Lemma spaces_inert : forall w, all_space w = true -> all_chars inert w = true.
Proof.
  intros w. apply all_chars_impl. intros c H. unfold inert.
  rewrite (class_not_ch is_space 61 c H) by reflexivity. apply space_code in H. now rewrite word_out by lia.
Qed.

Lemma seps_inert : forall w, sep_ok w = true -> all_chars inert w = true.
Proof. intros w. apply all_chars_impl. intros c H. now destruct (sep_is c H) as [-> | [-> | ->]]. Qed.

Lemma scan_prefix : forall p key r, no_char "=" p = true -> scan 0 key (p ++ String " " r) = scan 0 "" r.
Proof.
  induction p; intros key r H.
  - reflexivity.
  - simpl in H. apply andb_true_iff in H as [H1 H2]. apply negb_true_iff in H1.
    change (String a p ++ String " " r) with (String a (p ++ String " " r)).
    simpl. destruct (is_word a).
    + now apply IHp.
    + destruct (is_ch 61 a) eqn:E; [apply ch_is in E; subst a; discriminate H1|].
      simpl. now apply IHp.
Qed.

Definition fraction (o : option string) : string := match o with Some fp => String "." fp | None => "" end.
Definition numeral (n : bool) (ip : string) (o : option string) : string := sign n ++ ip ++ fraction o.
Definition frac_ok (o : option string) : bool := match o with Some fp => digits1 fp | None => true end.
Definition numeral_json (n : bool) (ip : string) (o : option string) : json :=
  match o with Some _ => JFloat (numeral n ip o) | None => JInt (z_of_numeral (sign n ++ ip)) end.

Lemma numeral_int : forall n ds, numeral n ds None = sign n ++ ds.
Proof. intros. unfold numeral. simpl. now rewrite app_nil_r_s. Qed.

Lemma digits_head : forall ds, digits1 ds = true -> exists d ds', ds = String d ds' /\ is_digit d = true.
Proof.
  intros ds H. unfold digits1 in H. apply andb_true_iff in H as [A B].
  destruct ds as [|d ds']; [discriminate B|]. simpl in A. apply andb_true_iff in A as [A _]. eauto.
Qed.

Lemma digits_all : forall ds, digits1 ds = true -> all_chars is_digit ds = true.
Proof. intros ds H. unfold digits1 in H. now apply andb_true_iff in H. Qed.

Lemma canon_parts : forall ds, canon_digits ds = true ->
  digits1 ds = true /\ String.eqb ds "" = false /\ leading_zero ds = false.
Proof.
  intros ds H. unfold canon_digits in H. apply andb_true_iff in H as [H C]. pose proof H as D.
  apply andb_true_iff in H as [_ B]. apply negb_true_iff in B. apply negb_true_iff in C. auto.
Qed.

Lemma opt_minus_sign : forall n ds r, digits1 ds = true -> opt_minus (sign n ++ ds ++ r) = (sign n, ds ++ r).
Proof.
  intros n ds r H. destruct n; [reflexivity|].
  destruct (digits_head ds H) as [d [ds' [-> Hd]]]. simpl.
  now rewrite (class_not_ch is_digit 45 d Hd).
Qed.

Lemma jliteral_digit : forall d s, is_digit d = true -> jliteral (String d s) = None.
Proof.
  intros d s H. unfold jliteral. cbn [prefixb].
  now rewrite !(class_neq_sym is_digit d) by (assumption || reflexivity).
Qed.

Lemma jliteral_minus_digit : forall d s, is_digit d = true -> jliteral (String "-" (String d s)) = None.
Proof.
  intros d s H. unfold jliteral. cbn [prefixb]. now rewrite (class_neq_sym is_digit d "I" H).
Qed.

Lemma numeral_start : forall n ds t, digits1 ds = true -> exists c s',
  sign n ++ ds ++ t = String c s' /\ is_ch 91 c = false /\ Ascii.eqb c ch_dq = false /\ Ascii.eqb c ch_sq = false
  /\ is_ch 34 c = false /\ is_ch 123 c = false /\ is_jws c = false /\ jliteral (String c s') = None.
Proof.
  intros n ds t H. destruct (digits_head ds H) as [d [ds' [-> Hd]]]. destruct n; simpl.
  - exists "-"%char, (String d (ds' ++ t)). repeat split; try reflexivity. now apply jliteral_minus_digit.
  - exists d, (ds' ++ t). split; [reflexivity|].
    rewrite !(class_not_ch is_digit _ d Hd), !(class_neq is_digit d _ Hd), (digit_not_jws d Hd), (jliteral_digit d _ Hd)
      by reflexivity.
    auto 8.
Qed.

Definition starts_sep (r : string) : bool := match r with "" => true | String c _ => is_sepchar c end.

Lemma starts_sep_not_digit : forall r, starts_sep r = true ->
  match r with "" => true | String c _ => negb (is_digit c) end = true.
Proof.
  destruct r; simpl; intros H; [reflexivity|]. now destruct (sep_is a H) as [-> | [-> | ->]].
Qed.

Lemma starts_sep_not_dot : forall r, starts_sep r = true ->
  match r with "" => true | String c _ => negb (is_ch 46 c) end = true.
Proof.
  destruct r; simpl; intros H; [reflexivity|]. now destruct (sep_is a H) as [-> | [-> | ->]].
Qed.

Lemma span_ip : forall ip o r, digits1 ip = true -> starts_sep r = true ->
  span is_digit (ip ++ fraction o ++ r) = (ip, fraction o ++ r).
Proof.
  intros ip o r H Hr. apply span_app; [now apply digits_all|].
  destruct o; [reflexivity | now apply starts_sep_not_digit].
Qed.

Lemma m_float_numeral : forall n ip o r, digits1 ip = true -> frac_ok o = true -> starts_sep r = true ->
  m_float (numeral n ip o ++ r) = match o with Some _ => Some (numeral n ip o, r) | None => None end.
Proof.
  intros n ip o r Hi Ho Hr. unfold m_float, numeral.
  rewrite !app_assoc_s, (opt_minus_sign n ip _ Hi), (span_ip ip o r Hi Hr).
  destruct o as [fp|]; simpl in *.
  - rewrite (span_app is_digit fp r (digits_all fp Ho) (starts_sep_not_digit r Hr)).
    destruct (digits_head fp Ho) as [d [fp' [-> _]]]. reflexivity.
  - destruct r as [|c r']; [reflexivity|]. pose proof (starts_sep_not_dot _ Hr) as E. simpl in E.
    apply negb_true_iff in E. now rewrite E.
Qed.

Lemma m_int_numeral : forall n ds r, digits1 ds = true -> starts_sep r = true ->
  m_int (numeral n ds None ++ r) = Some (numeral n ds None, r).
Proof.
  intros n ds r H Hr. rewrite numeral_int. unfold m_int.
  rewrite app_assoc_s, (opt_minus_sign n ds r H), (span_app is_digit ds r (digits_all ds H) (starts_sep_not_digit r Hr)).
  destruct (digits_head ds H) as [d [ds' [-> _]]]. reflexivity.
Qed.

Lemma first_match_none : forall a l s, m_alt a s = None -> first_match (a :: l) s = first_match l s.
Proof. intros a l s H. simpl. now rewrite H. Qed.

Lemma first_match_some : forall a l s x, m_alt a s = Some x -> first_match (a :: l) s = Some x.
Proof. intros a l s x H. simpl. now rewrite H. Qed.

Lemma match_numeral : forall n ip o r, digits1 ip = true -> frac_ok o = true -> starts_sep r = true ->
  m_value (numeral n ip o ++ r) = Some (numeral n ip o, r).
Proof.
  intros n ip o r Hi Ho Hr.
  destruct (numeral_start n ip (fraction o ++ r) Hi) as [c [s' [E [F1 [F2 [F3 _]]]]]].
  assert (E' : numeral n ip o ++ r = String c s') by (unfold numeral; now rewrite !app_assoc_s).
  pose proof (m_float_numeral n ip o r Hi Ho Hr) as MF.
  unfold m_value, PARAM_ALTERNATIVES.
  rewrite first_match_none by (simpl m_alt; rewrite E'; simpl; now rewrite F1).
  rewrite first_match_none by (simpl m_alt; rewrite E'; simpl; now rewrite F2).
  rewrite first_match_none by (simpl m_alt; rewrite E'; simpl; now rewrite F3).
  destruct o.
  - apply first_match_some. exact MF.
  - rewrite first_match_none by exact MF. apply first_match_some. now apply m_int_numeral.
Qed.

Lemma m_ci_lower : forall sp r, m_ci (lower sp) (sp ++ r) = Some (sp, r).
Proof. induction sp; simpl; intros r; [reflexivity | now rewrite Ascii.eqb_refl, IHsp]. Qed.

Definition bool_word (b : bool) : string := if b then "true" else "false".

Lemma match_bool : forall sp r b, lower sp = bool_word b -> m_value (sp ++ r) = Some (sp, r).
Proof.
  intros sp r b H. destruct sp as [|c sp']; [destruct b; discriminate H|].
  assert (L : is_letter c = true) by (destruct b; injection H as Hc _; unfold is_letter; now rewrite Hc).
  assert (D : is_digit c = false) by (apply letter_code in L; apply range_out; lia).
  unfold m_value, PARAM_ALTERNATIVES. cbn [first_match m_alt append].
  unfold m_brackets, m_quoted, m_float, m_int, opt_minus.
  rewrite !(class_not_ch is_letter _ c L), !(class_neq is_letter c _ L) by reflexivity.
  cbn [span]. rewrite D, (class_not_ch is_letter 46 c L) by reflexivity.
  change (String c (sp' ++ r)) with (String c sp' ++ r). destruct b; unfold bool_word in H.
  - now rewrite <- H, m_ci_lower.
  - assert (N : m_ci "true" (String c sp' ++ r) = None) by (injection H as Hc _; simpl; now rewrite Hc).
    now rewrite N, <- H, m_ci_lower.
Qed.

Lemma match_null : forall r, m_value ("null" ++ r) = Some ("null", r).
Proof. intros r. vm_compute. reflexivity. Qed.

Lemma delim_assoc : forall o1 o2 b c1 c2 r,
  String o1 (String o2 (b ++ String c1 (str1 c2))) ++ r = String o1 (String o2 (b ++ String c1 (String c2 r))).
Proof. intros. simpl. now rewrite app_assoc_s. Qed.

Lemma m_delim_body : forall o1 o2 c1 c2 b r, body_ok c1 c2 b = true ->
  m_delim o1 o2 c1 c2 (String o1 (String o2 (b ++ String c1 (str1 c2))) ++ r)
  = Some (String o1 (String o2 (b ++ String c1 (str1 c2))), r).
Proof.
  intros o1 o2 c1 c2 b r H. rewrite delim_assoc. simpl. now rewrite !Ascii.eqb_refl, (until_close_app c1 c2 b r H).
Qed.

(* [m_value] comes to the alternative [a] for every text that begins with o1 o2 *)
Definition reaches (a : param_alt) (o1 o2 : ascii) : Prop :=
  forall s, m_value (String o1 (String o2 s)) = m_alt a (String o1 (String o2 s)).

Lemma reaches_yaql : reaches AltYaql "<" "%".
Proof. intros s. unfold m_value, PARAM_ALTERNATIVES. simpl. now destruct (until_close "%" ">" s) as [[? ?]|]. Qed.

Lemma reaches_jinja : reaches AltJinja "{" "{".
Proof. intros s. unfold m_value, PARAM_ALTERNATIVES. simpl. now destruct (until_close "}" "}" s) as [[? ?]|]. Qed.

Lemma match_delim : forall a o1 o2 c1 c2 b r, reaches a o1 o2 -> m_alt a = m_delim o1 o2 c1 c2 ->
  body_ok c1 c2 b = true ->
  m_value (String o1 (String o2 (b ++ String c1 (str1 c2))) ++ r)
  = Some (String o1 (String o2 (b ++ String c1 (str1 c2))), r).
Proof.
  intros a o1 o2 c1 c2 b r R A H. rewrite <- (m_delim_body o1 o2 c1 c2 b r H), <- A. apply R.
Qed.

Lemma m_quoted_ok : forall q c r, no_char q c = true ->
  m_quoted q (String q (c ++ String q r)) = with_ws (String q (c ++ str1 q)) r.
Proof. intros q c r H. simpl. now rewrite Ascii.eqb_refl, (until_char_app q c r H). Qed.

Lemma with_ws_spec : forall m r, exists w r',
  with_ws m r = Some (m ++ w, r') /\ r = w ++ r' /\ all_space w = true.
Proof.
  intros m r. unfold with_ws. destruct (span is_space r) as [w r'] eqn:E.
  destruct (span_spec _ _ _ _ E) as [A B]. exists w, r'. auto.
Qed.

Lemma quoted_wins : forall q s x, q = ch_dq \/ q = ch_sq ->
  m_quoted q (String q s) = Some x -> m_value (String q s) = Some x.
Proof.
  intros q s x [-> | ->] H; unfold m_value, PARAM_ALTERNATIVES;
    repeat (rewrite first_match_none by reflexivity); now apply first_match_some.
Qed.

Lemma match_quoted : forall q c r, q = ch_dq \/ q = ch_sq -> no_char q c = true -> exists w r',
  m_value (String q (c ++ str1 q) ++ r) = Some (String q (c ++ str1 q) ++ w, r') /\ r = w ++ r' /\ all_space w = true.
Proof.
  intros q c r Hq H.
  replace (String q (c ++ str1 q) ++ r) with (String q (c ++ String q r)) by (simpl; now rewrite app_assoc_s).
  destruct (with_ws_spec (String q (c ++ str1 q)) r) as [w [r' [A B]]].
  exists w, r'. split; [|exact B]. apply (quoted_wins q _ _ Hq). now rewrite (m_quoted_ok q c r H).
Qed.

Lemma value_match : forall v r, ok_val v = true -> starts_sep r = true -> exists w r',
  m_value (text v ++ r) = Some (text v ++ w, r') /\ r = w ++ r' /\ all_space w = true.
Proof.
  intros v r Hv Hr.
  assert (P : forall t, m_value (t ++ r) = Some (t, r) -> exists w r',
                m_value (t ++ r) = Some (t ++ w, r') /\ r = w ++ r' /\ all_space w = true).
  { intros t M. exists "", r. rewrite app_nil_r_s. auto. }
  destruct v as [n ds | n ip fp | b sp | | c | c | bd | bd]; simpl in Hv.
  - apply P. simpl text. rewrite <- numeral_int.
    apply match_numeral; [apply (canon_parts _ Hv) | reflexivity | exact Hr].
  - apply andb_true_iff in Hv as [A B]. apply P.
    apply (match_numeral n ip (Some fp)); [apply (canon_parts _ A) | exact B | exact Hr].
  - apply P. apply String.eqb_eq in Hv. exact (match_bool sp r b Hv).
  - apply P. apply match_null.
  - apply match_quoted; [now left|]. repeat (apply andb_true_iff in Hv as [Hv _]). exact Hv.
  - apply match_quoted; [now right|]. apply andb_true_iff in Hv as [Hv _]. exact Hv.
  - apply P. exact (match_delim AltYaql "<" "%" "%" ">" bd r reaches_yaql eq_refl Hv).
  - apply P. exact (match_delim AltJinja "{" "{" "}" "}" bd r reaches_jinja eq_refl Hv).
Qed.


Definition nospace (t : string) : bool := all_chars (fun c => negb (is_space c)) t.

Lemma nospace_ends : forall t, nospace t = true -> starts_space t = false /\ ends_space t = false.
Proof.
  induction t; simpl; intros H; [auto|].
  apply andb_true_iff in H as [H1 H2]. apply negb_true_iff in H1. split; [exact H1|].
  destruct t; [exact H1 | now apply IHt].
Qed.

Lemma rm_last_dollar_none : forall q s, no_char q s = true -> rm_last_dollar q s = s.
Proof.
  induction s; simpl; intros H; [reflexivity|].
  apply andb_true_iff in H as [H1 H2]. apply negb_true_iff in H1. rewrite H1. simpl. now rewrite (IHs H2).
Qed.

Lemma first_is_none : forall q s, no_char q s = true -> first_is q s = false.
Proof. destruct s; simpl; intros H; [reflexivity|]. apply andb_true_iff in H as [H _]. now apply negb_true_iff in H. Qed.

Lemma plain_parts : forall t, all_chars plain t = true ->
  no_char ch_dq t = true /\ no_char ch_sq t = true /\ nospace t = true.
Proof.
  intros t H. repeat split; revert H; apply all_chars_impl; intros c Hc; unfold plain in Hc;
    apply andb_true_iff in Hc as [Hc C]; apply andb_true_iff in Hc as [A B]; assumption.
Qed.

Lemma post_plain_ws : forall t w, all_chars plain t = true -> all_space w = true ->
  post_value (t ++ w) = load_or_str t.
Proof.
  intros t w H Hw. destruct (plain_parts t H) as [P1 [P2 P3]]. destruct (nospace_ends _ P3) as [E1 E2].
  unfold post_value, post_stripped, unquote, quotes_in. rewrite (strip_core _ w E1 E2 Hw).
  rewrite (rm_first_other ch_dq t (first_is_none _ _ P1)), (rm_last_dollar_none ch_dq t P1).
  rewrite (rm_first_other ch_sq t (first_is_none _ _ P2)), (rm_last_dollar_none ch_sq t P2).
  now rewrite (count_none _ _ P1), (count_none _ _ P2), andb_false_r.
Qed.

Lemma jvalue_scalar : forall f c s', is_ch 34 c = false -> is_ch 91 c = false -> is_ch 123 c = false ->
  jvalue (S f) (String c s') =
  match jliteral (String c s') with Some x => Some x | None => jnumber (String c s') end.
Proof. intros f c s' H1 H2 H3. simpl. now rewrite H1, H2, H3. Qed.

Lemma fuel_shape : forall n, exists f, 2 * n + 4 = S (S f).
Proof. intros n. exists (2 * n + 2). lia. Qed.

Lemma loads_scalar : forall s c s' v, s = String c s' -> is_ch 34 c = false -> is_ch 91 c = false ->
  is_ch 123 c = false -> is_jws c = false -> jliteral s = None -> jnumber s = Some (v, "") ->
  json_loads s = Some v.
Proof.
  intros s c s' v E H1 H2 H3 H4 H5 H6. unfold json_loads.
  destruct (fuel_shape (String.length s)) as [f ->].
  assert (W : skip_ws s = s) by (rewrite E; simpl; now rewrite H4).
  rewrite W. rewrite E at 1. rewrite (jvalue_scalar _ c s' H1 H2 H3), <- E, H5, H6. reflexivity.
Qed.

Lemma jnumber_numeral : forall n ip o, canon_digits ip = true -> frac_ok o = true ->
  jnumber (numeral n ip o) = Some (numeral_json n ip o, "").
Proof.
  intros n ip o H Ho. destruct (canon_parts ip H) as [D [B C]].
  unfold jnumber, numeral. rewrite (opt_minus_sign n ip _ D).
  rewrite (span_app is_digit ip (fraction o) (digits_all ip D)) by (now destruct o).
  rewrite B, C. destruct o as [fp|]; [|reflexivity]. simpl in Ho.
  unfold jfrac, fraction. change (is_ch 46 ".") with true. cbv iota.
  rewrite <- (app_nil_r_s fp) at 1. rewrite (span_app is_digit fp "" (digits_all fp Ho) eq_refl).
  destruct (digits_head fp Ho) as [d [fp' [-> _]]]. simpl. now rewrite app_nil_r_s.
Qed.

Lemma loads_numeral : forall n ip o, canon_digits ip = true -> frac_ok o = true ->
  json_loads (numeral n ip o) = Some (numeral_json n ip o).
Proof.
  intros n ip o H Ho.
  destruct (numeral_start n ip (fraction o) (proj1 (canon_parts ip H))) as [c [s' [E [H2 [_ [_ [H1 [H3 [H4 H5]]]]]]]]].
  rewrite <- E in H5.
  exact (loads_scalar _ c s' _ E H1 H2 H3 H4 H5 (jnumber_numeral n ip o H Ho)).
Qed.

Lemma numeral_not_bool : forall n ds t, digits1 ds = true ->
  String.eqb (lower (sign n ++ ds ++ t)) "true" || String.eqb (lower (sign n ++ ds ++ t)) "false" = false.
Proof.
  intros n ds t H. destruct (digits_head ds H) as [d [ds' [-> Hd]]].
  destruct n; [reflexivity|]. simpl.
  now rewrite (digit_lower d Hd), (class_neq is_digit d "t" Hd), (class_neq is_digit d "f" Hd).
Qed.

Lemma numeral_plain : forall n ip o, digits1 ip = true -> frac_ok o = true -> all_chars plain (numeral n ip o) = true.
Proof.
  intros n ip o H Ho. unfold numeral. rewrite !all_chars_app.
  rewrite (all_chars_impl _ _ ip digit_plain (digits_all ip H)).
  assert (S : all_chars plain (sign n) = true) by now destruct n.
  rewrite S. destruct o as [fp|]; [|reflexivity]. simpl. exact (all_chars_impl _ _ fp digit_plain (digits_all fp Ho)).
Qed.

Lemma post_numeral : forall n ip o w, canon_digits ip = true -> frac_ok o = true -> all_space w = true ->
  post_value (numeral n ip o ++ w) = numeral_json n ip o.
Proof.
  intros n ip o w H Ho Hw. pose proof (proj1 (canon_parts ip H)) as D.
  rewrite (post_plain_ws _ w (numeral_plain n ip o D Ho) Hw).
  unfold load_or_str. unfold numeral at 1 2. now rewrite (numeral_not_bool n ip _ D), (loads_numeral n ip o H Ho).
Qed.

Lemma all_chars_lower : forall p s, all_chars p (lower s) = all_chars (fun c => p (lower_char c)) s.
Proof. induction s; simpl; [reflexivity | now rewrite IHs]. Qed.

Lemma post_bool : forall sp w b, lower sp = bool_word b -> all_space w = true -> post_value (sp ++ w) = JBool b.
Proof.
  intros sp w b H Hw. rewrite post_plain_ws; [| |exact Hw].
  - unfold load_or_str. rewrite H. now destruct b.
  - apply (all_chars_impl is_letter); [exact letter_plain|].
    unfold is_letter. rewrite <- all_chars_lower, H. now destruct b.
Qed.

Lemma post_null : forall w, all_space w = true -> post_value ("null" ++ w) = JNull.
Proof. intros w Hw. now rewrite post_plain_ws. Qed.

Lemma quoted_shape : forall q c, String q (c ++ str1 q) = String q c ++ str1 q.
Proof. reflexivity. Qed.

Lemma count_quoted : forall q c, Nat.leb 2 (count_char q (String q (c ++ str1 q))) = true.
Proof.
  intros q c. assert (E : count_char q (String q (c ++ str1 q)) = 2 + count_char q c).
  { cbn [count_char]. rewrite count_char_app. cbn [count_char str1]. rewrite Ascii.eqb_refl. lia. }
  rewrite E. reflexivity.
Qed.

Lemma rm_first_same : forall q s, rm_first q (String q s) = s.
Proof. intros q s. simpl. now rewrite Ascii.eqb_refl. Qed.

(* once the four re.sub calls are known to return the content, the quotes decide *)
Lemma post_quoted : forall q c w, q = ch_dq \/ q = ch_sq -> unquote (String q (c ++ str1 q)) = c ->
  curly c = false -> all_space w = true -> post_value (String q (c ++ str1 q) ++ w) = JStr c.
Proof.
  intros q c w Hq U C Hw. unfold post_value.
  rewrite strip_core; [| now destruct Hq as [-> | ->] | | exact Hw].
  - unfold post_stripped, quotes_in. rewrite U, C.
    assert (Q : Nat.leb 2 (count_char ch_dq (String q (c ++ str1 q)))
                || Nat.leb 2 (count_char ch_sq (String q (c ++ str1 q))) = true).
    { destruct Hq as [-> | ->]; rewrite count_quoted; [reflexivity | apply orb_true_r]. }
    rewrite Q. destruct c; [now destruct Hq as [-> | ->] | reflexivity].
  - rewrite quoted_shape, ends_space_snoc. now destruct Hq as [-> | ->].
Qed.

Lemma post_dq : forall c w, ok_val (VDq c) = true -> all_space w = true ->
  post_value (text (VDq c) ++ w) = JStr c.
Proof.
  intros c w H Hw. simpl in H.
  apply andb_true_iff in H as [H E2]. apply andb_true_iff in H as [H E1]. apply andb_true_iff in H as [H F].
  apply andb_true_iff in H as [N C].
  apply negb_true_iff in E2. apply negb_true_iff in E1. apply negb_true_iff in F. apply negb_true_iff in C.
  apply post_quoted; [now left | | exact C | exact Hw].
  unfold unquote. rewrite rm_first_same, (rm_last_dollar_snoc ch_dq c N).
  rewrite (rm_first_other ch_sq c F). now apply rm_last_dollar_keep.
Qed.

Lemma post_sq : forall c w, ok_val (VSq c) = true -> all_space w = true ->
  post_value (text (VSq c) ++ w) = JStr c.
Proof.
  intros c w H Hw. simpl in H. apply andb_true_iff in H as [N C]. apply negb_true_iff in C.
  apply post_quoted; [now right | | exact C | exact Hw].
  unfold unquote. rewrite (rm_first_other ch_dq) by reflexivity.
  rewrite quoted_shape, (rm_last_dollar_snoc_other ch_dq (String ch_sq c) ch_sq) by reflexivity.
  rewrite <- quoted_shape, rm_first_same. now apply rm_last_dollar_snoc.
Qed.

Lemma delim_shape : forall o1 o2 b c1 c2,
  String o1 (String o2 (b ++ String c1 (str1 c2))) = String o1 (String o2 (b ++ str1 c1)) ++ str1 c2.
Proof. intros. simpl. now rewrite app_assoc_s. Qed.

Lemma post_stripped_str : forall v, unquote v = v -> load_or_str v = JStr v -> post_stripped v = JStr v.
Proof. intros v U L. unfold post_stripped. rewrite U. now destruct (_ && _ && _). Qed.

Lemma load_or_str_opaque : forall o1 s, lower_char o1 = o1 -> Ascii.eqb o1 "t" = false -> Ascii.eqb o1 "f" = false ->
  json_loads (String o1 s) = None -> load_or_str (String o1 s) = JStr (String o1 s).
Proof.
  intros o1 s L T F J. unfold load_or_str. simpl lower. rewrite L. simpl. rewrite T, F. simpl. now rewrite J.
Qed.

Lemma loads_lt : forall s, json_loads (String "<" s) = None.
Proof.
  intros s. unfold json_loads. destruct (fuel_shape (String.length (String "<" s))) as [f ->]. reflexivity.
Qed.

Lemma loads_curly2 : forall s, json_loads (String "{" (String "{" s)) = None.
Proof.
  intros s. unfold json_loads. destruct (fuel_shape (String.length (String "{" (String "{" s)))) as [f ->].
  reflexivity.
Qed.

Lemma post_delim : forall o1 a x w,
  plain o1 = true -> plain x = true -> Ascii.eqb x ch_nl = false -> all_space w = true ->
  load_or_str (String o1 a ++ str1 x) = JStr (String o1 a ++ str1 x) ->
  post_value ((String o1 a ++ str1 x) ++ w) = JStr (String o1 a ++ str1 x).
Proof.
  intros o1 a x w Po Px Nl Hw L. unfold plain in Po, Px.
  apply andb_true_iff in Po as [Po So]. apply andb_true_iff in Po as [Do Qo].
  apply andb_true_iff in Px as [Px Sx]. apply andb_true_iff in Px as [Dx Qx].
  apply negb_true_iff in So, Do, Qo, Sx, Dx, Qx.
  unfold post_value. rewrite strip_core; [| exact So | now rewrite ends_space_snoc | exact Hw].
  apply post_stripped_str; [|exact L]. unfold unquote.
  rewrite (rm_first_other ch_dq) by exact Do. rewrite (rm_last_dollar_snoc_other ch_dq _ x Dx Nl).
  rewrite (rm_first_other ch_sq) by exact Qo. now rewrite (rm_last_dollar_snoc_other ch_sq _ x Qx Nl).
Qed.

Lemma value_post : forall v w, ok_val v = true -> all_space w = true -> post_value (text v ++ w) = denote v.
Proof.
  intros v w Hv Hw. destruct v as [n ds | n ip fp | b sp | | c | c | bd | bd]; simpl in Hv.
  - simpl text. rewrite <- numeral_int. now apply (post_numeral n ds None).
  - apply andb_true_iff in Hv as [A B]. now apply (post_numeral n ip (Some fp)).
  - apply String.eqb_eq in Hv. exact (post_bool sp w b Hv Hw).
  - now apply post_null.
  - now apply post_dq.
  - now apply post_sq.
  - unfold text, denote. change "%>" with (String "%" (str1 ">")). rewrite delim_shape.
    apply (post_delim "<" _ ">" w eq_refl eq_refl eq_refl Hw). rewrite <- delim_shape.
    exact (load_or_str_opaque "<" _ eq_refl eq_refl eq_refl (loads_lt _)).
  - unfold text, denote. change "}}" with (String "}" (str1 "}")). rewrite delim_shape.
    apply (post_delim "{" _ "}" w eq_refl eq_refl eq_refl Hw). rewrite <- delim_shape.
    exact (load_or_str_opaque "{" _ eq_refl eq_refl eq_refl (loads_curly2 _)).
Qed.

Lemma starts_sep_app : forall sep rest, sep_ok sep = true ->
  (String.eqb sep "" = false \/ rest = "") -> starts_sep (sep ++ rest) = true.
Proof.
  intros sep rest H [N | ->].
  - destruct sep; [discriminate N|]. simpl in *. apply andb_true_iff in H as [H _]. exact H.
  - rewrite app_nil_r_s. destruct sep; [reflexivity|]. simpl in *. apply andb_true_iff in H as [H _]. exact H.
Qed.

Lemma findall_step : forall k v sep rest,
  word_key k = true -> ok_val v = true -> sep_ok sep = true ->
  (String.eqb sep "" = false \/ rest = "") ->
  exists m, findall (k ++ String "=" (text v ++ sep ++ rest)) = (k, m) :: findall rest
            /\ post_value m = denote v.
Proof.
  intros k v sep rest Hk Hv Hs Hne.
  unfold word_key in Hk. apply andb_true_iff in Hk as [K1 K2]. apply negb_true_iff in K1.
  destruct (value_match v (sep ++ rest) Hv (starts_sep_app sep rest Hs Hne)) as [w [r' [M [E W]]]].
  exists (text v ++ w). split; [|now apply value_post].
  unfold findall. rewrite (scan_key k "" _ K2). simpl append at 1.
  rewrite (scan_eq k _ K1), M. f_equal.
  rewrite E, <- app_assoc_s, scan_skip.
  rewrite <- (scan_inert sep rest (seps_inert sep Hs)), E.
  now rewrite (scan_inert w r' (spaces_inert w W)).
Qed.

Theorem inline_roundtrip : forall l : list entry,
  forallb entry_ok l = true -> seps_ok l = true ->
  parse_inline_params (render l) = denote_all l.
Proof.
  induction l as [|[[k v] sep] l IH]; intros Hok Hs; [reflexivity|].
  simpl in Hok. apply andb_true_iff in Hok as [H1 H2].
  apply andb_true_iff in H1 as [H1 S]. apply andb_true_iff in H1 as [K V].
  assert (Hne : String.eqb sep "" = false \/ render l = "").
  { simpl in Hs. destruct l; [now right | left]. apply andb_true_iff in Hs as [A _]. now apply negb_true_iff in A. }
  assert (Hs' : seps_ok l = true).
  { simpl in Hs. apply andb_true_iff in Hs as [_ B]. exact B. }
  destruct (findall_step k v sep (render l) K V S Hne) as [m [F P]].
  unfold parse_inline_params in *. simpl render. rewrite F. simpl map. rewrite P, (IH H2 Hs'). reflexivity.
Qed.


Lemma uint_string_digits : forall u, all_chars is_digit (NilEmpty.string_of_uint u) = true.
Proof. induction u; simpl; auto. Qed.

Lemma pos_uint_normal : forall p, Decimal.nzhead (Pos.to_uint p) = Pos.to_uint p.
Proof.
  intros p. pose proof (DecimalPos.Unsigned.to_of (Pos.to_uint p)) as H.
  rewrite DecimalPos.Unsigned.of_to in H. simpl in H.
  destruct (Decimal.nzhead (Pos.to_uint p)) eqn:E;
    try (rewrite (DecimalFacts.unorm_nzhead (Pos.to_uint p)) in H by (rewrite E; discriminate); now rewrite E in H).
  unfold Decimal.unorm in H. rewrite E in H. exfalso. exact (DecimalPos.Unsigned.to_uint_nonzero p H).
Qed.

Lemma pos_string_canon : forall p, canon_digits (NilZero.string_of_uint (Pos.to_uint p)) = true.
Proof.
  intros p. pose proof (pos_uint_normal p) as N. pose proof (DecimalPos.Unsigned.to_uint_nonnil p) as NN.
  pose proof (uint_string_digits (Pos.to_uint p)) as D.
  unfold canon_digits.
  destruct (Pos.to_uint p) eqn:E; try congruence;
    try (exfalso; exact (DecimalFacts.nzhead_nonzero _ _ N));
    match goal with
    | |- context [NilZero.string_of_uint ?d] =>
        change (NilZero.string_of_uint d) with (NilEmpty.string_of_uint d); rewrite D; reflexivity
    end.
Qed.

Definition VZ (z : Z) : ival :=
  match Z.to_int z with
  | Decimal.Pos u => VInt false (NilZero.string_of_uint u)
  | Decimal.Neg u => VInt true (NilZero.string_of_uint u)
  end.

Lemma VZ_text : forall z, text (VZ z) = Z_to_string z.
Proof. intros z. unfold VZ, Z_to_string. destruct (Z.to_int z); reflexivity. Qed.

Lemma VZ_ok : forall z, ok_val (VZ z) = true.
Proof.
  intros z. unfold VZ. destruct z; simpl; [reflexivity | apply pos_string_canon | apply pos_string_canon].
Qed.

Lemma VZ_denote : forall z, denote (VZ z) = JInt z.
Proof.
  intros z. pose proof (VZ_text z) as T. unfold VZ in *.
  assert (E : z_of_numeral (Z_to_string z) = z).
  { unfold z_of_numeral, Z_to_string. rewrite NilZero.isi.
    - apply DecimalZ.of_to.
    - destruct z; simpl; try discriminate; intro H; injection H as H;
        exact (DecimalPos.Unsigned.to_uint_nonnil _ H).
    - destruct z; simpl; try discriminate; intro H; injection H as H;
        exact (DecimalPos.Unsigned.to_uint_nonnil _ H). }
  destruct (Z.to_int z); simpl in *; now rewrite T, E.
Qed.


Lemma VZ_spec : forall z : Z, ok_val (VZ z) = true /\ text (VZ z) = Z_to_string z /\ denote (VZ z) = JInt z.
Proof. intros z. split; [apply VZ_ok | split; [apply VZ_text | apply VZ_denote]]. Qed.

Local Arguments Ascii.eqb : simpl never.

Definition name_ok (n : string) : bool :=
  no_char "," n && negb (starts_space n) && negb (ends_space n).

Lemma split_on_nochar : forall q x, no_char q x = true -> split_on q x = [x].
Proof.
  induction x; simpl; intros H; [reflexivity|].
  apply andb_true_iff in H as [H1 H2]. apply negb_true_iff in H1. now rewrite H1, (IHx H2).
Qed.

Lemma split_on_app : forall q x r, no_char q x = true -> split_on q (x ++ String q r) = x :: split_on q r.
Proof.
  induction x; simpl; intros r H.
  - now rewrite Ascii.eqb_refl.
  - apply andb_true_iff in H as [H1 H2]. apply negb_true_iff in H1. now rewrite H1, (IHx r H2).
Qed.

Lemma spaces_no_comma : forall w, all_space w = true -> no_char "," w = true.
Proof. intros w. apply all_chars_impl. intros c H. now rewrite (class_neq is_space c "," H). Qed.

Lemma strip_padded : forall l n r, all_space l = true -> all_space r = true ->
  starts_space n = false -> ends_space n = false -> strip (l ++ n ++ r) = n.
Proof.
  intros l n r Hl Hr H1 H2. unfold strip. rewrite (lstrip_app_spaces l _ Hl).
  fold (strip (n ++ r)). now apply strip_core.
Qed.

Definition padded := (string * string * string)%type.    (* blanks, name, blanks *)
Definition pad (p : padded) : string := let '(l, n, r) := p in l ++ n ++ r.
Definition pad_name (p : padded) : string := let '(_, n, _) := p in n.
Definition pad_ok (p : padded) : bool := let '(l, n, r) := p in all_space l && all_space r && name_ok n.

Lemma pad_no_comma : forall p, pad_ok p = true -> no_char "," (pad p) = true.
Proof.
  intros [[l n] r] H. simpl in *. apply andb_true_iff in H as [H N]. apply andb_true_iff in H as [L R].
  unfold name_ok in N. apply andb_true_iff in N as [N _]. apply andb_true_iff in N as [N _].
  unfold no_char in *. rewrite !all_chars_app. fold (no_char "," l). fold (no_char "," r).
  now rewrite (spaces_no_comma l L), (spaces_no_comma r R), N.
Qed.

Lemma pad_strip : forall p, pad_ok p = true -> strip (pad p) = pad_name p.
Proof.
  intros [[l n] r] H. simpl in *. apply andb_true_iff in H as [H N]. apply andb_true_iff in H as [L R].
  unfold name_ok in N. apply andb_true_iff in N as [N E]. apply andb_true_iff in N as [_ S].
  apply negb_true_iff in E. apply negb_true_iff in S. now apply strip_padded.
Qed.

Theorem do_split : forall ps : list padded, ps <> [] -> forallb pad_ok ps = true ->
  split_do (join "," (map pad ps)) = map pad_name ps.
Proof.
  unfold split_do. induction ps as [|p ps IH]; intros NE H; [congruence|].
  simpl in H. apply andb_true_iff in H as [Hp Hps].
  destruct ps as [|p2 ps'].
  - simpl. rewrite (split_on_nochar "," _ (pad_no_comma p Hp)). simpl. now rewrite (pad_strip p Hp).
  - change (join "," (map pad (p :: p2 :: ps'))) with (pad p ++ String "," (join "," (map pad (p2 :: ps')))).
    rewrite (split_on_app "," _ _ (pad_no_comma p Hp)).
    rewrite (map_cons strip), (map_cons pad_name p), (pad_strip p Hp). f_equal.
    apply IH; [discriminate | exact Hps].
Qed.

Definition comma_blank (names : list string) : list padded :=
  match names with
  | [] => []
  | n :: rest => ("", n, "") :: map (fun m => (" ", m, "")) rest
  end.

Lemma join_comma_blank : forall names, join ", " names = join "," (map pad (comma_blank names)).
Proof.
  destruct names as [|n rest]; [reflexivity|]. simpl comma_blank.
  revert n. induction rest as [|m rest IH]; intros n.
  - simpl. now rewrite app_nil_r_s.
  - change (join ", " (n :: m :: rest)) with (n ++ ", " ++ join ", " (m :: rest)).
    rewrite (IH m).
    change (map pad (("", n, "") :: map (fun m0 => (" ", m0, "")) (m :: rest)))
      with (pad ("", n, "") :: pad (" ", m, "") :: map pad (map (fun m0 => (" ", m0, "")) rest)).
    change (map pad (("", m, "") :: map (fun m0 => (" ", m0, "")) rest))
      with (pad ("", m, "") :: map pad (map (fun m0 => (" ", m0, "")) rest)).
    destruct rest as [|m2 rest'].
    + simpl. now rewrite !app_nil_r_s.
    + simpl. rewrite !app_nil_r_s. reflexivity.
Qed.

Theorem do_split_comma_blank : forall names, names <> [] -> forallb name_ok names = true ->
  split_do (join ", " names) = names.
Proof.
  intros names NE H. rewrite join_comma_blank, do_split.
  - destruct names as [|n rest]; [congruence|]. simpl. f_equal. rewrite map_map. simpl.
    clear. induction rest; simpl; [reflexivity | now rewrite IHrest].
  - destruct names; [congruence | discriminate].
  - destruct names as [|n rest]; [congruence|]. simpl in *. apply andb_true_iff in H as [A B].
    rewrite A. simpl. clear -B. induction rest; simpl in *; [reflexivity|].
    apply andb_true_iff in B as [B1 B2]. now rewrite B1, (IHrest B2).
Qed.

Lemma join_nonempty : forall sep n rest, n <> "" -> join sep (n :: rest) <> "".
Proof. intros sep n rest H. destruct rest; simpl; destruct n; congruence || discriminate. Qed.

Theorem do_forms_agree : forall names, names <> [] -> forallb name_ok names = true ->
  (forall n, In n names -> n <> "") ->
  norm_do (DoStr (join ", " names)) = norm_do (DoList names).
Proof.
  intros names NE H NZ. destruct names as [|n rest]; [congruence|].
  assert (J : join ", " (n :: rest) <> "") by (apply join_nonempty; apply NZ; now left).
  unfold norm_do. destruct (join ", " (n :: rest)) eqn:E; [congruence|]. rewrite <- E.
  now apply do_split_comma_blank.
Qed.

Theorem do_default : norm_do DoAbsent = ["continue"] /\ norm_do (DoStr "") = ["continue"]
  /\ norm_do (DoList []) = ["continue"] /\ norm_do (DoStr "continue") = ["continue"]
  /\ norm_do (DoList ["continue"]) = ["continue"].
Proof. vm_compute. auto. Qed.

Lemma find_sub_cons : forall p c s,
  find_sub p (String c s) =
  if prefixb p (String c s) then Some ("", drop (String.length p) (String c s))
  else match find_sub p s with Some (a, b) => Some (String c a, b) | None => None end.
Proof. reflexivity. Qed.

Lemma prefixb_ext : forall p s e, String.length p <= String.length s -> prefixb p (s ++ e) = prefixb p s.
Proof.
  induction p as [|x p IH]; simpl; intros s e H; [reflexivity|].
  destruct s as [|b s']; simpl in *; [lia|]. rewrite (IH s' e); [reflexivity | lia].
Qed.

Definition IN : string := " in ".

(* no occurrence of " in " starts inside K when K is followed by " in" *)
Definition clear_of_in (K : string) : bool :=
  match find_sub IN (K ++ " in") with None => true | Some _ => false end.

Lemma find_in_at : forall K E, clear_of_in K = true -> find_sub IN (K ++ IN ++ E) = Some (K, E).
Proof.
  unfold clear_of_in. induction K; intros E H.
  - reflexivity.
  - change (String a K ++ " in") with (String a (K ++ " in")) in H.
    rewrite find_sub_cons in H.
    destruct (prefixb IN (String a (K ++ " in"))) eqn:P; [discriminate H|].
    destruct (find_sub IN (K ++ " in")) as [[x y]|] eqn:F; [discriminate H|].
    change (String a K ++ IN ++ E) with (String a (K ++ IN ++ E)).
    rewrite find_sub_cons.
    assert (P' : prefixb IN (String a (K ++ IN ++ E)) = false).
    { replace (String a (K ++ IN ++ E)) with (String a (K ++ " in") ++ String " " E)
        by (simpl; rewrite app_assoc_s; reflexivity).
      rewrite prefixb_ext; [exact P|]. simpl. rewrite length_app_s. simpl. lia. }
    rewrite P', (IHK E); reflexivity.
Qed.

Theorem items_with_keys : forall K E, clear_of_in K = true ->
  parse_items (K ++ " in " ++ E) = (strip E, Some (split_on "," (remove_char " " K))).
Proof. intros K E H. unfold parse_items. fold IN. now rewrite (find_in_at K E H). Qed.

(* word keys joined by ", " *)
Definition key_ok (k : string) : bool := word_key k && negb (String.eqb k "in").

Lemma find_in_word : forall k t, all_chars is_word k = true -> find_sub IN t = None -> find_sub IN (k ++ t) = None.
Proof.
  induction k; intros t H F; [exact F|].
  simpl in H. apply andb_true_iff in H as [H1 H2].
  change (String a k ++ t) with (String a (k ++ t)). rewrite find_sub_cons.
  assert (P : prefixb IN (String a (k ++ t)) = false).
  { unfold IN. simpl. now rewrite (class_neq_sym is_word a " " H1). }
  now rewrite P, (IHk t H2 F).
Qed.

Lemma prefix_in_word : forall k t, word_key k = true -> String.eqb k "in" = false ->
  match t with "" => false | String c _ => negb (is_word c) end = true ->
  prefixb "in " (k ++ t) = false.
Proof.
  intros k t Hk Hn Ht. unfold word_key in Hk. apply andb_true_iff in Hk as [K1 K2].
  destruct t as [|c t']; [discriminate Ht|]. apply negb_true_iff in Ht.
  assert (Cn : Ascii.eqb "n" c = false).
  { apply (class_neq_sym (fun x => negb (is_word x))); [now rewrite Ht | reflexivity]. }
  destruct k as [|c1 k1]; [discriminate K1|].
  destruct k1 as [|c2 k2].
  - simpl. rewrite Cn. now rewrite andb_false_r.
  - destruct k2 as [|c3 k3].
    + simpl. destruct (Ascii.eqb "i" c1) eqn:X1; [|reflexivity]. destruct (Ascii.eqb "n" c2) eqn:X2; [|reflexivity].
      apply Ascii.eqb_eq in X1. apply Ascii.eqb_eq in X2. subst. discriminate Hn.
    + simpl in K2. apply andb_true_iff in K2 as [_ K2]. apply andb_true_iff in K2 as [_ K2].
      apply andb_true_iff in K2 as [W3 _].
      simpl. rewrite (class_neq_sym is_word c3 " " W3) by reflexivity. now rewrite !andb_false_r.
Qed.

Lemma keys_clear : forall keys, keys <> [] -> forallb key_ok keys = true ->
  find_sub IN (join ", " keys ++ " in") = None /\ prefixb "in " (join ", " keys ++ " in") = false.
Proof.
  induction keys as [|k keys IH]; intros NE H; [congruence|].
  simpl in H. apply andb_true_iff in H as [Hk Hks]. unfold key_ok in Hk. apply andb_true_iff in Hk as [W N].
  apply negb_true_iff in N.
  assert (W' : all_chars is_word k = true) by (unfold word_key in W; apply andb_true_iff in W; tauto).
  destruct keys as [|k2 keys'].
  - simpl join. split.
    + apply find_in_word; [exact W' | reflexivity].
    + now apply prefix_in_word.
  - destruct (IH ltac:(discriminate) Hks) as [F P].
    change (join ", " (k :: k2 :: keys')) with (k ++ ", " ++ join ", " (k2 :: keys')).
    rewrite !app_assoc_s. split.
    + apply find_in_word; [exact W'|].
      change (", " ++ join ", " (k2 :: keys') ++ " in")
        with (String "," (String " " (join ", " (k2 :: keys') ++ " in"))).
      rewrite find_sub_cons. change (prefixb IN (String "," ?x)) with false. cbv iota.
      rewrite find_sub_cons.
      change (prefixb IN (String " " ?x)) with (prefixb "in " x). rewrite P, F. reflexivity.
    + now apply prefix_in_word.
Qed.

Lemma remove_blank_word : forall k, all_chars is_word k = true -> remove_char " " k = k.
Proof.
  induction k; simpl; intros H; [reflexivity|]. apply andb_true_iff in H as [H1 H2].
  now rewrite (class_neq is_word a " " H1), (IHk H2).
Qed.

Lemma remove_char_app : forall q a b, remove_char q (a ++ b) = remove_char q a ++ remove_char q b.
Proof. induction a; simpl; intros b; [reflexivity|]. destruct (Ascii.eqb a q); simpl; now rewrite IHa. Qed.

Lemma word_no_comma : forall k, all_chars is_word k = true -> no_char "," k = true.
Proof.
  intros k. apply all_chars_impl. intros c H. now rewrite (class_neq is_word c "," H).
Qed.

Lemma keys_back : forall keys, keys <> [] -> forallb key_ok keys = true ->
  split_on "," (remove_char " " (join ", " keys)) = keys.
Proof.
  induction keys as [|k keys IH]; intros NE H; [congruence|].
  simpl in H. apply andb_true_iff in H as [Hk Hks]. unfold key_ok in Hk. apply andb_true_iff in Hk as [W _].
  assert (W' : all_chars is_word k = true) by (unfold word_key in W; apply andb_true_iff in W; tauto).
  destruct keys as [|k2 keys'].
  - simpl join. rewrite (remove_blank_word k W'). now apply split_on_nochar, word_no_comma.
  - change (join ", " (k :: k2 :: keys')) with (k ++ ", " ++ join ", " (k2 :: keys')).
    rewrite !remove_char_app, (remove_blank_word k W').
    change (remove_char " " ", ") with ",". simpl append at 2.
    rewrite (split_on_app "," k _ (word_no_comma k W')). f_equal. apply IH; [discriminate | exact Hks].
Qed.

Theorem items_keys_expr : forall keys E, keys <> [] -> forallb key_ok keys = true ->
  parse_items (join ", " keys ++ " in " ++ E) = (strip E, Some keys).
Proof.
  intros keys E NE H. rewrite items_with_keys.
  - now rewrite (keys_back keys NE H).
  - unfold clear_of_in. destruct (keys_clear keys NE H) as [F _]. now rewrite F.
Qed.

Theorem items_plain : forall E, find_sub " in " E = None -> parse_items E = (strip E, None).
Proof. intros E H. unfold parse_items. now rewrite H. Qed.

Theorem with_forms_agree : forall s, items_of_with (WithStr s) = items_of_with (WithMap s JNull).
Proof. reflexivity. Qed.


Lemma find_blank : forall name r, no_char " " name = true ->
  find_sub " " (name ++ String " " r) = Some (name, r).
Proof.
  induction name; intros r H; [reflexivity|].
  simpl in H. apply andb_true_iff in H as [H1 H2]. apply negb_true_iff in H1.
  change (String a name ++ String " " r) with (String a (name ++ String " " r)).
  rewrite find_sub_cons.
  assert (P : prefixb " " (String a (name ++ String " " r)) = false).
  { simpl. destruct (Ascii.eqb " " a) eqn:X; [|reflexivity]. apply Ascii.eqb_eq in X. subst a. discriminate H1. }
  now rewrite P, (IHname r H2).
Qed.

Lemma dset_nonempty : forall k v d, dset k v d <> [].
Proof. intros k v d. destruct d as [|[k' v'] d']; simpl; [discriminate|]. destruct (String.eqb k k'); discriminate. Qed.

Lemma fold_dset_nonempty : forall l d, d <> [] ->
  fold_left (fun (d : dict) '(k, v) => dset k v d) l d <> [].
Proof.
  induction l as [|[k v] l IH]; simpl; intros d H; [exact H|]. apply IH. apply dset_nonempty.
Qed.

Lemma dict_of_pairs_nonempty : forall l, l <> [] -> dict_of_pairs l <> [].
Proof.
  intros [|[k v] l] H; [congruence|]. unfold dict_of_pairs.
  change (fold_left (fun (d : dict) '(k0, v0) => dset k0 v0 d) ((k, v) :: l) [])
    with (fold_left (fun (d : dict) '(k0, v0) => dset k0 v0 d) l (dset k v [])).
  apply fold_dset_nonempty, dset_nonempty.
Qed.

Theorem action_split : forall name (l : list entry),
  no_char " " name = true -> no_char "=" name = true ->
  l <> [] -> forallb entry_ok l = true -> seps_ok l = true ->
  split_action_res (name ++ String " " (render l)) = ActInline name (dict_of_pairs (denote_all l)).
Proof.
  intros name l N1 N2 NE Hok Hs.
  assert (P : parse_inline_dict (name ++ String " " (render l)) = dict_of_pairs (denote_all l)).
  { unfold parse_inline_dict, parse_inline_params, findall. rewrite (scan_prefix name "" _ N2).
    pose proof (inline_roundtrip l Hok Hs) as R. unfold parse_inline_params, findall in R. now rewrite R. }
  unfold split_action_res. rewrite P, (find_blank name _ N1).
  assert (D : dict_of_pairs (denote_all l) <> []).
  { apply dict_of_pairs_nonempty. destruct l; [congruence | discriminate]. }
  destruct (dict_of_pairs (denote_all l)); [congruence | reflexivity].
Qed.

Theorem action_plain : forall s, parse_inline_dict s = [] -> split_action_res s = ActPlain s.
Proof. intros s H. unfold split_action_res. now rewrite H. Qed.

Theorem dq_apostrophe_refuted : exists c,
  no_char ch_dq c = true /\ curly c = false /\
  parse_inline_params (render [("x", VDq c, "")]) <> [("x", JStr c)].
Proof. exists "'a'". repeat split; vm_compute; discriminate. Qed.

Theorem curly_string_refuted : exists c,
  no_char ch_dq c = true /\ first_is ch_sq c = false /\ ends_with (str1 ch_sq) c = false /\
  parse_inline_params (render [("x", VDq c, "")]) <> [("x", JStr c)].
Proof. exists "{}". repeat split; vm_compute; discriminate. Qed.

Theorem two_lists_refuted :
  parse_inline_params "x=[1]" = [("x", JList [JInt 1])] /\
  parse_inline_params "y=[2]" = [("y", JList [JInt 2])] /\
  parse_inline_params "x=[1] y=[2]" = [("x", JStr "[1] y=[2]")].
Proof. vm_compute. auto. Qed.

Theorem leading_dot_refuted : exists fp, digits1 fp = true /\
  parse_inline_params ("x=." ++ fp) = [("x", JStr ("." ++ fp))].
Proof. exists "5". vm_compute. auto. Qed.

Theorem key_in_refuted : exists keys E,
  forallb (fun k => word_key k) keys = true /\
  parse_items (join ", " keys ++ " in " ++ E) <> (strip E, Some keys).
Proof. exists ["x"; "in"], "<% ctx().xs %>". split; vm_compute; [reflexivity | discriminate]. Qed.

Theorem expr_in_refuted : exists E,
  m_value E = Some (E, "") /\ parse_items E <> (strip E, None).
Proof. exists "<% ctx().xs.where($ in list(1, 2)) %>". split; vm_compute; [reflexivity | discriminate]. Qed.

Definition sample_entries : list entry :=
  [ ("msg", VDq "hello, k=v; it's <b> in x", ", ");
    ("n", VZ (-42), "; ");
    ("f", VDec false "3" "140", " ");
    ("flag", VBool true "TrUe", " ,; ");
    ("z", VNull, "  ");
    ("s", VSq "say ""hi"" [1, 2]", ",");
    ("e", VYaql " ctx().x + 1 ", " ");
    ("j", VJinja " ctx().y ", "") ].

Example sample_roundtrip :
  forallb entry_ok sample_entries = true /\ seps_ok sample_entries = true /\
  render sample_entries =
    "msg=""hello, k=v; it's <b> in x"", n=-42; f=3.140 flag=TrUe ,; z=null  s='say ""hi"" [1, 2]',e=<% ctx().x + 1 %> j={{ ctx().y }}" /\
  parse_inline_params (render sample_entries) =
    [("msg", JStr "hello, k=v; it's <b> in x"); ("n", JInt (-42)); ("f", JFloat "3.140"); ("flag", JBool true);
     ("z", JNull); ("s", JStr "say ""hi"" [1, 2]"); ("e", JStr "<% ctx().x + 1 %>"); ("j", JStr "{{ ctx().y }}")].
Proof. vm_compute. auto. Qed.

Example sample_do :
  forallb pad_ok [("", "t1", " "); (" ", "task two", ""); ("  ", "continue", "  ")] = true /\
  split_do "t1 , task two,  continue  " = ["t1"; "task two"; "continue"] /\
  forallb name_ok ["a"; "b c"; "noop"] = true /\ split_do "a, b c, noop" = ["a"; "b c"; "noop"].
Proof. vm_compute. auto. Qed.

Example sample_with :
  forallb key_ok ["k1"; "k2"; "inner"] = true /\
  parse_items "k1, k2, inner in <% ctx().xs.where($ in ctx().ys) %> " =
    ("<% ctx().xs.where($ in ctx().ys) %>", Some ["k1"; "k2"; "inner"]) /\
  items_of_with (WithStr "a, b in <% ctx().xs %>")
    = {| it_expr := "<% ctx().xs %>"; it_keys := Some ["a"; "b"]; it_concurrency := JNull |}.
Proof. vm_compute. auto. Qed.

Example sample_action :
  no_char " " "core.echo" = true /\ no_char "=" "core.echo" = true /\
  split_action ("core.echo" ++ String " " (render sample_entries)) =
    ("core.echo", dict_of_pairs (denote_all sample_entries)) /\
  split_action "core.local cmd=""ls"" cmd='pwd' n=1" = ("core.local", [("cmd", JStr "pwd"); ("n", JInt 1)]).
Proof. vm_compute. auto. Qed.
