(* JustifiedProofs.v -- C01: every staged entry and every execution record is justified.

   [Justified g c]: every staged entry s and every record r of c carries a predecessor list in which
   every reference ((src, k), j) points to a record j of task src that is completed and has recorded
   the transition (s_id s, k) as satisfied (true), for an edge src -> s_id s with key k of the graph;
   an empty list occurs only for a start task (no inbound edge).  The invariant also fixes the
   graph, says that the pointer map names records of the right task, and that a record that is not
   completed has decided no transition yet.

   Proved: the fresh state is justified, every API call preserves it (every evaluator, reruns and
   persists included) provided events are delivered "in protocol" ([call_ok_w], [op_in_protocol_w]: an event
   that addresses a completed record which has decided transitions is a new start of a staged task, or
   is not the engine's internal retry event) and the graph's outgoing transitions of a task have
   distinct ids (true of composed graphs).  Of the first proviso only "nobody injects the internal retry
   event" is a restriction on histories ([reachable_justified_always]): a late duplicate report of a
   completed task leaves the state as it was ([justified_kept_by_duplicate_report]), the injected retry
   event reopens a decided record (w_injected_retry_event_reopens in FrozenProofs).  Also: the
   value recorded for a transition is the conjunction of the truthiness of its criteria evaluated
   on the context of the completed task, and a staged reference is created exactly when it is true. *)
From Coq Require Import String List Bool ZArith Arith Lia.
From Orq Require Import GenStatuses GenEvents GenTables GenSpecMeta Base State Machines Codec Conductor Decode Api.
From Orq Require Import F_tables ListFacts StateFacts Hoare Frame ValuePost StatusReach C04Proofs C09C10Proofs C13Proofs C05Proofs C18Proofs RetryProofs InertProofs FrozenProofs OffersProofs.
Import ListNotations.
Open Scope string_scope.
Open Scope monad_scope.

Lemma aset_not_nil : forall K V (keqb : K -> K -> bool) k (v : V) d, aset keqb k v d <> [].
Proof. intros K V keqb k v [|[k1 v1] d]; simpl; [discriminate|destruct (keqb k k1); discriminate]. Qed.

Lemma nth_snoc_old : forall A (l : list A) x k y, nth_error l k = Some y -> nth_error (app l [x]) k = Some y.
Proof. intros A l x k y H. rewrite nth_error_app1; [exact H|apply nth_error_Some; congruence]. Qed.
Lemma nth_snoc_inv : forall A (l : list A) x k y, nth_error (app l [x]) k = Some y ->
  nth_error l k = Some y \/ (k = length l /\ y = x).
Proof.
  intros A l x k y H. destruct (Nat.lt_ge_cases k (length l)) as [Hlt|Hge].
  - left. rewrite nth_error_app1 in H by exact Hlt. exact H.
  - right. rewrite nth_error_app2 in H by exact Hge. destruct (k - length l) as [|m] eqn:E; simpl in H; [|destruct m; discriminate].
    inversion H. split; [lia|reflexivity].
Qed.

Definition trid_of (e : gedge) : trid := (e_dst e, e_key e).

Definition is_start (g : graph) (t : string) : Prop := forall e, In e (g_edges g) -> e_dst e <> t.

Definition witness (g : graph) (sq : list trec) (dst : string) (p : trid * nat) : Prop :=
  exists r', nth_error sq (snd p) = Some r' /\ r_id r' = fst (fst p) /\ decided r' /\
             aget trid_eqb (dst, snd (fst p)) (r_next r') = Some true /\
             exists e, In e (g_edges g) /\ e_src e = fst (fst p) /\ e_dst e = dst /\ e_key e = snd (fst p).

Definition jprev (g : graph) (sq : list trec) (dst : string) (prev : list (trid * nat)) : Prop :=
  (prev = [] -> is_start g dst) /\ forall p, In p prev -> witness g sq dst p.

Definition ptr_ok (w : wstate) : Prop :=
  forall t route j, ws_task_idx w t route = Some j -> exists r, nth_error (sequence w) j = Some r /\ r_id r = t.

Definition open_ok (sq : list trec) : Prop :=
  forall j r, nth_error sq j = Some r -> ~ decided r -> r_next r = [].

Definition Justified (g : graph) (c : cstate) : Prop :=
  c_graph c = g /\ ptr_ok (c_ws c) /\ open_ok (sequence (c_ws c)) /\
  (forall s, In s (staged (c_ws c)) -> jprev g (sequence (c_ws c)) (s_id s) (s_prev s)) /\
  (forall j r, nth_error (sequence (c_ws c)) j = Some r -> jprev g (sequence (c_ws c)) (r_id r) (r_prev r)).

(* only a completed record with a transition recorded true can be a witness: of the others [seq_keeps] asks
   nothing but the task and the predecessors *)
Definition has_true (r : trec) : Prop := exists tid, aget trid_eqb tid (r_next r) = Some true.

Definition seq_keeps (sq sq' : list trec) : Prop :=
  forall j r, nth_error sq j = Some r ->
    exists r', nth_error sq' j = Some r' /\ r_id r' = r_id r /\ r_prev r' = r_prev r /\
      (decided r -> has_true r ->
       r_status r' = r_status r /\
       forall tid, aget trid_eqb tid (r_next r) = Some true -> aget trid_eqb tid (r_next r') = Some true).

Lemma seq_keeps_refl : forall sq, seq_keeps sq sq.
Proof. intros sq j r H; exists r; repeat split; auto. Qed.
Lemma seq_keeps_trans : forall a b c, seq_keeps a b -> seq_keeps b c -> seq_keeps a c.
Proof.
  intros a b c H1 H2 j r H. destruct (H1 j r H) as [r1 [Hr1 [I1 [P1 K1]]]].
  destruct (H2 j r1 Hr1) as [r2 [Hr2 [I2 [P2 K2]]]].
  exists r2; split; [exact Hr2|]. split; [congruence|]. split; [congruence|].
  intros Hd [tid Ht]. destruct (K1 Hd (ex_intro _ tid Ht)) as [S1 T1].
  assert (Hd1 : decided r1) by (unfold decided in *; rewrite S1; exact Hd).
  destruct (K2 Hd1 (ex_intro _ tid (T1 tid Ht))) as [S2 T2].
  split; [congruence|]. intros tid' Ht'. apply T2, T1, Ht'.
Qed.

Lemma witness_keeps : forall g sq sq' dst p, seq_keeps sq sq' -> witness g sq dst p -> witness g sq' dst p.
Proof.
  intros g sq sq' dst p Hk [r [Hn [Hi [Hd [Ht He]]]]].
  destruct (Hk _ _ Hn) as [r' [Hn' [Hi' [_ K]]]].
  destruct (K Hd (ex_intro _ _ Ht)) as [Hs Htt].
  exists r'; split; [exact Hn'|]. split; [congruence|]. split; [unfold decided in *; rewrite Hs; exact Hd|].
  split; [apply Htt; exact Ht|exact He].
Qed.

Lemma jprev_keeps : forall g sq sq' dst prev, seq_keeps sq sq' -> jprev g sq dst prev -> jprev g sq' dst prev.
Proof. intros g sq sq' dst prev Hk [H0 H1]; split; [exact H0|intros p Hp; eapply witness_keeps; eauto]. Qed.

Lemma Justified_shape : forall g c c', Justified g c -> c_graph c' = g ->
  seq_keeps (sequence (c_ws c)) (sequence (c_ws c')) -> ptr_ok (c_ws c') -> open_ok (sequence (c_ws c')) ->
  (forall s', In s' (staged (c_ws c')) ->
     (exists s, In s (staged (c_ws c)) /\ s_id s' = s_id s /\ s_prev s' = s_prev s) \/
     jprev g (sequence (c_ws c')) (s_id s') (s_prev s')) ->
  (forall j r', nth_error (sequence (c_ws c')) j = Some r' ->
     (exists r, nth_error (sequence (c_ws c)) j = Some r /\ r_id r' = r_id r /\ r_prev r' = r_prev r) \/
     jprev g (sequence (c_ws c')) (r_id r') (r_prev r')) ->
  Justified g c'.
Proof.
  intros g c c' [Hg [Hp [Ho [Hs Hr]]]] Hg' Hk Hp' Ho' Hs' Hr'.
  split; [exact Hg'|]. split; [exact Hp'|]. split; [exact Ho'|]. split.
  - intros s' Hin. destruct (Hs' s' Hin) as [[s [Hi [E1 E2]]]|H]; [|exact H].
    rewrite E1, E2. eapply jprev_keeps; [exact Hk|apply Hs; exact Hi].
  - intros j r' Hn. destruct (Hr' j r' Hn) as [[r [Hi [E1 E2]]]|H]; [|exact H].
    rewrite E1, E2. eapply jprev_keeps; [exact Hk|eapply Hr; exact Hi].
Qed.

Lemma Justified_eq : forall g c c', Justified g c -> c_graph c' = c_graph c ->
  sequence (c_ws c') = sequence (c_ws c) -> staged (c_ws c') = staged (c_ws c) ->
  tasks (c_ws c') = tasks (c_ws c) -> Justified g c'.
Proof.
  intros g c c' [Hg [Hp [Ho [Hs Hr]]]] E1 E2 E3 E4. unfold Justified.
  split; [congruence|]. split; [|split; [|split]].
  - intros t route j Hj. unfold ws_task_idx in Hj. rewrite E4 in Hj. rewrite E2. exact (Hp t route j Hj).
  - rewrite E2. exact Ho.
  - rewrite E2, E3. exact Hs.
  - rewrite E2. exact Hr.
Qed.

Lemma Justified_staged : forall g c l, Justified g c ->
  (forall s', In s' l -> exists s, In s (staged (c_ws c)) /\ s_id s' = s_id s /\ s_prev s' = s_prev s) ->
  Justified g (set_ws c (ws_set_staged (c_ws c) l)).
Proof.
  intros g c l H Hl. pose proof H as [Hg [Hp [Ho _]]].
  apply (Justified_shape g c); [exact H|exact Hg|apply seq_keeps_refl|exact Hp|exact Ho| |].
  - intros s' Hin. left. apply Hl. exact Hin.
  - intros j r' Hn. left. exists r'; repeat split; exact Hn.
Qed.

Lemma Justified_staged_update : forall g c f t r, Justified g c ->
  (forall s, s_id (f s) = s_id s /\ s_prev (f s) = s_prev s) ->
  Justified g (set_ws c (ws_set_staged (c_ws c) (staged_update f t r (staged (c_ws c))))).
Proof.
  intros g c f t r H Hf. apply Justified_staged; [exact H|]. intros s' Hin.
  apply In_staged_update in Hin. destruct Hin as [Hin|[s [Hin [_ ->]]]].
  - exists s'; repeat split; exact Hin.
  - exists s; split; [exact Hin|apply Hf].
Qed.

Lemma Justified_remove_staged : forall g c t r, Justified g c ->
  Justified g (set_ws c (ws_remove_staged_task (c_ws c) t r)).
Proof.
  intros g c t r H. unfold ws_remove_staged_task.
  destruct (get_staged_task (c_ws c) t r) as [s|]; [|eapply Justified_eq; [exact H|reflexivity..]].
  destruct (items_any_active s); [eapply Justified_eq; [exact H|reflexivity..]|].
  apply Justified_staged; [exact H|]. intros s' Hin. apply In_staged_remove_first in Hin.
  exists s'; repeat split; exact Hin.
Qed.

Lemma ptr_ok_update : forall w j f, (forall r, r_id (f r) = r_id r) -> ptr_ok w -> ptr_ok (ws_update_rec w j f).
Proof.
  intros w j f Hf Hp t route k Hk. unfold ws_task_idx in Hk. rewrite tasks_update_rec in Hk.
  destruct (Hp t route k Hk) as [r [Hn Hi]]. destruct (Nat.eq_dec j k) as [->|Hne].
  - exists (f r); split; [apply nth_update_rec_same; exact Hn|rewrite Hf; exact Hi].
  - exists r; split; [rewrite nth_update_rec_other by exact Hne; exact Hn|exact Hi].
Qed.

Lemma Justified_update : forall g c j f, Justified g c ->
  (forall r, nth_error (sequence (c_ws c)) j = Some r ->
     r_id (f r) = r_id r /\ r_prev (f r) = r_prev r /\
     (decided r -> has_true r ->
      r_status (f r) = r_status r /\
      forall tid, aget trid_eqb tid (r_next r) = Some true -> aget trid_eqb tid (r_next (f r)) = Some true) /\
     (~ decided (f r) -> r_next (f r) = [])) ->
  Justified g (set_ws c (ws_update_rec (c_ws c) j f)).
Proof.
  intros g c j f H Hf. pose proof H as [Hg [Hp [Ho _]]].
  destruct (nth_error (sequence (c_ws c)) j) as [rj|] eqn:Ej.
  2: { eapply Justified_eq; [exact H|..]; unfold ws_update_rec; cbn [c_ws set_ws c_graph]; try rewrite Ej; reflexivity. }
  destruct (Hf rj eq_refl) as [F1 [F2 [F3 F4]]].
  assert (Hk : seq_keeps (sequence (c_ws c)) (sequence (ws_update_rec (c_ws c) j f))).
  { intros k r Hn. destruct (Nat.eq_dec j k) as [<-|Hne].
    - rewrite Ej in Hn; inversion Hn; subst r. exists (f rj). split; [apply nth_update_rec_same; exact Ej|].
      split; [exact F1|]. split; [exact F2|exact F3].
    - exists r. split; [rewrite nth_update_rec_other by exact Hne; exact Hn|]. repeat split; auto. }
  apply (Justified_shape g c); [exact H|exact Hg|exact Hk| | | |]; cbn [c_ws set_ws].
  - unfold ptr_ok, ws_task_idx. intros t route k Hkk. rewrite tasks_update_rec in Hkk.
    destruct (Hp t route k Hkk) as [r [Hn Hi]]. destruct (Hk k r Hn) as [r' [Hn' [Hi' _]]].
    exists r'; split; [exact Hn'|congruence].
  - intros k r' Hn Hnd. destruct (Nat.eq_dec j k) as [<-|Hne].
    + rewrite (nth_update_rec_same _ _ _ _ Ej) in Hn; inversion Hn; subst r'. apply F4; exact Hnd.
    + rewrite nth_update_rec_other in Hn by exact Hne. eapply Ho; eassumption.
  - intros s' Hin. left. exists s'. split; [|split; reflexivity].
    unfold ws_update_rec in Hin. rewrite Ej in Hin. exact Hin.
  - intros k r' Hn. left. destruct (Nat.eq_dec j k) as [<-|Hne].
    + rewrite (nth_update_rec_same _ _ _ _ Ej) in Hn; inversion Hn; subst r'. exists rj; repeat split; assumption.
    + rewrite nth_update_rec_other in Hn by exact Hne. exists r'; repeat split; exact Hn.
Qed.

Lemma Justified_update_keep : forall g c j f, Justified g c ->
  (forall r, r_id (f r) = r_id r /\ r_prev (f r) = r_prev r /\ r_status (f r) = r_status r /\ r_next (f r) = r_next r) ->
  Justified g (set_ws c (ws_update_rec (c_ws c) j f)).
Proof.
  intros g c j f H Hf. apply Justified_update; [exact H|]. intros r Hn.
  destruct (Hf r) as [F1 [F2 [F3 F4]]]. split; [exact F1|]. split; [exact F2|]. split.
  - intros _ _. split; [exact F3|]. intros tid Ht. rewrite F4. exact Ht.
  - intro Hnd. rewrite F4. destruct H as [_ [_ [Ho _]]]. eapply Ho; [exact Hn|].
    unfold decided in *. rewrite <- F3. exact Hnd.
Qed.

Lemma Justified_set_status : forall g c j s r, Justified g c ->
  nth_error (sequence (c_ws c)) j = Some r -> (~ decided r \/ r_next r = []) ->
  Justified g (set_ws c (ws_update_rec (c_ws c) j (fun r => r_set_status r s))).
Proof.
  intros g c j s r H Hn Hc. assert (Hnil : r_next r = []).
  { destruct Hc as [Hc|Hc]; [|exact Hc]. destruct H as [_ [_ [Ho _]]]. eapply Ho; eassumption. }
  apply Justified_update; [exact H|]. intros r1 Hn1. rewrite Hn in Hn1; inversion Hn1; subst r1.
  split; [reflexivity|]. split; [reflexivity|]. split.
  - intros _ [tid Ht]. rewrite Hnil in Ht. discriminate.
  - intros _. exact Hnil.
Qed.

Lemma Justified_set_next : forall g c j r tid b, Justified g c ->
  nth_error (sequence (c_ws c)) j = Some r -> decided r -> aget trid_eqb tid (r_next r) = None ->
  Justified g (set_ws c (ws_update_rec (c_ws c) j (fun r => r_set_next r (aset trid_eqb tid b (r_next r))))).
Proof.
  intros g c j r tid b H Hn Hd Ha. apply Justified_update; [exact H|].
  intros r1 Hn1. rewrite Hn in Hn1; inversion Hn1; subst r1.
  split; [reflexivity|]. split; [reflexivity|]. split.
  - intros _ _. split; [reflexivity|]. intros tid' Ht. cbn [r_next r_set_next].
    rewrite (aget_aset_other trid_eqb trid_eqb_eq); [exact Ht|]. intro E; subst tid'. congruence.
  - intro Hnd. exfalso. apply Hnd. exact Hd.
Qed.

Lemma ptr_ok_append : forall c r, ptr_ok (c_ws c) -> ptr_ok (c_ws (append_rec c r)).
Proof.
  intros c r Hp t rt k Hkk. unfold ws_task_idx in Hkk. cbn [append_rec c_ws set_ws tasks sequence ws_set_tasks ws_set_sequence] in *.
  destruct (tkey_eqb (t, rt) (r_id r, r_route r)) eqn:E.
  - apply tkey_eqb_eq in E. inversion E; subst t rt.
    rewrite (aget_aset_same _ _ tkey_eqb) in Hkk by apply tkey_eqb_refl. inversion Hkk; subst k.
    exists r. split; [|reflexivity]. rewrite nth_error_app2 by apply Nat.le_refl. rewrite Nat.sub_diag. reflexivity.
  - rewrite (aget_aset_other tkey_eqb tkey_eqb_eq) in Hkk by (intro E'; rewrite E', tkey_eqb_refl in E; discriminate).
    destruct (Hp t rt k Hkk) as [rk [Hn Hi]]. exists rk. split; [apply nth_snoc_old; exact Hn|exact Hi].
Qed.

Lemma Justified_append : forall g c r, Justified g c ->
  r_status r = None -> r_next r = [] -> jprev g (sequence (c_ws c)) (r_id r) (r_prev r) ->
  Justified g (append_rec c r).
Proof.
  intros g c r H Hs Hx Hj. pose proof H as [Hg [Hp [Ho _]]].
  assert (Hk : seq_keeps (sequence (c_ws c)) (sequence (c_ws (append_rec c r)))).
  { intros k rk Hn. exists rk. split; [apply nth_snoc_old; exact Hn|]. repeat split; auto. }
  apply (Justified_shape g c); [exact H|exact Hg|exact Hk|apply ptr_ok_append; exact Hp| | |].
  - intros k rk Hn Hnd. destruct (nth_snoc_inv _ _ _ _ _ Hn) as [Hn'|[_ ->]]; [eapply Ho; eassumption|exact Hx].
  - intros s' Hin. left. exists s'; repeat split; exact Hin.
  - intros k rk Hn. destruct (nth_snoc_inv _ _ _ _ _ Hn) as [Hn'|[_ ->]]; [left; exists rk; repeat split; exact Hn'|right].
    eapply jprev_keeps; [exact Hk|exact Hj].
Qed.

Lemma Justified_add_staged : forall g c s, Justified g c ->
  jprev g (sequence (c_ws c)) (s_id s) (s_prev s) -> Justified g (set_ws c (ws_add_staged (c_ws c) s)).
Proof.
  intros g c s H Hj. pose proof H as [Hg [Hp [Ho _]]].
  apply (Justified_shape g c); [exact H|exact Hg|apply seq_keeps_refl|exact Hp|exact Ho| |];
    cbn [c_ws set_ws sequence staged ws_add_staged ws_set_staged].
  - intros s' Hin. apply in_app_or in Hin. destruct Hin as [Hin|[<-|[]]].
    + left. exists s'; repeat split; exact Hin.
    + right. exact Hj.
  - intros k rk Hn. left. exists rk; repeat split; exact Hn.
Qed.

Lemma Justified_staged_gain : forall g c f t r key j, Justified g c ->
  (forall s, s_id (f s) = s_id s /\ s_prev (f s) = aset trid_eqb key j (s_prev s)) ->
  witness g (sequence (c_ws c)) t (key, j) ->
  Justified g (set_ws c (ws_set_staged (c_ws c) (staged_update f t r (staged (c_ws c))))).
Proof.
  intros g c f t r key j H Hf Hw. pose proof H as [Hg [Hp [Ho [Hs _]]]].
  apply (Justified_shape g c); [exact H|exact Hg|apply seq_keeps_refl|exact Hp|exact Ho| |];
    cbn [c_ws set_ws sequence staged ws_set_staged].
  - intros s' Hin. apply In_staged_update in Hin. destruct Hin as [Hin|[s [Hin [Hm ->]]]].
    + left. exists s'; repeat split; exact Hin.
    + right. destruct (Hf s) as [F1 F2]. rewrite F1, F2. apply stg_matches_id in Hm. destruct Hm as [Hid _].
      split; [intro E; exfalso; eapply aset_not_nil; exact E|].
      intros p Hpin. apply (In_aset trid_eqb trid_eqb_eq) in Hpin. destruct Hpin as [->|Hpin].
      * rewrite Hid. exact Hw.
      * apply (Hs s Hin). exact Hpin.
  - intros k rk Hn. left. exists rk; repeat split; exact Hn.
Qed.

Lemma Forall2_nth_l : forall A B (R : A -> B -> Prop) l l' j a, Forall2 R l l' -> nth_error l j = Some a ->
  exists b, nth_error l' j = Some b /\ R a b.
Proof.
  intros A B R l l' j a H; revert j; induction H as [|x y l l' Hxy Hl IH]; intros [|j] Hn; simpl in *; try discriminate.
  - inversion Hn; subst. exists y; split; [reflexivity|exact Hxy].
  - apply IH; exact Hn.
Qed.
Lemma Forall2_nth_r : forall A B (R : A -> B -> Prop) l l' j b, Forall2 R l l' -> nth_error l' j = Some b ->
  exists a, nth_error l j = Some a /\ R a b.
Proof.
  intros A B R l l' j b H; revert j; induction H as [|x y l l' Hxy Hl IH]; intros [|j] Hn; simpl in *; try discriminate.
  - inversion Hn; subst. exists x; split; [reflexivity|exact Hxy].
  - apply IH; exact Hn.
Qed.

(* no witness is lost *)
Definition Rkp (c c' : cstate) : Prop := seq_keeps (sequence (c_ws c)) (sequence (c_ws c')).
Lemma Rkp_refl : forall c, Rkp c c.
Proof. intro; apply seq_keeps_refl. Qed.
Lemma Rkp_trans : forall a b c, Rkp a b -> Rkp b c -> Rkp a c.
Proof. unfold Rkp; intros; eapply seq_keeps_trans; eauto. Qed.

Lemma Rkp_same_seq : forall c c', sequence (c_ws c') = sequence (c_ws c) -> Rkp c c'.
Proof. intros c c' H; unfold Rkp; rewrite H; apply seq_keeps_refl. Qed.

Lemma Rkp_update_keep : forall c j f,
  (forall r, r_id (f r) = r_id r /\ r_prev (f r) = r_prev r /\ r_status (f r) = r_status r /\ r_next (f r) = r_next r) ->
  Rkp c (set_ws c (ws_update_rec (c_ws c) j f)).
Proof.
  intros c j f Hf k r Hn. cbn [c_ws set_ws]. destruct (Nat.eq_dec j k) as [<-|Hne].
  - exists (f r). split; [apply nth_update_rec_same; exact Hn|]. destruct (Hf r) as [F1 [F2 [F3 F4]]].
    split; [exact F1|]. split; [exact F2|]. intros _ _. split; [exact F3|]. intros tid Ht; rewrite F4; exact Ht.
  - exists r. split; [rewrite nth_update_rec_other by exact Hne; exact Hn|]. repeat split; auto.
Qed.

Lemma Rkp_append : forall c r tk,
  Rkp c (set_ws c (ws_set_tasks (ws_set_sequence (c_ws c) (app (sequence (c_ws c)) [r])) tk)).
Proof.
  intros c r tk k rk Hn. exists rk. split; [apply nth_snoc_old; exact Hn|]. repeat split; auto.
Qed.

Lemma Rkp_upd_rec : forall j f, (forall r, r_id (f r) = r_id r) -> (forall r, r_prev (f r) = r_prev r) ->
  (forall r, r_status (f r) = r_status r) -> (forall r, r_next (f r) = r_next r) -> preserves Rkp (upd_rec j f).
Proof. intros j f E1 E2 E3 E4; apply (preserves_modws Rkp); intro c; apply Rkp_update_keep; intro; repeat split; auto. Qed.

Lemma keeps_request_status_core : forall st, preserves Rkp (request_status_core st).
Proof.
  intros st c c' res H.
  pose proof (pmod_request_status_core st c c' res H) as Hm.
  pose proof (pctl_request_status_core st c c' res H) as [_ [_ [_ [_ [_ [_ Hf2]]]]]].
  intros j r Hn. destruct (Forall2_nth_l _ _ _ _ _ _ _ Hf2 Hn) as [r' [Hn' [I1 [_ [_ [_ [I5 _]]]]]]].
  exists r'. split; [exact Hn'|]. split; [exact I1|]. split; [exact I5|].
  intros Hd _. rewrite (Hm j), Hn in Hn'; [|intro Hin; exact (active_not_decided _ _ _ Hin Hn Hd)].
  inversion Hn'; subst r'. split; [reflexivity|auto].
Qed.

Lemma pkp_log_entry_error : forall m t r tr res, preserves Rkp (log_entry_error m t r tr res).
Proof. intros; apply so_log_entry_error, Rkp_same_seq. Qed.
Lemma pkp_log_error : forall e t r tr, preserves Rkp (log_error e t r tr).
Proof. intros; unfold log_error; apply pkp_log_entry_error. Qed.
Lemma pkp_get_task_context : forall idxs, preserves Rkp (get_task_context idxs).
Proof. intros; apply (frame_get_task_context Rkp Rkp_refl Rkp_trans). Qed.

Section KeptRecord.
Variable idx : nat.
Variable rid : string.
Variable rst : option status.
Variable rnx : list (trid * bool).
Hypothesis Hcompl : ostatus_in rst COMPLETED_STATUSES = true.

(* the record at idx is of task rid, with status rst and decisions rnx; RK: it stays so *)
Definition Kz (c : cstate) : Prop :=
  exists r, nth_error (sequence (c_ws c)) idx = Some r /\ r_id r = rid /\ r_status r = rst /\ r_next r = rnx.
Definition RK (c c' : cstate) : Prop := Kz c -> Kz c'.
Lemma RK_refl : forall c, RK c c.
Proof. intros c H; exact H. Qed.
Lemma RK_trans : forall a b c, RK a b -> RK b c -> RK a c.
Proof. unfold RK; intros; auto. Qed.

Lemma RK_same_seq : forall c c', sequence (c_ws c') = sequence (c_ws c) -> RK c c'.
Proof. intros c c' H [r Hr]; exists r; rewrite H; exact Hr. Qed.

Lemma RK_update_keep : forall c j f,
  (forall r, r_id (f r) = r_id r /\ r_status (f r) = r_status r /\ r_next (f r) = r_next r) ->
  RK c (set_ws c (ws_update_rec (c_ws c) j f)).
Proof.
  intros c j f Hf [r [Hn [H1 [H2 H3]]]]. unfold Kz. cbn [c_ws set_ws]. destruct (Nat.eq_dec j idx) as [->|Hne].
  - exists (f r). split; [apply nth_update_rec_same; exact Hn|]. destruct (Hf r) as [F1 [F2 F3]].
    repeat split; congruence.
  - exists r. split; [rewrite nth_update_rec_other by exact Hne; exact Hn|]. repeat split; assumption.
Qed.

Lemma RK_upd_rec : forall j f, (forall r, r_id (f r) = r_id r) -> (forall r, r_status (f r) = r_status r) ->
  (forall r, r_next (f r) = r_next r) -> preserves RK (upd_rec j f).
Proof. intros j f E1 E2 E3; apply (preserves_modws RK); intro c; apply RK_update_keep; intro; repeat split; auto. Qed.

Lemma pk_request_status_core : forall st, preserves RK (request_status_core st).
Proof.
  intros st c c' res H [r [Hn Hr]]. pose proof (pmod_request_status_core st c c' res H) as Hm.
  exists r. split; [|exact Hr]. rewrite Hm; [exact Hn|].
  intro Hin. apply (active_not_decided _ _ _ Hin Hn). destruct Hr as [_ [Hs _]]. unfold decided. rewrite Hs. exact Hcompl.
Qed.
End KeptRecord.

Section RerunParts.
Variable ev : string -> dict -> evalres.

Definition rerun_prep (t : string) (route idx : nat) : M unit :=
  upd_rec idx (fun r => r_set_term r false) ;;;
  modws (fun w => ws_set_staged w (staged_update (fun s => s_set_completed s false) t route (staged w))) ;;;
  modify (fun c => set_errors c (filter (fun e => negb (opt_eqb String.eqb (er_task e) (Some t))) (c_errors c))).

Definition rerun_branch (ts : task_spec) (t : string) (route : nat) (reset_items : bool) (r : trec) : M unit :=
  w <- getws ;;
  if task_has_items ts && match get_staged_task w t route with Some _ => true | None => false end then
    modws (fun w => ws_set_staged w
             (staged_update
                (fun s => s_set_items s
                            (match s_items s with
                             | Some l => Some (map (fun st => if reset_items || status_in st ABENDED_STATUSES
                                                              then S_UNSET else st) l)
                             | None => None end))
                t route (staged w)))
  else
    add_task_state ev t route (r_in r) (r_prev r) ;;;
    modws (fun w => ws_add_staged w (mk_staged t route (r_in r) (r_prev r) true None)).

Definition rerun_clear (t : string) (route : nat) : M unit :=
  w <- getws ;;
  sq <- lift_res (get_task_sequence w t route) ;;
  forM_ sq (fun i => upd_rec i (fun r => r_set_term r false)).

Lemma request_task_rerun_run : forall t route b c,
  request_task_rerun ev t route b c =
  match ws_task_idx (c_ws c) t route with
  | None => (c, Exc (exn_key (tkey_str (t, route))))
  | Some idx =>
      match nth_error (sequence (c_ws c)) idx with
      | None => (c, Exc exn_index)
      | Some r =>
          match spec_get_task (c_spec c) t with
          | None => (c, Exc (exn_key t))
          | Some ts => (rerun_prep t route idx ;;; rerun_branch ts t route b r ;;; rerun_clear t route) c
          end
      end
  end.
Proof.
  intros t route b c. unfold request_task_rerun. unfold bind at 1, get. cbv beta iota.
  destruct (ws_task_idx (c_ws c) t route) as [idx|]; [|reflexivity].
  rewrite (bind_step _ _ _ _ _ _ _ (eq_refl : ret idx c = (c, Val idx))).
  unfold get_rec, bind at 1 2, getws. cbv beta iota.
  destruct (nth_error (sequence (c_ws c)) idx) as [r|]; [|reflexivity].
  unfold ret at 1. cbv beta iota. destruct (spec_get_task (c_spec c) t) as [ts|]; [|reflexivity].
  rewrite (bind_step _ _ _ _ _ _ _ (eq_refl : ret ts c = (c, Val ts))). reflexivity.
Qed.
End RerunParts.

Section Pres.
Variable g : graph.

(* the invariant, as a relation between the states before and after *)
Definition RI (c c' : cstate) : Prop := Justified g c -> Justified g c'.
Lemma RI_refl : forall c, RI c c.
Proof. intros c H; exact H. Qed.
Lemma RI_trans : forall a b c, RI a b -> RI b c -> RI a c.
Proof. unfold RI; intros; auto. Qed.

Lemma pj_modws : forall f, (forall w, sequence (f w) = sequence w) -> (forall w, staged (f w) = staged w) ->
  (forall w, tasks (f w) = tasks w) -> preserves RI (modws f).
Proof. intros f E1 E2 E3; apply (preserves_modws RI); intros c H; eapply Justified_eq; [exact H|reflexivity|apply E1|apply E2|apply E3]. Qed.
Lemma pj_modify : forall f, (forall c, c_graph (f c) = c_graph c) -> (forall c, c_ws (f c) = c_ws c) -> preserves RI (modify f).
Proof. intros f E1 E2; apply (preserves_modify RI); intros c H; eapply Justified_eq; [exact H|apply E1|rewrite E2; reflexivity..]. Qed.
Lemma pj_remove_staged : forall t route, preserves RI (modws (fun w => ws_remove_staged_task w t route)).
Proof. intros; apply (preserves_modws RI); intros c H; apply Justified_remove_staged; exact H. Qed.
Lemma pj_restage : forall f t route, (forall s, s_id (f s) = s_id s) -> (forall s, s_prev (f s) = s_prev s) ->
  preserves RI (modws (fun w => ws_set_staged w (staged_update f t route (staged w)))).
Proof. intros f t route E1 E2; apply (preserves_modws RI); intros c H; apply Justified_staged_update; [exact H|intro; split; [apply E1|apply E2]]. Qed.
Lemma pj_upd_rec : forall j f, (forall r, r_id (f r) = r_id r) -> (forall r, r_prev (f r) = r_prev r) ->
  (forall r, r_status (f r) = r_status r) -> (forall r, r_next (f r) = r_next r) -> preserves RI (upd_rec j f).
Proof. intros j f E1 E2 E3 E4; apply (preserves_modws RI); intros c H; apply Justified_update_keep; [exact H|intro; repeat split; auto]. Qed.

Lemma pj_log_entry_error : forall m t r tr res, preserves RI (log_entry_error m t r tr res).
Proof. intros; apply pj_modify; intro c; cbv zeta; destruct (existsb _ _); reflexivity. Qed.
Lemma RI_status : forall c s, RI c (set_ws c (ws_set_status (c_ws c) s)).
Proof. intros c s H; eapply Justified_eq; [exact H|reflexivity..]. Qed.
Lemma pj_wf_workflow_event : forall st, preserves RI (wf_workflow_event_M st).
Proof. exact (preserves_wf_workflow_event RI RI_refl RI_status). Qed.
Lemma pj_wf_task_event : forall t route st, preserves RI (wf_task_event_M t route st).
Proof. exact (preserves_wf_task_event RI RI_refl RI_status). Qed.

Lemma pj_request_status_core : forall st, preserves RI (request_status_core st).
Proof.
  intros st c c' res H Hj. pose proof Hj as [Hg [Hp [Ho [Hs Hr]]]].
  pose proof (pmod_request_status_core st c c' res H) as Hm.
  pose proof (pctl_request_status_core st c c' res H) as [_ [_ [Est [Etk [_ [_ Hf2]]]]]].
  pose proof (pg_request_status_core st c c' res H) as Eg. unfold Rg in Eg.
  pose proof (keeps_request_status_core st c c' res H) as Hk.
  apply (Justified_shape g c); [exact Hj|congruence|exact Hk| | | |].
  - intros t route k Hkk. unfold ws_task_idx in Hkk. rewrite Etk in Hkk.
    destruct (Hp t route k Hkk) as [r [Hn Hi]]. destruct (Hk k r Hn) as [r' [Hn' [Hi' _]]].
    exists r'; split; [exact Hn'|congruence].
  - intros j r' Hn' Hnd. destruct (Forall2_nth_r _ _ _ _ _ _ _ Hf2 Hn') as [r [Hn [_ [_ [_ [_ [_ [I6 _]]]]]]]].
    rewrite I6. destruct (in_dec Nat.eq_dec j (map fst (ws_tasks_by_status (c_ws c) ACTIVE_STATUSES))) as [Hin|Hnin].
    + eapply Ho; [exact Hn|eapply active_not_decided; eassumption].
    + rewrite (Hm j Hnin), Hn in Hn'. inversion Hn'; subst r'. eapply Ho; eassumption.
  - intros s' Hin. left. rewrite Est in Hin. exists s'; repeat split; exact Hin.
  - intros j r' Hn'. left. destruct (Forall2_nth_r _ _ _ _ _ _ _ Hf2 Hn') as [r [Hn [I1 [_ [_ [_ [I5 _]]]]]]].
    exists r; repeat split; assumption.
Qed.

Section WithEval.
Variable ev : string -> dict -> evalres.

Create HintDb presj.
Hint Resolve pj_modws pj_modify pj_remove_staged pj_restage pj_upd_rec pj_log_entry_error pj_wf_workflow_event
  pj_wf_task_event pj_request_status_core : presj.
Ltac walkj := pw RI_refl RI_trans ltac:(auto with presj).

Lemma pj_log_error : forall e t r tr, preserves RI (log_error e t r tr).
Proof. intros; unfold log_error; apply pj_log_entry_error. Qed.
Lemma pj_log_errors : forall es t r tr, preserves RI (log_errors es t r tr).
Proof. intros; apply (frame_log_errors RI RI_refl RI_trans), pj_log_entry_error. Qed.
Lemma pj_log_unreachable : forall l, preserves RI (log_unreachable l).
Proof. intros; apply (frame_log_unreachable RI RI_refl RI_trans), pj_log_entry_error. Qed.
Lemma pj_render_input : forall specs rt rolling errs, preserves RI (render_input ev specs rt rolling errs).
Proof. intros; apply (frame_render_input ev RI RI_refl RI_trans). Qed.
Lemma pj_render_vars : forall specs rolling rendered errs, preserves RI (render_vars ev specs rolling rendered errs).
Proof. intros; apply (frame_render_vars ev RI RI_refl RI_trans). Qed.
Lemma pj_get_task_context : forall idxs, preserves RI (get_task_context idxs).
Proof. intros; apply (frame_get_task_context RI RI_refl RI_trans). Qed.
Lemma pj_get_rec : forall j, preserves RI (get_rec j).
Proof. intros; apply (frame_get_rec RI RI_refl RI_trans). Qed.
Lemma pj_render_task : forall ts ctx, preserves RI (render_task ev ts ctx).
Proof. intros; apply (frame_render_task ev RI RI_refl RI_trans). Qed.
Lemma pj_setup_retry : forall t idxs, preserves RI (setup_retry ev t idxs).
Proof. intros; apply (frame_setup_retry ev RI RI_refl RI_trans). Qed.
Lemma pj_evaluate_route : forall e r, preserves RI (evaluate_route e r).
Proof. intros; apply (frame_evaluate_route RI RI_refl RI_trans); auto with presj. Qed.
Lemma pj_evaluate_task_retry : forall r ctx, preserves RI (evaluate_task_retry ev r ctx).
Proof. intros; apply (frame_evaluate_task_retry ev RI RI_refl RI_trans). Qed.
Lemma pj_finalize_context : forall ts e ctx, preserves RI (finalize_context ev ts e ctx).
Proof. intros; apply (frame_finalize_context ev RI RI_refl RI_trans). Qed.
Lemma pj_merge_term_contexts : forall l acc, preserves RI (merge_term_contexts l acc).
Proof. intros; apply (frame_merge_term_contexts RI RI_refl RI_trans). Qed.
Hint Resolve pj_log_error pj_log_errors pj_log_unreachable pj_render_input pj_render_vars pj_get_task_context pj_get_rec
  pj_render_task pj_setup_retry pj_evaluate_route pj_evaluate_task_retry pj_finalize_context pj_merge_term_contexts : presj.

Lemma pj_next_task_for : forall s, preserves RI (next_task_for ev s).
Proof. intros; apply (sframe_next_task_for ev RI RI_refl RI_trans); auto with presj. Qed.
Hint Resolve pj_next_task_for : presj.

(* the lazy creation of the workflow state: the only staging without predecessors, of the roots *)
Lemma root_is_start : forall t, In t (g_roots g) -> is_start g t.
Proof.
  intros t H e He Ed. unfold g_roots in H. apply in_sort_by in H. apply in_map_iff in H.
  destruct H as [n [Hn Hin]]. apply filter_In in Hin. destruct Hin as [_ Hf].
  apply negb_true_iff in Hf. assert (X : existsb (fun e0 => String.eqb (e_dst e0) (n_id n)) (g_edges g) = true).
  { apply existsb_exists. exists e; split; [exact He|]. rewrite Hn, Ed. apply String.eqb_refl. }
  congruence.
Qed.

Definition stage_roots : M unit :=
  forM_ (g_roots g) (fun t => modws (fun w => ws_add_staged w (mk_staged t 0 [0] [] true None))).
Lemma pj_stage_roots : preserves RI stage_roots.
Proof.
  unfold stage_roots. apply (preserves_forM_In _ RI_refl RI_trans). intros t Hin.
  apply (preserves_modws RI). intros c H. apply Justified_add_staged; [exact H|].
  cbn [mk_staged s_id s_prev]. split; [intros _; apply root_is_start; exact Hin|intros p []].
Qed.
Hint Resolve pj_stage_roots : presj.

Lemma pj_ensure_ws : preserves RI (ensure_ws ev).
Proof.
  intros c c' res H Hj. destruct (c_init c) eqn:Hi.
  - rewrite (ensure_ws_inited ev c Hi) in H. inversion H; subst; exact Hj.
  - unfold ensure_ws, bind at 1, get in H. cbv beta iota in H. rewrite Hi in H.
    assert (Hg : c_graph c = g) by (destruct Hj; assumption). rewrite Hg in H. fold stage_roots in H.
    match type of H with ?m c = _ => assert (P : preserves RI m) by walkj end.
    exact (P c c' res H Hj).
Qed.
Hint Resolve pj_ensure_ws : presj.

Lemma pj_request_workflow_status : forall st, preserves RI (request_workflow_status ev st).
Proof. intros; apply (cframe_request_workflow_status ev RI RI_trans); auto with presj. Qed.
Lemma pj_get_next_tasks : preserves RI (get_next_tasks ev).
Proof. apply (cframe_get_next_tasks ev RI RI_refl RI_trans); auto with presj. Qed.
Lemma pj_render_workflow_output : preserves RI (render_workflow_output ev).
Proof. apply (cframe_render_workflow_output ev RI RI_refl RI_trans); auto with presj. Qed.

Lemma pres_and : forall (I1 I2 : cstate -> Prop) A (m : M A),
  preserves (fun a b => I1 a -> I1 b) m -> preserves (fun a b => I2 a -> I2 b) m ->
  preserves (fun a b => I1 a /\ I2 a -> I1 b /\ I2 b) m.
Proof. intros I1 I2 A m H1 H2 c c' r E [A1 A2]. split; [eapply H1; eauto|eapply H2; eauto]. Qed.

Lemma pkp_setup_retry : forall t idxs, preserves Rkp (setup_retry ev t idxs).
Proof. intros; apply (frame_setup_retry ev Rkp Rkp_refl Rkp_trans). Qed.
Create HintDb preskp.
Hint Resolve Rkp_same_seq Rkp_upd_rec keeps_request_status_core pkp_log_error pkp_setup_retry : preskp.
Ltac walkp := pw Rkp_refl Rkp_trans ltac:(auto with seqonly preskp).

Lemma pj_ats_retry : forall gr t route ins, preserves RI (ats_retry ev gr t route ins).
Proof. intros; unfold ats_retry; walkj. Qed.
Lemma pkp_ats_retry : forall gr t route ins, preserves Rkp (ats_retry ev gr t route ins).
Proof. intros; unfold ats_retry; walkp. Qed.

Lemma add_task_state_J : forall t rt ins prev c c' res,
  add_task_state ev t rt ins prev c = (c', res) -> Justified g c -> jprev g (sequence (c_ws c)) t prev ->
  Justified g c' /\ Rkp c c' /\
  forall idx, res = Val idx -> exists r, nth_error (sequence (c_ws c')) idx = Some r /\ r_status r = None /\ r_id r = t.
Proof.
  intros t rt ins prev c c' res H Hj Hp. rewrite add_task_state_run in H.
  destruct (negb (g_has_task (c_graph c) t)); [inversion H; subst; split; [exact Hj|split; [apply Rkp_refl|discriminate]]|].
  cbv zeta in H. destruct (ats_retry ev (c_graph c) t rt _ c) as [c1 [retry|e]] eqn:E; inversion H; subst c' res; clear H;
    pose proof (pj_ats_retry _ _ _ _ _ _ _ E Hj) as Hj1; pose proof (pkp_ats_retry _ _ _ _ _ _ _ E) as Hk1.
  - split; [|split].
    + apply Justified_append; [exact Hj1|reflexivity|reflexivity|]. eapply jprev_keeps; [exact Hk1|exact Hp].
    + eapply Rkp_trans; [exact Hk1|apply Rkp_append].
    + intros idx Ei; inversion Ei; subst idx. eexists. split; [apply nth_append_rec|split; reflexivity].
  - split; [exact Hj1|split; [exact Hk1|discriminate]].
Qed.

Lemma retrying_J : forall t route idx r ns c c' res,
  uts_retrying t route idx r ns c = (c', res) -> Justified g c ->
  nth_error (sequence (c_ws c)) idx = Some r -> r_id r = t -> Justified g c'.
Proof.
  intros t route idx r ns c c' res H Hj Hn Hid. rewrite uts_retrying_run in H.
  destruct (status_eqb ns S_RETRYING); [|inversion H; subst; exact Hj].
  destruct (r_retry r) as [rr|]; inversion H; subst c' res; clear H; [|exact Hj].
  set (f := fun r0 => r_set_retry r0 (Some (rr_bump rr))).
  remember (ws_remove_staged_task (ws_update_rec (c_ws c) idx f) t route) as w2 eqn:Ew.
  assert (Hj2 : Justified g (set_ws c w2)).
  { subst w2. apply (Justified_remove_staged g (set_ws c _)), Justified_update_keep; [exact Hj|intro; repeat split; reflexivity]. }
  apply (Justified_add_staged g (set_ws c w2)); [exact Hj2|]. cbn [mk_staged s_id s_prev].
  destruct Hj2 as [_ [_ [_ [_ Hr]]]]. rewrite <- Hid. apply (Hr idx (f r)). cbn [c_ws set_ws]. subst w2.
  rewrite seq_remove_staged. exact (nth_update_rec_same (c_ws c) idx f r Hn).
Qed.

Section Transition.
Variable t : string.
Variables route idx : nat.
Variable ts : task_spec.
Variable ctx : dict.

(* process_transition, in two parts: the evaluation of the criteria with the recording of the
   decision, and what is done with the decision *)
Definition pt_step1 (e : gedge) : M (option bool) :=
  try_catch
    (vs <- mapM (fun cr => evaluate ev cr ctx) (e_criteria e) ;;
     let b := forallb truthy vs in
     upd_rec idx (fun r => r_set_next r (aset trid_eqb (e_dst e, e_key e) b (r_next r))) ;;;
     ret (Some b))
    (fun x => log_error x (Some t) (Some route) (Some (e_dst e, e_key e)) ;;;
              request_status_core S_FAILED ;;; ret None).

Definition pt_cont (e : gedge) (ok : option bool) : M (option (string * nat) * option (string * nat)) :=
  let tid := (e_dst e, e_key e) in
  match ok with
  | Some true =>
      fc <- finalize_context ev ts e ctx ;;
      let '(new_ctx, errors) := fc in
      match errors with
      | _ :: _ =>
          log_errors errors (Some t) (Some route) (Some tid) ;;;
          request_status_core S_FAILED ;;; ret (None, None)
      | [] =>
          r <- get_rec idx ;;
          w <- getws ;;
          out_idxs <- (match new_ctx with
                       | [] => ret (r_in r)
                       | _ =>
                           let ci := length (contexts w) in
                           modws (fun w => ws_set_contexts w (app (contexts w) [new_ctx])) ;;;
                           upd_rec idx (fun r => r_set_out r (Some (tid, ci))) ;;;
                           ret (app (r_in r) [ci])
                       end) ;;
          next_route <- evaluate_route e route ;;
          let nt := e_dst e in
          let backref := (t, e_key e) in
          w <- getws ;;
          (match get_staged_task w nt next_route with
           | Some _ =>
               match nat_remove_first 0 out_idxs with
               | None => raise (mkexn "ValueError" "list.remove(x): x not in list")
               | Some out' =>
                   modws (fun w => ws_set_staged w
                            (staged_update
                               (fun s => s_set_completed
                                           (s_set_items (s_set_in_prev s (app (s_in s) out')
                                                                       (aset trid_eqb backref idx (s_prev s)))
                                                        None) false)
                               nt next_route (staged w)))
               end
           | None =>
               modws (fun w => ws_add_staged w (mk_staged nt next_route out_idxs [(backref, idx)] false None))
           end) ;;;
          c <- get ;;
          let ready := inbound_eqb (get_inbound_criteria_status (c_graph c) (c_ws c) nt route) InbSatisfied in
          modws (fun w => ws_set_staged w (staged_update (fun s => s_set_ready s ready) nt next_route (staged w))) ;;;
          if is_engine_command nt then ret (Some (nt, next_route), None)
          else if ready then ret (None, Some (nt, next_route))
          else ret (None, None)
      end
  | _ => ret (None, None)
  end.

Lemma pt_eq : forall e, process_transition ev t route idx ts ctx e = bind (pt_step1 e) (pt_cont e).
Proof. intros; reflexivity. Qed.

Lemma pt_cont_true_inv : forall e c c' res, pt_cont e (Some true) c = (c', Val res) ->
  pt_true_outcome ev t route idx ts ctx e c c' res.
Proof. exact (pt_act_true_inv ev t route idx ts ctx). Qed.

(* the record at idx is a completed record of task t that has decided none of the transitions l *)
Definition Gq (c : cstate) (l : list gedge) : Prop :=
  exists r, nth_error (sequence (c_ws c)) idx = Some r /\ decided r /\ r_id r = t /\
            forall e', In e' l -> aget trid_eqb (trid_of e') (r_next r) = None.

Lemma pt_step1_run : forall e c, exists rv, mapM (fun cr => evaluate ev cr ctx) (e_criteria e) c = (c, rv) /\
  pt_step1 e c =
  match rv with
  | Val vs => (pt_decided idx e vs c, Val (Some (forallb truthy vs)))
  | Exc x => (log_error x (Some t) (Some route) (Some (e_dst e, e_key e)) ;;; request_status_core S_FAILED ;;; ret None) c
  end.
Proof. exact (pt_decide_run ev t route idx ctx). Qed.

Lemma step1_J : forall e l c c1 rok, pt_step1 e c = (c1, rok) -> Justified g c -> Gq c (e :: l) ->
  ~ In (trid_of e) (map trid_of l) ->
  Justified g c1 /\ Gq c1 l /\
  (rok = Val (Some true) ->
   exists r1, nth_error (sequence (c_ws c1)) idx = Some r1 /\ aget trid_eqb (trid_of e) (r_next r1) = Some true).
Proof.
  intros e l c c1 rok H Hj [r [Hn [Hd [Hid Hnone]]]] Hnin. destruct (pt_step1_run e c) as [rv [_ E]]. rewrite E in H; clear E.
  destruct rv as [vs|x].
  - set (f := fun r0 => r_set_next r0 (aset trid_eqb (e_dst e, e_key e) (forallb truthy vs) (r_next r0))) in H.
    inversion H; subst c1 rok; clear H. pose proof (nth_update_rec_same (c_ws c) idx f r Hn) as Hn1.
    split; [eapply Justified_set_next; [exact Hj|exact Hn|exact Hd|apply Hnone; left; reflexivity]|]. split.
    + exists (f r). split; [exact Hn1|]. split; [exact Hd|]. split; [exact Hid|].
      intros e' He'. unfold f; cbn [r_next r_set_next]. rewrite (aget_aset_other trid_eqb trid_eqb_eq).
      * apply Hnone; right; exact He'.
      * intro E. apply Hnin. apply in_map_iff. exists e'; split; [exact E|exact He'].
    + intro E. inversion E as [Eb]. exists (f r). split; [exact Hn1|]. unfold f, trid_of; cbn [r_next r_set_next].
      rewrite (aget_aset_same _ _ trid_eqb) by apply (keqb_refl trid_eqb trid_eqb_eq). rewrite Eb. reflexivity.
  - (* an evaluation error: logged, the workflow fails, nothing is recorded *)
    match type of H with ?m c = _ =>
      assert (P1 : preserves RI m) by walkj;
      assert (P2 : preserves (RK idx (r_id r) (r_status r) (r_next r)) m) end.
    { apply (preserves_bind _ (RK_trans idx _ _ _)); [unfold log_error; apply so_log_entry_error, RK_same_seq|intros _].
      apply (preserves_bind _ (RK_trans idx _ _ _)); [apply pk_request_status_core; exact Hd|intros _].
      apply (preserves_ret _ (RK_refl idx _ _ _)). }
    split; [eapply P1; eauto|]. split.
    + destruct (P2 _ _ _ H) as [r1 [Hn1 [I1 [I2 I3]]]]; [exists r; repeat split; exact Hn|].
      exists r1. split; [exact Hn1|]. split; [unfold decided; rewrite I2; exact Hd|]. split; [congruence|].
      intros e' He'. rewrite I3. apply Hnone; right; exact He'.
    + intro E; subst rok. apply handler_returns_none in H. discriminate.
Qed.

(* while a true decision is acted on the record keeps the status and the decisions step 1 left: it is the witness
   of the reference being staged *)
Section Cont.
Variable rst : option status.
Variable rnx : list (trid * bool).
Variable e : gedge.
Hypothesis Hcompl : ostatus_in rst COMPLETED_STATUSES = true.
Hypothesis Htrue : aget trid_eqb (e_dst e, e_key e) rnx = Some true.
Hypothesis Hedge : In e (g_edges g).
Hypothesis Hsrc : e_src e = t.

(* the invariant together with the kept record; RI2: both stay *)
Definition I2 (c : cstate) : Prop := Justified g c /\ Kz idx t rst rnx c.
Definition RI2 (c c' : cstate) : Prop := I2 c -> I2 c'.
Lemma RI2_refl : forall c, RI2 c c.
Proof. intros c H; exact H. Qed.
Lemma RI2_trans : forall a b c, RI2 a b -> RI2 b c -> RI2 a c.
Proof. unfold RI2; intros; auto. Qed.

Lemma pres_both : forall A (m : M A), preserves RI m -> preserves (RK idx t rst rnx) m -> preserves RI2 m.
Proof. intros A m; exact (pres_and (Justified g) (Kz idx t rst rnx) A m). Qed.

Lemma pk_rsc : forall st, preserves (RK idx t rst rnx) (request_status_core st).
Proof. intro; apply pk_request_status_core; exact Hcompl. Qed.
Lemma pk_log_entry_error : forall m a r tr res, preserves (RK idx t rst rnx) (log_entry_error m a r tr res).
Proof. intros; apply so_log_entry_error, RK_same_seq. Qed.
Lemma pk_log_error : forall x a r tr, preserves (RK idx t rst rnx) (log_error x a r tr).
Proof. intros; unfold log_error; apply pk_log_entry_error. Qed.
Lemma pk_log_errors : forall es a r tr, preserves (RK idx t rst rnx) (log_errors es a r tr).
Proof. intros; apply (frame_log_errors _ (RK_refl idx t rst rnx) (RK_trans idx t rst rnx)), pk_log_entry_error. Qed.
Lemma pk_render_vars : forall specs rolling rendered errs, preserves (RK idx t rst rnx) (render_vars ev specs rolling rendered errs).
Proof. intros; apply (frame_render_vars ev _ (RK_refl idx t rst rnx) (RK_trans idx t rst rnx)). Qed.
Lemma pk_finalize_context : forall e0 c0, preserves (RK idx t rst rnx) (finalize_context ev ts e0 c0).
Proof. intros; apply (frame_finalize_context ev _ (RK_refl idx t rst rnx) (RK_trans idx t rst rnx)). Qed.
Lemma pk_get_rec : forall j, preserves (RK idx t rst rnx) (get_rec j).
Proof. intros; apply (frame_get_rec _ (RK_refl idx t rst rnx) (RK_trans idx t rst rnx)). Qed.
Lemma pk_evaluate_route : forall e0 r, preserves (RK idx t rst rnx) (evaluate_route e0 r).
Proof.
  intros; apply (frame_evaluate_route _ (RK_refl idx t rst rnx) (RK_trans idx t rst rnx)).
  intro; apply so_modws; [apply RK_same_seq|reflexivity].
Qed.
Lemma pk_get_task_context : forall idxs, preserves (RK idx t rst rnx) (get_task_context idxs).
Proof. intros; apply (frame_get_task_context _ (RK_refl idx t rst rnx) (RK_trans idx t rst rnx)). Qed.
Lemma pk_evaluate_task_retry : forall r c0, preserves (RK idx t rst rnx) (evaluate_task_retry ev r c0).
Proof. intros; apply (frame_evaluate_task_retry ev _ (RK_refl idx t rst rnx) (RK_trans idx t rst rnx)). Qed.

Create HintDb presk.
Hint Resolve RK_same_seq RK_upd_rec pk_rsc pk_log_error pk_log_errors pk_render_vars pk_finalize_context pk_get_rec pk_evaluate_route
  pk_get_task_context pk_evaluate_task_retry : presk.

Lemma pk_completion : forall t' route' evt ts' idx' new o0,
  preserves (RK idx t rst rnx) (uts_completion ev t' route' evt ts' idx' new o0).
Proof. intros; unfold uts_completion; pw (RK_refl idx t rst rnx) (RK_trans idx t rst rnx) ltac:(auto with seqonly presk). Qed.

Lemma witness_here : forall c, I2 c -> witness g (sequence (c_ws c)) (e_dst e) ((t, e_key e), idx).
Proof.
  intros c [_ [r [Hn [Hi [Hs Hx]]]]]. exists r. cbn [fst snd].
  split; [exact Hn|]. split; [exact Hi|]. split; [unfold decided; rewrite Hs; exact Hcompl|].
  split; [rewrite Hx; exact Htrue|]. exists e. repeat split; assumption.
Qed.

Lemma stage_add_2 : forall nr out,
  preserves RI2 (modws (fun w => ws_add_staged w (mk_staged (e_dst e) nr out [((t, e_key e), idx)] false None))).
Proof.
  intros nr out. apply (preserves_modws RI2). intros c Hi. pose proof (witness_here c Hi) as Hw.
  destruct Hi as [Hj Hk]. split.
  - apply Justified_add_staged; [exact Hj|]. cbn [mk_staged s_id s_prev].
    split; [discriminate|]. intros p [<-|[]]. exact Hw.
  - eapply RK_same_seq; [|exact Hk]. reflexivity.
Qed.
Create HintDb pres2.
Hint Resolve stage_add_2 : pres2.

Lemma stage_gain_2 : forall nr out',
  preserves RI2 (modws (fun w => ws_set_staged w
     (staged_update (fun s => s_set_completed
                                (s_set_items (s_set_in_prev s (app (s_in s) out')
                                                            (aset trid_eqb (t, e_key e) idx (s_prev s)))
                                             None) false)
                    (e_dst e) nr (staged w)))).
Proof.
  intros nr out'. apply (preserves_modws RI2). intros c Hi. pose proof (witness_here c Hi) as Hw.
  destruct Hi as [Hj Hk]. split.
  - eapply Justified_staged_gain; [exact Hj|intro; split; reflexivity|exact Hw].
  - eapply RK_same_seq; [|exact Hk]. reflexivity.
Qed.
Hint Resolve stage_gain_2 : pres2.

Ltac leaf2 := solve [ auto with pres2 | apply pres_both; [auto with presj|auto with seqonly presk] ].

Lemma cont_J : forall ok, preserves RI2 (pt_cont e ok).
Proof. intro ok. unfold pt_cont. cbv zeta. pw RI2_refl RI2_trans leaf2. Qed.
End Cont.

Lemma Gq_weaken : forall c l l', (forall e', In e' l' -> In e' l) -> Gq c l -> Gq c l'.
Proof. intros c l l' Hl [r [Hn [Hd [Hi Hx]]]]. exists r. repeat split; auto. Qed.

Lemma process_transition_J : forall e l c c' res,
  In e (g_edges g) -> e_src e = t -> ~ In (trid_of e) (map trid_of l) ->
  Justified g c -> Gq c (e :: l) ->
  process_transition ev t route idx ts ctx e c = (c', res) -> Justified g c' /\ Gq c' l.
Proof.
  intros e l c c' res Hedge Hsrc Hnin Hj Hq H. rewrite pt_eq in H. apply bind_inv in H.
  destruct H as [[c1 [ok [E1 H]]]|[x [E1 _]]].
  - destruct (step1_J _ _ _ _ _ E1 Hj Hq Hnin) as [Hj1 [Hq1 Ht]].
    destruct ok as [[|]|]; try (unfold pt_cont in H; inversion H; subst; split; assumption).
    destruct (Ht eq_refl) as [r1 [Hn1 Ha1]]. destruct Hq1 as [r1' [Hn1' [Hd1 [Hi1 Hx1]]]].
    rewrite Hn1 in Hn1'; inversion Hn1'; subst r1'; clear Hn1'.
    destruct (cont_J (r_status r1) (r_next r1) e Hd1 Ha1 Hedge Hsrc (Some true) c1 c' res H) as [Hj' [r' [Hn' [Hi' [Hs' Hx']]]]].
    { split; [exact Hj1|]. exists r1. repeat split; assumption. }
    split; [exact Hj'|]. exists r'. split; [exact Hn'|]. split; [unfold decided; rewrite Hs'; exact Hd1|].
    split; [exact Hi'|]. intros e' He'. rewrite Hx'. apply Hx1; exact He'.
  - destruct (step1_J _ _ _ _ _ E1 Hj Hq Hnin) as [Hj1 [Hq1 _]]. split; assumption.
Qed.

Lemma transitions_J : forall l c c' res,
  (forall e, In e l -> In e (g_edges g) /\ e_src e = t) -> NoDup (map trid_of l) ->
  Justified g c -> Gq c l ->
  mapM (process_transition ev t route idx ts ctx) l c = (c', res) -> Justified g c' /\ Gq c' [].
Proof.
  intros l c c' res Hl Hnd Hj Hq H. revert c' res H.
  apply (run_mapM _ _ _ (fun l c => (forall e, In e l -> In e (g_edges g) /\ e_src e = t) /\ NoDup (map trid_of l) /\
                                      Justified g c /\ Gq c l)
                        (fun c => Justified g c /\ Gq c [])); [| |auto].
  - intros l0 c0 [_ [_ [A B]]]. split; [exact A|eapply Gq_weaken; [|exact B]; intros e' []].
  - intros e l0 c0 [Hl0 [Hnd0 [A B]]] c1 y E. cbn [map] in Hnd0. inversion Hnd0 as [|x xs Hnin Hnd']; subst x xs.
    destruct (Hl0 e (or_introl eq_refl)) as [Hedge Hsrc].
    destruct (process_transition_J _ _ _ _ _ Hedge Hsrc Hnin A B E) as [A1 B1].
    split; [intros e' He'; apply Hl0; right; exact He'|]. split; [exact Hnd'|]. split; assumption.
Qed.
End Transition.

Definition out_tids_unique : Prop := forall t, NoDup (map trid_of (g_next_transitions g t)).

Lemma queue_J : forall t route idx ts old new compl c c' res, out_tids_unique ->
  uts_queue ev t route idx ts old new compl c = (c', res) -> Justified g c ->
  (new <> old -> compl <> None ->
   exists r, nth_error (sequence (c_ws c)) idx = Some r /\ decided r /\ r_id r = t /\ r_next r = []) ->
  Justified g c'.
Proof.
  intros t route idx ts old new compl c c' res Hnd H Hj Hpre. unfold uts_queue in H.
  destruct compl as [[cctx b]|]; [|inversion H; subst; exact Hj].
  destruct (negb (status_eqb new old)) eqn:En; [|inversion H; subst; exact Hj].
  destruct Hpre as [r [Hn [Hd [Hi Hx]]]].
  { intro E; subst. rewrite status_eqb_refl in En. discriminate. } { discriminate. }
  unfold bind at 1, get in H. cbv beta iota zeta in H.
  assert (Hg : c_graph c = g) by (destruct Hj; assumption). rewrite Hg in H. revert c' res H.
  (* the terminal flag of a task without transitions: the record stays completed and undecided *)
  eapply run_bind with (Qm := fun c1 _ => Justified g c1 /\ Gq t idx c1 (g_next_transitions g t)).
  - intros c1 u1 E1.
    match type of E1 with ?m c = _ =>
      assert (PJ : preserves RI m) by walkj; assert (P : preserves (RK idx (r_id r) (r_status r) (r_next r)) m) end.
    { destruct (g_next_transitions g t); [apply RK_upd_rec; reflexivity|apply (preserves_ret _ (RK_refl idx _ _ _))]. }
    destruct (P _ _ _ E1) as [r1 [Hn1 [I1 [I2 I3]]]]; [exists r; repeat split; exact Hn|].
    split; [exact (PJ _ _ _ E1 Hj)|].
    exists r1. split; [exact Hn1|]. split; [unfold decided; rewrite I2; exact Hd|]. split; [congruence|].
    intros e' _. rewrite I3, Hx. reflexivity.
  - intros c1 e [A _]; exact A.
  - intros c1 u1 [Hj1 Hq1]. eapply run_bind with (Qm := fun c2 _ => Justified g c2); [|auto|].
    + intros c2 rs E2. eapply transitions_J; [intros e He; apply In_next_transitions; exact He|apply Hnd|exact Hj1|exact Hq1|exact E2].
    + intros c2 rs Hj2 c' res H. match type of H with ?m c2 = _ => assert (P : preserves RI m) by walkj end.
      exact (P _ _ _ H Hj2).
Qed.

Lemma pj_completion : forall t route evt ts idx new o0, preserves RI (uts_completion ev t route evt ts idx new o0).
Proof. intros; unfold uts_completion; walkj. Qed.

Definition tail_pre (t : string) (c : cstate) (p : pre_out) : Prop :=
  po_compl p <> None ->
  (exists r, nth_error (sequence (c_ws c)) (po_idx p) = Some r /\ decided r /\ r_id r = t /\ r_next r = []) \/
  (po_new p = po_old p /\ forall ctx b, po_compl p = Some (ctx, b) -> b = false).

Definition PostJ (t : string) (c : cstate) (res : result pre_out) : Prop :=
  Justified g c /\ forall p, res = Val p -> tail_pre t c p.

Lemma PostJ_exc : forall t c e, Justified g c -> PostJ t c (Exc e).
Proof. intros t c e H; split; [exact H|intros p E; discriminate]. Qed.

Lemma pre_machine_J : forall t route evt ts idx c c' res r,
  pre_machine ev t route evt ts idx c = (c', res) -> Justified g c ->
  nth_error (sequence (c_ws c)) idx = Some r -> r_id r = t ->
  (~ decided r \/ r_next r = [] \/ is_retry_event evt = false) ->
  PostJ t c' res.
Proof.
  intros t route evt ts idx c c' res r H Hj Hn Hid Hm. rewrite (pre_machine_steps ev), Hn in H.
  destruct (task_process_event (c_ws c) r evt) as [ns|x] eqn:Ens; [|inversion H; subst; apply PostJ_exc; exact Hj].
  (* nothing can be referring to the record; or it is completed and -- D33 -- the event leaves its status alone *)
  assert (Hcases : r_next r = [] \/ ns = None).
  { destruct Hm as [Hm|[Hm|Hm]]; [left; destruct Hj as [_ [_ [Ho _]]]; eapply Ho; eassumption|left; exact Hm|].
    destruct (ostatus_in (r_status r) COMPLETED_STATUSES) eqn:Ed; [right; eapply completed_step_none; eassumption|].
    left. destruct Hj as [_ [_ [Ho _]]]. eapply Ho; [exact Hn|]. unfold decided. rewrite Ed. discriminate. }
  pose proof (nth_setst_state c idx ns r Hn) as Hn1.
  assert (Hj1 : Justified g (setst_state c idx ns)).
  { destruct ns as [s|]; [|exact Hj]. destruct Hcases as [Hnil|E]; [|discriminate].
    eapply Justified_set_status; [exact Hj|exact Hn|right; exact Hnil]. }
  assert (Hid1 : r_id (stepped r ns) = t) by (destruct ns; exact Hid).
  apply bind_inv in H. destruct H as [[c2 [u2 [E2 H]]]|[x [E2 ->]]];
    pose proof (retrying_J _ _ _ _ _ _ _ _ E2 Hj1 Hn1 Hid1) as Hj2; [|apply PostJ_exc; exact Hj2].
  apply bind_inv in H. destruct H as [[c3 [compl [E3 H]]]|[x [E3 ->]]];
    pose proof (pj_completion _ _ _ _ _ _ _ _ _ _ E3 Hj2) as Hj3; [|apply PostJ_exc; exact Hj3].
  inversion H; subst c' res; clear H. split; [exact Hj3|]. intros p Hp; inversion Hp; subst p; clear Hp.
  unfold tail_pre. cbn [po_compl po_idx po_new po_old]. intro Hc.
  destruct (completion_inv _ _ _ _ _ _ _ _ _ _ _ E3) as [[_ [Hnone _]]|[Hcs [c4 [r4 [ctx4 [b4 [_ [_ [_ [Hc4 [_ [_ Hdiff]]]]]]]]]]]];
    [congruence|].
  (* a completion was evaluated: the new status is completed, so the retry step before it did nothing *)
  rewrite uts_retrying_run, (F_completed_not_retrying _ Hcs) in E2. inversion E2; subst c2; clear E2.
  destruct Hcases as [Hnil| ->].
  - left. assert (Hc1 : ostatus_in (r_status (stepped r ns)) COMPLETED_STATUSES = true).
    { unfold rstatus in Hcs. destruct (r_status (stepped r ns)); [exact Hcs|discriminate]. }
    destruct (pk_completion t idx (r_status (stepped r ns)) (r_next (stepped r ns)) Hc1 t route evt ts idx _ _ _ _ _ E3)
      as [r3 [Hn3 [I3 [S3 X3]]]]; [exists (stepped r ns); repeat split; assumption|].
    exists r3. split; [exact Hn3|]. split; [unfold decided; rewrite S3; exact Hc1|]. split; [exact I3|].
    rewrite X3. destruct ns; exact Hnil.
  - right. split; [reflexivity|]. intros cctx b Hb. rewrite Hc4 in Hb; inversion Hb; subst ctx4 b4.
    destruct b; [exfalso; exact (Hdiff eq_refl eq_refl)|reflexivity].
Qed.

Lemma add_from_staged_J : forall t s0 c c' res, add_from_staged ev t s0 c = (c', res) -> Justified g c ->
  (forall s, s0 = Some s -> jprev g (sequence (c_ws c)) t (s_prev s)) ->
  Justified g c' /\
  forall idx, res = Val idx -> exists r, nth_error (sequence (c_ws c')) idx = Some r /\ r_status r = None /\ r_id r = t.
Proof.
  intros t s0 c c' res H Hj Hs. rewrite add_from_staged_run in H.
  destruct s0 as [s|]; [|inversion H; subst; split; [exact Hj|discriminate]].
  destruct (add_task_state_J _ _ _ _ _ _ _ H Hj (Hs s eq_refl)) as [A [_ B]]. split; assumption.
Qed.

Lemma pj_before : forall t route evt s0, preserves RI (uts_before t route evt s0).
Proof. intros; unfold uts_before; walkj. Qed.
Definition sel_hyp (t : string) (evt : event) (s0 : option stg) (e0 : option nat) (c : cstate) : Prop :=
  is_engine_command t = true \/
  (forall i r, e0 = Some i -> nth_error (sequence (c_ws c)) i = Some r -> r_next r = []) \/
  (forall i r, e0 = Some i -> nth_error (sequence (c_ws c)) i = Some r -> decided r -> r_next r <> [] ->
     (status_in (ev_status evt) STARTING_STATUSES = true /\ exists s, s0 = Some s /\ s_completed s = false) \/
     is_retry_event evt = false).

Lemma pre_main_J : forall t route evt ts s0 e0 c c' res,
  pre_main ev t route evt ts s0 e0 c = (c', res) -> Justified g c ->
  (forall s, s0 = Some s -> jprev g (sequence (c_ws c)) t (s_prev s)) ->
  e0 = ws_task_idx (c_ws c) t route -> sel_hyp t evt s0 e0 c ->
  PostJ t c' res.
Proof.
  intros t route evt ts s0 e0 c c' res H Hj Hs He0 Hsel. rewrite pre_main_eq in H. apply bind_inv in H.
  (* the record the machine will work on: the one the pointer names, taken as it is, or a new one *)
  assert (Sel : forall c2 ri, uts_select ev t evt s0 e0 c = (c2, ri) -> Justified g c2 /\
            forall idx, ri = Val idx -> exists r, nth_error (sequence (c_ws c2)) idx = Some r /\ r_id r = t /\
              (~ decided r \/ r_next r = [] \/ is_retry_event evt = false)).
  { intros c2 ri E. destruct (select_run ev _ _ _ _ _ _ _ E) as [[i [Ee [Ecmd [-> Hn]]]]|[Ea _]].
    - split; [exact Hj|]. intros idx Er. destruct (nth_error (sequence (c_ws c)) i) as [r1|] eqn:Hr1; [|subst ri; discriminate].
      destruct Hn as [Ecc ->]. inversion Er; subst idx. exists r1. split; [exact Hr1|]. split.
      { destruct Hj as [_ [Hpt _]]. rewrite He0 in Ee. destruct (Hpt _ _ _ Ee) as [r' [Hn' Hi']]. congruence. }
      destruct Hsel as [Hsel|[Hsel|Hsel]]; [congruence|right; left; eapply Hsel; eassumption|].
      destruct (ostatus_in (r_status r1) COMPLETED_STATUSES) eqn:Ed; [|left; unfold decided; rewrite Ed; discriminate].
      destruct (r_next r1) as [|x xs] eqn:En; [right; left; reflexivity|].
      destruct (Hsel i r1 Ee Hr1 Ed) as [[Hst [s1 [Es Hsc]]]|Hok]; [rewrite En; discriminate| |right; right; exact Hok].
      exfalso. unfold cycle_cond in Ecc. rewrite Ed, Hst, Es, Hsc in Ecc. discriminate.
    - destruct (add_from_staged_J _ _ _ _ _ Ea Hj Hs) as [A B]. split; [exact A|]. intros idx Er.
      destruct (B idx Er) as [r [Hn [Hst Hi]]]. exists r. split; [exact Hn|]. split; [exact Hi|].
      left. unfold decided. rewrite Hst. discriminate. }
  destruct H as [[c2 [idx [E H]]]|[x [E ->]]]; [|apply PostJ_exc; apply (Sel _ _ E)].
  destruct (Sel _ _ E) as [Hj2 Hrec]. destruct (Hrec idx eq_refl) as [r [Hn [Hid Hm]]].
  apply bind_inv in H. destruct H as [[c3 [u [Eb H]]]|[x [Eb ->]]]; [|apply PostJ_exc; eapply pj_before; eassumption].
  eapply pre_machine_J; [exact H|eapply pj_before; eassumption| |exact Hid|exact Hm].
  destruct (pk_before _ _ _ _ _ _ _ Eb) as [Q _]. rewrite Q. exact Hn.
Qed.

(* when a call of update_task_state may be made: the task is an engine command (it gets a record of
   its own); or the record its (task, route) points to has decided nothing; or -- the protocol
   clause -- if that record is completed and has decided transitions, the event either starts the
   task anew (it is staged again, not flagged completed) or is not the internal retry event *)
Definition call_ok_w (c : cstate) (t : string) (route : nat) (evt : event) : Prop :=
  is_engine_command t = true \/
  (forall c1 u i r, ensure_ws ev c = (c1, u) -> ws_task_idx (c_ws c1) t route = Some i ->
     nth_error (sequence (c_ws c1)) i = Some r -> r_next r = []) \/
  (c_init c = true /\
   forall i r, ws_task_idx (c_ws c) t route = Some i -> nth_error (sequence (c_ws c)) i = Some r ->
     decided r -> r_next r <> [] ->
     (status_in (ev_status evt) STARTING_STATUSES = true /\
      exists s, get_staged_task (c_ws c) t route = Some s /\ s_completed s = false) \/
     is_retry_event evt = false).

Lemma prefix_J : forall t route evt c c' res,
  uts_prefix ev t route evt c = (c', res) -> Justified g c -> call_ok_w c t route evt -> PostJ t c' res.
Proof.
  intros t route evt c c' res H Hj Hok. destruct (prefix_run ev _ _ _ _ _ _ H) as [c1 [r1 [E1 Hcase]]].
  pose proof (pj_ensure_ws _ _ _ E1 Hj) as Hj1.
  destruct Hcase as [[e [_ [-> ->]]]|[[_ [-> Hres]]|[_ [ts [_ [_ [_ Hm]]]]]]].
  - apply PostJ_exc; exact Hj1.
  - destruct Hres as [[_ ->]|[[_ [_ ->]]|[_ [_ [_ [_ ->]]]]]]; apply PostJ_exc; exact Hj1.
  - eapply pre_main_J; [exact Hm|exact Hj1| |reflexivity|].
    + intros s Es. pose proof (get_staged_matches _ _ _ _ Es) as [Hid _].
      unfold get_staged_task in Es. apply find_some in Es. destruct Es as [Hin _].
      destruct Hj1 as [_ [_ [_ [Hst _]]]]. rewrite <- Hid. apply Hst; exact Hin.
    + destruct Hok as [Hok|[Hok|[Hi Hok]]].
      * left; exact Hok.
      * right; left. intros i r He Hn. eapply Hok; eassumption.
      * right; right. rewrite (ensure_ws_inited ev c Hi) in E1. inversion E1; subst c1. exact Hok.
Qed.

Lemma rest_J : out_tids_unique -> forall rec,
  (forall t route evt c c' res, rec t route evt c = (c', res) -> Justified g c -> call_ok_w c t route evt -> Justified g c') ->
  forall t route ts idx old new compl c c' res, uts_rest ev rec t route ts idx old new compl c = (c', res) ->
  Justified g c ->
  (new <> old -> compl <> None ->
   exists r, nth_error (sequence (c_ws c)) idx = Some r /\ decided r /\ r_id r = t /\ r_next r = []) ->
  Justified g c'.
Proof.
  intros Hnd rec IH t route ts idx old new compl c c' res H Hj Hpre. unfold uts_rest in H.
  apply bind_inv in H. destruct H as [[c1 [q [E H]]]|[x [E _]]]; [|eapply queue_J; eassumption].
  refine (uts_after_pres RI RI_refl RI_trans pj_log_entry_error pj_wf_task_event _ rec t route idx q _ c1 c' res H
            (queue_J _ _ _ _ _ _ _ _ _ _ Hnd E Hj Hpre)).
  - intros; apply pj_upd_rec; reflexivity.
  - intros n rt e Hin _ ca cb rr Hr Hja. eapply IH; [exact Hr|exact Hja|left].
    pose proof (queue_cmds ev _ _ _ _ _ _ _ _ _ _ E) as Hq. rewrite Forall_forall in Hq. exact (Hq _ Hin).
Qed.

Lemma tail_J : out_tids_unique -> forall rec,
  (forall t route evt c c' res, rec t route evt c = (c', res) -> Justified g c -> call_ok_w c t route evt -> Justified g c') ->
  forall t route p c c' res, tail_of ev rec t route p c = (c', res) -> Justified g c -> tail_pre t c p ->
  (forall cctx, po_compl p = Some (cctx, true) -> ws_task_idx (c_ws c) t route = Some (po_idx p)) ->
  Justified g c'.
Proof.
  intros Hnd rec IH t route p c c' res H Hj Hpre Hptr. unfold tail_of in H. rewrite uts_tail_eq in H.
  assert (Hrest : forall compl, po_compl p = compl ->
            uts_rest ev rec t route (po_ts p) (po_idx p) (po_old p) (po_new p) compl c = (c', res) -> Justified g c').
  { intros compl Ec Hb. eapply rest_J; [exact Hnd|exact IH|exact Hb|exact Hj|]. intros Hne Hcn.
    destruct Hpre as [Hl|[Hsame _]]; [rewrite Ec; exact Hcn|exact Hl|congruence]. }
  destruct (po_compl p) as [[cctx [|]]|] eqn:Ec; [|eapply Hrest; [reflexivity|exact H]..].
  (* the retry: the record just decided has recorded no transition, and the recursive call finds it by the pointer *)
  eapply IH; [exact H|exact Hj|]. right; left.
  destruct Hpre as [[r [Hn [_ [_ Hx]]]]|[_ Hb]]; [congruence| |specialize (Hb cctx true Ec); discriminate].
  intros c1 u i r1 E1 Hp1 Hn1.
  assert (Hi : i = po_idx p).
  { unfold ws_task_idx in Hp1. rewrite (ptk_ensure_ws ev _ _ _ E1) in Hp1.
    specialize (Hptr cctx eq_refl). unfold ws_task_idx in Hptr. congruence. }
  subst i. destruct (pnx_ensure_ws ev _ _ _ E1 _ _ Hn) as [r' [Hn' [Hx' _]]]. congruence.
Qed.

Lemma uts_J_w : out_tids_unique -> forall fuel t route evt c c' res,
  update_task_state_fuel ev fuel t route evt c = (c', res) -> Justified g c -> call_ok_w c t route evt ->
  Justified g c'.
Proof.
  intro Hnd.
  apply (uts_fuel_ind ev (fun t route evt c c' _ => Justified g c -> call_ok_w c t route evt -> Justified g c')).
  - intros t route evt c Hj _; exact Hj.
  - intros rec IH t route evt c c' res H Hj Hok. rewrite body_eq in H. apply bind_inv in H.
    destruct H as [[c1 [p [E H]]]|[e [E ->]]]; destruct (prefix_J _ _ _ _ _ _ E Hj Hok) as [Hj1 Hp]; [|exact Hj1].
    eapply tail_J; [exact Hnd|exact IH|exact H|exact Hj1|apply Hp; reflexivity|].
    intros cctx Hc. exact (proj1 (prefix_decided ev _ _ _ _ _ _ _ E Hc)).
Qed.

(* a rerun stages the task again (and, unless its items are kept, gives it a new record) with the predecessors of
   the record being rerun: these are justified already *)
Lemma rerun_branch_J : forall ts t route b r c c' res, rerun_branch ev ts t route b r c = (c', res) ->
  Justified g c -> jprev g (sequence (c_ws c)) t (r_prev r) -> Justified g c'.
Proof.
  intros ts t route b r c c' res H Hj Hp. unfold rerun_branch, bind at 1, getws in H. cbv beta iota in H.
  destruct (task_has_items ts && _).
  - revert H Hj. apply pj_restage; reflexivity.
  - apply bind_inv in H. destruct H as [[c1 [i [E H]]]|[x [E ->]]];
      destruct (add_task_state_J _ _ _ _ _ _ _ E Hj Hp) as [Hj1 [Hk1 _]]; [|exact Hj1].
    inversion H; subst. apply Justified_add_staged; [exact Hj1|]. eapply jprev_keeps; [exact Hk1|exact Hp].
Qed.

Lemma request_task_rerun_J : forall t route b, preserves RI (request_task_rerun ev t route b).
Proof.
  intros t route b c c' res H Hj. rewrite request_task_rerun_run in H.
  destruct (ws_task_idx (c_ws c) t route) as [idx|] eqn:Ep; [|inversion H; subst; exact Hj].
  destruct (nth_error (sequence (c_ws c)) idx) as [r|] eqn:Hn; [|inversion H; subst; exact Hj].
  destruct (spec_get_task (c_spec c) t) as [ts|]; [|inversion H; subst; exact Hj].
  assert (Hp : jprev g (sequence (c_ws c)) t (r_prev r)).
  { pose proof Hj as [_ [Hpt [_ [_ Hr]]]]. destruct (Hpt _ _ _ Ep) as [r' [Hn' Hi']].
    rewrite Hn in Hn'; inversion Hn'; subst r'. rewrite <- Hi'. eapply Hr; exact Hn. }
  assert (P1 : preserves RI (rerun_prep t route idx)) by (unfold rerun_prep; walkj).
  assert (K1 : preserves Rkp (rerun_prep t route idx)) by (unfold rerun_prep; walkp).
  assert (P3 : preserves RI (rerun_clear t route)) by (unfold rerun_clear; walkj).
  apply bind_inv in H. destruct H as [[c1 [u1 [E1 H]]]|[x [E1 ->]]]; [|exact (P1 _ _ _ E1 Hj)].
  assert (Hj2 : forall c2 r2, rerun_branch ev ts t route b r c1 = (c2, r2) -> Justified g c2).
  { intros c2 r2 E2. eapply rerun_branch_J; [exact E2|exact (P1 _ _ _ E1 Hj)|]. eapply jprev_keeps; [exact (K1 _ _ _ E1)|exact Hp]. }
  apply bind_inv in H. destruct H as [[c2 [u2 [E2 H]]]|[x [E2 ->]]]; [exact (P3 _ _ _ H (Hj2 _ _ E2))|exact (Hj2 _ _ E2)].
Qed.
Hint Resolve request_task_rerun_J : presj.

Lemma pj_request_workflow_rerun : forall reqs, preserves RI (request_workflow_rerun ev reqs).
Proof. intros; apply (cframe_request_workflow_rerun ev RI RI_refl RI_trans); auto with presj. Qed.

Definition op_in_protocol_w (c : cstate) (op : api_op) : Prop :=
  match op with OpEvent t route evt => call_ok_w c t route evt | _ => True end.

Lemma api_justified_quiet : forall op, match op with OpEvent _ _ _ => False | _ => True end -> preserves RI (api_exec ev op).
Proof.
  intros op Hop. destruct op; try contradiction; apply (preserves_api_exec ev RI RI_refl RI_trans pj_ensure_ws); cbv beta iota.
  - exact I.
  - apply pj_request_workflow_status.
  - apply pj_get_next_tasks.
  - apply pj_render_workflow_output.
  - apply pj_request_workflow_rerun.
  - intros c Hc; eapply Justified_eq; [exact Hc|reflexivity..].
Qed.

Theorem api_justified_w : out_tids_unique -> forall op c c' res, op_in_protocol_w c op ->
  api_exec ev op c = (c', res) -> Justified g c -> Justified g c'.
Proof.
  intros Hnd op c c' res Hs H Hj. destruct op as [| | |t route evt| | |]; try (refine (api_justified_quiet _ _ _ _ _ H Hj); exact I).
  cbn [api_exec] in H. unfold update_task_state in H. apply bind_inv in H.
  destruct H as [[c1 [u [E H]]]|[e0 [E _]]]; [inversion H; subst c1|]; exact (uts_J_w Hnd _ _ _ _ _ _ _ E Hj Hs).
Qed.

Theorem history_justified_w : out_tids_unique -> forall ops c, hist ev op_in_protocol_w ops c ->
  Justified g c -> Justified g (run_ops ev ops c).
Proof.
  intro Hnd. apply run_ops_inv. intros op c Ho Hj.
  destruct (api_exec ev op c) as [c1 r] eqn:E. eapply api_justified_w; eassumption.
Qed.

(* the stronger protocol clause: an event that is not a new start also finds the record without a retry left.
   An engine that evaluates the retry of a completed task on every report (orquesta without fix D33) needs it:
   there a duplicate report reopens a completed record that has a retry left.  [call_ok_weaken] gives [call_ok_w] *)
Definition call_ok (c : cstate) (t : string) (route : nat) (evt : event) : Prop :=
  is_engine_command t = true \/
  (forall c1 u i r, ensure_ws ev c = (c1, u) -> ws_task_idx (c_ws c1) t route = Some i ->
     nth_error (sequence (c_ws c1)) i = Some r -> r_next r = []) \/
  (c_init c = true /\
   forall i r, ws_task_idx (c_ws c) t route = Some i -> nth_error (sequence (c_ws c)) i = Some r ->
     decided r -> r_next r <> [] ->
     (status_in (ev_status evt) STARTING_STATUSES = true /\
      exists s, get_staged_task (c_ws c) t route = Some s /\ s_completed s = false) \/
     (is_retry_event evt = false /\ ~ retry_open r)).
Lemma call_ok_weaken : forall c t route evt, call_ok c t route evt -> call_ok_w c t route evt.
Proof.
  intros c t route evt [H|[H|[Hi H]]]; [left; exact H|right; left; exact H|right; right]. split; [exact Hi|].
  intros i r Hp Hn Hd Hx. destruct (H i r Hp Hn Hd Hx) as [A|[A _]]; [left; exact A|right; exact A].
Qed.
Definition op_in_protocol (c : cstate) (op : api_op) : Prop :=
  match op with OpEvent t route evt => call_ok c t route evt | _ => True end.
Lemma op_in_protocol_weaken : forall c op, op_in_protocol c op -> op_in_protocol_w c op.
Proof. intros c op H; destruct op; try exact H. apply call_ok_weaken; exact H. Qed.
Theorem api_justified : out_tids_unique -> forall op c c' res, op_in_protocol c op ->
  api_exec ev op c = (c', res) -> Justified g c -> Justified g c'.
Proof. intros Hnd op c c' res Hs. apply (api_justified_w Hnd). apply op_in_protocol_weaken; exact Hs. Qed.
Fixpoint hist_in_protocol (ops : list api_op) (c : cstate) : Prop :=
  match ops with
  | [] => True
  | op :: ops' => op_in_protocol c op /\ hist_in_protocol ops' (fst (api_exec ev op c))
  end.
Lemma hist_in_protocol_weaken : forall ops c, hist_in_protocol ops c -> hist ev op_in_protocol_w ops c.
Proof.
  induction ops as [|op ops IH]; intros c H; [exact I|]. destruct H as [H1 H2].
  split; [apply op_in_protocol_weaken; exact H1|apply IH; exact H2].
Qed.
Theorem history_justified : out_tids_unique -> forall ops c, hist_in_protocol ops c ->
  Justified g c -> Justified g (run_ops ev ops c).
Proof. intros Hnd ops c H. apply (history_justified_w Hnd). apply hist_in_protocol_weaken; exact H. Qed.

(* a history in which nobody injects the internal retry event is in the protocol, from any state that is
   initialised or has no record yet *)
Definition op_no_retry (op : api_op) : bool :=
  match op with OpEvent _ _ e => negb (is_retry_event e) | _ => true end.
Lemma call_ok_w_not_retry : forall c t route evt, c_init c = true -> is_retry_event evt = false -> call_ok_w c t route evt.
Proof. intros c t route evt Hi He. right; right. split; [exact Hi|]. intros; right; exact He. Qed.
Lemma call_ok_w_no_record : forall c t route evt, tasks (c_ws c) = [] -> call_ok_w c t route evt.
Proof.
  intros c t route evt Ht. right; left. intros c1 u i r E Hp _. exfalso.
  unfold ws_task_idx in Hp. rewrite (ptk_ensure_ws ev _ _ _ E), Ht in Hp. discriminate.
Qed.
Lemma hist_no_retry_in_protocol : forall ops c, (c_init c = true \/ tasks (c_ws c) = []) ->
  forallb op_no_retry ops = true -> hist ev op_in_protocol_w ops c.
Proof.
  induction ops as [|op ops IH]; intros c Hc H; [exact I|]. simpl in H. apply andb_prop in H. destruct H as [H1 H2].
  split; [|apply IH; [left; apply api_exec_inits|exact H2]].
  destruct op; try exact I. cbn [op_in_protocol_w]. simpl in H1. apply negb_true_iff in H1.
  destruct Hc as [Hc|Hc]; [apply call_ok_w_not_retry; assumption|apply call_ok_w_no_record; exact Hc].
Qed.

(* whatever get_next_tasks offers is a staged entry, hence justified *)
Theorem offers_are_justified : forall c c' l, c_init c = true -> Justified g c ->
  get_next_tasks ev c = (c', Val l) ->
  forall o, In o l -> exists s, In s (staged (c_ws c)) /\ o_id o = s_id s /\ o_route o = s_route s /\
                                s_ready s = true /\ s_completed s = false /\
                                jprev g (sequence (c_ws c)) (o_id o) (s_prev s).
Proof.
  intros c c' l Hi Hj H o Ho. destruct (offers_are_staged ev c c' l Hi H o Ho) as [s [Hin [Hr [Hc [E1 E2]]]]].
  exists s. split; [exact Hin|]. split; [exact E1|]. split; [exact E2|]. split; [exact Hr|]. split; [exact Hc|].
  rewrite E1. destruct Hj as [_ [_ [_ [Hs _]]]]. apply Hs; exact Hin.
Qed.

(* the decision written for a transition is the conjunction of the truthiness of its criteria,
   evaluated (without error) on the context handed to process_transition, in the state of the call *)
Theorem decision_recorded_is_criteria : forall t route idx ctx e c c1 b,
  pt_step1 t route idx ctx e c = (c1, Val (Some b)) ->
  exists vs, mapM (fun cr => evaluate ev cr ctx) (e_criteria e) c = (c, Val vs) /\ b = forallb truthy vs /\
    forall r, nth_error (sequence (c_ws c)) idx = Some r ->
      nth_error (sequence (c_ws c1)) idx = Some (r_set_next r (aset trid_eqb (e_dst e, e_key e) b (r_next r))).
Proof.
  intros t route idx ctx e c c1 b H. destruct (pt_step1_run t route idx ctx e c) as [rv [Em E]]. rewrite E in H; clear E.
  destruct rv as [vs|x]; [|apply handler_returns_none in H; discriminate].
  inversion H; subst. exists vs. split; [exact Em|]. split; [reflexivity|]. intros r Hn.
  exact (nth_update_rec_same (c_ws c) idx (fun r0 => r_set_next r0 (aset trid_eqb (e_dst e, e_key e) (forallb truthy vs) (r_next r0))) r Hn).
Qed.

(* nothing is staged for a transition unless that decision is true *)
Theorem no_reference_unless_true : forall t route idx ts ctx e ok, ok <> Some true ->
  pt_cont t route idx ts ctx e ok = ret (None, None).
Proof. intros t route idx ts ctx e [[|]|] H; try reflexivity. congruence. Qed.

(* the context the criteria are evaluated on: the inbound context of the completed record, with
   __current_task = {id, route, result of the reported event} and __state = the serialized workflow
   state of that moment (which holds the record's actual status) *)
Theorem completion_ctx_shape : forall t route evt ts idx new old c c' cx b,
  uts_completion ev t route evt ts idx new old c = (c', Val (Some (cx, b))) ->
  exists c1 r in_ctx result,
    nth_error (sequence (c_ws c1)) idx = Some r /\
    get_task_context (r_in r) c1 = (c1, Val in_ctx) /\
    result = (if negb (task_has_items ts) then ev_result evt
              else match evt with
                   | EvItem _ _ _ acc => if truthy acc then acc else JList []
                   | _ => if truthy (ev_result evt) then ev_result evt else JList []
                   end) /\
    cx = merge_dicts (dset "__current_task" (current_task_json (r_id r) (r_route r) (Some result)) in_ctx)
                     (state_ctx (c_ws c1)).
Proof.
  intros t route evt ts idx new old c c' cx b H. unfold uts_completion in H.
  destruct (status_in new COMPLETED_STATUSES); [|inversion H].
  apply bind_val_inv' in H. destruct H as [c1 [u [_ H]]]. cbv zeta in H.
  apply bind_val_inv' in H. destruct H as [c2 [r [E2 H]]]. apply get_rec_inv in E2; destruct E2 as [-> Hr].
  apply bind_val_inv' in H. destruct H as [c3 [in_ctx [E3 H]]].
  assert (c3 = c1) as ->.
  { unfold get_task_context, bind, getws in E3. apply lift_res_inv in E3; destruct E3; assumption. }
  apply bind_val_inv' in H. destruct H as [c4 [w [E4 H]]]. inversion E4; subst c4 w; clear E4.
  apply bind_val_inv' in H. destruct H as [c5 [b5 [_ H]]]. inversion H; subst.
  exists c1, r, in_ctx. eexists. split; [exact Hr|]. split; [exact E3|]. split; reflexivity.
Qed.
End WithEval.
End Pres.

Definition fresh_state (sp : wf_spec) (g : graph) (inputs parent : dict) : cstate :=
  {| c_spec := sp; c_graph := g; c_inputs := inputs; c_parent := parent; c_init := false;
     c_ws := empty_ws; c_errors := []; c_log := []; c_output := None |}.

Lemma fresh_justified : forall sp g inputs parent, Justified g (fresh_state sp g inputs parent).
Proof.
  intros. split; [reflexivity|]. split; [intros t route j H; discriminate|].
  split; [intros j r H; destruct j; discriminate|]. split; [intros s []|intros j r H; destruct j; discriminate].
Qed.

Theorem reachable_justified : forall ev sp g inputs parent ops, out_tids_unique g ->
  hist_in_protocol ev ops (fresh_state sp g inputs parent) ->
  Justified g (run_ops ev ops (fresh_state sp g inputs parent)).
Proof. intros ev sp g inputs parent ops Hnd Hs. apply history_justified; [exact Hnd|exact Hs|apply fresh_justified]. Qed.

(* no protocol hypothesis beyond "nobody injects the engine's internal retry event" *)
Theorem reachable_justified_always : forall ev sp g inputs parent ops, out_tids_unique g ->
  forallb op_no_retry ops = true -> Justified g (run_ops ev ops (fresh_state sp g inputs parent)).
Proof.
  intros ev sp g inputs parent ops Hnd H. apply history_justified_w; [exact Hnd| |apply fresh_justified].
  apply hist_no_retry_in_protocol; [right; reflexivity|exact H].
Qed.

Theorem reachable_offers_justified : forall ev sp g inputs parent ops c' l, out_tids_unique g ->
  hist_in_protocol ev ops (fresh_state sp g inputs parent) ->
  c_init (run_ops ev ops (fresh_state sp g inputs parent)) = true ->
  get_next_tasks ev (run_ops ev ops (fresh_state sp g inputs parent)) = (c', Val l) ->
  forall o, In o l ->
    exists s, In s (staged (c_ws (run_ops ev ops (fresh_state sp g inputs parent)))) /\
              o_id o = s_id s /\ o_route o = s_route s /\ s_ready s = true /\ s_completed s = false /\
              jprev g (sequence (c_ws (run_ops ev ops (fresh_state sp g inputs parent)))) (o_id o) (s_prev s).
Proof.
  intros ev sp g inputs parent ops c' l Hnd Hs Hi H. eapply offers_are_justified; [exact Hi| |exact H].
  apply reachable_justified; assumption.
Qed.

Section NextUntouched.
Variable ev : string -> dict -> evalres.

Lemma pnx2_upd_rec : forall j f, (forall r, r_next (f r) = r_next r) -> (forall r, r_out (f r) = r_out r) ->
  preserves Rnx (upd_rec j f).
Proof. intros j f E1 E2; apply (preserves_modws Rnx); intro c; apply Rnx_update; intro; split; auto. Qed.
Lemma pnx_rec_status : forall j s, preserves Rnx (set_rec_status j s).
Proof. intros; apply pnx2_upd_rec; reflexivity. Qed.
Lemma pnx2_new_rec : forall r k j,
  preserves Rnx (modws (fun w => ws_set_tasks (ws_set_sequence w (app (sequence w) [r])) (aset tkey_eqb k j (tasks w)))).
Proof. intros; apply (preserves_modws Rnx); intro; apply Rnx_append. Qed.

Create HintDb presnx2.
Hint Resolve Rnx_same_seq pnx2_upd_rec pnx_rec_status pnx2_new_rec : presnx2.

Lemma pnx_get_task_context : forall idxs, preserves Rnx (get_task_context idxs).
Proof. intros; apply (frame_get_task_context Rnx Rnx_refl Rnx_trans). Qed.
Lemma pnx_render_task : forall ts ctx, preserves Rnx (render_task ev ts ctx).
Proof. intros; apply (frame_render_task ev Rnx Rnx_refl Rnx_trans). Qed.
Lemma pnx_next_task_for : forall s, preserves Rnx (next_task_for ev s).
Proof. intros; apply (frame_next_task_for ev Rnx Rnx_refl Rnx_trans); auto with seqonly presnx2. Qed.
Lemma pnx_setup_retry : forall t idxs, preserves Rnx (setup_retry ev t idxs).
Proof. intros; apply (frame_setup_retry ev Rnx Rnx_refl Rnx_trans). Qed.
Lemma pnx_add_task_state : forall t r ins p, preserves Rnx (add_task_state ev t r ins p).
Proof. intros; apply (frame_add_task_state ev Rnx Rnx_refl Rnx_trans); auto with seqonly presnx2. Qed.
Lemma pnx_get_rec : forall j, preserves Rnx (get_rec j).
Proof. intros; apply (frame_get_rec Rnx Rnx_refl Rnx_trans). Qed.
Lemma pnx_merge_term_contexts : forall l acc, preserves Rnx (merge_term_contexts l acc).
Proof. intros; apply (frame_merge_term_contexts Rnx Rnx_refl Rnx_trans). Qed.
Lemma pnx_request_task_rerun : forall t r b, preserves Rnx (request_task_rerun ev t r b).
Proof. intros; apply (frame_request_task_rerun ev Rnx Rnx_refl Rnx_trans); auto with seqonly presnx2. Qed.

(* every API operation other than update_task_state leaves the recorded decisions (r_next) and
   the published-context references (r_out) of every record as they are *)
Theorem next_untouched_outside_update_task_state : forall op,
  match op with OpEvent _ _ _ => False | _ => True end -> preserves Rnx (api_exec ev op).
Proof.
  intros op Hop.
  assert (E : preserves Rnx (ensure_ws ev)) by (apply (frame_ensure_ws ev Rnx Rnx_refl Rnx_trans); auto with seqonly presnx2).
  destruct op; try contradiction; apply (preserves_api_exec ev Rnx Rnx_refl Rnx_trans E); cbv beta iota.
  - exact I.
  - apply (frame_request_workflow_status ev Rnx Rnx_refl Rnx_trans); auto with seqonly presnx2.
  - apply (frame_get_next_tasks ev Rnx Rnx_refl Rnx_trans); auto with seqonly presnx2.
  - apply (frame_render_workflow_output ev Rnx Rnx_refl Rnx_trans); auto with seqonly presnx2.
  - apply (frame_request_workflow_rerun ev Rnx Rnx_refl Rnx_trans); auto with seqonly presnx2.
  - intro; apply Rnx_same_seq; reflexivity.
Qed.
End NextUntouched.

Lemma w_graph_tids_unique : out_tids_unique (w_graph w_retry).
Proof.
  intro t. unfold g_next_transitions, w_graph, g_edges. cbn [filter e_src].
  destruct (String.eqb "t1" t); vm_compute; [apply NoDup_cons; [intros []|apply NoDup_nil]|apply NoDup_nil].
Qed.

(* a history inside the protocol from the fresh conductor: the invariant holds, and what is then
   offered (t2) is justified by t1's record, whose transition to t2 is recorded true *)
Example w_protocol_history_justified :
  Justified (w_graph w_retry) (run_ops ev_w w_ops1 (fresh_state w_spec (w_graph w_retry) [] [])).
Proof.
  apply reachable_justified; [apply w_graph_tids_unique|].
  cbn [hist_in_protocol w_ops1 op_in_protocol]. split; [exact I|]. split; [exact I|].
  split.
  { right; left. intros c1 u i r E Hp Hn. vm_compute in E. inversion E; subst c1.
    vm_compute in Hp; inversion Hp; subst i; vm_compute in Hn; inversion Hn; subst r; reflexivity. }
  split; [|exact I].
  right; left. intros c1 u i r E Hp Hn. vm_compute in E. inversion E; subst c1.
  vm_compute in Hp; inversion Hp; subst i; vm_compute in Hn; inversion Hn; subst r; reflexivity.
Qed.

(* a history outside the stronger clause [call_ok]: the duplicate completion report of FrozenProofs meets a completed
   record with a retry left.  The retry of a completed task is evaluated only when the report changed its status
   (D33), so the report leaves the workflow state alone and the invariant holds of the result *)
Theorem justified_kept_by_duplicate_report :
  Justified (w_graph w_retry)
      (run_ops ev_w (w_ops1 ++ w_late :: w_ops3) (fresh_state w_spec (w_graph w_retry) [] [])).
Proof.
  pose proof w_protocol_history_justified as H.
  assert (Ew : c_ws (run_ops ev_w (w_ops1 ++ w_late :: w_ops3) (fresh_state w_spec (w_graph w_retry) [] []))
               = c_ws (run_ops ev_w w_ops1 (fresh_state w_spec (w_graph w_retry) [] []))) by (vm_compute; reflexivity).
  assert (Eg : c_graph (run_ops ev_w (w_ops1 ++ w_late :: w_ops3) (fresh_state w_spec (w_graph w_retry) [] []))
               = c_graph (run_ops ev_w w_ops1 (fresh_state w_spec (w_graph w_retry) [] []))) by (vm_compute; reflexivity).
  unfold Justified in *. rewrite Ew, Eg. exact H.
Qed.

Example w_protocol_history_offers_t2 :
  match get_next_tasks ev_w (run_ops ev_w w_ops1 (fresh_state w_spec (w_graph w_retry) [] [])) with
  | (_, Val l) => map o_id l
  | _ => []
  end = ["t2"].
Proof. vm_compute. reflexivity. Qed.

(* the graph hypothesis cannot be dropped either: with two parallel edges t1 -> t2 carrying the SAME
   key (never produced by the composer), the second decision (false) overwrites the first (true)
   after t2 was staged on the first *)
Definition w_graph_dup : graph :=
  {| g_nodes := g_nodes (w_graph JNull);
     g_edges := [{| e_src := "t1"; e_dst := "t2"; e_key := 0; e_ref := 0; e_criteria := [JStr "ok"] |};
                 {| e_src := "t1"; e_dst := "t2"; e_key := 0; e_ref := 0; e_criteria := [JStr "again"] |}] |}.

Example justified_needs_unique_transition_ids :
  ~ Justified w_graph_dup (run_ops ev_w w_ops1 (fresh_state w_spec w_graph_dup [] [])).
Proof.
  intros [_ [_ [_ [Hs _]]]].
  destruct (staged (c_ws (run_ops ev_w w_ops1 (fresh_state w_spec w_graph_dup [] [])))) as [|s l] eqn:Es;
    [vm_compute in Es; discriminate|].
  specialize (Hs s (or_introl eq_refl)). vm_compute in Es. inversion Es; subst s l. clear Es.
  destruct Hs as [_ Hw]. destruct (Hw ((("t1", 0), 0)) (or_introl eq_refl)) as [r' [Hn [_ [_ [Ht _]]]]].
  vm_compute in Hn. inversion Hn; subst r'. vm_compute in Ht. discriminate.
Qed.

Lemma justified_unfold : forall g c,
  Justified g c <->
  (c_graph c = g /\ ptr_ok (c_ws c) /\ open_ok (sequence (c_ws c)) /\
   (forall s, In s (staged (c_ws c)) -> jprev g (sequence (c_ws c)) (s_id s) (s_prev s)) /\
   (forall j r, nth_error (sequence (c_ws c)) j = Some r -> jprev g (sequence (c_ws c)) (r_id r) (r_prev r))).
Proof. intros; split; intro H; exact H. Qed.

Lemma witness_unfold : forall g sq dst p,
  witness g sq dst p <->
  exists r', nth_error sq (snd p) = Some r' /\ r_id r' = fst (fst p) /\ decided r' /\
             aget trid_eqb (dst, snd (fst p)) (r_next r') = Some true /\
             exists e, In e (g_edges g) /\ e_src e = fst (fst p) /\ e_dst e = dst /\ e_key e = snd (fst p).
Proof. intros; split; intro H; exact H. Qed.

Lemma call_ok_w_unfold : forall ev c t route evt,
  call_ok_w ev c t route evt <->
  (is_engine_command t = true \/
   (forall c1 u i r, ensure_ws ev c = (c1, u) -> ws_task_idx (c_ws c1) t route = Some i ->
      nth_error (sequence (c_ws c1)) i = Some r -> r_next r = []) \/
   (c_init c = true /\
    forall i r, ws_task_idx (c_ws c) t route = Some i -> nth_error (sequence (c_ws c)) i = Some r ->
      decided r -> r_next r <> [] ->
      (status_in (ev_status evt) STARTING_STATUSES = true /\
       exists s, get_staged_task (c_ws c) t route = Some s /\ s_completed s = false) \/
      is_retry_event evt = false)).
Proof. intros; split; intro H; exact H. Qed.

Lemma call_ok_unfold : forall ev c t route evt,
  call_ok ev c t route evt <->
  (is_engine_command t = true \/
   (forall c1 u i r, ensure_ws ev c = (c1, u) -> ws_task_idx (c_ws c1) t route = Some i ->
      nth_error (sequence (c_ws c1)) i = Some r -> r_next r = []) \/
   (c_init c = true /\
    forall i r, ws_task_idx (c_ws c) t route = Some i -> nth_error (sequence (c_ws c)) i = Some r ->
      decided r -> r_next r <> [] ->
      (status_in (ev_status evt) STARTING_STATUSES = true /\
       exists s, get_staged_task (c_ws c) t route = Some s /\ s_completed s = false) \/
      (is_retry_event evt = false /\ ~ retry_open r))).
Proof. intros; split; intro H; exact H. Qed.

(* the usual case: the event addresses a record that is not completed (or no record at all) *)
Lemma call_ok_open_target : forall ev g c t route evt, c_init c = true -> Justified g c ->
  (forall i r, ws_task_idx (c_ws c) t route = Some i -> nth_error (sequence (c_ws c)) i = Some r -> ~ decided r) ->
  call_ok ev c t route evt.
Proof.
  intros ev g c t route evt Hi [_ [_ [Ho _]]] Hnd. right; left. intros c1 u i r E Hp Hn.
  rewrite (ensure_ws_inited ev c Hi) in E. inversion E; subst c1. eapply Ho; [exact Hn|eapply Hnd; eassumption].
Qed.
