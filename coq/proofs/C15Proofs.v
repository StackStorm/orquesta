(* C15Proofs.v -- broken references are reported; accepted definitions compose.
   About model/Inspect.v.  The worklist of detect_undefined_tasks is characterised by an invariant
   (UInv) that holds between two dequeues:
     - everything traversed or queued is a declared task reachable from a start task;
     - every entry reported is a reachable transition to a name that is neither declared nor a command;
     - every traversed task has an entry for each of its undefined targets, and each of its declared,
       non-command targets is traversed or queued;
     - every start task is traversed or queued.
   With unique task names a second invariant (UCount) bounds the number of dequeues by the number
   of declared tasks, so the fuel suffices and no KeyError can arise. *)
From Coq Require Import String List Bool ZArith Arith Lia Permutation.
From Orq Require Import GenSpecMeta Base State Composer Inspect ListFacts C14Proofs.
Import ListNotations.
Open Scope string_scope.

Definition declared (sp : wf_spec) (d : string) : Prop := In d (map fst (wf_tasks sp)).
Definition is_command (d : string) : Prop := In d RESERVED_TASK_NAMES.

Lemma has_task_iff : forall sp d, spec_has_task sp d = true <-> is_command d \/ declared sp d.
Proof.
  intros sp d. unfold spec_has_task, is_command, declared. rewrite orb_true_iff, string_in_iff, (ahas_in String.eqb String.eqb_eq). tauto.
Qed.

Lemma retry_is_command : is_command "retry".
Proof. unfold is_command. apply string_in_iff. vm_compute. reflexivity. Qed.

(* the (transition index, target) pairs of a task in the order the detector visits them *)
Definition targets_of (ts : task_spec) : list (nat * string) :=
  flat_map (fun itr => map (fun d => (fst itr, d)) (tr_do (snd itr))) (enumerate (ts_next ts)).

Lemma next_tasks_targets : forall sp t d w i, In (d, w, i) (spec_next_tasks sp t) ->
  exists ts, spec_get_task sp t = Some ts /\ In (i, d) (targets_of ts).
Proof.
  intros sp t d w i H. unfold spec_next_tasks in H. destruct (spec_get_task sp t) as [ts|]; [|contradiction].
  exists ts. split; [reflexivity|]. unfold targets_of. apply in_flat_map in H. destruct H as [[j tr] [Hj H]].
  apply in_flat_map. exists (j, tr). split; [exact Hj|]. simpl. apply in_map_iff in H. destruct H as [d' [E Hd]].
  injection E as E1 E2 E3. subst. apply in_map_iff. exists d. auto.
Qed.

Lemma targets_next_tasks : forall sp t ts i d, spec_get_task sp t = Some ts -> In (i, d) (targets_of ts) ->
  exists w, In (d, w, i) (spec_next_tasks sp t).
Proof.
  intros sp t ts i d Hg H. unfold spec_next_tasks. rewrite Hg. unfold targets_of in H.
  apply in_flat_map in H. destruct H as [[j tr] [Hj H]]. simpl in H. apply in_map_iff in H.
  destruct H as [d' [E Hd]]. injection E as E1 E2. subst. exists (tr_when tr).
  apply in_flat_map. exists (i, tr). split; [exact Hj|]. apply in_map_iff. exists d. auto.
Qed.

Definition undef_triple (sp : wf_spec) (t : string) (i : nat) (d : string) : Prop :=
  (exists w, In (d, w, i) (spec_next_tasks sp t)) /\ ~ is_command d /\ ~ declared sp d.

Lemma undef_fold_flat : forall sp t l st,
  fold_left (undef_transition sp t) l st
  = fold_left (fun s (p : nat * string) => undef_target sp t (fst p) s (snd p))
              (flat_map (fun itr => map (fun d => (fst itr, d)) (tr_do (snd itr))) l) st.
Proof. intros sp t. apply fold_left_nested. reflexivity. Qed.

Definition step_target (sp : wf_spec) (t : string) (s : ustate) (p : nat * string) : ustate :=
  undef_target sp t (fst p) s (snd p).

Lemma undef_task_flat : forall sp t st ts, spec_get_task sp t = Some ts ->
  undef_task sp t st = Val (fold_left (step_target sp t) (targets_of ts) st).
Proof.
  intros sp t st ts H. unfold undef_task. rewrite H. f_equal. apply undef_fold_flat.
Qed.

Lemma undef_target_trav : forall sp t i st d, u_trav (undef_target sp t i st d) = u_trav st.
Proof.
  intros. unfold undef_target. destruct (string_in d (u_trav st)); [reflexivity|].
  destruct (spec_has_task sp d); [|reflexivity].
  destruct (negb (string_in d (app RESERVED_TASK_NAMES (u_trav st))) && negb (string_in d (u_queued st))); reflexivity.
Qed.

Lemma fold_target_trav : forall sp t l st, u_trav (fold_left (step_target sp t) l st) = u_trav st.
Proof.
  intros sp t l. induction l as [|p l IH]; intro st; simpl; [reflexivity|].
  rewrite IH. apply undef_target_trav.
Qed.

Inductive target_case (sp : wf_spec) (t : string) (i : nat) (st : ustate) (d : string) (st' : ustate) : Prop :=
  | tc_skip : st' = st -> (In d (u_trav st) \/ is_command d \/ (declared sp d /\ In d (u_queued st))) ->
              target_case sp t i st d st'
  | tc_push : st' = {| u_queue := app (u_queue st) [d]; u_trav := u_trav st;
                       u_queued := app (u_queued st) [d]; u_result := u_result st |} ->
              declared sp d -> ~ is_command d -> ~ In d (u_trav st) -> ~ In d (u_queued st) ->
              target_case sp t i st d st'
  | tc_report : st' = {| u_queue := u_queue st; u_trav := u_trav st; u_queued := u_queued st;
                         u_result := app (u_result st) [SE_undefined t i d] |} ->
                ~ is_command d -> ~ declared sp d -> ~ In d (u_trav st) ->
                target_case sp t i st d st'.

Lemma undef_target_case : forall sp t i st d, target_case sp t i st d (undef_target sp t i st d).
Proof.
  intros sp t i st d. unfold undef_target.
  destruct (string_in d (u_trav st)) eqn:Et.
  { apply tc_skip; [reflexivity|left; apply string_in_iff; exact Et]. }
  apply string_in_false in Et.
  destruct (spec_has_task sp d) eqn:Eh.
  - apply has_task_iff in Eh.
    destruct (string_in d (app RESERVED_TASK_NAMES (u_trav st))) eqn:Er; simpl.
    + apply string_in_iff in Er. apply in_app_or in Er. destruct Er as [Er|Er]; [|contradiction].
      apply tc_skip; [reflexivity|right; left; exact Er].
    + apply string_in_false in Er.
      assert (Hc : ~ is_command d) by (intro X; apply Er; apply in_or_app; left; exact X).
      assert (Hd : declared sp d) by (destruct Eh as [X|X]; [contradiction|exact X]).
      destruct (string_in d (u_queued st)) eqn:Eq; simpl.
      * apply string_in_iff in Eq. apply tc_skip; [reflexivity|right; right; split; assumption].
      * apply string_in_false in Eq. apply tc_push; try assumption. reflexivity.
  - assert (Hn : ~ (is_command d \/ declared sp d)).
    { intro X. apply has_task_iff in X. congruence. }
    apply tc_report; [reflexivity|tauto|tauto|exact Et].
Qed.

Record UMid (sp : wf_spec) (st : ustate) : Prop := {
  um_trav : forall x, In x (u_trav st) -> declared sp x /\ reach sp x;
  um_queue : forall x, In x (u_queue st) -> declared sp x /\ reach sp x;
  um_queued : forall x, In x (u_queued st) -> In x (u_trav st) \/ In x (u_queue st);
  um_sound : forall e, In e (u_result st) ->
             exists t i d, e = SE_undefined t i d /\ reach sp t /\ undef_triple sp t i d;
  um_start : forall s, In s (spec_start_tasks sp) -> In s (u_trav st) \/ In s (u_queue st) }.

Definition target_done (sp : wf_spec) (st : ustate) (t : string) (i : nat) (d : string) : Prop :=
  (~ is_command d -> ~ declared sp d -> In (SE_undefined t i d) (u_result st)) /\
  (~ is_command d -> declared sp d -> In d (u_trav st) \/ In d (u_queue st)).

Definition task_done (sp : wf_spec) (st : ustate) (t : string) : Prop :=
  forall ts i d, spec_get_task sp t = Some ts -> In (i, d) (targets_of ts) -> target_done sp st t i d.

Record UInv (sp : wf_spec) (st : ustate) : Prop := {
  ui_mid : UMid sp st;
  ui_done : forall t, In t (u_trav st) -> task_done sp st t }.

Definition umono (st st' : ustate) : Prop :=
  u_trav st' = u_trav st /\ (forall x, In x (u_queue st) -> In x (u_queue st')) /\
  (forall e, In e (u_result st) -> In e (u_result st')).

Lemma umono_refl : forall st, umono st st.
Proof. intro st. split; [reflexivity|split; auto]. Qed.

Lemma umono_trans : forall a b c, umono a b -> umono b c -> umono a c.
Proof.
  intros a b c [H1 [H2 H3]] [K1 [K2 K3]]. split; [congruence|split; auto].
Qed.

Lemma target_done_mono : forall sp st st' t i d, umono st st' -> target_done sp st t i d -> target_done sp st' t i d.
Proof.
  intros sp st st' t i d [M1 [M2 M3]] [H1 H2]. split.
  - intros A B. apply M3. apply H1; assumption.
  - intros A B. destruct (H2 A B) as [X|X]; [left; rewrite M1; exact X|right; apply M2; exact X].
Qed.

Lemma undef_target_inv : forall sp t ts i d st,
  UMid sp st -> In t (u_trav st) -> spec_get_task sp t = Some ts -> In (i, d) (targets_of ts) ->
  let st' := undef_target sp t i st d in
  UMid sp st' /\ umono st st' /\ target_done sp st' t i d.
Proof.
  intros sp t ts i d st M Ht Hg Hin. cbv zeta.
  destruct (targets_next_tasks sp t ts i d Hg Hin) as [w Hw].
  destruct (um_trav sp st M t Ht) as [Hdt Hrt].
  destruct (undef_target_case sp t i st d) as [E C|E Hd Hc Hnt Hnq|E Hc Hd Hnt]; rewrite E.
  - split; [exact M|]. split; [apply umono_refl|]. split.
    + intros A B. exfalso. destruct C as [C|[C|[C _]]]; [|contradiction|contradiction].
      apply B. apply (um_trav sp st M d C).
    + intros A B. destruct C as [C|[C|[_ C]]]; [left; exact C|contradiction|apply (um_queued sp st M d C)].
  - assert (Hrd : reach sp d).
    { apply (reach_step sp t d w i Hrt Hw). intro X. apply Hc. rewrite X. exact retry_is_command. }
    split; [|split].
    + constructor; simpl.
      * apply (um_trav sp st M).
      * intros x Hx. apply in_app_or in Hx. destruct Hx as [Hx|[Hx|[]]]; [apply (um_queue sp st M x Hx)|subst; auto].
      * intros x Hx. apply in_app_or in Hx. destruct Hx as [Hx|[Hx|[]]].
        -- destruct (um_queued sp st M x Hx) as [X|X]; [left; exact X|right; apply in_or_app; left; exact X].
        -- subst. right. apply in_or_app. right. left. reflexivity.
      * apply (um_sound sp st M).
      * intros s Hs. destruct (um_start sp st M s Hs) as [X|X]; [left; exact X|right; apply in_or_app; left; exact X].
    + split; [reflexivity|]. split; simpl; [intros x Hx; apply in_or_app; left; exact Hx|auto].
    + split; simpl; [intros A B; contradiction|]. intros A B. right. apply in_or_app. right. left. reflexivity.
  - split; [|split].
    + constructor; simpl; try (apply M).
      intros e He. apply in_app_or in He. destruct He as [He|[He|[]]]; [apply (um_sound sp st M e He)|].
      subst e. exists t, i, d. split; [reflexivity|]. split; [exact Hrt|]. split; [exists w; exact Hw|]. split; assumption.
    + split; [reflexivity|]. split; simpl; [auto|]. intros e He. apply in_or_app. left. exact He.
    + split; simpl; [|intros A B; contradiction]. intros A B. apply in_or_app. right. left. reflexivity.
Qed.

Lemma fold_target_inv : forall sp t ts l st,
  UMid sp st -> In t (u_trav st) -> spec_get_task sp t = Some ts ->
  (forall p, In p l -> In p (targets_of ts)) ->
  let st' := fold_left (step_target sp t) l st in
  UMid sp st' /\ umono st st' /\ (forall i d, In (i, d) l -> target_done sp st' t i d).
Proof.
  intros sp t ts l. induction l as [|[i d] l IH]; intros st M Ht Hg Hl; cbv zeta; simpl.
  - split; [exact M|]. split; [apply umono_refl|]. intros i d [].
  - destruct (undef_target_inv sp t ts i d st M Ht Hg (Hl (i, d) (or_introl eq_refl))) as [M1 [U1 D1]].
    unfold step_target at 2. simpl.
    assert (Ht1 : In t (u_trav (undef_target sp t i st d))) by (rewrite (proj1 U1); exact Ht).
    destruct (IH (undef_target sp t i st d) M1 Ht1 Hg (fun p Hp => Hl p (or_intror Hp))) as [M2 [U2 D2]].
    split; [exact M2|]. split; [eapply umono_trans; eassumption|].
    intros i' d' [E|Hin]; [|apply D2; exact Hin].
    injection E as E1 E2. subst i' d'. eapply target_done_mono; [exact U2|exact D1].
Qed.

Definition upop (st : ustate) (t : string) (q' : list string) : ustate :=
  {| u_queue := q'; u_trav := app (u_trav st) [t]; u_queued := u_queued st; u_result := u_result st |}.

Lemma declared_get_task : forall sp t, declared sp t -> spec_get_task sp t <> None.
Proof.
  intros sp t H. unfold spec_get_task. destruct (string_in t RESERVED_TASK_NAMES); [discriminate|].
  apply (aget_of_in String.eqb String.eqb_eq). exact H.
Qed.

Lemma upop_mid : forall sp st t q', UMid sp st -> u_queue st = t :: q' -> UMid sp (upop st t q').
Proof.
  intros sp st t q' M Eq. constructor; simpl.
  - intros x Hx. apply in_app_or in Hx. destruct Hx as [Hx|[Hx|[]]]; [apply (um_trav sp st M x Hx)|].
    subst x. apply (um_queue sp st M t). rewrite Eq. left. reflexivity.
  - intros x Hx. apply (um_queue sp st M x). rewrite Eq. right. exact Hx.
  - intros x Hx. destruct (um_queued sp st M x Hx) as [X|X]; [left; apply in_or_app; left; exact X|].
    rewrite Eq in X. destruct X as [X|X]; [subst; left; apply in_or_app; right; left; reflexivity|right; exact X].
  - apply (um_sound sp st M).
  - intros s Hs. destruct (um_start sp st M s Hs) as [X|X]; [left; apply in_or_app; left; exact X|].
    rewrite Eq in X. destruct X as [X|X]; [subst; left; apply in_or_app; right; left; reflexivity|right; exact X].
Qed.

Lemma undef_task_inv : forall sp st t q' st',
  UInv sp st -> u_queue st = t :: q' -> undef_task sp t (upop st t q') = Val st' ->
  UInv sp st' /\ u_trav st' = app (u_trav st) [t].
Proof.
  intros sp st t q' st' [M D] Eq H.
  pose proof (upop_mid sp st t q' M Eq) as M1.
  destruct (spec_get_task sp t) as [ts|] eqn:Hg; [|unfold undef_task in H; rewrite Hg in H; discriminate].
  rewrite (undef_task_flat sp t _ ts Hg) in H. injection H as H.
  assert (Ht1 : In t (u_trav (upop st t q'))) by (simpl; apply in_or_app; right; left; reflexivity).
  destruct (fold_target_inv sp t ts (targets_of ts) (upop st t q') M1 Ht1 Hg (fun p Hp => Hp)) as [M2 [U2 D2]].
  rewrite H in M2, U2, D2. split; [|exact (proj1 U2)].
  constructor; [exact M2|]. intros t0 Ht0. rewrite (proj1 U2) in Ht0. simpl in Ht0.
  apply in_app_or in Ht0. destruct Ht0 as [Ht0|[Ht0|[]]].
  - intros ts0 i d Hg0 Hin. eapply target_done_mono; [exact U2|].
    destruct (D t0 Ht0 ts0 i d Hg0 Hin) as [A B]. split; [exact A|]. simpl.
    intros X Y. destruct (B X Y) as [Z|Z]; [left; apply in_or_app; left; exact Z|].
    rewrite Eq in Z. destruct Z as [Z|Z]; [subst; left; apply in_or_app; right; left; reflexivity|right; exact Z].
  - subst t0. intros ts0 i d Hg0 Hin. rewrite Hg in Hg0. injection Hg0 as Hg0. subst ts0. apply D2. exact Hin.
Qed.

Lemma undef_loop_inv : forall sp fuel st l, UInv sp st -> undef_loop sp fuel st = Val l ->
  exists st', UInv sp st' /\ u_queue st' = [] /\ u_result st' = l.
Proof.
  intros sp fuel. induction fuel as [|f IH]; intros st l I H; simpl in H.
  - destruct (u_queue st) eqn:Eq; [|discriminate]. injection H as H. exists st. auto.
  - destruct (u_queue st) as [|t q'] eqn:Eq; [injection H as H; exists st; auto|].
    change {| u_queue := q'; u_trav := app (u_trav st) [t]; u_queued := u_queued st; u_result := u_result st |}
      with (upop st t q') in H.
    destruct (undef_task sp t (upop st t q')) as [st1|e] eqn:E1; [|discriminate].
    destruct (undef_task_inv sp st t q' st1 I Eq E1) as [I1 _]. apply (IH st1 l I1 H).
Qed.

Lemma undef_init_inv : forall sp, UInv sp (undef_init sp).
Proof.
  intro sp. constructor; [constructor|]; simpl; try (intros x []).
  - intros x Hx. split; [apply in_start_tasks in Hx; apply Hx|apply reach_start; exact Hx].
  - intros s Hs. right. exact Hs.
Qed.

Lemma next_tasks_not_command : forall sp s x, In x (spec_next_tasks sp s) -> ~ is_command s.
Proof.
  intros sp s x H C. unfold spec_next_tasks, spec_get_task in H. apply string_in_iff in C. rewrite C in H.
  simpl in H. exact H.
Qed.

Lemma reach_traversed : forall sp st, UInv sp st -> u_queue st = [] ->
  forall t, reach sp t -> (exists x, In x (spec_next_tasks sp t)) -> In t (u_trav st).
Proof.
  intros sp st [M D] Eq t Hr. induction Hr as [t Hs|t0 d w i Hr0 IH Hin Hne]; intros [x Hx].
  - destruct (um_start sp st M t Hs) as [X|X]; [exact X|rewrite Eq in X; destruct X].
  - assert (Ht0 : In t0 (u_trav st)) by (apply IH; exists (d, w, i); exact Hin).
    destruct (next_tasks_targets sp t0 d w i Hin) as [ts0 [Hg0 Hin0]].
    destruct (D t0 Ht0 ts0 i d Hg0 Hin0) as [_ B].
    destruct (B (next_tasks_not_command sp d x Hx) (next_tasks_declared sp d x Hx)) as [X|X]; [exact X|].
    rewrite Eq in X. destruct X.
Qed.

Theorem undefined_sound : forall sp fuel l, detect_undefined_tasks sp fuel = Val l ->
  forall e, In e l -> exists t i d, e = SE_undefined t i d /\ reach sp t /\ undef_triple sp t i d.
Proof.
  intros sp fuel l H e He. unfold detect_undefined_tasks in H.
  destruct (undef_loop_inv sp fuel _ l (undef_init_inv sp) H) as [st [[M _] [_ Er]]].
  subst l. apply (um_sound sp st M e He).
Qed.

Theorem undefined_reported : forall sp fuel l, detect_undefined_tasks sp fuel = Val l ->
  forall t d w i, reach sp t -> In (d, w, i) (spec_next_tasks sp t) ->
    ~ is_command d -> ~ declared sp d -> In (SE_undefined t i d) l.
Proof.
  intros sp fuel l H t d w i Hr Hin Hc Hd. unfold detect_undefined_tasks in H.
  destruct (undef_loop_inv sp fuel _ l (undef_init_inv sp) H) as [st [I [Eq Er]]].
  pose proof (reach_traversed sp st I Eq t Hr (ex_intro _ (d, w, i) Hin)) as Ht.
  destruct (next_tasks_targets sp t d w i Hin) as [ts [Hg Hin']].
  subst l. apply (proj1 (ui_done sp st I t Ht ts i d Hg Hin') Hc Hd).
Qed.

Theorem undefined_exact : forall sp fuel l, detect_undefined_tasks sp fuel = Val l ->
  forall e, In e l <-> exists t i d, e = SE_undefined t i d /\ reach sp t /\ undef_triple sp t i d.
Proof.
  intros sp fuel l H e. split; [apply (undefined_sound sp fuel l H)|].
  intros [t [i [d [-> [Hr [[w Hin] [Hc Hd]]]]]]]. exact (undefined_reported sp fuel l H t d w i Hr Hin Hc Hd).
Qed.

Record UCount (sp : wf_spec) (st : ustate) : Prop := {
  uc_nodup : NoDup (app (u_trav st) (u_queue st));
  uc_queue : forall x, In x (u_queue st) -> In x (u_queued st) \/ In x (spec_start_tasks sp) }.

Lemma undef_target_count : forall sp t ts i d st,
  UMid sp st -> UCount sp st -> In t (u_trav st) -> spec_get_task sp t = Some ts -> In (i, d) (targets_of ts) ->
  UCount sp (undef_target sp t i st d).
Proof.
  intros sp t ts i d st M [N Q] Ht Hg Hin.
  destruct (targets_next_tasks sp t ts i d Hg Hin) as [w Hw].
  destruct (undef_target_case sp t i st d) as [E C|E Hd Hc Hnt Hnq|E Hc Hd Hnt]; rewrite E.
  - constructor; assumption.
  - constructor; simpl.
    + rewrite app_assoc. apply NoDup_snoc; [exact N|]. intro X. apply in_app_or in X.
      destruct X as [X|X]; [contradiction|]. destruct (Q d X) as [Y|Y]; [contradiction|].
      apply in_start_tasks in Y. exact (prev_count_pos sp t d w i Hw (proj2 Y)).
    + intros x Hx. apply in_app_or in Hx. destruct Hx as [Hx|[Hx|[]]].
      * destruct (Q x Hx) as [Y|Y]; [left; apply in_or_app; left; exact Y|right; exact Y].
      * subst. left. apply in_or_app. right. left. reflexivity.
  - constructor; simpl; assumption.
Qed.

Lemma fold_target_count : forall sp t ts l st,
  UMid sp st -> UCount sp st -> In t (u_trav st) -> spec_get_task sp t = Some ts ->
  (forall p, In p l -> In p (targets_of ts)) ->
  UCount sp (fold_left (step_target sp t) l st).
Proof.
  intros sp t ts l. induction l as [|[i d] l IH]; intros st M C Ht Hg Hl; simpl; [exact C|].
  unfold step_target at 2. simpl.
  destruct (undef_target_inv sp t ts i d st M Ht Hg (Hl (i, d) (or_introl eq_refl))) as [M1 [U1 _]].
  apply IH; try assumption.
  - eapply undef_target_count; try eassumption. apply Hl. left. reflexivity.
  - rewrite (proj1 U1). exact Ht.
  - intros p Hp. apply Hl. right. exact Hp.
Qed.

Lemma upop_count : forall sp st t q', UCount sp st -> u_queue st = t :: q' -> UCount sp (upop st t q').
Proof.
  intros sp st t q' [N Q] Eq. constructor; simpl.
  - rewrite <- app_assoc. simpl. rewrite <- Eq. exact N.
  - intros x Hx. apply Q. rewrite Eq. right. exact Hx.
Qed.

Lemma count_bound : forall sp st, NoDup (task_names sp) -> UMid sp st -> UCount sp st ->
  length (u_trav st) + length (u_queue st) <= length (task_names sp).
Proof.
  intros sp st Hnd M [N _]. rewrite <- app_length. apply NoDup_incl_length; [exact N|].
  intros x Hx. apply in_app_or in Hx. destruct Hx as [Hx|Hx].
  - apply (um_trav sp st M x Hx).
  - apply (um_queue sp st M x Hx).
Qed.

Lemma undef_loop_total : forall sp, NoDup (task_names sp) -> forall fuel st,
  UInv sp st -> UCount sp st -> length (task_names sp) <= length (u_trav st) + fuel ->
  exists l, undef_loop sp fuel st = Val l.
Proof.
  intros sp Hnd fuel. induction fuel as [|f IH]; intros st I C Hf; simpl.
  - destruct (u_queue st) as [|t q'] eqn:Eq; [eauto|].
    pose proof (count_bound sp st Hnd (ui_mid sp st I) C) as B. rewrite Eq in B. simpl in B. lia.
  - destruct (u_queue st) as [|t q'] eqn:Eq; [eauto|].
    change {| u_queue := q'; u_trav := app (u_trav st) [t]; u_queued := u_queued st; u_result := u_result st |}
      with (upop st t q').
    assert (Hdt : declared sp t) by (apply (um_queue sp st (ui_mid sp st I) t); rewrite Eq; left; reflexivity).
    destruct (spec_get_task sp t) as [ts|] eqn:Hg; [|exfalso; exact (declared_get_task sp t Hdt Hg)].
    pose proof (undef_task_flat sp t (upop st t q') ts Hg) as E1. rewrite E1.
    destruct (undef_task_inv sp st t q' _ I Eq E1) as [I1 T1].
    apply IH; [exact I1| |rewrite T1, app_length; simpl; lia].
    apply (fold_target_count sp t ts); auto.
    + apply upop_mid; [apply I|exact Eq].
    + apply upop_count; assumption.
    + simpl. apply in_or_app. right. left. reflexivity.
Qed.

Lemma start_tasks_nodup : forall sp, NoDup (task_names sp) -> NoDup (spec_start_tasks sp).
Proof.
  intros sp H. unfold spec_start_tasks.
  eapply Permutation_NoDup; [apply Permutation_sym; apply perm_sort_by|]. apply NoDup_filter. exact H.
Qed.

Theorem undefined_total : forall sp fuel, NoDup (task_names sp) -> length (wf_tasks sp) <= fuel ->
  exists l, detect_undefined_tasks sp fuel = Val l.
Proof.
  intros sp fuel Hnd Hf. unfold detect_undefined_tasks.
  apply (undef_loop_total sp Hnd fuel _ (undef_init_inv sp)).
  - constructor; simpl; [apply start_tasks_nodup; exact Hnd|]. intros x Hx. right. exact Hx.
  - simpl. unfold task_names. rewrite map_length. exact Hf.
Qed.

Theorem reserved_reported : forall sp e,
  In e (detect_reserved_names sp) <-> exists t, e = SE_reserved t /\ declared sp t /\ is_command t.
Proof.
  intros sp e. unfold detect_reserved_names, declared, is_command, task_names. rewrite in_map_iff. split.
  - intros [t [E H]]. apply filter_In in H. destruct H as [H1 H2]. apply string_in_iff in H2. exists t. auto.
  - intros [t [E [H1 H2]]]. exists t. split; [auto|]. apply filter_In. split; [exact H1|apply string_in_iff; exact H2].
Qed.

Lemma no_start_iff : forall sp, spec_start_tasks sp = [] <-> forall t, declared sp t -> spec_prev_count sp t <> 0.
Proof.
  intro sp. split.
  - intros H t Hd Hz. assert (X : In t (spec_start_tasks sp)) by (apply in_start_tasks; split; assumption).
    rewrite H in X. exact X.
  - intro H. destruct (spec_start_tasks sp) as [|s l] eqn:E; [reflexivity|]. exfalso.
    assert (X : In s (spec_start_tasks sp)) by (rewrite E; left; reflexivity).
    apply in_start_tasks in X. destruct X as [X1 X2]. exact (H s X1 X2).
Qed.

Theorem no_start_reported : forall sp,
  (In SE_no_start (detect_start_tasks sp) <->
   wf_tasks sp <> [] /\ forall t, declared sp t -> spec_prev_count sp t <> 0)
  /\ forall e, In e (detect_start_tasks sp) -> e = SE_no_start.
Proof.
  intro sp. unfold detect_start_tasks. pose proof (no_start_iff sp) as N.
  destruct (wf_tasks sp) as [|x l] eqn:Et.
  - split; [split; [intros []|intros [H _]; congruence]|intros e []].
  - destruct (spec_start_tasks sp) as [|s r] eqn:Es.
    + split; [split; [intros _; split; [discriminate|apply N; reflexivity]|intros _; left; reflexivity]|].
      intros e [E|[]]. auto.
    + split; [split; [intros []|]|intros e []]. intros [_ H]. apply N in H. discriminate.
Qed.

Theorem actionless_items_reported : forall sp e,
  In e (detect_actionless_with_items sp) <->
  exists t ts, e = SE_actionless t /\ In (t, ts) (wf_tasks sp) /\ task_has_items ts = true
               /\ truthy (ts_action ts) = false.
Proof.
  intros sp e. unfold detect_actionless_with_items. rewrite in_map_iff. split.
  - intros [[t ts] [E H]]. apply filter_In in H. destruct H as [H1 H2]. apply andb_true_iff in H2.
    destruct H2 as [H2 H3]. apply negb_true_iff in H3. exists t, ts. auto.
  - intros [t [ts [E [H1 [H2 H3]]]]]. exists (t, ts). split; [auto|]. apply filter_In. split; [exact H1|].
    rewrite H2, H3. reflexivity.
Qed.

Lemma undefined_nil_defined : forall sp fuel, detect_undefined_tasks sp fuel = Val [] ->
  forall t d w i, reach sp t -> In (d, w, i) (spec_next_tasks sp t) -> is_command d \/ declared sp d.
Proof.
  intros sp fuel H t d w i Hr Hin.
  destruct (string_in d RESERVED_TASK_NAMES) eqn:Ec; [left; apply string_in_iff; exact Ec|].
  destruct (ahas String.eqb d (wf_tasks sp)) eqn:Ed; [right; apply (ahas_in String.eqb String.eqb_eq); exact Ed|]. exfalso.
  apply string_in_false in Ec.
  assert (Hd : ~ declared sp d) by (intro X; apply (ahas_in String.eqb String.eqb_eq) in X; congruence).
  exact (undefined_reported sp fuel [] H t d w i Hr Hin Ec Hd).
Qed.

Lemma semantics_nil : forall sp fuel, inspect_semantics sp fuel = Val [] ->
  detect_reserved_names sp = [] /\ detect_start_tasks sp = [] /\ detect_undefined_tasks sp fuel = Val []
  /\ detect_unreachable_tasks sp fuel = Val [] /\ detect_actionless_with_items sp = [].
Proof.
  intros sp fuel H. unfold inspect_semantics in H.
  destruct (detect_undefined_tasks sp fuel) as [und|]; [|discriminate].
  destruct (detect_unreachable_tasks sp fuel) as [unr|]; [|discriminate].
  injection H as H. apply app_eq_nil in H. destruct H as [H1 H]. apply app_eq_nil in H. destruct H as [H2 H].
  apply app_eq_nil in H. destruct H as [H3 H]. apply app_eq_nil in H. destruct H as [H4 H5]. subst. auto.
Qed.

Theorem semantics_accepted : forall sp fuel, inspect_semantics sp fuel = Val [] ->
  (forall t, declared sp t -> ~ is_command t)
  /\ (wf_tasks sp = [] \/ exists s, In s (spec_start_tasks sp))
  /\ (forall t d w i, reach sp t -> In (d, w, i) (spec_next_tasks sp t) -> is_command d \/ declared sp d)
  /\ (forall t ts, In (t, ts) (wf_tasks sp) -> task_has_items ts = true -> truthy (ts_action ts) = true).
Proof.
  intros sp fuel H. destruct (semantics_nil sp fuel H) as [H1 [H2 [H3 [_ H5]]]]. split; [|split; [|split]].
  - intros t Hd Hc. assert (X : In (SE_reserved t) (detect_reserved_names sp)).
    { apply reserved_reported. exists t. auto. }
    rewrite H1 in X. exact X.
  - unfold detect_start_tasks in H2. destruct (wf_tasks sp) as [|x0 l0]; [left; reflexivity|right].
    destruct (spec_start_tasks sp) as [|s0 r0]; [discriminate|]. exists s0. left. reflexivity.
  - exact (undefined_nil_defined sp fuel H3).
  - intros t ts Hin Hi. destruct (truthy (ts_action ts)) eqn:E; [reflexivity|]. exfalso.
    assert (X : In (SE_actionless t) (detect_actionless_with_items sp)).
    { apply actionless_items_reported. exists t, ts. auto. }
    rewrite H5 in X. exact X.
Qed.

Theorem semantics_reports_undefined : forall sp fuel l, inspect_semantics sp fuel = Val l ->
  forall t d w i, reach sp t -> In (d, w, i) (spec_next_tasks sp t) -> ~ is_command d -> ~ declared sp d ->
    In (SE_undefined t i d) l.
Proof.
  intros sp fuel l H t d w i Hr Hin Hc Hd. unfold inspect_semantics in H.
  destruct (detect_undefined_tasks sp fuel) as [und|] eqn:Eu; [|discriminate].
  destruct (detect_unreachable_tasks sp fuel) as [unr|]; [|discriminate].
  injection H as H. subst l. apply in_or_app. right. apply in_or_app. right. apply in_or_app. left.
  exact (undefined_reported sp fuel und Eu t d w i Hr Hin Hc Hd).
Qed.

Theorem semantics_sorted_perm : forall sp fuel l, inspect_semantics sp fuel = Val l ->
  exists l', inspect_semantics_sorted sp fuel = Val l' /\ Permutation l' l.
Proof.
  intros sp fuel l H. unfold inspect_semantics_sorted. rewrite H. exists (sort_by entry_leb l).
  split; [reflexivity|apply perm_sort_by].
Qed.

Lemma accepted_reach_defined : forall sp fuel, detect_undefined_tasks sp fuel = Val [] ->
  forall t, reach sp t -> spec_get_task sp t <> None.
Proof.
  intros sp fuel H t Hr. destruct Hr as [t Hs|t0 d w i Hr0 Hin Hne].
  - apply declared_get_task. apply in_start_tasks in Hs. apply Hs.
  - destruct (undefined_nil_defined sp fuel H t0 d w i Hr0 Hin) as [C | D]; [|now apply declared_get_task].
    unfold spec_get_task. apply string_in_iff in C. now rewrite C.
Qed.

Theorem accepted_composes : forall sp fuel, NoDup (map fst (wf_tasks sp)) ->
  inspect_semantics sp fuel = Val [] ->
  forall rt f e, compose sp rt f = Exc e -> e = x_out_of_fuel.
Proof.
  intros sp fuel Hnd Ha. destruct (semantics_nil sp fuel Ha) as [_ [_ [H3 _]]].
  exact (compose_exc_fuel sp Hnd (accepted_reach_defined sp fuel H3)).
Qed.

Lemma set_union_in : forall b a x, In x (set_union a b) <-> In x a \/ In x b.
Proof.
  unfold set_union. intro b. induction b as [|y b IH]; intros a x; simpl; [tauto|].
  rewrite IH. destruct (string_in y a) eqn:E.
  - apply string_in_iff in E. split; [tauto|]. intros [H|[H|H]]; [tauto|subst; tauto|tauto].
  - rewrite in_app_iff. simpl. tauto.
Qed.

(* the positions of a spec object in evaluation order, each with "does its property assign" *)
Definition flat_positions (seq inputs : list string) (props : cprops) : list (bool * cpos) :=
  flat_map (fun name => map (fun p => (string_in name inputs, p)) (positions_of props name)) seq.

Definition step_pos (acc : cstate_t) (ap : bool * cpos) : cstate_t := inspect_pos (fst ap) acc (snd ap).

Lemma inspect_props_flat : forall seq inputs props acc,
  fold_left (inspect_leaf inputs props) seq acc = fold_left step_pos (flat_positions seq inputs props) acc.
Proof. intros seq inputs props. apply fold_left_nested. reflexivity. Qed.

Lemma inspect_ref_unassigned : forall path ctx es v q x,
  In (CE_unassigned q x) (inspect_ref path ctx es v) <->
  In (CE_unassigned q x) es \/ (q = path /\ x = v /\ ~ In v ctx).
Proof.
  intros path ctx es v q x. unfold inspect_ref.
  assert (P : In (CE_unassigned q x) (if starts_with "__" v then app es [CE_private path v] else es)
              <-> In (CE_unassigned q x) es).
  { destruct (starts_with "__" v); [|tauto]. rewrite in_app_iff. simpl. split; [|tauto].
    intros [H|[H|[]]]; [exact H|discriminate]. }
  destruct (string_in v ctx) eqn:E.
  - apply string_in_iff in E. rewrite P. tauto.
  - apply string_in_false in E. rewrite in_app_iff, P. simpl. split.
    + intros [H|[H|[]]]; [tauto|]. injection H as H1 H2. subst. tauto.
    + intros [H|[H1 [H2 _]]]; [tauto|]. subst. tauto.
Qed.

Lemma fold_ref_unassigned : forall path ctx refs es q x,
  In (CE_unassigned q x) (fold_left (inspect_ref path ctx) refs es) <->
  In (CE_unassigned q x) es \/ (q = path /\ In x refs /\ ~ In x ctx).
Proof.
  intros path ctx refs. induction refs as [|v refs IH]; intros es q x; simpl; [tauto|].
  rewrite IH, inspect_ref_unassigned. split.
  - intros [[H|[H1 [H2 H3]]]|H]; [tauto|subst; tauto|tauto].
  - intros [H|[H1 [[H2|H2] H3]]]; [tauto|subst; tauto|tauto].
Qed.

Lemma step_pos_ctx : forall ctx es a p x,
  In x (fst (step_pos (ctx, es) (a, p))) <-> In x ctx \/ (a = true /\ In x (cp_keys p)).
Proof.
  intros ctx es a p x. unfold step_pos, inspect_pos. simpl. destruct a; simpl.
  - rewrite set_union_in. tauto.
  - split; [tauto|]. intros [H|[H _]]; [exact H|discriminate].
Qed.

Lemma fold_pos_unassigned : forall l ctx es q x,
  In (CE_unassigned q x) (snd (fold_left step_pos l (ctx, es))) <->
  In (CE_unassigned q x) es \/
  exists pre a p post, l = app pre ((a, p) :: post) /\ cp_path p = q /\ In x (cp_refs p) /\ ~ In x ctx
                       /\ forall a' p', In (a', p') pre -> a' = true -> ~ In x (cp_keys p').
Proof.
  intro l. induction l as [|[a0 p0] l IH]; intros ctx es q x.
  - simpl. split; [tauto|]. intros [H|[pre [a [p [post [E _]]]]]]; [exact H|].
    destruct pre; discriminate.
  - cbn [fold_left].
    destruct (step_pos (ctx, es) (a0, p0)) as [ctx1 es1] eqn:E1.
    assert (Hc : forall y, In y ctx1 <-> In y ctx \/ (a0 = true /\ In y (cp_keys p0))).
    { intro y. pose proof (step_pos_ctx ctx es a0 p0 y) as X. rewrite E1 in X. exact X. }
    assert (He : In (CE_unassigned q x) es1 <->
                 In (CE_unassigned q x) es \/ (q = cp_path p0 /\ In x (cp_refs p0) /\ ~ In x ctx)).
    { assert (X : es1 = fold_left (inspect_ref (cp_path p0) ctx) (cp_refs p0) es).
      { unfold step_pos, inspect_pos in E1. simpl in E1. injection E1 as _ E1. auto. }
      rewrite X. apply fold_ref_unassigned. }
    rewrite IH, He. split.
    + intros [[H|[H1 [H2 H3]]]|[pre [a [p [post [El [Hp [Hr [Hn Hpre]]]]]]]]].
      * left. exact H.
      * right. exists [], a0, p0, l. simpl. repeat split; auto; try (intros a' p' []).
      * right. exists ((a0, p0) :: pre), a, p, post. subst l. simpl. repeat split; auto.
        -- intro X. apply Hn. apply Hc. left. exact X.
        -- intros a' p' [E|Hin] Ha'.
           ++ injection E as E2 E3. subst a' p'. intro X. apply Hn. apply Hc. right. split; assumption.
           ++ apply (Hpre a' p' Hin Ha').
    + intros [H|[pre [a [p [post [El [Hp [Hr [Hn Hpre]]]]]]]]]; [left; left; exact H|].
      destruct pre as [|[a1 p1] pre]; simpl in El.
      * injection El as E2 E3 E4. subst a p post. left. right. auto.
      * injection El as E2 E3 E4. subst a1 p1 l. right. exists pre, a, p, post. repeat split; auto.
        -- intro X. apply Hc in X. destruct X as [X|[X1 X2]]; [contradiction|].
           apply (Hpre a0 p0 (or_introl eq_refl) X1 X2).
        -- intros a' p' Hin Ha'. apply (Hpre a' p' (or_intror Hin) Ha').
Qed.

Theorem context_straight_line : forall seq inputs props ctx q x,
  In (CE_unassigned q x) (snd (inspect_props seq inputs props ctx)) <->
  exists pre a p post,
    flat_positions seq inputs props = app pre ((a, p) :: post) /\ cp_path p = q /\ In x (cp_refs p)
    /\ ~ In x ctx /\ forall a' p', In (a', p') pre -> a' = true -> ~ In x (cp_keys p').
Proof.
  intros seq inputs props ctx q x. unfold inspect_props. rewrite inspect_props_flat, fold_pos_unassigned.
  split; [intros [[]|H]; exact H|intro H; right; exact H].
Qed.

Lemma fold_pos_ctx : forall l ctx es x,
  In x (fst (fold_left step_pos l (ctx, es))) <->
  In x ctx \/ exists p, In (true, p) l /\ In x (cp_keys p).
Proof.
  intro l. induction l as [|[a0 p0] l IH]; intros ctx es x.
  - simpl. split; [tauto|]. intros [H|[p [[] _]]]. exact H.
  - cbn [fold_left]. destruct (step_pos (ctx, es) (a0, p0)) as [ctx1 es1] eqn:E1.
    rewrite IH. pose proof (step_pos_ctx ctx es a0 p0 x) as X. rewrite E1 in X. simpl in X. rewrite X. split.
    + intros [[H|[H1 H2]]|[p [H1 H2]]]; [tauto| |].
      * subst a0. right. exists p0. split; [left; reflexivity|exact H2].
      * right. exists p. split; [right; exact H1|exact H2].
    + intros [H|[p [[E|H1] H2]]]; [tauto| |].
      * injection E as E2 E3. subst. tauto.
      * right. exists p. tauto.
Qed.

Theorem context_assigned : forall seq inputs props ctx x,
  In x (fst (inspect_props seq inputs props ctx)) <->
  In x ctx \/ exists p, In (true, p) (flat_positions seq inputs props) /\ In x (cp_keys p).
Proof.
  intros. unfold inspect_props. rewrite inspect_props_flat. apply fold_pos_ctx.
Qed.

Theorem positions_covered :
  CTX_SEQ_WorkflowSpec = ["input"; "vars"; "tasks"; "output"]
  /\ CTX_INPUTS_WorkflowSpec = ["input"; "vars"; "output"]
  /\ CTX_SEQ_TaskSpec = ["delay"; "with"; "action"; "input"; "retry"; "next"]
  /\ CTX_INPUTS_TaskSpec = []
  /\ CTX_SEQ_ItemizedSpec = ["items"; "concurrency"] /\ CTX_INPUTS_ItemizedSpec = []
  /\ CTX_SEQ_TaskRetrySpec = ["when"; "count"; "delay"] /\ CTX_INPUTS_TaskRetrySpec = []
  /\ CTX_SEQ_TaskTransitionSpec = ["when"; "publish"; "do"]
  /\ CTX_INPUTS_TaskTransitionSpec = ["publish"]
  /\ (forall c, In c ["continue"; "fail"; "noop"; "retry"] <-> is_command c).
Proof.
  repeat (split; [reflexivity|]). intro c. unfold is_command. vm_compute. tauto.
Qed.

Definition e_tr (w : json) (d : list string) : transition_spec :=
  {| tr_when := w; tr_publish := []; tr_do := d |}.
Definition e_task (a : json) (wi : option items_spec) (j : json) (nx : list transition_spec) : task_spec :=
  {| ts_action := a; ts_input := JDict []; ts_with := wi; ts_delay := JNull; ts_join := j; ts_next := nx |}.
Definition e_items : items_spec := {| it_expr := "<% ctx().xs %>"; it_keys := None; it_concurrency := JNull |}.

(* s -> a, b ; a -> ghost, j (transition 0) and ghost again (transition 1) ; b -> j, noop ; j (join)
   -> phantom, phantom ; w: with-items without action ; a task named retry ; u1 <-> u2: an island no
   start task reaches, whose transition to ghost2 is therefore not reported *)
Definition ex15 : wf_spec :=
  {| wf_input := [("xs", JNull)]; wf_vars := []; wf_output := [];
     wf_tasks :=
       [("j", e_task (JStr "core.noop") None (JStr "all") [e_tr JNull ["phantom"; "phantom"]]);
        ("s", e_task (JStr "core.noop") None JNull [e_tr (JStr "<% succeeded() %>") ["a"; "b"]]);
        ("a", e_task (JStr "core.noop") None JNull
                [e_tr (JStr "<% succeeded() %>") ["ghost"; "j"]; e_tr (JStr "<% failed() %>") ["ghost"]]);
        ("b", e_task (JStr "core.noop") None JNull [e_tr JNull ["j"; "noop"; "w"]]);
        ("w", e_task JNull (Some e_items) JNull []);
        ("retry", e_task (JStr "core.noop") None JNull [e_tr JNull ["nowhere"]]);
        ("u1", e_task (JStr "core.noop") None JNull [e_tr JNull ["u2"; "ghost2"]]);
        ("u2", e_task (JStr "core.noop") None JNull [e_tr JNull ["u1"]])] |}.

Lemma ex15_undefined :
  detect_undefined_tasks ex15 8
  = Val [SE_undefined "a" 0 "ghost"; SE_undefined "a" 1 "ghost";
         SE_undefined "j" 0 "phantom"; SE_undefined "j" 0 "phantom"].
Proof. vm_compute. reflexivity. Qed.

Lemma ex15_nodup : NoDup (task_names ex15).
Proof.
  unfold task_names. simpl.
  repeat (constructor; [simpl; intro H; repeat (destruct H as [H|H]; [discriminate|]); exact H|]). constructor.
Qed.

Lemma ex15_reach_a : reach ex15 "a".
Proof.
  apply (reach_step ex15 "s" "a" (JStr "<% succeeded() %>") 0); [|vm_compute; tauto|discriminate].
  apply reach_start. vm_compute. tauto.
Qed.

(* a cycle closed over every task: no start task *)
Definition ex15_cycle : wf_spec :=
  {| wf_input := []; wf_vars := []; wf_output := [];
     wf_tasks := [("p", e_task (JStr "core.noop") None JNull [e_tr JNull ["q"]]);
                  ("q", e_task (JStr "core.noop") None JNull [e_tr JNull ["p"]])] |}.

(* an accepted definition *)
Definition ex15_ok : wf_spec :=
  {| wf_input := []; wf_vars := []; wf_output := [];
     wf_tasks :=
       [("s", e_task (JStr "core.noop") None JNull [e_tr (JStr "<% succeeded() %>") ["a"; "b"]]);
        ("a", e_task (JStr "core.noop") None JNull [e_tr JNull ["j"]]);
        ("b", e_task (JStr "core.noop") (Some e_items) JNull [e_tr JNull ["j"; "noop"]]);
        ("j", e_task (JStr "core.noop") None (JStr "all") [e_tr (JStr "<% failed() %>") ["retry"]])] |}.

Lemma ex15_ok_accepted : inspect_semantics ex15_ok 10 = Val [].
Proof. vm_compute. reflexivity. Qed.

Lemma ex15_ok_nodup : NoDup (map fst (wf_tasks ex15_ok)).
Proof.
  simpl. repeat (constructor; [simpl; intro H; repeat (destruct H as [H|H]; [discriminate|]); exact H|]). constructor.
Qed.

(* the positions of a transition  when: <% ctx().a and ctx().y %>, publish: [{y: <% ctx().x %>}, {z: <% ctx().y %>}] *)
Definition ex15_props : cprops :=
  [("when", [{| cp_path := "tasks.t.next[0].when"; cp_refs := ["a"; "y"]; cp_keys := [] |}]);
   ("publish", [{| cp_path := "tasks.t.next[0].publish[0]"; cp_refs := ["x"]; cp_keys := ["y"] |};
                {| cp_path := "tasks.t.next[0].publish[1]"; cp_refs := ["y"]; cp_keys := ["z"] |}]);
   ("do", [{| cp_path := "tasks.t.next[0].do"; cp_refs := []; cp_keys := ["continue"] |}])].
