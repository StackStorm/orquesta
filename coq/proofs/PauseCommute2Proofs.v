(* PauseCommute2Proofs.v -- C09: the whole-call commutation of a report with the pause request, extended to
   tasks whose transitions target ENGINE COMMANDS (noop / fail / continue / retry as a transition target).

   PauseCommuteProofs proves the commutation for tasks with no command target.  With a command queued, the
   nested update_task_state calls run AFTER the workflow-machine step of the reporting task, when the
   statuses of the two runs have parted (typically running vs paused).  The nested call is therefore taken in
   the relational judgement at ANY pair of statuses from which the workflow can still be failed ([PairF]); the
   only piece that reads the workflow status besides the machine -- the retry gate -- is moot for command
   records, which are always fresh and carry no retry policy ([graph_commands_inert], true of every composed
   graph).  The reporting task's own call runs in the judgement over [PairOK] up to the machine step, then the queue. *)
From Coq Require Import String List Bool ZArith Arith Lia.
From Orq Require Import GenStatuses GenEvents GenTables GenSpecMeta Base State Machines Codec Conductor Decode Api.
From Orq Require Import F_tables Hoare ValuePost StatusReach C04Proofs C05Proofs C09C10Proofs RetryProofs InertProofs QueryProofs PauseProofs PauseCommuteProofs StateFacts.
Import ListNotations.
Open Scope string_scope.
Open Scope monad_scope.


(* a workflow status from which request_status_core S_FAILED fails the workflow *)
Definition failable (y : status) : Prop := tbl_step wf_table y "workflow_failed" = Some S_FAILED /\ y <> S_FAILED.
Definition PairF (s x : status) : Prop := s = x \/ (failable s /\ failable x).

Lemma PairOK_PairF : forall s x, PairOK s x -> PairF s x.
Proof.
  intros s x [E|[-> [->| ->]]]; [left; exact E| |]; right; split; split; try reflexivity; discriminate.
Qed.

Definition Jc {A} (VR : status -> A -> A -> Prop) (m1 m2 : M A) : Prop :=
  forall s a, c_init a = true -> PairF s (wstatus (c_ws a)) ->
    exists s', fst (m1 (so s a)) = so s' (fst (m2 a)) /\
               c_init (fst (m2 a)) = true /\ PairF s' (wstatus (c_ws (fst (m2 a)))) /\
               rrel (VR s') (snd (m1 (so s a))) (snd (m2 a)).

Lemma PairF_refl : forall x, PairF x x.
Proof. intro x. left; reflexivity. Qed.

Lemma PairF_failed_row : forall s x, PairF s x -> s <> x ->
  tbl_step wf_table x "workflow_failed" = Some S_FAILED /\ tbl_step wf_table s "workflow_failed" = Some S_FAILED.
Proof. intros s x [E|[[A1 _] [B1 _]]] Hne; [contradiction|]. split; assumption. Qed.

(* [Jc] is [J PairF]: the pieces of a call are mirrored over any such pair (PauseCommuteProofs, Section Pieces) *)
Section Commute2.
Variable ev : string -> dict -> evalres.
Hypothesis Hblind : state_blind ev.

Lemma Jc_eval_same : forall stmt c, Jc Veq (evaluate ev stmt c) (evaluate ev stmt c).
Proof. intros. apply (J_eval PairF ev Hblind). apply sim_refl. Qed.
Lemma Jc_eval_hint : forall stmt c1 c2, sim c1 c2 -> Jc Veq (evaluate ev stmt c1) (evaluate ev stmt c2).
Proof. exact (J_eval PairF ev Hblind). Qed.
Lemma jc_log_entry_error : forall m t r tr res, Jc Veq (log_entry_error m t r tr res) (log_entry_error m t r tr res).
Proof. exact (j_log_entry_error PairF). Qed.
Lemma jc_log_errors : forall es t r tr, Jc Veq (log_errors es t r tr) (log_errors es t r tr).
Proof. exact (j_log_errors PairF). Qed.
Lemma jc_set_rec_status : forall j st, Jc Veq (set_rec_status j st) (set_rec_status j st).
Proof. exact (j_set_rec_status PairF). Qed.
Lemma jc_upd_rec : forall j f, Jc Veq (upd_rec j f) (upd_rec j f).
Proof. exact (j_upd_rec PairF). Qed.
Lemma jc_setup_retry : forall t idxs, Jc Veq (setup_retry ev t idxs) (setup_retry ev t idxs).
Proof. exact (j_setup_retry PairF ev Hblind). Qed.
Lemma jc_add_task_state : forall t r ins p, Jc Veq (add_task_state ev t r ins p) (add_task_state ev t r ins p).
Proof. exact (j_add_task_state PairF PairF_refl PairF_failed_row ev Hblind). Qed.
Lemma jc_evaluate_route : forall e r, Jc Veq (evaluate_route e r) (evaluate_route e r).
Proof. exact (j_evaluate_route PairF). Qed.
Lemma jc_evaluate_task_retry : forall r c1 c2, sim c1 c2 -> Jc Veq (evaluate_task_retry ev r c1) (evaluate_task_retry ev r c2).
Proof. exact (j_evaluate_task_retry PairF ev Hblind). Qed.
Lemma jc_need_staged : forall s0, Jc Veq (uts_need_staged s0) (uts_need_staged s0).
Proof. exact (j_need_staged PairF). Qed.


Definition failable_b (y : status) : bool :=
  match tbl_step wf_table y "workflow_failed" with Some z => status_eqb z S_FAILED | None => false end
  && negb (status_eqb y S_FAILED).
Lemma failable_b_ok : forall y, failable_b y = true -> failable y.
Proof.
  intros y H. unfold failable_b in H. apply andb_prop in H. destruct H as [H1 H2]. split.
  - destruct (tbl_step wf_table y "workflow_failed") as [z|]; [|discriminate H1]. apply status_eqb_eq in H1. subst z. reflexivity.
  - intro E. subst y. discriminate H2.
Qed.

Lemma F_targets : forall s e y, tbl_step wf_table s e = Some y -> done y = true \/ failable y.
Proof.
  intros s e y H.
  assert (T : table_forall wf_table (fun _ _ y => done y || failable_b y) = true) by (vm_compute; reflexivity).
  pose proof (table_forall_step _ _ T _ _ _ H) as P. cbv beta in P.
  destruct (done y); [left; reflexivity|right; apply failable_b_ok; exact P].
Qed.

Lemma failable_row : forall y, failable y -> exists r, tbl_row wf_table y = Some r.
Proof.
  intros y [H _]. unfold tbl_step in H. destruct (tbl_row wf_table y) as [r|]; [exists r; reflexivity|discriminate H].
Qed.

(* what the two runs leave: equal up to status, terminal flags and error log; EQUAL when the statuses are;
   and differing by the status alone while neither has completed the workflow *)
Definition Tri (b a : cstate) : Prop :=
  c_init a = true /\ strip_tl b = strip_tl a /\
  (wstatus (c_ws b) = wstatus (c_ws a) -> b = a) /\
  (done (wstatus (c_ws b)) = false -> done (wstatus (c_ws a)) = false ->
     b = so (wstatus (c_ws b)) a /\ PairF (wstatus (c_ws b)) (wstatus (c_ws a))).

Lemma Tri_so : forall s a, c_init a = true -> PairF s (wstatus (c_ws a)) -> Tri (so s a) a.
Proof.
  intros s a Hi Hp. split; [exact Hi|]. split; [apply strip_tl_so|]. split.
  - intro E. change (wstatus (c_ws (so s a))) with s in E. subst s. apply so_same.
  - intros _ _. split; [reflexivity|exact Hp].
Qed.

Lemma Tri_refl : forall a, c_init a = true -> Tri a a.
Proof. intros a Hi. rewrite <- (so_same a) at 1. apply Tri_so; [exact Hi|left; reflexivity]. Qed.

Lemma adj_cases : forall g w n,
  adj g w n = (n, []) \/ (done n = true /\ n <> S_CANCELED /\ exists l, l <> [] /\ adj g w n = (S_FAILED, l) /\
                          forall n', done n' = true -> n' <> S_CANCELED -> adj g w n' = (S_FAILED, l)).
Proof.
  intros g w n. unfold adj. destruct (status_in n COMPLETED_STATUSES && negb (status_eqb n S_CANCELED)) eqn:E; [|left; reflexivity].
  apply andb_prop in E. destruct E as [E1 E2]. unfold fail_on_unreachable.
  change (get_unreachable_barriers g (ws_set_status w n)) with (get_unreachable_barriers g w).
  change (wstatus (ws_set_status w n)) with n.
  destruct (get_unreachable_barriers g w) as [|x l] eqn:U; [left; reflexivity|].
  right. split; [exact E1|]. split; [intro X; subst n; discriminate E2|]. exists (x :: l). split; [discriminate|]. split; [reflexivity|].
  intros n' D1 D2. unfold done in D1. rewrite D1.
  assert (X : negb (status_eqb n' S_CANCELED) = true).
  { destruct (status_eqb n' S_CANCELED) eqn:Y; [apply status_eqb_eq in Y; contradiction|reflexivity]. }
  rewrite X. cbn [andb]. unfold fail_on_unreachable.
  change (get_unreachable_barriers g (ws_set_status w n')) with (get_unreachable_barriers g w). rewrite U. reflexivity.
Qed.

Lemma adj_fst_open : forall g w n, done (fst (adj g w n)) = false -> adj g w n = (n, []) /\ done n = false.
Proof.
  intros g w n H. destruct (done n) eqn:D.
  - unfold done in H. rewrite (adj_closed g w n D) in H. discriminate H.
  - split; [apply adj_open; exact D|reflexivity].
Qed.

Lemma adj_fst_inj : forall g w n1 n2, fst (adj g w n1) = fst (adj g w n2) -> adj g w n1 = adj g w n2.
Proof.
  intros g w n1 n2 H.
  destruct (adj_cases g w n1) as [A1|[D1 [C1 [l1 [L1 [A1 X1]]]]]], (adj_cases g w n2) as [A2|[D2 [C2 [l2 [L2 [A2 X2]]]]]].
  - rewrite A1, A2 in H |- *. cbn in H. subst. reflexivity.
  - rewrite A1, A2 in H. cbn [fst] in H. subst n1.
    (* n1 = failed: completed and not canceled, so it is failed by the same joins *)
    assert (Z : adj g w S_FAILED = (S_FAILED, l2)) by (apply X2; [reflexivity|discriminate]).
    rewrite A1 in Z. inversion Z; subst l2. contradiction.
  - rewrite A1, A2 in H. cbn [fst] in H. subst n2.
    assert (Z : adj g w S_FAILED = (S_FAILED, l1)) by (apply X1; [reflexivity|discriminate]).
    rewrite A2 in Z. inversion Z; subst l1. contradiction.
  - rewrite A1. rewrite (X1 n2 D2 C2). reflexivity.
Qed.

Lemma adj_fst_plain : forall g w n y, y <> S_FAILED -> fst (adj g w n) = y -> adj g w n = (y, []).
Proof.
  intros g w n y Hy H. destruct (adj_cases g w n) as [A|[_ [_ [l [_ [A _]]]]]]; rewrite A in H |- *; cbn [fst] in H; subst.
  - reflexivity.
  - contradiction.
Qed.


(* the workflow-machine step with the unreachable joins logged; the queue runs between it and the closing step *)
Definition wf_mid (t : string) (route : nat) (st : status) : M unit :=
  unreachable <- wf_task_event_M t route st ;; log_unreachable unreachable.

(* L: the state left after the machine's answer (mid_land, or land); pb, pa: the two answers *)
Lemma two_answers : forall (L : cstate -> status * list stg -> cstate),
  (forall x p, strip_tl (L x p) = strip_tl x) -> (forall x p, wstatus (c_ws (L x p)) = fst p) ->
  (forall x n, done n = false -> L x (n, []) = so n x) ->
  forall a pb pa, c_init a = true ->
  (done (fst pb) = false -> pb = (fst pb, []) /\ failable (fst pb)) ->
  (done (fst pa) = false -> pa = (fst pa, []) /\ failable (fst pa)) ->
  (fst pb = fst pa -> pb = pa) -> Tri (L a pb) (L a pa).
Proof.
  intros L Ls Lst Lo a pb pa Hi Kb Ka Keq.
  split; [rewrite <- Hi; apply strip_tl_init; apply Ls|]. split; [rewrite !Ls; reflexivity|]. split.
  - rewrite !Lst. intro H. rewrite (Keq H). reflexivity.
  - rewrite !Lst. intros Db Da. destruct (Kb Db) as [Eb Fb]. destruct (Ka Da) as [Ea Fa].
    rewrite Eb, Ea. rewrite !Lo by assumption.
    change (wstatus (c_ws (so (fst pb) a))) with (fst pb). rewrite so_so. split; [reflexivity|].
    change (wstatus (c_ws (so (fst pa) a))) with (fst pa). right; split; assumption.
Qed.

Lemma wf_mid_Tri : forall t route st s a, c_init a = true -> PairF s (wstatus (c_ws a)) ->
  snd (wf_mid t route st (so s a)) = snd (wf_mid t route st a) /\
  Tri (fst (wf_mid t route st (so s a))) (fst (wf_mid t route st a)).
Proof.
  intros t route st s a Hi Hp. destruct (status_eqb s (wstatus (c_ws a))) eqn:Es.
  { apply status_eqb_eq in Es. subst s. rewrite so_same. split; [reflexivity|]. apply Tri_refl.
    rewrite <- Hi. apply strip_tl_init. unfold wf_mid. rewrite wf_logged_run. cbv zeta.
    destruct (negb _); [reflexivity|]. destruct (tbl_row wf_table (wstatus (c_ws a))); [|reflexivity].
    cbn [fst]. apply mid_land_strip. }
  assert (Hne : s <> wstatus (c_ws a)) by (intro E; subst; rewrite status_eqb_refl in Es; discriminate).
  destruct Hp as [E|[Fs Fx]]; [contradiction|].
  destruct (failable_row _ Fs) as [r2 R2]. destruct (failable_row _ Fx) as [r1 R1].
  unfold wf_mid. rewrite !wf_logged_run. cbv zeta. change (c_graph (so s a)) with (c_graph a).
  change (c_ws (so s a)) with (ws_set_status (c_ws a) s). rewrite q_wfname_so.
  change (wstatus (ws_set_status (c_ws a) s)) with s.
  set (evn := wf_task_event_name (c_graph a) (c_ws a) t route st).
  destruct (negb (string_in evn TASK_EXECUTION_EVENTS)) eqn:Ev.
  { cbn [fst snd]. split; [reflexivity|apply Tri_so; [exact Hi|right; split; assumption]]. }
  rewrite R1, R2. cbn [fst snd]. split; [reflexivity|]. rewrite mid_land_so.
  assert (Sb : tbl_step wf_table s evn = aget String.eqb evn r2) by (unfold tbl_step; rewrite R2; reflexivity).
  assert (Sa : tbl_step wf_table (wstatus (c_ws a)) evn = aget String.eqb evn r1) by (unfold tbl_step; rewrite R1; reflexivity).
  apply (two_answers mid_land mid_land_strip mid_land_status (fun x n _ => mid_land_open x n)); [exact Hi| | |].
  - destruct (aget String.eqb evn r2) as [nb|] eqn:A2.
    + rewrite adj_so. intro D. destruct (adj_fst_open _ _ _ D) as [A Dn]. rewrite A. cbn [fst]. split; [reflexivity|].
      destruct (F_targets _ _ _ Sb) as [X|X]; [rewrite Dn in X; discriminate X|exact X].
    + intros _. split; [reflexivity|exact Fs].
  - destruct (aget String.eqb evn r1) as [na|] eqn:A1.
    + intro D. destruct (adj_fst_open _ _ _ D) as [A Dn]. rewrite A. cbn [fst]. split; [reflexivity|].
      destruct (F_targets _ _ _ Sa) as [X|X]; [rewrite Dn in X; discriminate X|exact X].
    + intros _. split; [reflexivity|exact Fx].
  - destruct (aget String.eqb evn r2) as [nb|], (aget String.eqb evn r1) as [na|]; rewrite ?adj_so; cbn [fst].
    + apply adj_fst_inj.
    + intro H. apply adj_fst_plain; [destruct Fx; assumption|exact H].
    + intro H. symmetry. apply adj_fst_plain; [destruct Fs; assumption|symmetry; exact H].
    + intro H. contradiction.
Qed.

Lemma wf_mid_open : forall t route st s a, held_status s -> wstatus (c_ws a) = S_RUNNING ->
  done (wstatus (c_ws (fst (wf_mid t route st a)))) = false ->
  done (wstatus (c_ws (fst (wf_mid t route st (so s a))))) = false \/
  wstatus (c_ws (fst (wf_mid t route st (so s a)))) = wstatus (c_ws (fst (wf_mid t route st a))).
Proof.
  intros t route st s a Hs Hx.
  assert (Ho : done s = false) by (destruct Hs as [->| ->]; reflexivity).
  unfold wf_mid. rewrite !wf_logged_run. cbv zeta. change (c_graph (so s a)) with (c_graph a).
  change (c_ws (so s a)) with (ws_set_status (c_ws a) s). rewrite q_wfname_so.
  change (wstatus (ws_set_status (c_ws a) s)) with s. rewrite Hx.
  set (evn := wf_task_event_name (c_graph a) (c_ws a) t route st).
  destruct (negb (string_in evn TASK_EXECUTION_EVENTS)) eqn:Ev.
  { cbn [fst]. intros _. left. exact Ho. }
  apply negb_false_iff in Ev.
  destruct (tbl_row wf_table S_RUNNING) as [r1|] eqn:R1; [|discriminate R1].
  destruct (tbl_row wf_table s) as [r2|] eqn:R2; [|destruct Hs as [->| ->]; discriminate R2].
  cbn [fst]. rewrite mid_land_so, !mid_land_status.
  assert (S1 : tbl_step wf_table S_RUNNING evn = aget String.eqb evn r1) by (unfold tbl_step; rewrite R1; reflexivity).
  assert (S2 : tbl_step wf_table s evn = aget String.eqb evn r2) by (unfold tbl_step; rewrite R2; reflexivity).
  destruct (aget String.eqb evn r1) as [na|] eqn:A1.
  - intro D. destruct (adj_fst_open _ _ _ D) as [Ea Dn]. rewrite Ea. cbn [fst].
    pose proof (F_pair_running s evn na Hs Ev S1) as P. rewrite S2 in P.
    destruct (aget String.eqb evn r2) as [nb|].
    + rewrite adj_so. destruct P as [E|[[_ Pb]|[Pa _]]].
      * subst nb. right. rewrite Ea. reflexivity.
      * left. rewrite (adj_open _ _ nb Pb). exact Pb.
      * rewrite Dn in Pa. discriminate Pa.
    + left. exact Ho.
  - intros _. destruct (aget String.eqb evn r2) as [nb|] eqn:A2.
    + pose proof (F_pair_held s evn nb Hs Ev S2 S1) as P. left. rewrite adj_so, (adj_open _ _ nb P). exact P.
    + left. exact Ho.
Qed.

Lemma wf_fin_Tri : forall idx b a, Tri b a ->
  snd (wf_fin idx b) = snd (wf_fin idx a) /\ Tri (fst (wf_fin idx b)) (fst (wf_fin idx a)).
Proof.
  intros idx b a [Hi [Hs [He Ho]]]. split; [rewrite !wf_fin_run; reflexivity|].
  split; [rewrite (strip_tl_init _ _ (wf_fin_strip idx a)); exact Hi|].
  split; [rewrite !wf_fin_strip; exact Hs|]. rewrite !wf_fin_status. split.
  - intro E. rewrite (He E). reflexivity.
  - intros Db Da. rewrite (wf_fin_open idx b Db), (wf_fin_open idx a Da). apply Ho; assumption.
Qed.

(* the end of a call from a failable pair, up to Tri *)
Definition Jt (Q : cstate -> Prop) : M unit -> M unit -> Prop := Jfin PairF Q Tri.

Lemma wf_end_Jt : forall Q t route idx st, Jt Q (wf_end t route idx st) (wf_end t route idx st).
Proof.
  intros Q t route idx st s a Hi Hp _. generalize (wf_mid_Tri t route st s a Hi Hp).
  unfold wf_end, wf_mid. generalize (unreachable <- wf_task_event_M t route st ;; log_unreachable unreachable).
  intros m [R T]. unfold bind.
  destruct (m (so s a)) as [b1 rb], (m a) as [a1 ra]. cbn [fst snd] in R, T. subst rb.
  destruct ra as [[]|e]; [apply wf_fin_Tri; exact T|split; [reflexivity|exact T]].
Qed.

(* the call delivering an engine command, from any failable pair of statuses *)
Definition cmd_inert (t : string) (a : cstate) : Prop :=
  cmd_pre t a /\ g_next_transitions (c_graph a) t = [].

Lemma cmd_call : forall (rec : string -> nat -> event -> M unit) t route evt,
  Jt (cmd_inert t) (uts_body ev rec t route evt) (uts_body ev rec t route evt).
Proof.
  intros rec t route evt s a Hi Hp Hq. rewrite !body_eq.
  refine (Jfin_bind_run PairF Tri Tri_so _ (cmd_inert t) (fun _ a1 => g_next_transitions (c_graph a1) t = []) (Vconst pre_nf) _ _ _ _ _ _ _ s a Hi Hp Hq).
  - eapply Jq_weaken_pre; [|apply (jq_prefix PairF PairF_refl PairF_failed_row ev Hblind)]. intros a0 [H _]; exact H.
  - intros a0 a1 y [_ H0] H. rewrite (pg_prefix ev t route evt _ _ _ H). exact H0.
  - intros s0 p1 p2 [[E1 [E2 [E3 [E4 Hc]]]] Hf]. unfold tail_of. rewrite E1, E2, E3, E4.
    (* the record carries no retry policy: the call is not re-entered *)
    assert (N2 : forall x, po_compl p2 <> Some (x, true)) by (intros x X; discriminate (Hf x true X)).
    assert (N1 : forall x, po_compl p1 <> Some (x, true)).
    { intros x X. rewrite X in Hc. destruct (po_compl p2) as [[x2 b2]|]; cbn in Hc; [|contradiction].
      destruct Hc as [_ <-]. exact (N2 x2 eq_refl). }
    intros s1 a1 Hi1 Hp1 Hq1. rewrite (tail_eq ev _ _ _ _ _ _ _ _ _ N1), (tail_eq ev _ _ _ _ _ _ _ _ _ N2).
    refine (Jfin_bind_run PairF Tri Tri_so _ (fun a0 => g_next_transitions (c_graph a0) t = []) (fun q _ => True /\ q = []) Veq _ _ _ _
              (Jq_of_J _ _ _ _ _ _ (j_queue PairF PairF_refl PairF_failed_row ev Hblind t route _ _ _ _ _ _ Hc)) _ _ s1 a1 Hi1 Hp1 Hq1).
    + intros a0 a2 q H0 H. split; [exact I|]. eapply queue_nil; [exact H|right; exact H0].
    + intros s2 q1 q2 Eq. unfold Veq in Eq. subst q1. apply (Jfin_assume PairF). intro. subst q2.
      change (forM_ [] (uts_call rec) ;;; wf_fin (po_idx p2)) with (wf_fin (po_idx p2)).
      eapply (Jfin_bind_run PairF Tri Tri_so _ _ (fun _ _ => True) Veq); [apply Jq_of_J; apply j_get_rec|trivial|].
      intros s3 r r' Er. unfold Veq in Er; subst r'.
      eapply (Jfin_bind_run PairF Tri Tri_so _ _ (fun _ _ => True) Veq).
      * apply Jq_of_J. destruct (r_status r); [apply J_ret; intro; reflexivity|apply J_raise].
      * trivial.
      * intros s4 st st' Est. unfold Veq in Est; subst st'. rewrite <- wf_end_eq. apply wf_end_Jt.
Qed.

Lemma call_Tri : forall f n rt b a, Tri b a -> graph_commands_inert (c_graph a) ->
  (wstatus (c_ws b) = wstatus (c_ws a) \/ (done (wstatus (c_ws b)) = false /\ done (wstatus (c_ws a)) = false)) ->
  snd (uts_call (update_task_state_fuel ev f) (n, rt) b) = snd (uts_call (update_task_state_fuel ev f) (n, rt) a) /\
  Tri (fst (uts_call (update_task_state_fuel ev f) (n, rt) b)) (fst (uts_call (update_task_state_fuel ev f) (n, rt) a)).
Proof.
  intros f n rt b a [Hi [Hs [He Ho]]] Hg Hc.
  assert (X : exists s, b = so s a /\ PairF s (wstatus (c_ws a))).
  { destruct Hc as [E|[Db Da]].
    - exists (wstatus (c_ws a)). rewrite so_same. split; [apply He; exact E|left; reflexivity].
    - destruct (Ho Db Da) as [E P]. exists (wstatus (c_ws b)). split; assumption. }
  destruct X as [s [-> Hp]]. unfold uts_call.
  destruct (engine_event n) as [e|] eqn:Ee.
  2: { cbn [fst snd]. split; [reflexivity|apply Tri_so; assumption]. }
  destruct f as [|f'].
  - cbn [update_task_state_fuel]. split; [reflexivity|apply Tri_so; assumption].
  - rewrite !uts_unfold. apply cmd_call; [exact Hi|exact Hp|].
    pose proof (engine_event_cmd _ _ Ee) as Hcmd. destruct (Hg n Hcmd) as [G1 G2].
    split; [split; assumption|exact G1].
Qed.

Lemma loop_Tri : forall f q b a, Tri b a -> graph_commands_inert (c_graph a) -> length q <= 1 ->
  (q <> [] -> wstatus (c_ws b) = wstatus (c_ws a) \/ (done (wstatus (c_ws b)) = false /\ done (wstatus (c_ws a)) = false)) ->
  snd (forM_ q (uts_call (update_task_state_fuel ev f)) b) = snd (forM_ q (uts_call (update_task_state_fuel ev f)) a) /\
  Tri (fst (forM_ q (uts_call (update_task_state_fuel ev f)) b)) (fst (forM_ q (uts_call (update_task_state_fuel ev f)) a)).
Proof.
  intros f q b a HT Hg Hl Hc. destruct q as [|[n rt] [|x q']].
  - cbn. split; [reflexivity|exact HT].
  - cbn [forM_]. unfold bind.
    destruct (call_Tri f n rt b a HT Hg (Hc ltac:(discriminate))) as [R T].
    destruct (uts_call (update_task_state_fuel ev f) (n, rt) b) as [b1 [u|e1]],
             (uts_call (update_task_state_fuel ev f) (n, rt) a) as [a1 [u'|e2]]; cbn [fst snd] in *; try discriminate R.
    + split; [reflexivity|exact T].
    + split; [exact R|exact T].
  - cbn [length] in Hl. lia.
Qed.

(* after the queue has been computed *)
Definition mid_rest (t : string) (route idx : nat) : M unit :=
  r <- get_rec idx ;;
  st <- (match r_status r with Some s => ret s | None => raise (exn_key "status") end) ;;
  wf_mid t route st.

Lemma pg_mid_rest : forall t route idx, preserves Rg (mid_rest t route idx).
Proof.
  intros. unfold mid_rest, wf_mid.
  pw Rg_refl Rg_trans ltac:(first [apply pg_get_rec|apply pg_wf_task_event|apply pg_log_unreachable]).
Qed.

(* Tri, and while the plain run has not completed the workflow the other has not either, or the two have met *)
Definition TriO (b a : cstate) : Prop :=
  Tri b a /\
  (done (wstatus (c_ws a)) = false -> wstatus (c_ws b) = wstatus (c_ws a) \/ done (wstatus (c_ws b)) = false).

Lemma TriO_so : forall s a, c_init a = true -> PairOK s (wstatus (c_ws a)) -> TriO (so s a) a.
Proof.
  intros s a Hi Hp. split; [apply Tri_so; [exact Hi|apply PairOK_PairF; exact Hp]|]. intros _.
  destruct Hp as [E|[_ [->| ->]]]; [left; exact E|right; reflexivity|right; reflexivity].
Qed.

Lemma mid_rest_TriO : forall t route idx,
  Jfin PairOK (fun _ => True) TriO (mid_rest t route idx) (mid_rest t route idx).
Proof.
  intros t route idx. unfold mid_rest.
  eapply (Jfin_bind_run PairOK TriO TriO_so _ _ (fun _ _ => True) Veq); [apply Jq_of_J; apply j_get_rec|trivial|].
  intros s0 r r' Er. unfold Veq in Er; subst r'.
  eapply (Jfin_bind_run PairOK TriO TriO_so _ _ (fun _ _ => True) Veq).
  - apply Jq_of_J. destruct (r_status r); [apply J_ret; intro; reflexivity|apply J_raise].
  - trivial.
  - intros s1 st st' Est. unfold Veq in Est; subst st'. intros s a Hi Hp _.
    destruct (wf_mid_Tri t route st s a Hi (PairOK_PairF _ _ Hp)) as [R T]. split; [exact R|]. split; [exact T|].
    intro D. destruct Hp as [E|[Hx Hs]].
    + subst s. rewrite so_same. left; reflexivity.
    + destruct (wf_mid_open t route st s a Hs Hx D) as [X|X]; [right; exact X|left; exact X].
Qed.

Lemma rest_Tri : forall f t route idx q s a,
  c_init a = true -> PairOK s (wstatus (c_ws a)) -> graph_commands_inert (c_graph a) -> length q <= 1 ->
  (q <> [] -> forall a', mid_rest t route idx a = (a', Val tt) -> done (wstatus (c_ws a')) = false) ->
  snd (bind (mid_rest t route idx) (fun _ => forM_ q (uts_call (update_task_state_fuel ev f)) ;;; wf_fin idx) (so s a)) =
  snd (bind (mid_rest t route idx) (fun _ => forM_ q (uts_call (update_task_state_fuel ev f)) ;;; wf_fin idx) a) /\
  Tri (fst (bind (mid_rest t route idx) (fun _ => forM_ q (uts_call (update_task_state_fuel ev f)) ;;; wf_fin idx) (so s a)))
      (fst (bind (mid_rest t route idx) (fun _ => forM_ q (uts_call (update_task_state_fuel ev f)) ;;; wf_fin idx) a)).
Proof.
  intros f t route idx q s a Hi Hp Hg Hl Hopen.
  destruct (mid_rest_TriO t route idx s a Hi Hp I) as [R [T O]]. unfold bind at 1 3 5 7.
  destruct (mid_rest t route idx (so s a)) as [b1 rb], (mid_rest t route idx a) as [a1 ra] eqn:Ea.
  cbn [fst snd] in R, T, O. subst rb. destruct ra as [[]|e]; [|split; [reflexivity|exact T]].
  assert (Hc : q <> [] -> wstatus (c_ws b1) = wstatus (c_ws a1) \/ (done (wstatus (c_ws b1)) = false /\ done (wstatus (c_ws a1)) = false)).
  { intro Hq. pose proof (Hopen Hq a1 eq_refl) as D. destruct (O D) as [X|X]; [left; exact X|right; split; assumption]. }
  assert (Hg1 : graph_commands_inert (c_graph a1)) by (rewrite (pg_mid_rest t route idx _ _ _ Ea); exact Hg).
  destruct (loop_Tri f q b1 a1 T Hg1 Hl Hc) as [R2 T2]. unfold bind.
  destruct (forM_ q (uts_call (update_task_state_fuel ev f)) b1) as [b2 rb2], (forM_ q (uts_call (update_task_state_fuel ev f)) a1) as [a2 ra2].
  cbn [fst snd] in R2, T2. subst rb2. destruct ra2 as [[]|e]; [|split; [reflexivity|exact T2]].
  apply wf_fin_Tri. exact T2.
Qed.

Lemma tail_rest_eq : forall (rec : string -> nat -> event -> M unit) t route ts idx old new compl c,
  (forall x, compl <> Some (x, true)) ->
  uts_tail ev rec t route ts idx old new compl c =
  bind (uts_queue ev t route idx ts old new compl)
       (fun q => bind (mid_rest t route idx) (fun _ => forM_ q (uts_call rec) ;;; wf_fin idx)) c.
Proof.
  intros rec t route ts idx old new compl c Hc. rewrite (tail_eq ev _ _ _ _ _ _ _ _ _ Hc).
  apply bind_congr; intros c1 q _. unfold mid_rest, wf_mid. rewrite bind_assoc_pt.
  apply bind_congr; intros c2 r _. rewrite bind_assoc_pt. reflexivity.
Qed.

(* at most one transition of t targets an engine command *)
Definition cmd1 (t : string) (g : graph) : Prop :=
  length (filter (fun e => is_engine_command (e_dst e)) (g_next_transitions g t)) <= 1.

Lemma after_prefix_Tri : forall f t route evt s a, c_init a = true -> PairOK s (wstatus (c_ws a)) ->
  (forall s1 a1 p1 p2, uts_prefix ev t route evt a = (a1, Val p2) -> pre_sim p1 p2 ->
     c_init a1 = true -> PairOK s1 (wstatus (c_ws a1)) ->
     snd (tail_of ev (update_task_state_fuel ev f) t route p1 (so s1 a1)) =
     snd (tail_of ev (update_task_state_fuel ev f) t route p2 a1) /\
     Tri (fst (tail_of ev (update_task_state_fuel ev f) t route p1 (so s1 a1)))
         (fst (tail_of ev (update_task_state_fuel ev f) t route p2 a1))) ->
  snd (update_task_state_fuel ev (S f) t route evt (so s a)) = snd (update_task_state_fuel ev (S f) t route evt a) /\
  Tri (fst (update_task_state_fuel ev (S f) t route evt (so s a))) (fst (update_task_state_fuel ev (S f) t route evt a)).
Proof.
  intros f t route evt s a Hi Hp K. rewrite !uts_unfold, !body_eq.
  destruct (J_step _ _ _ _ _ (jp_prefix ev Hblind t route evt) s a Hi Hp) as [s1 [a1 [I1 [P1 [[p1 [p2 [E1 [E2 V]]]]|[e [E1 E2]]]]]]].
  - rewrite (bind_step _ _ _ _ _ _ _ E1), (bind_step _ _ _ _ _ _ _ E2). exact (K s1 a1 p1 p2 E2 V I1 P1).
  - rewrite (bind_exc _ _ _ _ _ _ _ E1), (bind_exc _ _ _ _ _ _ _ E2). cbn [fst snd].
    split; [reflexivity|apply Tri_so; [exact I1|apply PairOK_PairF; exact P1]].
Qed.

Lemma queue_rest_Tri : forall f t route ts idx old new c1 c2 s a, compl_sim c1 c2 ->
  (forall x, c1 <> Some (x, true)) -> (forall x, c2 <> Some (x, true)) ->
  c_init a = true -> PairOK s (wstatus (c_ws a)) -> graph_commands_inert (c_graph a) ->
  (forall a2 q, uts_queue ev t route idx ts old new c2 a = (a2, Val q) ->
     length q <= 1 /\ (q <> [] -> forall a', mid_rest t route idx a2 = (a', Val tt) -> done (wstatus (c_ws a')) = false)) ->
  snd (uts_tail ev (update_task_state_fuel ev f) t route ts idx old new c1 (so s a)) =
  snd (uts_tail ev (update_task_state_fuel ev f) t route ts idx old new c2 a) /\
  Tri (fst (uts_tail ev (update_task_state_fuel ev f) t route ts idx old new c1 (so s a)))
      (fst (uts_tail ev (update_task_state_fuel ev f) t route ts idx old new c2 a)).
Proof.
  intros f t route ts idx old new c1 c2 s a Hc N1 N2 Hi Hp Hg K.
  rewrite (tail_rest_eq _ _ _ _ _ _ _ _ _ N1), (tail_rest_eq _ _ _ _ _ _ _ _ _ N2).
  destruct (J_step _ _ _ _ _ (jp_queue ev Hblind t route idx ts old new _ _ Hc) s a Hi Hp)
    as [s2 [a2 [I2 [P2 [[q1 [q2 [E3 [E4 Vq]]]]|[e [E3 E4]]]]]]].
  2: { rewrite (bind_exc _ _ _ _ _ _ _ E3), (bind_exc _ _ _ _ _ _ _ E4). cbn [fst snd].
       split; [reflexivity|apply Tri_so; [exact I2|apply PairOK_PairF; exact P2]]. }
  unfold Veq in Vq. subst q1. rewrite (bind_step _ _ _ _ _ _ _ E3), (bind_step _ _ _ _ _ _ _ E4).
  destruct (K a2 q2 E4) as [L O].
  apply rest_Tri; [exact I2|exact P2| |exact L|exact O].
  rewrite (pg_queue ev _ _ _ _ _ _ _ _ _ _ E4). exact Hg.
Qed.

Lemma reentry_Tri : forall f t route s a,
  c_init a = true -> PairOK s (wstatus (c_ws a)) -> graph_commands_inert (c_graph a) ->
  snd (update_task_state_fuel ev f t route retry_event (so s a)) = snd (update_task_state_fuel ev f t route retry_event a) /\
  Tri (fst (update_task_state_fuel ev f t route retry_event (so s a))) (fst (update_task_state_fuel ev f t route retry_event a)).
Proof.
  intros f t route s a Hi Hp Hg. destruct f as [|f'].
  { cbn. split; [reflexivity|apply Tri_so; [exact Hi|apply PairOK_PairF; exact Hp]]. }
  apply after_prefix_Tri; [exact Hi|exact Hp|]. intros s1 a1 p1 p2 E2 [V1 [V2 [V3 [V4 Vc]]]] I1 P1.
  pose proof (prefix_retry_event ev t route a a1 p2 E2) as Hn. unfold tail_of. rewrite V1, V2, V3, V4.
  assert (N2 : forall x, po_compl p2 <> Some (x, true)).
  { intros x X. destruct Hn as [Hn|[ctx [Hn _]]]; rewrite Hn in X; discriminate X. }
  assert (N1 : forall x, po_compl p1 <> Some (x, true)).
  { intros x X. rewrite X in Vc. destruct (po_compl p2) as [[x2 b2]|]; cbn in Vc; [|contradiction].
    destruct Vc as [_ <-]. exact (N2 x2 eq_refl). }
  apply queue_rest_Tri; try assumption; [rewrite (pg_prefix ev _ _ _ _ _ _ E2); exact Hg|].
  intros a2 q E4. assert (q = []); [|subst q; split; [cbn; lia|intro X; contradiction]].
  destruct Hn as [Hn|[ctx [Hn Hd]]].
  - rewrite Hn in E4. cbn in E4. inversion E4; reflexivity.
  - eapply queue_nil; [exact E4|exact Hd].
Qed.

(* the plain run up to the workflow-machine step of the reporting task, returning the queue *)
Definition mid_m (t : string) (route : nat) (evt : event) : M (list (string * nat)) :=
  p <- uts_prefix ev t route evt ;;
  match po_compl p with
  | Some (_, true) => ret []
  | _ => q <- uts_queue ev t route (po_idx p) (po_ts p) (po_old p) (po_new p) (po_compl p) ;;
         mid_rest t route (po_idx p) ;;; ret q
  end.
(* ... when a command is queued, that step does not complete the workflow *)
Definition mid_open (t : string) (route : nat) (evt : event) (c : cstate) : Prop :=
  forall c' q, mid_m t route evt c = (c', Val q) -> q <> [] -> done (wstatus (c_ws c')) = false.

Lemma outer_Tri : forall f t route evt s a,
  c_init a = true -> PairOK s (wstatus (c_ws a)) -> graph_commands_inert (c_graph a) -> cmd1 t (c_graph a) ->
  mid_open t route evt a ->
  snd (update_task_state_fuel ev (S f) t route evt (so s a)) = snd (update_task_state_fuel ev (S f) t route evt a) /\
  Tri (fst (update_task_state_fuel ev (S f) t route evt (so s a))) (fst (update_task_state_fuel ev (S f) t route evt a)).
Proof.
  intros f t route evt s a Hi Hp Hg Hc1 Hmo.
  apply after_prefix_Tri; [exact Hi|exact Hp|]. intros s1 a1 p1 p2 E2 [V1 [V2 [V3 [V4 Vc]]]] I1 P1.
  unfold tail_of. rewrite V1, V2, V3, V4.
  assert (G1 : c_graph a1 = c_graph a) by (eapply pg_prefix; exact E2).
  (* the re-entry *)
  destruct (po_compl p2) as [[x2 [|]]|] eqn:C2.
  { destruct (po_compl p1) as [[x1 b1]|] eqn:C1; cbn in Vc; [|contradiction]. destruct Vc as [_ ->].
    unfold uts_tail. apply reentry_Tri; [exact I1|exact P1|rewrite G1; exact Hg]. }
  - (* completed, not retried *)
    assert (N1 : forall x, po_compl p1 <> Some (x, true)).
    { intros x X. rewrite X in Vc. cbn in Vc. destruct Vc as [_ Vb]. discriminate Vb. }
    apply queue_rest_Tri; try assumption; [intros x X; discriminate X|rewrite G1; exact Hg|].
    intros a2 q2 E4. split.
    + pose proof (queue_len ev _ _ _ _ _ _ _ _ _ _ E4) as L. rewrite G1 in L. unfold cmd1 in Hc1. lia.
    + intros Hq a' Em. apply (Hmo a' q2); [|exact Hq]. unfold mid_m.
      rewrite (bind_step _ _ _ _ _ _ _ E2). rewrite C2. rewrite (bind_step _ _ _ _ _ _ _ E4).
      rewrite (bind_step _ _ _ _ _ _ _ Em). reflexivity.
  - (* not completed: nothing is queued *)
    destruct (po_compl p1) as [[x1 b1]|] eqn:C1; cbn in Vc; [contradiction|].
    apply queue_rest_Tri; try assumption; [intros x X; discriminate X|intros x X; discriminate X|rewrite G1; exact Hg|].
    intros a2 q E4. inversion E4; subst. split; [cbn; lia|intro X; contradiction].
Qed.


Theorem report_commutes_with_status_override_cmd : forall t route evt s c,
  c_init c = true -> PairOK s (wstatus (c_ws c)) ->
  graph_commands_inert (c_graph c) -> cmd1 t (c_graph c) -> mid_open t route evt c ->
  snd (update_task_state ev t route evt (so s c)) = snd (update_task_state ev t route evt c) /\
  Tri (fst (update_task_state ev t route evt (so s c))) (fst (update_task_state ev t route evt c)).
Proof. (* update_task_state runs with fuel 3 = S 2; the nested calls then have 2 *)
  intros t route evt s c Hi Hp Hg H1 Hm. exact (outer_Tri 2 t route evt s c Hi Hp Hg H1 Hm).
Qed.

Theorem report_commutes_with_pause_cmd : forall st t route evt c c_p r,
  c_init c = true -> wstatus (c_ws c) = S_RUNNING -> no_item_tables c ->
  graph_commands_inert (c_graph c) -> cmd1 t (c_graph c) -> mid_open t route evt c ->
  pause_class st -> request_workflow_status ev st c = (c_p, r) -> wstatus (c_ws c_p) = S_PAUSING ->
  snd (update_task_state ev t route evt c_p) = snd (update_task_state ev t route evt c) /\
  Tri (fst (update_task_state ev t route evt c_p)) (fst (update_task_state ev t route evt c)).
Proof.
  intros st t route evt c c_p r Hi Hr Hni Hg H1 Hm Hst H Hp. rewrite (accepted_pause_override ev st c c_p r Hi Hni Hst H Hp).
  apply report_commutes_with_status_override_cmd; try assumption. right. split; [exact Hr|left; reflexivity].
Qed.

(* completed is final: the side condition follows when the plain call leaves the workflow not completed *)
Lemma reach_done : forall x u, wf_reach x u -> done x = true -> done u = true.
Proof.
  intros x u H. induction H as [s0|s0 e t0 u Hs Hr IH|s0 u Hc Hn Hr IH]; intro D; [exact D| |apply IH; reflexivity].
  apply IH.
  assert (T : table_forall wf_table (fun s _ t => negb (done s) || done t) = true) by (vm_compute; reflexivity).
  pose proof (table_forall_step _ _ T _ _ _ Hs) as P. cbv beta in P. rewrite D in P. exact P.
Qed.

Lemma mid_open_of_open_end : forall t route evt c,
  done (wstatus (c_ws (fst (update_task_state ev t route evt c)))) = false -> mid_open t route evt c.
Proof.
  intros t route evt c Hend c' q Em Hq. unfold mid_m in Em.
  apply bind_val_inv' in Em. destruct Em as [a1 [p [E2 Em]]].
  assert (N : forall x, po_compl p <> Some (x, true)).
  { intros x X. rewrite X in Em. inversion Em; subst. contradiction. }
  assert (Em' : (q0 <- uts_queue ev t route (po_idx p) (po_ts p) (po_old p) (po_new p) (po_compl p) ;;
                 mid_rest t route (po_idx p) ;;; ret q0) a1 = (c', Val q)).
  { destruct (po_compl p) as [[x [|]]|]; [exfalso; apply (N x); reflexivity|exact Em|exact Em]. }
  clear Em. apply bind_val_inv' in Em'. destruct Em' as [a2 [q0 [E4 Em]]].
  apply bind_val_inv' in Em. destruct Em as [a3 [[] [E5 Em]]]. inversion Em; subst a3 q0. clear Em.
  destruct (done (wstatus (c_ws c'))) eqn:D; [|reflexivity]. exfalso.
  unfold update_task_state in Hend. rewrite uts_unfold, body_eq, (bind_step _ _ _ _ _ _ _ E2) in Hend.
  unfold tail_of in Hend. rewrite (tail_rest_eq _ _ _ _ _ _ _ _ _ N) in Hend.
  rewrite (bind_step _ _ _ _ _ _ _ E4), (bind_step _ _ _ _ _ _ _ E5) in Hend.
  assert (P : preserves Rst (forM_ q (uts_call (update_task_state_fuel ev 2)) ;;; wf_fin (po_idx p))).
  { apply (preserves_bind _ Rst_trans).
    - apply (preserves_forM _ Rst_refl Rst_trans). intros [n rt]. unfold uts_call.
      destruct (engine_event n); [apply pres_update_task_state_fuel|apply (preserves_raise _ Rst_refl)].
    - intros _. unfold wf_fin. apply (preserves_bind _ Rst_trans); [apply (preserves_getws _ Rst_refl)|].
      intro w. destruct (status_in (wstatus w) COMPLETED_STATUSES); [apply pres_upd_rec|apply (preserves_ret _ Rst_refl)]. }
  destruct ((forM_ q (uts_call (update_task_state_fuel ev 2)) ;;; wf_fin (po_idx p)) c') as [cf rf] eqn:Ef.
  pose proof (P _ _ _ Ef) as R. cbn [fst] in Hend. rewrite (reach_done _ _ R D) in Hend. discriminate Hend.
Qed.

Theorem report_commutes_with_status_override_cmd_open : forall t route evt s c,
  c_init c = true -> PairOK s (wstatus (c_ws c)) ->
  graph_commands_inert (c_graph c) -> cmd1 t (c_graph c) ->
  done (wstatus (c_ws (fst (update_task_state ev t route evt c)))) = false ->
  snd (update_task_state ev t route evt (so s c)) = snd (update_task_state ev t route evt c) /\
  Tri (fst (update_task_state ev t route evt (so s c))) (fst (update_task_state ev t route evt c)).
Proof.
  intros t route evt s c Hi Hp Hg H1 He. apply report_commutes_with_status_override_cmd; try assumption.
  apply mid_open_of_open_end. exact He.
Qed.

Definition inert_b (g : graph) : bool :=
  forallb (fun cmd => match g_next_transitions g cmd with [] => true | _ => false end && negb (g_task_has_retry g cmd))
          (map fst ENGINE_EVENT_MAP).
Lemma inert_b_ok : forall g, inert_b g = true -> graph_commands_inert g.
Proof.
  intros g H cmd Hc. unfold inert_b in H. rewrite forallb_forall in H.
  assert (Hin : In cmd (map fst ENGINE_EVENT_MAP)).
  { unfold is_engine_command, ahas in Hc. destruct (aget String.eqb cmd ENGINE_EVENT_MAP) as [v|] eqn:E; [|discriminate Hc].
    apply aget_In in E. apply (in_map fst) in E. exact E. }
  specialize (H cmd Hin). apply andb_prop in H. destruct H as [A B]. split.
  - destruct (g_next_transitions g cmd); [reflexivity|discriminate A].
  - destruct (g_task_has_retry g cmd); [discriminate B|reflexivity].
Qed.
Definition cmd1_b (t : string) (g : graph) : bool :=
  Nat.leb (length (filter (fun e => is_engine_command (e_dst e)) (g_next_transitions g t))) 1.
Lemma cmd1_b_ok : forall t g, cmd1_b t g = true -> cmd1 t g.
Proof. intros t g H. apply Nat.leb_le. exact H. Qed.
Definition mid_open_b (t : string) (route : nat) (evt : event) (c : cstate) : bool :=
  match mid_m t route evt c with
  | (c', Val (_ :: _)) => negb (done (wstatus (c_ws c')))
  | _ => true
  end.
Lemma mid_open_b_ok : forall t route evt c, mid_open_b t route evt c = true -> mid_open t route evt c.
Proof.
  intros t route evt c H c' q Em Hq. unfold mid_open_b in H. rewrite Em in H.
  destruct q as [|x q]; [contradiction|]. destruct (done (wstatus (c_ws c'))); [discriminate H|reflexivity].
Qed.


(* along the run of reports: each reporting task has at most one command target, its machine step with a
   command queued leaves the unpaused workflow open, and between two reports the statuses still form a pair *)
Fixpoint steps_ok (evs : list report) (b a : cstate) : Prop :=
  match evs with
  | [] => True
  | r :: rest =>
      cmd1 (fst (fst r)) (c_graph a) /\ mid_open (fst (fst r)) (snd (fst r)) (snd r) a /\
      match rest with
      | [] => True
      | _ => let b1 := fst (api_exec ev (op_of r) b) in let a1 := fst (api_exec ev (op_of r) a) in
             PairOK (wstatus (c_ws b1)) (wstatus (c_ws a1)) /\ steps_ok rest b1 a1
      end
  end.

Theorem reports_commute_with_status_override_cmd : forall evs s a,
  c_init a = true -> PairOK s (wstatus (c_ws a)) -> graph_commands_inert (c_graph a) ->
  steps_ok evs (so s a) a ->
  run_trace ev (map op_of evs) (so s a) = run_trace ev (map op_of evs) a /\
  Tri (run_ops ev (map op_of evs) (so s a)) (run_ops ev (map op_of evs) a).
Proof.
  induction evs as [|[[t route] e] rest IH]; intros s a Hi Hp Hg Hs.
  - split; [reflexivity|]. apply Tri_so; [exact Hi|apply PairOK_PairF; exact Hp].
  - cbn [map op_of]. rewrite !(run_trace_event ev), !(run_ops_event ev).
    cbn [steps_ok fst snd] in Hs. destruct Hs as [H1 [Hm Hs]].
    destruct (report_commutes_with_status_override_cmd t route e s a Hi Hp Hg H1 Hm) as [R T].
    rewrite R.
    destruct rest as [|r2 rest'].
    + cbn [map run_trace]. rewrite !(run_ops_nil ev). split; [reflexivity|exact T].
    + cbn [op_of] in Hs. rewrite !(api_event_fst ev) in Hs. destruct Hs as [Hp1 Hs1].
      assert (Hg1 : graph_commands_inert (c_graph (fst (update_task_state ev t route e a))))
        by (rewrite (pg_uts ev); exact Hg).
      revert T Hp1 Hs1 Hg1.
      generalize (fst (update_task_state ev t route e a)) (fst (update_task_state ev t route e (so s a))).
      intros a1 b1 [Hi1 [_ [He Ho]]] Hp1 Hs1 Hg1.
      assert (Eb : b1 = so (wstatus (c_ws b1)) a1).
      { destruct Hp1 as [E|[Hx Hh]].
        - rewrite (He E) at 1. rewrite E. symmetry. apply so_same.
        - apply Ho; [destruct Hh as [->| ->]; reflexivity|rewrite Hx; reflexivity]. }
      rewrite Eb in Hs1 |- *.
      destruct (IH (wstatus (c_ws b1)) a1 Hi1 Hp1 Hg1 Hs1) as [T' F']. rewrite T'. split; [reflexivity|exact F'].
Qed.

(* pause, reports, rest, resume, poll -- against the same reports and the poll, unpaused; command targets allowed *)
Theorem pause_reports_resume_poll_cmd : forall st evs c c_p r c_r rr,
  c_init c = true -> wstatus (c_ws c) = S_RUNNING -> no_item_tables c -> graph_commands_inert (c_graph c) ->
  pause_class st -> request_workflow_status ev st c = (c_p, r) -> wstatus (c_ws c_p) = S_PAUSING ->
  steps_ok evs c_p c ->
  let a_n := run_ops ev (map op_of evs) c in
  let b_n := run_ops ev (map op_of evs) c_p in
  wstatus (c_ws a_n) = S_RUNNING -> wstatus (c_ws b_n) = S_PAUSED ->
  ws_tasks_by_status (c_ws a_n) ACTIVE_STATUSES = [] ->
  request_workflow_status ev S_RESUMING b_n = (c_r, rr) -> wstatus (c_ws c_r) = S_RESUMING ->
  run_trace ev (map op_of evs) c_p = run_trace ev (map op_of evs) c /\
  b_n = so S_PAUSED a_n /\ c_r = so S_RESUMING a_n /\ rr = Val tt /\
  rrel (Forall2 offer_sim) (snd (get_next_tasks ev c_r)) (snd (get_next_tasks ev a_n)) /\
  exists s', fst (get_next_tasks ev c_r) = so s' (fst (get_next_tasks ev a_n)) /\
             PairOK s' (wstatus (c_ws (fst (get_next_tasks ev a_n)))).
Proof.
  intros st evs c c_p r c_r rr Hi Hr Hni Hg Hst H Hp Hsteps a_n b_n Han Hbn Hact Hres Hcr.
  pose proof (accepted_pause_override ev st c c_p r Hi Hni Hst H Hp) as Ec.
  assert (Hp0 : PairOK S_PAUSING (wstatus (c_ws c))) by (right; split; [exact Hr|left; reflexivity]).
  rewrite Ec in Hsteps. destruct (reports_commute_with_status_override_cmd evs S_PAUSING c Hi Hp0 Hg Hsteps) as [T F].
  rewrite <- Ec in T, F. fold a_n b_n in F.
  destruct F as [Hin [_ [_ Ho]]].
  assert (Eb : b_n = so S_PAUSED a_n).
  { rewrite <- Hbn. apply Ho; [rewrite Hbn; reflexivity|rewrite Han; reflexivity]. }
  split; [exact T|]. split; [exact Eb|]. apply (resume_then_poll ev Hblind a_n b_n c_r rr); assumption.
Qed.

End Commute2.


(* t0 ;  t1 --> <cmd>     (t0 and t1 in flight; the evaluator is PauseCommuteProofs.q_ev) *)
Definition e_spec (cmd : string) : wf_spec :=
  {| wf_input := []; wf_vars := []; wf_output := [];
     wf_tasks := [("t0", q_task JNull []);
                  ("t1", q_task JNull [{| tr_when := JNull; tr_publish := []; tr_do := [cmd] |}])] |}.
Definition e_graph (cmd : string) : graph :=
  {| g_nodes := [q_node "t0" JNull; q_node "t1" JNull; q_node cmd JNull];
     g_edges := [{| e_src := "t1"; e_dst := cmd; e_key := 0; e_ref := 0; e_criteria := [] |}] |}.
Definition e_init (cmd : string) : cstate :=
  {| c_spec := e_spec cmd; c_graph := e_graph cmd; c_inputs := []; c_parent := []; c_init := false;
     c_ws := empty_ws; c_errors := []; c_log := []; c_output := None |}.
Definition e_pre : list api_op :=
  [OpRequest S_RUNNING; OpGetNext; OpEvent "t0" 0 (EvAction S_RUNNING JNull); OpEvent "t1" 0 (EvAction S_RUNNING JNull)].
(* t0 has finished: t1 is the last task in flight *)
Definition e_pre2 : list api_op := e_pre ++ [OpEvent "t0" 0 (EvAction S_SUCCEEDED JNull)].
Definition e_evt : event := EvAction S_SUCCEEDED JNull.
Definition e_c (cmd : string) (pre : list api_op) : cstate := run_ops q_ev pre (e_init cmd).
Definition e_cp (cmd : string) (pre : list api_op) : cstate := fst (request_workflow_status q_ev S_PAUSING (e_c cmd pre)).
Definition e_a' (cmd : string) (pre : list api_op) : cstate := fst (update_task_state q_ev "t1" 0 e_evt (e_c cmd pre)).
Definition e_b' (cmd : string) (pre : list api_op) : cstate := fst (update_task_state q_ev "t1" 0 e_evt (e_cp cmd pre)).

(* every hypothesis of report_commutes_with_pause_cmd, decidably *)
Definition e_hyps (cmd : string) (pre : list api_op) : bool :=
  c_init (e_c cmd pre) && status_eqb (wstatus (c_ws (e_c cmd pre))) S_RUNNING && no_item_tables_b (e_c cmd pre) &&
  inert_b (c_graph (e_c cmd pre)) && cmd1_b "t1" (c_graph (e_c cmd pre)) && mid_open_b q_ev "t1" 0 e_evt (e_c cmd pre) &&
  status_eqb (wstatus (c_ws (e_cp cmd pre))) S_PAUSING &&
  match snd (request_workflow_status q_ev S_PAUSING (e_c cmd pre)) with Val _ => true | Exc _ => false end.

Example e_hyps_hold :
  e_hyps "fail" e_pre = true /\ e_hyps "fail" e_pre2 = true /\ e_hyps "noop" e_pre = true /\ e_hyps "noop" e_pre2 = true /\
  e_hyps "continue" e_pre2 = true.
Proof. split; [|split; [|split; [|split]]]; vm_compute; reflexivity. Qed.

(* fail, whether or not t1 is the last task in flight: both runs end failed, in the SAME state *)
Example e_fail :
  wstatus (c_ws (e_a' "fail" e_pre)) = S_FAILED /\ e_b' "fail" e_pre = e_a' "fail" e_pre /\
  wstatus (c_ws (e_a' "fail" e_pre2)) = S_FAILED /\ e_b' "fail" e_pre2 = e_a' "fail" e_pre2.
Proof. split; [|split; [|split]]; vm_compute; reflexivity. Qed.

(* noop with another task in flight: lock step (running / pausing) *)
Example e_noop_busy :
  wstatus (c_ws (e_a' "noop" e_pre)) = S_RUNNING /\ e_b' "noop" e_pre = so S_PAUSING (e_a' "noop" e_pre).
Proof. split; vm_compute; reflexivity. Qed.

(* noop as the last task in flight: the nested call runs from paused against running; the unpaused run
   completes the workflow there, the paused one rests (the excluded case (E2) of C09c, reached here through a command) *)
Example e_noop_last :
  wstatus (c_ws (e_a' "noop" e_pre2)) = S_SUCCEEDED /\ wstatus (c_ws (e_b' "noop" e_pre2)) = S_PAUSED /\
  strip_tl (e_b' "noop" e_pre2) = strip_tl (e_a' "noop" e_pre2) /\
  map r_term (sequence (c_ws (e_a' "noop" e_pre2))) = [true; true; true] /\
  map r_term (sequence (c_ws (e_b' "noop" e_pre2))) = [true; false; true].
Proof. split; [|split; [|split; [|split]]]; vm_compute; reflexivity. Qed.

(* with-items tasks: the commutation FAILS

   t0 ;  t1 with items xs = [1, 2] (no concurrency limit);  both items and t0 in flight.
   reports:  item 0 of t1 CANCELED (item 1 still running) ;  t0 FAILED ;  item 1 of t1 SUCCEEDED.
   Unpaused: the first report takes t1 to canceling and the workflow to canceling; the failure of t0 is
   absorbed by the canceling workflow; the last report cancels t1 and the workflow: CANCELED.
   Paused before the first report (request accepted: t1 and the workflow are pausing): the task table has no
   row for "action_canceled_task_active_items_incomplete" from pausing, so t1 STAYS pausing and the workflow
   stays pausing; the failure of t0 then FAILS the pausing workflow; the resume request is rejected.
   Same records, staged entries, contexts, errors (PauseProofs.strip is equal throughout) -- but the outcome is
   failed instead of canceled, and the workflow cannot be resumed. *)
Definition i_ev (s : string) (ctx : dict) : evalres :=
  if String.eqb s "xs" then EvOk (JList [JInt 1; JInt 2]) else EvOk JNull.
Lemma i_ev_blind : state_blind i_ev.
Proof. intros s a b H. reflexivity. Qed.
Definition i_spec : wf_spec :=
  {| wf_input := []; wf_vars := []; wf_output := [];
     wf_tasks := [("t0", q_task JNull []);
                  ("t1", {| ts_action := JNull; ts_input := JNull;
                            ts_with := Some {| it_expr := "xs"; it_keys := None; it_concurrency := JNull |};
                            ts_delay := JNull; ts_join := JNull; ts_next := [] |})] |}.
Definition i_graph : graph := {| g_nodes := [q_node "t0" JNull; q_node "t1" JNull]; g_edges := [] |}.
Definition i_init : cstate :=
  {| c_spec := i_spec; c_graph := i_graph; c_inputs := []; c_parent := []; c_init := false;
     c_ws := empty_ws; c_errors := []; c_log := []; c_output := None |}.
Definition i_pre : list api_op :=
  [OpRequest S_RUNNING; OpGetNext; OpEvent "t0" 0 (EvAction S_RUNNING JNull);
   OpEvent "t1" 0 (EvItem 0 S_RUNNING JNull (JList [])); OpEvent "t1" 0 (EvItem 1 S_RUNNING JNull (JList []))].
Definition i_reports : list api_op :=
  [OpEvent "t1" 0 (EvItem 0 S_CANCELED JNull (JList [JNull; JNull])); OpEvent "t0" 0 (EvAction S_FAILED JNull);
   OpEvent "t1" 0 (EvItem 1 S_SUCCEEDED JNull (JList [JNull; JNull]))].
(* (workflow status, record statuses, item tables, number of logged errors) *)
Definition i_obs (c : cstate) :=
  (wstatus (c_ws c), map (fun r => (r_id r, r_status r)) (sequence (c_ws c)),
   map (fun s => (s_id s, s_items s)) (staged (c_ws c)), length (c_errors c)).
Definition i_plain (k : nat) : cstate := run_ops i_ev (i_pre ++ firstn k i_reports) i_init.
Definition i_paused (k : nat) : cstate := run_ops i_ev (i_pre ++ [OpRequest S_PAUSING] ++ firstn k i_reports) i_init.

(* the pause request is accepted; every report is accepted in both runs *)
Example i_accepted :
  i_obs (i_paused 0) = (S_PAUSING, [("t0", Some S_RUNNING); ("t1", Some S_PAUSING)], [("t1", Some [S_RUNNING; S_RUNNING])], 0) /\
  run_trace i_ev ([OpRequest S_PAUSING] ++ i_reports) (i_plain 0) = [Val RUnit; Val RUnit; Val RUnit; Val RUnit] /\
  run_trace i_ev i_reports (i_plain 0) = [Val RUnit; Val RUnit; Val RUnit].
Proof. split; [|split]; vm_compute; reflexivity. Qed.

Example items_cancel_under_pause_diverges :
  (* after the canceled item: canceling against pausing *)
  i_obs (i_plain 1)  = (S_CANCELING, [("t0", Some S_RUNNING); ("t1", Some S_CANCELING)], [("t1", Some [S_CANCELED; S_RUNNING])], 0) /\
  i_obs (i_paused 1) = (S_PAUSING,   [("t0", Some S_RUNNING); ("t1", Some S_PAUSING)],   [("t1", Some [S_CANCELED; S_RUNNING])], 0) /\
  (* after the failure of t0: absorbed against failed *)
  i_obs (i_plain 2)  = (S_CANCELING, [("t0", Some S_FAILED); ("t1", Some S_CANCELING)], [("t1", Some [S_CANCELED; S_RUNNING])], 1) /\
  i_obs (i_paused 2) = (S_FAILED,    [("t0", Some S_FAILED); ("t1", Some S_PAUSING)],   [("t1", Some [S_CANCELED; S_RUNNING])], 1) /\
  (* at rest: canceled against failed *)
  i_obs (i_plain 3)  = (S_CANCELED, [("t0", Some S_FAILED); ("t1", Some S_CANCELED)], [], 1) /\
  i_obs (i_paused 3) = (S_FAILED,   [("t0", Some S_FAILED); ("t1", Some S_CANCELED)], [], 1) /\
  (* the states differ in statuses only ... *)
  strip (i_paused 3) = strip (i_plain 3) /\
  (* ... but the resume request is rejected and leaves the workflow failed *)
  (exists e, snd (api_exec i_ev (OpRequest S_RESUMING) (i_paused 3)) = Exc e) /\
  wstatus (c_ws (fst (api_exec i_ev (OpRequest S_RESUMING) (i_paused 3)))) = S_FAILED.
Proof.
  split; [vm_compute; reflexivity|]. split; [vm_compute; reflexivity|]. split; [vm_compute; reflexivity|].
  split; [vm_compute; reflexivity|]. split; [vm_compute; reflexivity|]. split; [vm_compute; reflexivity|].
  split; [vm_compute; reflexivity|]. split; [|vm_compute; reflexivity].
  eexists. vm_compute. reflexivity.
Qed.

(* the rows of the task table that cause it: on provider reports the pausing row mirrors the running row --
   same status, or running/pending against pausing/paused/resuming -- EXCEPT for the canceled item with other
   items still active, which takes a running task to canceling and leaves a pausing task pausing *)
Definition row_pair_ok (x y : status) : bool :=
  status_eqb x y || (status_in x [S_RUNNING; S_PENDING] && status_in y [S_PAUSING; S_PAUSED; S_RESUMING]).
Definition stepd (tbl : list (status * list (string * status))) (s : status) (e : string) : status :=
  match tbl_step tbl s e with Some y => y | None => s end.
Lemma F_items_rows_diverge_only_on_cancel :
  (forall s e x, tbl_step task_table s e = Some x -> (s = S_RUNNING \/ s = S_PAUSING) -> starts_with "action_" e = true ->
     e <> "action_canceled_task_active_items_incomplete" ->
     row_pair_ok (stepd task_table S_RUNNING e) (stepd task_table S_PAUSING e) = true) /\
  stepd task_table S_RUNNING "action_canceled_task_active_items_incomplete" = S_CANCELING /\
  stepd task_table S_PAUSING "action_canceled_task_active_items_incomplete" = S_PAUSING.
Proof.
  split; [|split; reflexivity].
  intros s e x H Hs He Hn.
  assert (T : table_forall task_table
     (fun s e _ => negb ((status_eqb s S_RUNNING || status_eqb s S_PAUSING) && starts_with "action_" e)
                   || String.eqb e "action_canceled_task_active_items_incomplete"
                   || row_pair_ok (stepd task_table S_RUNNING e) (stepd task_table S_PAUSING e)) = true)
    by (vm_compute; reflexivity).
  pose proof (table_forall_step _ _ T _ _ _ H) as P. cbv beta in P. rewrite He in P.
  assert (Es : status_eqb s S_RUNNING || status_eqb s S_PAUSING = true) by (destruct Hs as [->| ->]; reflexivity).
  rewrite Es in P. cbn [andb negb orb] in P.
  destruct (String.eqb e "action_canceled_task_active_items_incomplete") eqn:Ee; [apply String.eqb_eq in Ee; contradiction|].
  exact P.
Qed.

(* a command and a successor:  t1 --> [noop, t2]
   pause while t1 is in flight; t1 succeeds (noop runs in the nested call, from paused against running);
   rest; resume; poll: t2 is offered by both *)
Definition f_spec : wf_spec :=
  {| wf_input := []; wf_vars := []; wf_output := [];
     wf_tasks := [("t1", q_task JNull [{| tr_when := JNull; tr_publish := []; tr_do := ["noop"; "t2"] |}]);
                  ("t2", q_task JNull [])] |}.
Definition f_graph : graph :=
  {| g_nodes := [q_node "t1" JNull; q_node "noop" JNull; q_node "t2" JNull];
     g_edges := [{| e_src := "t1"; e_dst := "noop"; e_key := 0; e_ref := 0; e_criteria := [] |};
                 {| e_src := "t1"; e_dst := "t2"; e_key := 0; e_ref := 0; e_criteria := [] |}] |}.
Definition f_init : cstate :=
  {| c_spec := f_spec; c_graph := f_graph; c_inputs := []; c_parent := []; c_init := false;
     c_ws := empty_ws; c_errors := []; c_log := []; c_output := None |}.
Definition f_pre : list api_op := [OpRequest S_RUNNING; OpGetNext; OpEvent "t1" 0 (EvAction S_RUNNING JNull)].
Definition f_reports : list report := [("t1", 0, EvAction S_SUCCEEDED JNull)].
Definition f_c : cstate := run_ops q_ev f_pre f_init.
Definition f_cp : cstate := fst (request_workflow_status q_ev S_PAUSING f_c).
Definition f_an : cstate := run_ops q_ev (map op_of f_reports) f_c.
Definition f_bn : cstate := run_ops q_ev (map op_of f_reports) f_cp.
Definition f_cr : cstate := fst (request_workflow_status q_ev S_RESUMING f_bn).

Example f_hypotheses :
  c_init f_c = true /\ wstatus (c_ws f_c) = S_RUNNING /\ no_item_tables f_c /\ graph_commands_inert (c_graph f_c) /\
  request_workflow_status q_ev S_PAUSING f_c = (f_cp, Val tt) /\ wstatus (c_ws f_cp) = S_PAUSING /\
  steps_ok q_ev f_reports f_cp f_c /\
  wstatus (c_ws f_an) = S_RUNNING /\ wstatus (c_ws f_bn) = S_PAUSED /\
  ws_tasks_by_status (c_ws f_an) ACTIVE_STATUSES = [] /\
  request_workflow_status q_ev S_RESUMING f_bn = (f_cr, Val tt) /\ wstatus (c_ws f_cr) = S_RESUMING.
Proof.
  split; [vm_compute; reflexivity|]. split; [vm_compute; reflexivity|].
  split; [apply no_item_tables_b_ok; vm_compute; reflexivity|].
  split; [apply inert_b_ok; vm_compute; reflexivity|].
  split; [vm_compute; reflexivity|]. split; [vm_compute; reflexivity|]. split.
  { cbn [steps_ok f_reports fst snd]. split; [apply cmd1_b_ok; vm_compute; reflexivity|].
    split; [apply mid_open_b_ok; vm_compute; reflexivity|exact I]. }
  split; [vm_compute; reflexivity|]. split; [vm_compute; reflexivity|]. split; [vm_compute; reflexivity|].
  split; vm_compute; reflexivity.
Qed.

Example f_conclusion :
  map (fun r => (r_id r, r_status r)) (sequence (c_ws f_an)) = [("t1", Some S_SUCCEEDED); ("noop", Some S_SUCCEEDED)] /\
  f_bn = so S_PAUSED f_an /\ f_cr = so S_RESUMING f_an /\
  offer_ids (snd (get_next_tasks q_ev f_cr)) = Some [("t2", 0)] /\
  offer_ids (snd (get_next_tasks q_ev f_an)) = Some [("t2", 0)].
Proof. split; [|split; [|split; [|split]]]; vm_compute; reflexivity. Qed.
