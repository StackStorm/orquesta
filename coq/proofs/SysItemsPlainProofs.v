(* SysItemsPlainProofs.v -- the single actions of tasks WITHOUT items in the with-items provider protocol
   (model/ProviderSysItems.v): while the action of (task, route) is in flight the task record is active. *)
From Coq Require Import String List Bool ZArith Arith Lia.
From Orq Require Import GenStatuses GenEvents GenTables GenSpecMeta Base State Machines Codec Conductor Decode Api Driver ProviderSys ProviderSysItems ProviderSysItemsMon ProviderSysItemsMon2.
From Orq Require Import ListFacts StateFacts F_tables F_names F_sys F_sysitems Hoare ValuePost StatusReach C04Proofs C05Proofs C02C03Proofs C09C10Proofs OffersProofs InertProofs RetryProofs SysProofs SysNextProofs SysItemsProofs SysItemsRecProofs.
Import ListNotations.
Open Scope string_scope.

Section PlainAck.
Variable ev : string -> dict -> evalres.

Lemma own_plain_ack : forall t r res c c',
  update_task_state ev t r (EvAction S_RUNNING res) c = (c', Val tt) -> c_init c = true -> P_ok c ->
  is_engine_command t = false -> stale_plain c t r = false ->
  exists idx r', ws_task_idx (c_ws c') t r = Some idx /\ nth_error (sequence (c_ws c')) idx = Some r' /\ busy (r_status r').
Proof.
  intros t r res c c' H Ia Pa Hcmd Hst. unfold update_task_state in H. rewrite uts_unfold in H.
  destruct (own_final ev _ _ _ _ _ _ H Ia Pa Hcmd) as (idx & rr & ns & w3 & idx' & r' & Hk & Orig & _ & Ens & Hp' & Hr' & Fin).
  assert (Hgood : status_in (rstatus (stepped rr ns)) GOOD_STATUSES = true).
  { apply (running_good (EvAction S_RUNNING res) c t r idx w3 rr ns eq_refl eq_refl Orig Ens). intros r0 Op Or0 Oc.
    destruct (ostatus_in (r_status r0) COMPLETED_STATUSES) eqn:E0; [exfalso|reflexivity].
    unfold stale_plain, ws_task_entry in Hst. rewrite Op, Or0, E0 in Hst. simpl in Hst.
    apply andb_false_iff in Oc. destruct Oc as [Oc|Oc]; [rewrite E0 in Oc; discriminate Oc|].
    destruct (get_staged_task (c_ws c) t r) as [s0|]; [|discriminate Hst]. rewrite Hst in Oc. discriminate Oc. }
  exists idx', r'. split; [exact Hp'|]. split; [exact Hr'|].
  destruct Fin as [Fin|[_ Fin]].
  - rewrite Fin. apply busy_stepped. exact Hgood.
  - destruct (dead_split _ (F_good_split _ Hgood)) as [X _]. congruence.
Qed.

End PlainAck.

(* every task whose single action is in flight is not an engine command, has no item table, and an active (or pending) record *)
Definition Kpl (c : cstate) (F : list ikey) : Prop :=
  forall t r, In (t, r, None) F -> is_engine_command t = false /\ items_of c t r = None /\
    exists idx rec, ws_task_idx (c_ws c) t r = Some idx /\ nth_error (sequence (c_ws c)) idx = Some rec /\ busy (r_status rec).

Section PlainSystem.
Variable ev : string -> dict -> evalres.

Lemma ievent_no_new_table : forall s t0 r0 e t r, c_init (si_c s) = true -> fo (si_c s) ->
  ibad (isys_event ev s t0 r0 e) = false -> items_of (si_c s) t r = None -> items_of (si_c (isys_event ev s t0 r0 e)) t r = None.
Proof.
  intros s t0 r0 e t r Hi Hfo Hb Hn.
  destruct (items_of (si_c (isys_event ev s t0 r0 e)) t r) as [l'|] eqn:E; [|reflexivity].
  destruct (ievent_back ev (fun _ _ => True) s t0 r0 e Hi Hfo Hb (fun _ => I) (fun _ _ _ _ _ _ => I) _ _ _ E) as [l [X _]]. congruence.
Qed.

Lemma ievent_plain_other : forall s t0 r0 e F, ibad (isys_event ev s t0 r0 e) = false ->
  c_init (si_c s) = true -> P_ok (si_c s) -> fo (si_c s) -> Kpl (si_c s) F ->
  forall t r, In (t, r, None) F -> (t, r) <> (t0, r0) -> is_engine_command t = false /\
     items_of (si_c (isys_event ev s t0 r0 e)) t r = None /\
     exists idx rec, ws_task_idx (c_ws (si_c (isys_event ev s t0 r0 e))) t r = Some idx /\
                     nth_error (sequence (c_ws (si_c (isys_event ev s t0 r0 e)))) idx = Some rec /\ busy (r_status rec).
Proof.
  intros s t0 r0 e F Hb Ia Pa Hfo Hk t r Hin Hne. pose proof (ievent_val ev _ _ _ _ Hb) as H.
  destruct (Hk t r Hin) as [Hc [Hn [idx [rec [Hp [Hr Hl]]]]]]. split; [exact Hc|].
  split; [apply ievent_no_new_table; assumption|].
  destruct (prot_other ev _ _ _ _ _ _ _ _ _ H Ia Pa Hne Hc Hp Hr) as [Hp' [rec' [Hr' Hs']]].
  exists idx, rec'. split; [exact Hp'|]. split; [exact Hr'|]. rewrite Hs'. exact Hl.
Qed.

Lemma event_kpl : forall s t0 r0 e F, ibad (isys_event ev s t0 r0 e) = false ->
  c_init (si_c s) = true -> P_ok (si_c s) -> fo (si_c s) -> Kpl (si_c s) F -> ~ In (t0, r0, None) F ->
  Kpl (si_c (isys_event ev s t0 r0 e)) F.
Proof.
  intros s t0 r0 e F Hb Ia Pa Hfo Hk Hno t r Hin. apply (ievent_plain_other s t0 r0 e F Hb Ia Pa Hfo Hk t r Hin).
  intro X. inversion X; subst. exact (Hno Hin).
Qed.

Lemma tback_none : forall (Q : list status -> list status -> Prop) c c' t r, Tback Q c c' -> items_of c t r = None -> items_of c' t r = None.
Proof. intros Q c c' t r H Hn. destruct (items_of c' t r) as [l'|] eqn:E; [|reflexivity]. destruct (H _ _ _ E) as [l [X _]]. congruence. Qed.

Lemma Kpl_keys : forall c F F', (forall t r, In (t, r, None) F' -> In (t, r, None) F) -> Kpl c F -> Kpl c F'.
Proof. intros c F F' H K t r Hin. exact (K t r (H t r Hin)). Qed.

Lemma ack_kpl_item : forall t r s a i, ilink (si_c s) (si_inflight s) -> irec s -> Kpl (si_c s) (si_inflight s) ->
  a_item a = Some i -> ~ In (t, r, None) (si_inflight s) -> ibad (isys_ack ev t r s a) = false ->
  Kpl (si_c (isys_ack ev t r s a)) (si_inflight (isys_ack ev t r s a)).
Proof.
  intros t r s a i [Hi [Hfo _]] [Ia [Pa _]] Hk Hai Hnone Hb. unfold isys_ack in *. rewrite Hai in *.
  set (s1 := with_inflight s (ikey_add (t, r, Some i) (si_inflight s))) in *.
  rewrite inflight_event. apply (Kpl_keys _ (si_inflight s)).
  - unfold s1; simpl. intros t' r' X. apply In_ikey_add in X. destruct X as [X|X]; [discriminate X|exact X].
  - apply (event_kpl s1); assumption.
Qed.

Lemma ack_kpl_plain : forall t r s a, ilink (si_c s) (si_inflight s) -> irec s -> Kpl (si_c s) (si_inflight s) ->
  a_item a = None -> is_engine_command t = false -> items_of (si_c s) t r = None -> stale_plain (si_c s) t r = false ->
  ibad (isys_ack ev t r s a) = false ->
  Kpl (si_c (isys_ack ev t r s a)) (si_inflight (isys_ack ev t r s a)).
Proof.
  intros t r s a [Hi [Hfo _]] [Ia [Pa _]] Hk Hai Hcmd Hn Hst Hb. unfold isys_ack in *. rewrite Hai in *.
  set (s1 := with_inflight s (ikey_add (t, r, None) (si_inflight s))) in *. set (e := EvAction S_RUNNING JNull) in *.
  rewrite inflight_event. unfold s1 at 2; simpl. intros t' r' Hin. apply In_ikey_add in Hin.
  destruct (tkey_dec (t', r') (t, r)) as [E|Hne].
  - inversion E; subst t' r'. split; [exact Hcmd|]. split; [apply (ievent_no_new_table s1); assumption|].
    pose proof (ievent_val ev s1 t r e Hb) as H. change (si_c s1) with (si_c s) in H.
    exact (own_plain_ack ev _ _ _ _ _ H Ia Pa Hcmd Hst).
  - destruct Hin as [Hin|Hin]; [inversion Hin; subst; exfalso; apply Hne; reflexivity|].
    exact (ievent_plain_other s1 t r e (si_inflight s) Hb Ia Pa Hfo Hk t' r' Hin Hne).
Qed.

Lemma acks_stale2_cons : forall t r a acts s, acks_stale2 ev t r (a :: acts) s = false ->
  at_rest s = false /\ (match a_item a with None => stale_plain (si_c s) t r | Some _ => false end) = false /\
  acks_stale2 ev t r acts (isys_ack ev t r s a) = false.
Proof. intros t r a acts s H. simpl in H. apply orb_false_iff in H. destruct H as [H1 H2]. apply orb_false_iff in H1. tauto. Qed.

Lemma ack_items_loop_kpl : forall t r acts s l,
  ilink (si_c s) (si_inflight s) -> irec s -> Kpl (si_c s) (si_inflight s) -> items_of (si_c s) t r = Some l ->
  (forall a, In a acts -> exists i, a_item a = Some i /\ i < length l) ->
  is_engine_command t = false -> ~ In (t, r, None) (si_inflight s) -> acks_stale ev t r acts s = false ->
  ibad (fold_left (isys_ack ev t r) acts s) = false ->
  Kpl (si_c (fold_left (isys_ack ev t r) acts s)) (si_inflight (fold_left (isys_ack ev t r) acts s)).
Proof.
  intros t r. induction acts as [|a acts IH]; intros s l I R K Hl Hacts Hcmd Hnone Hst Hb; cbn [fold_left] in *; [exact K|].
  pose proof (fold_head_ok _ _ (ibad_ack_mono ev t r) _ _ Hb) as Hb1.
  destruct (Hacts a (or_introl eq_refl)) as [i [Hai Hil]].
  destruct (acks_stale_cons ev _ _ _ _ _ Hst) as [Hst1 Hst2]. rewrite Hai in Hst1.
  destruct (ack_item_step ev t r s a i l I Hl Hai Hil Hb1) as [I1 [Hl1 _]].
  pose proof (ack_item_rec ev t r s a i l I R Hl Hai Hil Hcmd Hnone Hst1 Hb1) as R1'.
  pose proof (ack_kpl_item t r s a i I R K Hai Hnone Hb1) as K1.
  apply (IH _ (list_set_nth i S_RUNNING l)); try assumption.
  - intros a' Ha'. destruct (Hacts a' (or_intror Ha')) as [i' [A B]]. exists i'. rewrite length_set_nth. auto.
  - unfold isys_ack. rewrite Hai, inflight_event. simpl. intro X. apply In_ikey_add in X. destruct X as [X|X]; [discriminate X|exact (Hnone X)].
Qed.

Lemma ack_plain_loop_kpl : forall t r acts s,
  ilink (si_c s) (si_inflight s) -> irec s -> Kpl (si_c s) (si_inflight s) -> (forall a, In a acts -> a_item a = None) ->
  (forall i, ~ In (t, r, Some i) (si_inflight s)) -> is_engine_command t = false -> items_of (si_c s) t r = None ->
  acks_stale2 ev t r acts s = false -> ibad (fold_left (isys_ack ev t r) acts s) = false ->
  Kpl (si_c (fold_left (isys_ack ev t r) acts s)) (si_inflight (fold_left (isys_ack ev t r) acts s)).
Proof.
  intros t r. induction acts as [|a acts IH]; intros s I R K Hacts Hno Hcmd Hn Hst Hb; cbn [fold_left] in *; [exact K|].
  pose proof (fold_head_ok _ _ (ibad_ack_mono ev t r) _ _ Hb) as Hb1.
  pose proof (Hacts a (or_introl eq_refl)) as Hai.
  destruct (acks_stale2_cons _ _ _ _ _ Hst) as [_ [Hst1 Hst2]]. rewrite Hai in Hst1.
  destruct (ack_plain_loop ev t r [a] s I) as [I1 _]; [intros a' [<-|[]]; exact Hai|exact Hb1|]. simpl in I1.
  assert (R1' : irec (isys_ack ev t r s a)).
  { apply (ack_plain_loop_rec ev t r [a] s I R); [intros a' [<-|[]]; exact Hai|exact Hno|exact Hb1]. }
  pose proof (ack_kpl_plain t r s a I R K Hai Hcmd Hn Hst1 Hb1) as K1.
  apply IH; try assumption.
  - intros; apply Hacts; right; assumption.
  - intros i X. unfold isys_ack in X. rewrite Hai, inflight_event in X. simpl in X.
    apply In_ikey_add in X. destruct X as [X|X]; [discriminate X|exact (Hno i X)].
  - destruct I as [Hi [Hfo _]]. unfold isys_ack in *. rewrite Hai in *. apply (ievent_no_new_table (with_inflight s _)); assumption.
Qed.

(* what an offer needs for the plain keys *)
Definition okF2 (F : list ikey) (c : cstate) (o : offer) : Prop :=
  match o_items_count o with
  | Some O => ~ In (o_id o, o_route o, None) F
  | Some (S _) => True
  | None => items_of c (o_id o) (o_route o) = None
  end.

Lemma ack_offer_kpl : forall s o, ilink (si_c s) (si_inflight s) -> irec s -> Kpl (si_c s) (si_inflight s) ->
  pend_ok (si_c s) o -> okF (si_inflight s) o -> okF2 (si_inflight s) (si_c s) o ->
  (match o_items_count o with Some O => false | _ => acks_stale ev (o_id o) (o_route o) (o_actions o) s end) = false ->
  (match o_items_count o with Some O => at_rest s | _ => acks_stale2 ev (o_id o) (o_route o) (o_actions o) s end) = false ->
  ibad (isys_ack_offer ev s o) = false ->
  Kpl (si_c (isys_ack_offer ev s o)) (si_inflight (isys_ack_offer ev s o)).
Proof.
  intros s o I R K Hp [Hcmd Hok] Hok2 Hst Hst2 Hb. unfold isys_ack_offer, pend_ok, okF2 in *. destruct (o_items_count o) as [[|m]|].
  - pose proof I as [Hi [Hfo _]]. pose proof R as [Ia [Pa _]].
    set (s1 := isys_event ev s (o_id o) (o_route o) (EvAction S_RUNNING JNull)) in *.
    assert (Hb1 : ibad s1 = false).
    { apply (not_bad_before (fun x => isys_event ev x (o_id o) (o_route o) (EvAction S_SUCCEEDED (JList [])))); [apply ibad_event_mono|exact Hb]. }
    destruct (plain_event_step ev s (o_id o) (o_route o) (EvAction S_RUNNING JNull) (si_inflight s) Logic.I I) as [[Hi1 [Hfo1 _]] _];
      [intros; tauto|exact Hb1|]. fold s1 in Hi1, Hfo1.
    destruct R as [_ [_ [Hkr _]]].
    destruct (plain_event_rec ev s _ _ _ _ Hb1 Ia Pa Hkr Hok) as [_ [Pb _]]. fold s1 in Pb.
    pose proof (event_kpl s _ _ _ _ Hb1 Ia Pa Hfo K Hok2) as K1. fold s1 in K1.
    rewrite !inflight_event. unfold s1 at 2. rewrite inflight_event.
    apply (event_kpl s1); assumption.
  - destruct Hp as [l [Hl Ha]]. exact (ack_items_loop_kpl _ _ _ _ _ I R K Hl Ha Hcmd Hok Hst Hb).
  - exact (ack_plain_loop_kpl _ _ _ _ I R K Hp Hok Hcmd Hok2 Hst2 Hb).
Qed.

Lemma offers_stale2_cons : forall o offers s, offers_stale2 ev (o :: offers) s = false ->
  (match o_items_count o with Some O => at_rest s | _ => acks_stale2 ev (o_id o) (o_route o) (o_actions o) s end) = false /\
  offers_stale2 ev offers (isys_ack_offer ev s o) = false.
Proof. intros o offers s H. simpl in H. apply orb_false_iff in H. exact H. Qed.

Lemma ack_offers_kpl : forall offers s, ilink (si_c s) (si_inflight s) -> irec s -> Kpl (si_c s) (si_inflight s) ->
  (forall o, In o offers -> pend_ok (si_c s) o) -> (forall o, In o offers -> okF (si_inflight s) o) ->
  (forall o, In o offers -> okF2 (si_inflight s) (si_c s) o) ->
  offers_dup offers = false -> offers_stale ev offers s = false -> offers_stale2 ev offers s = false ->
  ibad (fold_left (isys_ack_offer ev) offers s) = false ->
  Kpl (si_c (fold_left (isys_ack_offer ev) offers s)) (si_inflight (fold_left (isys_ack_offer ev) offers s)).
Proof.
  induction offers as [|o offers IH]; intros s I R K Hp Hok Hok2 Hd Hst Hst2 Hb; cbn [fold_left] in *; [exact K|].
  simpl in Hd. apply orb_false_iff in Hd. destruct Hd as [Hd1 Hd2].
  simpl in Hst. apply orb_false_iff in Hst. destruct Hst as [Hst1 Hst1'].
  destruct (offers_stale2_cons _ _ _ Hst2) as [Hst2a Hst2b].
  pose proof (fold_head_ok _ _ (ibad_ack_offer_mono ev) _ _ Hb) as Hb1.
  destruct (ack_offer_link ev s o I (Hp o (or_introl eq_refl)) Hb1) as [I1 P1].
  pose proof (ack_offer_rec ev s o I R (Hp o (or_introl eq_refl)) (Hok o (or_introl eq_refl)) Hst1 Hb1) as R1'.
  pose proof (ack_offer_kpl s o I R K (Hp o (or_introl eq_refl)) (Hok o (or_introl eq_refl)) (Hok2 o (or_introl eq_refl)) Hst1 Hst2a Hb1) as K1.
  pose proof I as [Hi [Hfo _]].
  destruct (offer_back ev (fun _ _ => True) s o (fun _ => Logic.I) (fun _ _ _ _ _ => Logic.I) (fun _ _ _ _ _ _ => Logic.I) Hi Hfo Hb1) as [_ [_ Bk]].
  apply IH; try assumption.
  - intros o2 Ho2. apply (pend_ok_persist (si_c s)); [apply Hp; right; exact Ho2|].
    intros l2. apply P1. apply (offers_key_distinct _ _ _ Hd1 Ho2).
  - intros o2 Ho2. apply (okF_grow (si_inflight s)); [apply Hok; right; exact Ho2|].
    intros k Hk. destruct (inflight_ack_offer_key ev _ _ _ Hk) as [X|X]; [left; exact X|right].
    rewrite X. intro E. exact (offers_key_distinct _ _ _ Hd1 Ho2 (eq_sym E)).
  - intros o2 Ho2. specialize (Hok2 o2 (or_intror Ho2)). unfold okF2 in *. destruct (o_items_count o2) as [[|m]|]; [|exact Logic.I|].
    + intro X. destruct (inflight_ack_offer_key ev _ _ _ X) as [Y|Y]; [exact (Hok2 Y)|].
      simpl in Y. exact (offers_key_distinct _ _ _ Hd1 Ho2 Y).
    + exact (tback_none _ _ _ _ _ Bk Hok2).
Qed.

Lemma Kpl_same_records : forall c c' F, tasks (c_ws c') = tasks (c_ws c) -> sequence (c_ws c') = sequence (c_ws c) ->
  (forall t r, In (t, r, None) F -> items_of c' t r = None) -> Kpl c F -> Kpl c' F.
Proof.
  intros c c' F Ht Hs Hn K t r Hin. destruct (K t r Hin) as [Hc [_ [idx [rec [A [B C]]]]]]. split; [exact Hc|].
  split; [apply Hn; exact Hin|]. exists idx, rec. unfold ws_task_idx in *. rewrite Ht, Hs. auto.
Qed.

Lemma poll_kpl : forall s c1 offers, ilink (si_c s) (si_inflight s) -> irec s -> Kpl (si_c s) (si_inflight s) ->
  get_next_tasks ev (si_c s) = (c1, Val offers) -> poll_odd ev s = false -> poll_odd2 ev s = false ->
  ibad (isys_poll ev s) = false -> Kpl (si_c (isys_poll ev s)) (si_inflight (isys_poll ev s)).
Proof.
  intros s c1 offers I R K Hg Hodd Hodd2 Hb. unfold poll_odd in Hodd. unfold poll_odd2 in Hodd2.
  destruct (ipoll_val ev s Hb) as [c1' [offers' [Hg' [Ep [_ Hd]]]]]. rewrite Hg in Hg'. inversion Hg'; subst c1' offers'. rewrite Ep in *. rewrite Hg in *. clear Ep Hg'.
  apply orb_false_iff in Hodd. destruct Hodd as [Hodd Hstale].
  apply orb_false_iff in Hodd2. destruct Hodd2 as [Hodd2 Hstale2]. apply orb_false_iff in Hodd2. destruct Hodd2 as [Htbl Hodd2].
  destruct (poll_ready ev s c1 offers I Hg) as [HR [I1 Hof]]. pose proof I1 as [Hi1 _].
  destruct I as [Hi [Hfo [H1 H2]]]. destruct R as [Ia [Pa [Hk Hm]]].
  set (s0 := poll_start s c1 offers) in *.
  pose proof HR as (_ & _ & _ & Hseq & Htk & _ & _).
  destruct (irec_same_records (si_c s) c1 (si_inflight s) Hi1 Htk Hseq Pa Hk) as [Pa1 Hk1].
  assert (Kc1 : Kpl c1 (si_inflight s)).
  { apply (Kpl_same_records (si_c s)); try assumption. intros t r Hin'.
    destruct (items_of c1 t r) as [l|] eqn:E; [|reflexivity]. exfalso.
    assert (X : inflight_tbl (si_inflight s) c1 = true).
    { unfold inflight_tbl. apply existsb_exists. exists (t, r, None). split; [exact Hin'|]. unfold has_tbl. rewrite E. reflexivity. }
    congruence. }
  assert (Odd : forall o, In o offers -> offer_odd (si_inflight s) c1 o = false /\ offer_odd2 (si_inflight s) c1 o = false).
  { intros o Ho. split.
    - destruct (offer_odd (si_inflight s) c1 o) eqn:E; [|reflexivity].
      assert (X : existsb (offer_odd (si_inflight s) c1) offers = true) by (apply existsb_exists; exists o; auto). congruence.
    - destruct (offer_odd2 (si_inflight s) c1 o) eqn:E; [|reflexivity].
      assert (X : existsb (offer_odd2 (si_inflight s) c1) offers = true) by (apply existsb_exists; exists o; auto). congruence. }
  apply (ack_offers_kpl offers s0); try assumption.
  - unfold s0, irec; simpl. auto.
  - intros o Ho. destruct (Hof o Ho) as [e Hok]. exact (pend_of_offer_ok _ _ _ Hok).
  - intros o Ho. unfold s0; simpl. destruct (Odd o Ho) as [Ho' _].
    unfold offer_odd in Ho'. apply orb_false_iff in Ho'. destruct Ho' as [Ho' Hcmd]. apply orb_false_iff in Ho'. destruct Ho' as [Hrs Hcl].
    split; [exact Hcmd|].
    assert (NoItems : o_items_count o = None \/ o_items_count o = Some 0 -> forall i, ~ In (o_id o, o_route o, Some i) (si_inflight s)).
    { intros Hcnt i Hin'. destruct (H1 _ _ _ Hin') as [l [Hl Hn]].
      destruct l as [|x xs]; [destruct i; discriminate Hn|].
      unfold offer_resized in Hrs. rewrite (Rgn_items_stable _ _ _ _ _ _ HR Hl) in Hrs.
      destruct Hcnt as [E|E]; rewrite E in Hrs; discriminate Hrs. }
    destruct (o_items_count o) as [[|m]|]; [apply NoItems; auto| |apply NoItems; auto].
    intro X. apply ikey_in_iff in X. congruence.
  - intros o Ho. unfold s0; simpl. destruct (Odd o Ho) as [_ Ho']. unfold offer_odd2, okF2 in *.
    destruct (o_items_count o) as [[|m]|]; [|exact Logic.I|].
    + intro X. apply ikey_in_iff in X. congruence.
    + unfold has_tbl in Ho'. destruct (items_of c1 (o_id o) (o_route o)); [discriminate Ho'|reflexivity].
Qed.

Lemma report_kpl : forall s t r item st result, ilink (si_c s) (si_inflight s) -> irec s -> Kpl (si_c s) (si_inflight s) ->
  ibad (isys_report ev s t r item st result) = false ->
  Kpl (si_c (isys_report ev s t r item st result)) (si_inflight (isys_report ev s t r item st result)).
Proof.
  intros s t r item st result I R K Hb. unfold isys_report in *.
  destruct (ikey_in (t, r, item) (si_inflight s) && status_in st report_statuses) eqn:En; [|exact K].
  apply andb_true_iff in En. destruct En as [Hin _]. apply ikey_in_iff in Hin.
  destruct I as [Hi [Hfo _]]. destruct R as [Ia [Pa [_ Hm]]].
  destruct item as [i|].
  - match type of Hb with ibad (isys_event ev ?s2 t r ?e) = false => set (sx := s2) in *; set (ex := e) in * end.
    rewrite inflight_event. unfold sx at 2; simpl.
    apply (Kpl_keys _ (si_inflight s)); [intros t' r' X; apply In_ikey_remove in X; apply X|].
    apply (event_kpl sx); try assumption. intro X. exact (Hm t r X i Hin).
  - set (s1 := with_inflight s (ikey_remove (t, r, None) (si_inflight s))) in *.
    rewrite inflight_event. unfold s1 at 2; simpl. intros t' r' X. apply In_ikey_remove in X. destruct X as [X Hne].
    apply (ievent_plain_other s1 t r (EvAction st result) (si_inflight s) Hb Ia Pa Hfo K t' r' X). congruence.
Qed.

Lemma request_kpl_c : forall c F st c' x, c_init c = true -> P_ok c -> Kpl c F ->
  request_workflow_status ev st c = (c', x) -> Kpl c' F.
Proof.
  intros c F st c' x Ia Pa K R. destruct (request_records ev st c c' x Ia R) as [Hs [Ht [Hin Hrec]]].
  intros t r Hin'. destruct (K t r Hin') as [Hc [Hn [idx [rec [A [B C]]]]]]. split; [exact Hc|].
  split; [unfold items_of, get_staged_task in *; rewrite Hs; exact Hn|].
  destruct (Hrec idx rec B) as [rec' [B' [K' L']]]. exists idx, rec'. split; [unfold ws_task_idx in *; rewrite Ht; exact A|].
  split; [exact B'|]. apply L'; [right|exact C].
  destruct (Pa t r idx A) as [rec0 [X Y]]. rewrite B in X. inversion X; subst rec0. rewrite Y. exact Hn.
Qed.

Lemma Kpl_Rlt : forall c c' F, Rlt c c' -> Kpl c F -> Kpl c' F.
Proof.
  intros c c' F (Hs & Ht & Hst & _) K. apply (Kpl_same_records c); try assumption.
  intros t r Hin. destruct (K t r Hin) as [_ [Hn _]]. unfold items_of, get_staged_task in *. rewrite Hst. exact Hn.
Qed.

Definition kpl_inv (s : isys) : Prop := ibad s = false -> unborn (si_c s) \/ Kpl (si_c s) (si_inflight s).

Definition op_odd2 (s : isys) (op : isys_op) : bool := match op with IPoll => poll_odd2 ev s | _ => false end.

Lemma kpl_live : forall s op, ilink (si_c s) (si_inflight s) -> irec s -> Kpl (si_c s) (si_inflight s) ->
  op_odd ev s op = false -> op_odd2 s op = false -> ibad (isys_step ev s op) = false ->
  Kpl (si_c (isys_step ev s op)) (si_inflight (isys_step ev s op)).
Proof.
  intros s op I R K Ho Ho2 Hb. pose proof I as [Hi _]. pose proof R as [Ia [Pa _]].
  assert (Rq : forall st, Kpl (si_c (isys_request ev s st)) (si_inflight (isys_request ev s st))).
  { intro st. destruct (irequest_val ev s st Hi) as [->|[c' [x [_ [_ [Rw ->]]]]]]; [exact K|exact (request_kpl_c _ _ _ _ _ Ia Pa K Rw)]. }
  assert (Cl : forall o, o = OpRender \/ o = OpPersist -> ibad (isys_call ev s o) = false ->
               Kpl (si_c (isys_call ev s o)) (si_inflight (isys_call ev s o))).
  { intros o Hop Hb'. destruct (icall_val ev s o Hi Hop Hb') as [L E]. rewrite E at 2. exact (Kpl_Rlt _ _ _ L K). }
  destruct op; cbn [isys_step op_odd op_odd2] in *; auto.
  - destruct (ipoll_val ev s Hb) as [c1 [offers [Hg _]]]. apply (poll_kpl s c1 offers); assumption.
  - apply report_kpl; assumption.
Qed.

Lemma step_kpl : forall s op, isys_inv2 s -> irec_inv s -> kpl_inv s -> op_odd ev s op = false -> op_odd2 s op = false ->
  kpl_inv (isys_step ev s op).
Proof.
  intros s op H2 H3 H4 Ho Ho2 Hb.
  pose proof (not_bad_before (fun x => isys_step ev x op) s (fun X => ibad_step_mono ev _ _ X) Hb) as Hb0.
  destruct (inv2_link s H2 Hb0) as [[Hu HF]|I].
  - destruct (isys_step_unborn ev s op HF Hb) as [E|[c0 [En E]]]; [rewrite E; left; exact Hu|]. right.
    assert (X : get_next_tasks ev (si_c s) = get_next_tasks ev c0) by exact (get_next_ensure ev _ _ _ En).
    assert (Eo : op_odd ev s op = op_odd ev (set_c s c0) op) by (destruct op; try reflexivity; unfold op_odd, poll_odd; simpl; rewrite X; reflexivity).
    assert (Eo2 : op_odd2 s op = op_odd2 (set_c s c0) op) by (destruct op; try reflexivity; unfold op_odd2, poll_odd2; simpl; rewrite X; reflexivity).
    rewrite E in *. rewrite Eo in Ho. rewrite Eo2 in Ho2. destruct (born_rec ev _ _ Hu En) as [A [B [C D]]].
    apply kpl_live; [simpl; rewrite HF; exact (born_link ev _ _ Hu En)|unfold irec; simpl; rewrite HF; auto|simpl; rewrite HF; intros t r []|exact Ho|exact Ho2|exact Hb].
  - destruct (H3 Hb0) as [[Hi _]|R]; [destruct I as [Hi' _]; congruence|].
    destruct (H4 Hb0) as [[Hi _]|K]; [destruct I as [Hi' _]; congruence|]. right. apply kpl_live; assumption.
Qed.

Lemma run_kpl : forall ops s, isys_inv2 s -> irec_inv s -> kpl_inv s -> run_odd ev ops s = false -> run_odd2 ev ops s = false ->
  kpl_inv (isys_run ev ops s).
Proof.
  induction ops as [|op ops IH]; intros s H2 H3 H4 Ho Ho2; [exact H4|]. cbn [isys_run fold_left]. simpl in Ho, Ho2.
  apply orb_false_iff in Ho. destruct Ho as [Ho1 Ho1']. apply orb_false_iff in Ho2. destruct Ho2 as [Ho2a Ho2b].
  apply IH; [apply isys_step_inv2; exact H2|apply isys_step_inv3; assumption|apply step_kpl; assumption|exact Ho1'|exact Ho2b].
Qed.

End PlainSystem.

Section PlainReachable.
Variable ev : string -> dict -> evalres.
Variables (sp : wf_spec) (g : graph) (inputs parent : dict).

(* while the single action of a task is in flight the task record is ACTIVE *)
Theorem plain_record_active : forall ops, let s := ireach ev sp g inputs parent ops in
  si_fault s = false -> si_wiped s = false -> run_odd ev ops (isys_init sp g inputs parent) = false ->
  run_odd2 ev ops (isys_init sp g inputs parent) = false ->
  forall t r, In (t, r, None) (si_inflight s) ->
  exists rec, ws_task_entry (c_ws (si_c s)) t r = Some rec /\ r_id rec = t /\ r_route rec = r /\
              ostatus_in (r_status rec) ACTIVE_STATUSES = true.
Proof.
  intros ops s Hf Hw Ho Ho2 t r Hin. pose proof (ibad_false _ Hf Hw) as Hb.
  assert (K : kpl_inv s).
  { apply (run_kpl ev ops); try assumption; [apply isys_init_inv2| |]; intros _; left; split; reflexivity. }
  assert (R : irec_inv s) by (apply (ireach_inv3 ev sp g inputs parent ops Ho)).
  destruct (K Hb) as [[Hi0 _]|Kp].
  - exfalso. destruct (ireach_inv2 ev sp g inputs parent ops Hb) as [[_ HF]|[[Hi _] _]]; [fold s in HF; rewrite HF in Hin; destruct Hin|].
    fold s in Hi. congruence.
  - destruct (R Hb) as [[_ Hws]|[_ [Pa _]]].
    + exfalso. destruct (Kp t r Hin) as [_ [_ [idx [rec [A _]]]]]. unfold ws_task_idx in A. fold s in Hws. rewrite Hws in A. discriminate A.
    + destruct (Kp t r Hin) as [_ [_ [idx [rec [A [B C]]]]]].
      destruct (Pa t r idx A) as [rec0 [X Y]]. rewrite B in X. inversion X; subst rec0. unfold key_of in Y.
      exists rec. unfold ws_task_entry. rewrite A. split; [exact B|]. split; [congruence|]. split; [congruence|].
      assert (N : NP (si_c s)).
      { apply (np_run ev ops _ (isys_init_inv2 sp g inputs parent)); [|exact Hb]. intros _ j rc E. simpl in E. destruct j; discriminate E. }
      pose proof (N idx rec B) as Hnp. unfold busy in C. destruct (r_status rec) as [x|]; [|discriminate C]. simpl in *.
      apply F_good_not_pending_active; [exact C|congruence].
Qed.

End PlainReachable.
