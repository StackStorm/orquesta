(* C02C03Proofs.v -- the workflow-machine step of a task event, characterised by what the state says
   at that moment: an unremediated failure fails the workflow; a settled task event processed while
   no task is active never leaves the workflow pausing/canceling (it rests); the workflow succeeds
   only when nothing is active, paused, canceled, staged or next. *)
From Coq Require Import String List Bool ZArith Arith Lia.
From Orq Require Import GenStatuses GenEvents GenTables GenSpecMeta Base State Machines Codec Conductor Decode Api.
From Orq Require Import F_tables F_names Hoare StatusReach.
Import ListNotations.
Open Scope string_scope.
Open Scope monad_scope.

Lemma wf_task_event_M_spec : forall t route st c c' r,
  wf_task_event_M t route st c = (c', r) ->
  (exists e, r = Exc e /\ c' = c) \/
  (exists unr, r = Val unr /\
     let evn := wf_task_event_name (c_graph c) (c_ws c) t route st in
     match tbl_step wf_table (wstatus (c_ws c)) evn with
     | None => wstatus (c_ws c') = wstatus (c_ws c)
     | Some n => wstatus (c_ws c') = n \/ (wstatus (c_ws c') = S_FAILED /\ unr <> [])
     end).
Proof.
  intros t route st c c' r H. apply wf_task_event_M_inv in H.
  destruct (wf_process_task_event (c_graph c) (c_ws c) t route st) as [[new unr]|e] eqn:E; destruct H as [-> ->];
    [right|left; eauto].
  exists unr; split; [reflexivity|]. cbv zeta. simpl.
  destruct (wf_process_task_event_val _ _ _ _ _ _ _ E) as [_ [_ Hv]].
  destruct (tbl_step wf_table _ _) as [n|]; [|exact (proj1 Hv)].
  destruct (status_in n COMPLETED_STATUSES && _); [|left; exact (proj1 Hv)].
  unfold fail_on_unreachable in Hv. destruct (get_unreachable_barriers _ _); inversion Hv;
    [left; reflexivity|right; split; [reflexivity|discriminate]].
Qed.

(* C02: a task failure with no matching transition fails the workflow (unless it is canceling) *)
Theorem unremediated_failure_fails_workflow : forall t route c c' unr,
  In (wstatus (c_ws c)) [S_RUNNING; S_PAUSING; S_PAUSED; S_RESUMING] ->
  has_next_tasks (c_graph c) (c_ws c) t route = false ->
  has_barrier_next (c_graph c) (c_ws c) t route = false ->
  wf_task_event_M t route S_FAILED c = (c', Val unr) ->
  wstatus (c_ws c') = S_FAILED.
Proof.
  intros t route c c' unr Hs Hn Hb H.
  destruct (wf_task_event_M_spec _ _ _ _ _ _ H) as [[e [He _]]|[u [Hu Hspec]]]; [discriminate|].
  cbv zeta in Hspec. unfold wf_task_event_name in Hspec. rewrite Hn, Hb in Hspec. cbn [orb] in Hspec.
  rewrite (F_unremediated_failure_fails _ _ _ _ _ Hs) in Hspec. destruct Hspec as [E|[E _]]; exact E.
Qed.

Theorem failure_while_canceling_stays_cancel_class : forall t route c c' unr,
  wstatus (c_ws c) = S_CANCELING ->
  wf_task_event_M t route S_FAILED c = (c', Val unr) ->
  In (wstatus (c_ws c')) [S_CANCELING; S_CANCELED; S_FAILED].
Proof.
  intros t route c c' unr Hs H.
  destruct (wf_task_event_M_spec _ _ _ _ _ _ H) as [[e [He _]]|[u [Hu Hspec]]]; [discriminate|].
  cbv zeta in Hspec. unfold wf_task_event_name in Hspec. rewrite Hs in Hspec.
  match type of Hspec with match ?x with _ => _ end => destruct x as [n|] eqn:En end.
  - pose proof (F_failure_while_canceling _ _ _ _ _ _ En) as Hn.
    destruct Hspec as [E|[E _]]; rewrite E; simpl in *; tauto.
  - rewrite Hspec; simpl; auto.
Qed.

(* C02/C03: pausing and canceling are held only while a task is active.  When the event of a task that
   has stopped running (pending, paused, succeeded, failed, canceled, retrying) is processed and no task
   execution is active, the workflow does not stay (or become) pausing, canceling or resuming *)
Theorem settled_event_with_nothing_active_rests : forall t route st c c' unr,
  In st settled_statuses ->
  has_active_tasks (c_ws c) = false ->
  In (wstatus (c_ws c)) [S_PAUSING; S_CANCELING] ->
  wf_task_event_M t route st c = (c', Val unr) ->
  ~ In (wstatus (c_ws c')) [S_PAUSING; S_CANCELING; S_RESUMING].
Proof.
  intros t route st c c' unr Hst Ha Hs H.
  destruct (wf_task_event_M_spec _ _ _ _ _ _ H) as [[e [He _]]|[u [Hu Hspec]]]; [discriminate|].
  cbv zeta in Hspec. unfold wf_task_event_name in Hspec. rewrite Ha in Hspec.
  destruct (F_dormant_event_accepted (wstatus (c_ws c)) st
              (has_next_tasks (c_graph c) (c_ws c) t route || has_barrier_next (c_graph c) (c_ws c) t route)
              (has_canceling_tasks (c_ws c) || has_canceled_tasks (c_ws c))
              (has_pausing_tasks (c_ws c) || has_paused_tasks (c_ws c))
              (has_staged_tasks (c_ws c) || has_next_tasks (c_graph c) (c_ws c) t route) Hs Hst) as [n En].
  rewrite En in Hspec.
  pose proof (F_dormant_event_rests _ _ _ _ _ _ _ Hst En) as Hn.
  destruct Hspec as [E|[E _]]; rewrite E; [exact Hn|]. simpl; intuition discriminate.
Qed.

(* C02: the workflow reports succeeded through a task event only if, at that moment, no task
   execution is active, none is paused/pending or pausing, none canceled or canceling, nothing is staged
   ready and the reporting task has no satisfiable next -- and the reporting task succeeded or its failure
   was remediated *)
Theorem succeeded_only_when_all_done : forall t route st c c' unr,
  wstatus (c_ws c) <> S_SUCCEEDED ->
  wf_task_event_M t route st c = (c', Val unr) ->
  wstatus (c_ws c') = S_SUCCEEDED ->
  has_active_tasks (c_ws c) = false /\
  has_canceling_tasks (c_ws c) = false /\ has_canceled_tasks (c_ws c) = false /\
  has_pausing_tasks (c_ws c) = false /\ has_paused_tasks (c_ws c) = false /\
  has_staged_tasks (c_ws c) = false /\ has_next_tasks (c_graph c) (c_ws c) t route = false /\
  (st = S_SUCCEEDED \/ In st ABENDED_STATUSES).
Proof.
  intros t route st c c' unr Hns H Hsucc.
  destruct (wf_task_event_M_spec _ _ _ _ _ _ H) as [[e [He _]]|[u [Hu Hspec]]]; [discriminate|].
  cbv zeta in Hspec. unfold wf_task_event_name in Hspec.
  match type of Hspec with match ?x with _ => _ end => destruct x as [n|] eqn:En end.
  - destruct Hspec as [E|[E _]]; [|rewrite E in Hsucc; discriminate].
    rewrite E in Hsucc; subst n.
    destruct (F_success_only_when_complete _ _ _ _ _ _ _ En) as [Ha [Hc [Hp [Hm Hst]]]].
    apply orb_false_elim in Hc; destruct Hc. apply orb_false_elim in Hp; destruct Hp.
    apply orb_false_elim in Hm; destruct Hm.
    repeat split; auto. destruct Hst as [Hst|[Hst _]]; auto.
  - rewrite Hspec in Hsucc. contradiction.
Qed.
