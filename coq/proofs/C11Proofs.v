(* C11Proofs.v -- run-time expression errors are contained: for every evaluator, no exception that a
   conductor API call lets escape is an expression-evaluation exception (x_expr e = false): those are
   caught by the handlers and the collectors.  What escapes is raised by the engine (status-transition
   errors, invalid task, ...) or is an evaluator failure of another class.  Holds for failures at every
   expression-bearing position and every point of a history, because it is proved structurally over the
   whole model. *)
From Coq Require Import String List Bool ZArith Arith Lia.
From Orq Require Import GenStatuses GenEvents GenTables GenSpecMeta Base State Machines Codec Conductor Decode Api.
From Orq Require Import F_tables Hoare C05Proofs.
Import ListNotations.
Open Scope monad_scope.

(* an exception escaping m is never an expression-evaluation exception *)
Definition contained {A} (m : M A) : Prop := forall c c' e, m c = (c', Exc e) -> x_expr e = false.

Lemma contained_ro : forall A (m : M A), raises_only (fun e => x_expr e = false) m -> contained m.
Proof. intros A m H; exact H. Qed.
Lemma ro_contained : forall A (m : M A), contained m -> raises_only (fun e => x_expr e = false) m.
Proof. intros A m H; exact H. Qed.

Definition engine_result {A} (r : result A) : Prop := match r with Exc e => x_expr e = false | Val _ => True end.
Lemma contained_lift_res : forall A (r : result A), engine_result r -> raises_only (fun e => x_expr e = false) (lift_res r).
Proof. intros A r H; apply ro_lift_res; intros e ->; exact H. Qed.

Ltac engine_res :=
  repeat match goal with
         | |- engine_result (match ?x with _ => _ end) => destruct x
         | |- engine_result (if ?x then _ else _) => destruct x
         | |- engine_result (let _ := _ in _) => cbv zeta
         end; simpl; auto.

Lemma er_item_event_name : forall w t r i st, engine_result (item_event_name w t r i st).
Proof. intros; unfold item_event_name; engine_res. Qed.
Lemma er_task_table_step : forall cur evn, engine_result (task_table_step cur evn).
Proof. intros; unfold task_table_step; engine_res. Qed.
Lemma er_task_process_event : forall w r e, engine_result (task_process_event w r e).
Proof.
  intros w r e; unfold task_process_event. destruct e; cbv zeta.
  - destruct (negb _); simpl; auto. apply er_task_table_step.
  - destruct (negb _); simpl; auto. apply er_task_table_step.
  - destruct (negb _); simpl; auto.
    pose proof (er_item_event_name w (r_id r) (r_route r) item st) as Hn.
    destruct (item_event_name w (r_id r) (r_route r) item st); simpl in *; auto. apply er_task_table_step.
  - destruct (negb _); simpl; auto. apply er_task_table_step.
Qed.
Lemma er_wf_process_task_event : forall g w t r st, engine_result (wf_process_task_event g w t r st).
Proof. intros; unfold wf_process_task_event; engine_res. Qed.
Lemma er_wf_process_workflow_event : forall g w st, engine_result (wf_process_workflow_event g w st).
Proof. intros; unfold wf_process_workflow_event; engine_res. Qed.
Lemma er_get_task_context_from : forall ctxs idxs acc, engine_result (get_task_context_from ctxs idxs acc).
Proof. intros ctxs idxs; induction idxs as [|i idxs IH]; intro acc; simpl; auto. destruct (nth_error ctxs i); simpl; auto. Qed.
Lemma er_get_task_sequence : forall w t r, engine_result (get_task_sequence w t r).
Proof. intros; unfold get_task_sequence; engine_res. Qed.

Create HintDb cont.

Section WithEval.
Variable ev : string -> dict -> evalres.

(* the body of an `except ExpressionEvaluationException` needs nothing; machine results carry engine exceptions *)
Ltac leaf :=
  first [ apply ro_all; intros ? Hx; exact Hx
        | apply contained_lift_res;
          lazymatch goal with
          | |- engine_result (task_process_event _ _ _) => apply er_task_process_event
          | |- engine_result (get_task_context_from _ _ _) => apply er_get_task_context_from
          | |- engine_result (get_task_sequence _ _ _) => apply er_get_task_sequence
          end
        | apply ro_contained;
          first [ assumption
                | match goal with IH : forall _ _ _, contained _ |- _ => apply IH end
                | match goal with IH : forall _ _, contained _ |- _ => apply IH end
                | match goal with IH : forall _ _ _ _, contained _ |- _ => apply IH end
                | eauto 3 with cont ] ].
Ltac walk := apply contained_ro; rw ltac:(reflexivity) leaf.

Lemma ct_wf_workflow_event : forall st, contained (wf_workflow_event_M st).
Proof.
  intros st c c' e H. apply wf_workflow_event_M_inv in H.
  pose proof (er_wf_process_workflow_event (c_graph c) (c_ws c) st) as R.
  destruct (wf_process_workflow_event (c_graph c) (c_ws c) st) as [[n u]|e1]; destruct H as [_ H]; inversion H; subst; exact R.
Qed.
Hint Resolve ct_wf_workflow_event : cont.
Lemma ct_wf_task_event : forall t r st, contained (wf_task_event_M t r st).
Proof.
  intros t r st c c' e H. apply wf_task_event_M_inv in H.
  pose proof (er_wf_process_task_event (c_graph c) (c_ws c) t r st) as R.
  destruct (wf_process_task_event (c_graph c) (c_ws c) t r st) as [[n u]|e1]; destruct H as [_ H]; inversion H; subst; exact R.
Qed.
Hint Resolve ct_wf_task_event : cont.

Lemma ct_log_entry_error : forall m t r tr res, contained (log_entry_error m t r tr res).
Proof. intros; unfold log_entry_error; walk. Qed.
Hint Resolve ct_log_entry_error : cont.
Lemma ct_log_error : forall e t r tr, contained (log_error e t r tr).
Proof. intros; unfold log_error; auto with cont. Qed.
Hint Resolve ct_log_error : cont.
Lemma ct_log_errors : forall es t r tr, contained (log_errors es t r tr).
Proof. intros; unfold log_errors; walk. Qed.
Hint Resolve ct_log_errors : cont.
Lemma ct_log_unreachable : forall l, contained (log_unreachable l).
Proof. intros; unfold log_unreachable; walk. Qed.
Hint Resolve ct_log_unreachable : cont.
Lemma ct_request_status_core : forall st, contained (request_status_core st).
Proof. intros; unfold request_status_core, set_rec_status; walk. Qed.
Hint Resolve ct_request_status_core : cont.
Lemma ct_render_input : forall specs rt rolling errs, contained (render_input ev specs rt rolling errs).
Proof. induction specs as [|[n d] specs IH]; intros; simpl; walk. Qed.
Hint Resolve ct_render_input : cont.
Lemma ct_render_vars : forall specs rolling rendered errs, contained (render_vars ev specs rolling rendered errs).
Proof. induction specs as [|[n d] specs IH]; intros; simpl; walk. Qed.
Hint Resolve ct_render_vars : cont.
Lemma ct_ensure_ws : contained (ensure_ws ev).
Proof. unfold ensure_ws; walk. Qed.
Hint Resolve ct_ensure_ws : cont.
Theorem ct_request_workflow_status : forall st, contained (request_workflow_status ev st).
Proof. intros; unfold request_workflow_status; walk. Qed.
Lemma ct_get_task_context : forall idxs, contained (get_task_context idxs).
Proof. intros; unfold get_task_context; walk. Qed.
Hint Resolve ct_get_task_context : cont.
Theorem ct_get_next_tasks : contained (get_next_tasks ev).
Proof. unfold get_next_tasks; walk. Qed.
Lemma ct_add_task_state : forall t r i p, contained (add_task_state ev t r i p).
Proof. intros; unfold add_task_state; walk. Qed.
Hint Resolve ct_add_task_state : cont.
Lemma ct_evaluate_route : forall e r, contained (evaluate_route e r).
Proof. intros; unfold evaluate_route; walk. Qed.
Hint Resolve ct_evaluate_route : cont.
Lemma ct_finalize_context : forall ts e ctx, contained (finalize_context ev ts e ctx).
Proof. intros; unfold finalize_context; walk. Qed.
Hint Resolve ct_finalize_context : cont.
Lemma ct_get_rec : forall i, contained (get_rec i).
Proof. intros; unfold get_rec; walk. Qed.
Hint Resolve ct_get_rec : cont.
Lemma ct_upd_rec : forall i f, contained (upd_rec i f).
Proof. intros; unfold upd_rec; walk. Qed.
Hint Resolve ct_upd_rec : cont.
Lemma ct_process_transition : forall t route idx ts ctx e, contained (process_transition ev t route idx ts ctx e).
Proof. intros; unfold process_transition; walk. Qed.
Hint Resolve ct_process_transition : cont.
Lemma ct_update_task_state_fuel : forall fuel t route evt, contained (update_task_state_fuel ev fuel t route evt).
Proof.
  induction fuel as [|fuel IH]; intros t route evt; simpl; [apply contained_ro, ro_raise; reflexivity|].
  walk.
Qed.
Theorem ct_update_task_state : forall t route evt, contained (update_task_state ev t route evt).
Proof. intros; unfold update_task_state; apply ct_update_task_state_fuel. Qed.
Lemma ct_merge_term_contexts : forall l acc, contained (merge_term_contexts l acc).
Proof. induction l as [|[i r] l IH]; intros; simpl; walk. Qed.
Hint Resolve ct_merge_term_contexts : cont.
Theorem ct_render_workflow_output : contained (render_workflow_output ev).
Proof. unfold render_workflow_output, get_workflow_terminal_context; walk. Qed.
Lemma ct_request_task_rerun : forall t r b, contained (request_task_rerun ev t r b).
Proof. intros; unfold request_task_rerun; walk. Qed.
Hint Resolve ct_request_task_rerun : cont.
Theorem ct_request_workflow_rerun : forall reqs, contained (request_workflow_rerun ev reqs).
Proof. intros; unfold request_workflow_rerun; walk. Qed.
Lemma ct_persist : contained (persist ev).
Proof. exact (ro_persist ev _ ct_ensure_ws). Qed.

Theorem api_contained : forall op, contained (api_exec ev op).
Proof.
  intro op; destruct op; simpl; (apply contained_ro, ro_bind; [apply ro_contained|intro; apply ro_ret]).
  - apply ct_ensure_ws.
  - apply ct_request_workflow_status.
  - apply ct_get_next_tasks.
  - apply ct_update_task_state.
  - apply ct_render_workflow_output.
  - apply ct_request_workflow_rerun.
  - apply ct_persist.
Qed.

End WithEval.
