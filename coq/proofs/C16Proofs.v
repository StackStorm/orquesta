(* C16Proofs.v -- values flow through unchanged; evaluation is pure; internals stay hidden.
   (a) exact characterisation of merge_dicts / merge_json, (b) literal values pass through
   [evaluate] unchanged, (c) [evaluate] is pure, (d) the data path of the model (input -> context,
   context lookup, publish, output), (e) which names can enter a published delta. *)
From Coq Require Import String Ascii List Bool ZArith Arith Lia.
From Orq Require Import GenStatuses GenEvents GenTables GenSpecMeta Base State Machines Codec Conductor.
From Orq Require Import ListFacts StateFacts Hoare.
Import ListNotations.
Open Scope string_scope.
Open Scope monad_scope.

Definition keys (d : dict) : list string := map fst d.
Definition is_jdict (v : json) : bool := match v with JDict _ => true | _ => false end.

Lemma keys_dset : forall k v d,
  keys (dset k v d) = if dhas k d then keys d else app (keys d) [k].
Proof. exact map_fst_dset. Qed.

(* one step of the loop "for k, v in right.items()" *)
Definition merge_step (acc : dict) (k : string) (v : json) : dict :=
  match dget k acc with
  | None => app acc [(k, v)]
  | Some lv => dset k (merge_json lv v) acc
  end.

Fixpoint merge_go (acc : dict) (rs : list (string * json)) : dict :=
  match rs with
  | [] => acc
  | (k, v) :: rs' => merge_go (merge_step acc k v) rs'
  end.

Lemma merge_json_dicts : forall r l, merge_json (JDict l) (JDict r) = JDict (merge_go l r).
Proof.
  induction r as [|[k v] r IH]; intro l; [reflexivity|].
  specialize (IH (merge_step l k v)). simpl in *. exact IH.
Qed.

Lemma merge_dicts_go : forall l r, merge_dicts l r = merge_go l r.
Proof. intros l r; unfold merge_dicts; rewrite merge_json_dicts; reflexivity. Qed.

Lemma merge_json_dicts_rec : forall r l, merge_json (JDict l) (JDict r) = JDict (merge_dicts l r).
Proof. intros r l. rewrite merge_dicts_go. exact (merge_json_dicts r l). Qed.

Lemma merge_json_replace : forall l r, is_jdict r = false \/ is_jdict l = false -> merge_json l r = r.
Proof.
  intros l r [H|H]; destruct r; try reflexivity; try discriminate; destruct l; try reflexivity; discriminate.
Qed.

Lemma merge_json_not_dict_r : forall l r, is_jdict r = false -> merge_json l r = r.
Proof. intros l r H; apply merge_json_replace; left; exact H. Qed.

Lemma merge_json_not_dict_l : forall l r, is_jdict l = false -> merge_json l r = r.
Proof. intros l r H; apply merge_json_replace; right; exact H. Qed.

Lemma merge_dicts_nil_r : forall l, merge_dicts l [] = l.
Proof. reflexivity. Qed.

Definition merged (acc : dict) (k : string) (v : json) : json :=
  match dget k acc with Some lv => merge_json lv v | None => v end.

Lemma merge_step_dset : forall acc k v, merge_step acc k v = dset k (merged acc k v) acc.
Proof.
  intros acc k v. unfold merge_step, merged. destruct (dget k acc) eqn:E; [reflexivity|].
  symmetry. apply dset_fresh. now apply dget_none_notin.
Qed.

Lemma dget_merge_step : forall k acc k0 v0,
  dget k (merge_step acc k0 v0) = if String.eqb k k0 then Some (merged acc k0 v0) else dget k acc.
Proof.
  intros k acc k0 v0. rewrite merge_step_dset. destruct (String.eqb k k0) eqn:E.
  - apply String.eqb_eq in E; subst k0. apply dget_dset_same.
  - apply String.eqb_neq in E. now apply dget_dset_other.
Qed.

Theorem dget_merge_dicts : forall r l k, NoDup (keys r) ->
  dget k (merge_dicts l r) =
  match dget k r with
  | None => dget k l
  | Some v => match dget k l with Some lv => Some (merge_json lv v) | None => Some v end
  end.
Proof.
  intros r l k Hr. rewrite merge_dicts_go. revert l.
  induction r as [|[k0 v0] r IH]; intro l; [reflexivity|].
  simpl in Hr. inversion Hr as [|x xs Hnotin Hr']; subst.
  simpl merge_go. rewrite (IH Hr'), dget_merge_step, dget_cons.
  destruct (String.eqb k k0) eqn:E; [|reflexivity].
  apply String.eqb_eq in E; subst k0. rewrite (proj2 (dget_none_notin k r) Hnotin).
  unfold merged. now destruct (dget k l).
Qed.

Theorem keys_merge_dicts : forall r l, NoDup (keys r) ->
  keys (merge_dicts l r) = app (keys l) (filter (fun k => negb (dhas k l)) (keys r)).
Proof.
  intros r l Hr. rewrite merge_dicts_go. revert l.
  induction r as [|[k0 v0] r IH]; intro l; simpl; [rewrite app_nil_r; reflexivity|].
  simpl in Hr. inversion Hr as [|x xs Hnotin Hr']; subst.
  rewrite (IH Hr'), merge_step_dset, keys_dset.
  rewrite (filter_ext_in _ (fun k => negb (dhas k l)))
    by (intros k Hk; rewrite dhas_dset_other; [reflexivity | intros ->; contradiction]).
  destruct (dhas k0 l); simpl; [reflexivity|].
  rewrite <- app_assoc; reflexivity.
Qed.

Theorem NoDup_keys_merge_dicts : forall r l, NoDup (keys l) -> NoDup (keys (merge_dicts l r)).
Proof.
  intros r l Hl. rewrite merge_dicts_go. revert l Hl.
  induction r as [|[k v] r IH]; intros l Hl; simpl; [exact Hl|].
  apply IH. rewrite merge_step_dset. apply NoDup_dset; exact Hl.
Qed.

Lemma fold_fresh : forall (step : dict -> string * json -> dict),
  (forall acc p, ~ In (fst p) (keys acc) -> step acc p = app acc [p]) ->
  forall kv acc, NoDup (app (keys acc) (map fst kv)) -> fold_left step kv acc = app acc kv.
Proof.
  intros step Hs. induction kv as [|p kv IH]; intros acc H; simpl; [now rewrite app_nil_r|].
  simpl in H. pose proof (NoDup_remove_2 _ _ _ H) as Hk.
  rewrite Hs by (intro Hi; apply Hk; apply in_or_app; left; exact Hi).
  rewrite IH; [now rewrite <- app_assoc|].
  unfold keys in *. rewrite map_app, <- app_assoc. exact H.
Qed.

Lemma merge_go_fold : forall rs acc,
  merge_go acc rs = fold_left (fun a p => merge_step a (fst p) (snd p)) rs acc.
Proof. induction rs as [|[k v] rs IH]; intro acc; simpl; [reflexivity | apply IH]. Qed.

Theorem merge_dicts_disjoint : forall r l, NoDup (app (keys l) (keys r)) -> merge_dicts l r = app l r.
Proof.
  intros r l H. rewrite merge_dicts_go, merge_go_fold. apply fold_fresh; [|exact H].
  intros acc [k v] Hk. simpl in *. unfold merge_step. now rewrite (proj2 (dget_none_notin k acc) Hk).
Qed.

Theorem merge_dicts_nil_l : forall r, NoDup (keys r) -> merge_dicts [] r = r.
Proof. intros r H. apply (merge_dicts_disjoint r []). exact H. Qed.

Corollary dget_merge_dicts_replace : forall r l k v, NoDup (keys r) -> dget k r = Some v ->
  (is_jdict v = false \/ forall lv, dget k l = Some lv -> is_jdict lv = false) ->
  dget k (merge_dicts l r) = Some v.
Proof.
  intros r l k v Hr Hk Hv. rewrite (dget_merge_dicts r l k Hr), Hk.
  destruct (dget k l) as [lv|] eqn:E; [|reflexivity].
  rewrite merge_json_replace; [reflexivity|].
  destruct Hv as [Hv|Hv]; [left; exact Hv|right; apply Hv; reflexivity].
Qed.

Fixpoint has_sub (p s : string) : bool :=
  String.prefix p s || match s with EmptyString => false | String _ s' => has_sub p s' end.

(* the delimiters of the two expression languages *)
Definition EXPR_DELIMS : list string := ["<%"; "%>"; "{{"; "}}"; "{%"].
Definition no_expr (s : string) : bool := negb (existsb (fun d => has_sub d s) EXPR_DELIMS).

Fixpoint keys_unique (ks : list string) : bool :=
  match ks with [] => true | k :: ks' => negb (string_in k ks') && keys_unique ks' end.

(* a JSON value none of whose strings (dict keys included) carries a delimiter; dict keys are
   unique at every level (Python dicts) *)
Fixpoint literal (v : json) : bool :=
  match v with
  | JStr s => no_expr s
  | JList l => forallb literal l
  | JDict kv => keys_unique (map fst kv) && forallb (fun p => no_expr (fst p) && literal (snd p)) kv
  | _ => true
  end.

Lemma keys_unique_NoDup : forall ks, keys_unique ks = true -> NoDup ks.
Proof.
  induction ks as [|k ks IH]; intro H; [constructor|].
  simpl in H; apply andb_prop in H; destruct H as [H1 H2]. constructor; [|apply IH; exact H2].
  intro Hi. apply string_in_iff in Hi. rewrite Hi in H1; discriminate.
Qed.

(* d[n1] = v1; d[n2] = v2; ... *)
Definition set_all (nvs : list (string * json)) (d : dict) : dict :=
  fold_left (fun acc p => dset (fst p) (snd p) acc) nvs d.

Lemma set_all_fresh : forall nvs d, NoDup (app (keys d) (map fst nvs)) -> set_all nvs d = app d nvs.
Proof.
  intros nvs d H. apply fold_fresh; [|exact H]. intros acc [k v] Hk. now apply dset_fresh.
Qed.

Lemma set_all_nil : forall nvs, NoDup (map fst nvs) -> set_all nvs [] = nvs.
Proof. intros nvs H. apply (set_all_fresh nvs []). exact H. Qed.

Section WithEval.
Variable ev : string -> dict -> evalres.

(* the evaluators return a string without delimiters as it is (expr_base.evaluate: no evaluator
   reports has_expressions, the statement is returned) *)
Definition ev_literal_ok : Prop := forall s ctx, no_expr s = true -> ev s ctx = EvOk (JStr s).

Definition eval_list (ctx : dict) : list json -> M (list json) :=
  fix go (l : list json) : M (list json) :=
    match l with
    | [] => ret []
    | x :: l' => y <- evaluate ev x ctx ;; ys <- go l' ;; ret (y :: ys)
    end.

Definition eval_dict (ctx : dict) : list (string * json) -> dict -> M dict :=
  fix go (kv : list (string * json)) (acc : dict) {struct kv} : M dict :=
    match kv with
    | [] => ret acc
    | (k, v) :: kv' =>
        k' <- lift_eval (ev k ctx) ;;
        (match k' with
         | JList _ => raise (exn_unhashable_key "list" k)
         | JDict _ => raise (exn_unhashable_key "dict" k)
         | _ => ret tt
         end) ;;;
        v' <- evaluate ev v ctx ;;
        match k' with
        | JStr ks => go kv' (dset ks v' acc)
        | _ => raise (mkexn "TypeError" "unsupported dictionary key produced by expression")
        end
    end.

Lemma evaluate_list : forall l ctx,
  evaluate ev (JList l) ctx = bind (eval_list ctx l) (fun r => ret (JList r)).
Proof. reflexivity. Qed.

Lemma evaluate_dict : forall kv ctx,
  evaluate ev (JDict kv) ctx = bind (eval_dict ctx kv []) (fun r => ret (JDict r)).
Proof. reflexivity. Qed.

Lemma eval_list_cons : forall ctx x l,
  eval_list ctx (x :: l) = (y <- evaluate ev x ctx ;; ys <- eval_list ctx l ;; ret (y :: ys)).
Proof. reflexivity. Qed.

Lemma eval_dict_cons : forall ctx k v kv acc,
  eval_dict ctx ((k, v) :: kv) acc =
  (k' <- lift_eval (ev k ctx) ;;
   (match k' with
    | JList _ => raise (exn_unhashable_key "list" k)
    | JDict _ => raise (exn_unhashable_key "dict" k)
    | _ => ret tt
    end) ;;;
   v' <- evaluate ev v ctx ;;
   match k' with
   | JStr ks => eval_dict ctx kv (dset ks v' acc)
   | _ => raise (mkexn "TypeError" "unsupported dictionary key produced by expression")
   end).
Proof. reflexivity. Qed.

Theorem evaluate_identity : ev_literal_ok -> forall v ctx c, literal v = true ->
  evaluate ev v ctx c = (c, Val v).
Proof.
  intros Hev v; induction v as [| | | |s|l IH|kv IH] using json_ind'; intros ctx c Hl;
    try reflexivity.
  - simpl in *. rewrite (Hev s ctx Hl). reflexivity.
  - simpl in Hl. rewrite evaluate_list. unfold bind.
    assert (G : eval_list ctx l c = (c, Val l)).
    { induction IH as [|x l Hx Hl' IHl]; [reflexivity|].
      simpl in Hl; apply andb_prop in Hl; destruct Hl as [Hlx Hll].
      rewrite eval_list_cons. unfold bind. rewrite (Hx ctx c Hlx). rewrite (IHl Hll). reflexivity. }
    rewrite G. reflexivity.
  - simpl in Hl. apply andb_prop in Hl; destruct Hl as [Hu Hall].
    apply keys_unique_NoDup in Hu.
    rewrite evaluate_dict. unfold bind.
    assert (G : forall acc, eval_dict ctx kv acc c = (c, Val (set_all kv acc))).
    { clear Hu. induction IH as [|[k v] kv' Hx Hl' IHl]; intros acc; [reflexivity|].
      simpl in Hall; apply andb_prop in Hall; destruct Hall as [Hkv Hrest].
      apply andb_prop in Hkv; destruct Hkv as [Hk Hv]. simpl in Hk, Hv, Hx.
      rewrite eval_dict_cons. unfold bind. rewrite (Hev k ctx Hk). simpl. rewrite (Hx ctx c Hv).
      apply (IHl Hrest). }
    rewrite (G []), (set_all_nil kv Hu). reflexivity.
Qed.

Theorem evaluate_state_unchanged : forall stmt ctx c, fst (evaluate ev stmt ctx c) = c.
Proof. intros stmt ctx c. apply (evaluate_pure ev stmt ctx c). Qed.

End WithEval.

(* [evaluate] depends on the oracle only through its values at the context it was given (trivial in
   Gallina: no aliasing, the recursion passes [ctx] down unchanged; stated so that the claim is explicit) *)
Theorem evaluate_ctx_unchanged : forall ev ev' stmt ctx,
  (forall s, ev s ctx = ev' s ctx) -> forall c, evaluate ev stmt ctx c = evaluate ev' stmt ctx c.
Proof.
  intros ev ev' stmt ctx Hev; induction stmt as [| | | |s|l IH|kv IH] using json_ind'; intro c;
    try reflexivity.
  - simpl. rewrite Hev. reflexivity.
  - rewrite !evaluate_list. apply bind_ext; [|reflexivity]. revert c.
    induction IH as [|x l Hx Hl IHl]; intro c0; [reflexivity|].
    rewrite !eval_list_cons. apply bind_ext; [apply Hx|]. intros y c1.
    apply bind_ext; [apply IHl | reflexivity].
  - rewrite !evaluate_dict. apply bind_ext; [|reflexivity]. generalize (@nil (string * json)) as acc. revert c.
    induction IH as [|[k v] kv' Hx Hl IHl]; intros c0 acc; [reflexivity|].
    rewrite !eval_dict_cons. apply bind_ext; [now rewrite (Hev k)|]. intros k' c1.
    apply bind_ext; [reflexivity|]. intros _ c2. apply bind_ext; [apply Hx|]. intros v' c3.
    destruct k'; try reflexivity. apply IHl.
Qed.

Lemma bind_exc : forall A B (m : M A) (f : A -> M B) c c' e, m c = (c', Exc e) -> bind m f c = (c', Exc e).
Proof. exact StateFacts.bind_exc. Qed.

Definition all_literal (nvs : list (string * json)) : bool := forallb (fun p => literal (snd p)) nvs.

(* runtime_inputs.get(name, default) for every declared input *)
Definition input_values (specs : list (string * json)) (runtime : dict) : list (string * json) :=
  map (fun p => (fst p, match dget (fst p) runtime with Some x => x | None => snd p end)) specs.

Lemma input_values_names : forall specs runtime, map fst (input_values specs runtime) = map fst specs.
Proof. intros specs runtime; unfold input_values; rewrite map_map; reflexivity. Qed.

Lemma dget_set_all_notin : forall nvs d n, ~ In n (map fst nvs) -> dget n (set_all nvs d) = dget n d.
Proof.
  induction nvs as [|[n0 v0] nvs IH]; intros d n H; [reflexivity|].
  simpl. rewrite IH by (intro Hi; apply H; right; exact Hi).
  apply dget_dset_other. intro; subst; apply H; left; reflexivity.
Qed.

Lemma dget_set_all : forall nvs d n v, NoDup (map fst nvs) -> In (n, v) nvs ->
  dget n (set_all nvs d) = Some v.
Proof.
  induction nvs as [|[n0 v0] nvs IH]; intros d n v Hnd Hin; [destruct Hin|].
  simpl in Hnd; inversion Hnd as [|x xs Hx Hnd']; subst. simpl.
  destruct Hin as [Heq|Hin].
  - inversion Heq; subst. rewrite dget_set_all_notin by exact Hx. apply dget_dset_same.
  - apply IH; assumption.
Qed.

Lemma NoDup_keys_set_all : forall nvs d, NoDup (keys d) -> NoDup (keys (set_all nvs d)).
Proof.
  induction nvs as [|[n0 v0] nvs IH]; intros d H; [exact H|].
  simpl. apply IH. apply NoDup_dset; exact H.
Qed.

Lemma keys_set_all_sub : forall nvs d k, In k (keys (set_all nvs d)) -> In k (keys d) \/ In k (map fst nvs).
Proof.
  induction nvs as [|[n0 v0] nvs IH]; intros d k H; [left; exact H|].
  simpl in H. apply IH in H. destruct H as [H|H]; [|right; right; exact H].
  rewrite keys_dset in H. destruct (dhas n0 d); [left; exact H|].
  apply in_app_or in H; destruct H as [H|[H|[]]]; [left; exact H|right; left; exact H].
Qed.

Definition is_dunder (k : string) : bool := String.prefix "__" k.

Section DataPath.
Variable ev : string -> dict -> evalres.

Section Literal.
Hypothesis Hev : ev_literal_ok ev.

Lemma try_eval_literal : forall v rolling c, literal v = true ->
  try_catch_expr (x <- evaluate ev v rolling ;; ret (inl x)) (fun e : exn => ret (inr e)) c
  = (c, Val (@inl json exn v)).
Proof.
  intros v rolling c H. unfold try_catch_expr, bind. rewrite (evaluate_identity ev Hev v rolling c H).
  reflexivity.
Qed.

Lemma render_input_literal : forall specs runtime rolling errs c,
  all_literal (input_values specs runtime) = true ->
  render_input ev specs runtime rolling errs c
  = (c, Val (set_all (input_values specs runtime) rolling, errs)).
Proof.
  induction specs as [|[name dflt] specs IH]; intros runtime rolling errs c H; [reflexivity|].
  simpl in H. apply andb_prop in H; destruct H as [Hv Hrest].
  simpl. rewrite (bind_step _ _ _ _ _ _ _ (try_eval_literal _ rolling c Hv)).
  apply IH. exact Hrest.
Qed.

Lemma render_vars_literal : forall specs rolling rendered errs c,
  all_literal specs = true ->
  render_vars ev specs rolling rendered errs c = (c, Val (set_all specs rendered, errs)).
Proof.
  induction specs as [|[name expr] specs IH]; intros rolling rendered errs c H; [reflexivity|].
  simpl in H. apply andb_prop in H; destruct H as [Hv Hrest].
  simpl. rewrite (bind_step _ _ _ _ _ _ _ (try_eval_literal _ rolling c Hv)).
  apply IH. exact Hrest.
Qed.

Corollary render_vars_literal_delta : forall specs rolling c,
  all_literal specs = true -> NoDup (map fst specs) ->
  render_vars ev specs rolling [] [] c = (c, Val (specs, [])).
Proof.
  intros specs rolling c Hl Hn. rewrite (render_vars_literal specs rolling [] [] c Hl).
  rewrite (set_all_nil specs Hn). reflexivity.
Qed.

Theorem finalize_context_literal : forall ts e in_ctx tr c,
  nth_error (ts_next ts) (e_ref e) = Some tr -> string_in (e_dst e) (tr_do tr) = true ->
  all_literal (tr_publish tr) = true ->
  finalize_context ev ts e in_ctx c = (c, Val (set_all (tr_publish tr) [], [])).
Proof.
  intros ts e in_ctx tr c Hn Hd Hl. unfold finalize_context. rewrite Hn, Hd.
  apply render_vars_literal. exact Hl.
Qed.

Definition init_ctx_of (c : cstate) : dict :=
  let ri := set_all (input_values (wf_input (c_spec c)) (c_inputs c)) (c_parent c) in
  merge_dicts (merge_dicts (c_parent c) ri) (set_all (wf_vars (c_spec c)) []).

Lemma stage_roots_contexts : forall l c, exists c',
  forM_ l (fun t => modws (fun w => ws_add_staged w (mk_staged t 0 [0] [] true None))) c = (c', Val tt)
  /\ contexts (c_ws c') = contexts (c_ws c).
Proof.
  induction l as [|t l IH]; intro c; [exists c; split; reflexivity|].
  simpl. unfold bind at 1. unfold modws at 1.
  destruct (IH (set_ws c (ws_add_staged (c_ws c) (mk_staged t 0 [0] [] true None)))) as [c' [H1 H2]].
  exists c'. split; [exact H1|exact H2].
Qed.

Theorem ensure_ws_literal : forall c, c_init c = false ->
  all_literal (input_values (wf_input (c_spec c)) (c_inputs c)) = true ->
  all_literal (wf_vars (c_spec c)) = true ->
  status_in (wstatus (c_ws c)) ABENDED_STATUSES = false ->
  exists c', ensure_ws ev c = (c', Val tt)
             /\ contexts (c_ws c') = app (contexts (c_ws c)) [init_ctx_of c].
Proof.
  intros c Hi Hin Hvars Hst. unfold ensure_ws.
  unfold bind at 1. unfold get at 1. cbv beta iota. rewrite Hi.
  unfold bind at 1. unfold modify at 1. cbv beta iota.
  rewrite (bind_step _ _ _ _ _ _ _ (render_input_literal _ _ _ _ _ Hin)). cbv beta iota.
  rewrite (bind_step _ _ _ _ _ _ _ (render_vars_literal _ _ _ _ _ Hvars)). cbv beta iota.
  simpl app. cbv beta iota.
  unfold bind at 1. unfold ret at 1. cbv beta iota.
  unfold bind at 1. unfold getws at 1. cbv beta iota.
  change (c_ws (set_init c true)) with (c_ws c). rewrite Hst.
  unfold bind at 1. unfold modws at 1. cbv beta iota.
  match goal with |- exists c', forM_ ?l ?f ?c1 = _ /\ _ =>
    destruct (stage_roots_contexts l c1) as [c' [H1 H2]] end.
  exists c'. split; [exact H1|]. rewrite H2. reflexivity.
Qed.

Theorem init_ctx_holds_input : forall c n v,
  NoDup (map fst (wf_input (c_spec c))) -> NoDup (keys (c_parent c)) ->
  In (n, v) (input_values (wf_input (c_spec c)) (c_inputs c)) ->
  ~ In n (map fst (wf_vars (c_spec c))) ->
  (is_jdict v = false \/ forall pv, dget n (c_parent c) = Some pv -> is_jdict pv = false) ->
  dget n (init_ctx_of c) = Some v.
Proof.
  intros c n v Hnd Hp Hin Hnv Hrep. unfold init_ctx_of. cbv zeta.
  rewrite dget_merge_dicts by (apply NoDup_keys_set_all; constructor).
  rewrite (dget_set_all_notin _ [] n Hnv). simpl.
  apply dget_merge_dicts_replace.
  - apply NoDup_keys_set_all; exact Hp.
  - apply dget_set_all; [rewrite input_values_names; exact Hnd|exact Hin].
  - exact Hrep.
Qed.

Lemma NoDup_keys_init_ctx : forall c, NoDup (keys (c_parent c)) -> NoDup (keys (init_ctx_of c)).
Proof.
  intros c H. unfold init_ctx_of. cbv zeta. apply NoDup_keys_merge_dicts. apply NoDup_keys_merge_dicts. exact H.
Qed.

End Literal.

Theorem task_context_of_initial : forall ctxs d, nth_error ctxs 0 = Some d -> NoDup (keys d) ->
  get_task_context_from ctxs [0] [] = Val d.
Proof.
  intros ctxs d H Hd. destruct ctxs as [|d' ctxs]; [discriminate|]. simpl in H; inversion H; subst d'.
  cbn [get_task_context_from nth_error]. rewrite (merge_dicts_nil_l d Hd). reflexivity.
Qed.

Theorem task_context_of_two : forall ctxs i d0 di, nth_error ctxs 0 = Some d0 -> nth_error ctxs i = Some di ->
  NoDup (keys d0) -> get_task_context_from ctxs [0; i] [] = Val (merge_dicts d0 di).
Proof.
  intros ctxs i d0 di H0 Hi Hd. destruct ctxs as [|d' ctxs]; [discriminate|]. simpl in H0; inversion H0; subst d'.
  unfold get_task_context_from. change (nth_error (d0 :: ctxs) 0) with (Some d0). cbv iota.
  rewrite (merge_dicts_nil_l d0 Hd). rewrite Hi. reflexivity.
Qed.

Theorem later_context_wins : forall ctxs i d0 di n v, nth_error ctxs 0 = Some d0 -> nth_error ctxs i = Some di ->
  NoDup (keys d0) -> NoDup (keys di) -> dget n di = Some v ->
  (is_jdict v = false \/ forall pv, dget n d0 = Some pv -> is_jdict pv = false) ->
  exists d, get_task_context_from ctxs [0; i] [] = Val d /\ dget n d = Some v.
Proof.
  intros ctxs i d0 di n v H0 Hi Hd0 Hdi Hn Hrep. exists (merge_dicts d0 di). split.
  - apply task_context_of_two; assumption.
  - apply dget_merge_dicts_replace; assumption.
Qed.

Theorem earlier_context_kept : forall ctxs i d0 di n, nth_error ctxs 0 = Some d0 -> nth_error ctxs i = Some di ->
  NoDup (keys d0) -> NoDup (keys di) -> dget n di = None ->
  exists d, get_task_context_from ctxs [0; i] [] = Val d /\ dget n d = dget n d0.
Proof.
  intros ctxs i d0 di n H0 Hi Hd0 Hdi Hn. exists (merge_dicts d0 di). split.
  - apply task_context_of_two; assumption.
  - rewrite dget_merge_dicts by exact Hdi. rewrite Hn. reflexivity.
Qed.

Definition task_eval_ctx (t : string) (route : nat) (res : option json) (ctx0 : dict) (w : wstate) : dict :=
  merge_dicts (dset "__current_task" (current_task_json t route res) ctx0) (state_ctx w).

Lemma NoDup_state_ctx : forall w, NoDup (keys (state_ctx w)).
Proof. intro w. simpl. constructor; [intros []|constructor]. Qed.

(* read [state_ctx] through this equation: simplifying it unfolds the encoding of the whole state *)
Lemma dget_state_ctx : forall k w,
  dget k (state_ctx w) = if String.eqb k "__state" then Some (enc_wstate w) else None.
Proof. reflexivity. Qed.

Theorem task_eval_ctx_internals : forall t route res ctx0 w,
  dget "__current_task" (task_eval_ctx t route res ctx0 w) = Some (current_task_json t route res)
  /\ dhas "__state" (task_eval_ctx t route res ctx0 w) = true.
Proof.
  intros t route res ctx0 w. unfold task_eval_ctx.
  rewrite dhas_dget, !dget_merge_dicts, !dget_state_ctx by apply NoDup_state_ctx. split.
  - apply dget_dset_same.
  - change (String.eqb "__state" "__state") with true. cbv iota. now destruct (dget "__state" _).
Qed.

Theorem task_eval_ctx_user : forall t route res ctx0 w k, k <> "__current_task" -> k <> "__state" ->
  dget k (task_eval_ctx t route res ctx0 w) = dget k ctx0.
Proof.
  intros t route res ctx0 w k H1 H2. unfold task_eval_ctx.
  rewrite dget_merge_dicts, dget_state_ctx, (proj2 (String.eqb_neq _ _) H2) by apply NoDup_state_ctx.
  apply dget_dset_other. exact H1.
Qed.

Lemma render_vars_names : forall specs rolling rendered errs c c' out errs',
  render_vars ev specs rolling rendered errs c = (c', Val (out, errs')) ->
  (forall k, In k (keys out) -> In k (keys rendered) \/ In k (map fst specs))
  /\ (forall k, In k (keys rendered) -> In k (keys out))
  /\ exists es, errs' = app errs es /\ (es = [] -> forall n, In n (map fst specs) -> In n (keys out)).
Proof.
  induction specs as [|[name expr] specs IH]; intros rolling rendered errs c c' out errs' H.
  - simpl in H. inversion H; subst. split; [intros k Hk; left; exact Hk|].
    split; [intros k Hk; exact Hk|]. exists []. rewrite app_nil_r. split; [reflexivity|intros _ n []].
  - simpl in H. unfold bind at 1 in H.
    destruct (try_catch_expr (x <- evaluate ev expr rolling;; ret (inl x)) (fun e : exn => ret (inr e)) c)
      as [c1 [[x|e]|e]] eqn:E; [| |discriminate].
    + apply IH in H. destruct H as [Ha [Hb [es [He Hc]]]].
      assert (Hname : In name (keys (dset name x rendered))).
      { apply (dget_some_in name _ x), dget_dset_same. }
      split; [|split].
      * intros k Hk. apply Ha in Hk. destruct Hk as [Hk|Hk]; [|right; right; exact Hk].
        rewrite keys_dset in Hk. destruct (dhas name rendered); [left; exact Hk|].
        apply in_app_or in Hk; destruct Hk as [Hk|[Hk|[]]]; [left; exact Hk|right; left; exact Hk].
      * intros k Hk. apply Hb. rewrite keys_dset. destruct (dhas name rendered); [exact Hk|].
        apply in_or_app; left; exact Hk.
      * exists es. split; [exact He|]. intros Hes n [Hn|Hn].
        -- simpl in Hn; subst n. apply Hb. exact Hname.
        -- apply Hc; assumption.
    + apply IH in H. destruct H as [Ha [Hb [es [He Hc]]]].
      split; [|split].
      * intros k Hk. apply Ha in Hk. destruct Hk as [Hk|Hk]; [left; exact Hk|right; right; exact Hk].
      * exact Hb.
      * exists (e :: es). split; [rewrite He, <- app_assoc; reflexivity|discriminate].
Qed.

Theorem published_names : forall specs rolling c c' out errs,
  render_vars ev specs rolling [] [] c = (c', Val (out, errs)) ->
  (forall k, In k (keys out) -> In k (map fst specs))
  /\ (errs = [] -> forall n, In n (map fst specs) -> In n (keys out)).
Proof.
  intros specs rolling c c' out errs H. apply render_vars_names in H.
  destruct H as [Ha [_ [es [He Hc]]]]. split.
  - intros k Hk. destruct (Ha k Hk) as [[]|Hx]; exact Hx.
  - intro Hn. apply Hc. simpl in He. subst; reflexivity.
Qed.

Theorem finalize_context_names : forall ts e in_ctx c c' new_ctx errs,
  finalize_context ev ts e in_ctx c = (c', Val (new_ctx, errs)) ->
  forall k, In k (keys new_ctx) ->
  exists tr, nth_error (ts_next ts) (e_ref e) = Some tr /\ In k (map fst (tr_publish tr)).
Proof.
  intros ts e in_ctx c c' new_ctx errs H k Hk. unfold finalize_context in H.
  destruct (nth_error (ts_next ts) (e_ref e)) as [tr|] eqn:En; [|discriminate].
  exists tr. split; [reflexivity|].
  destruct (string_in (e_dst e) (tr_do tr)).
  - apply published_names in H. destruct H as [Ha _]. apply Ha; exact Hk.
  - inversion H; subst. destruct Hk.
Qed.

Corollary no_dunder_published : forall ts e in_ctx c c' new_ctx errs,
  finalize_context ev ts e in_ctx c = (c', Val (new_ctx, errs)) ->
  (forall tr, nth_error (ts_next ts) (e_ref e) = Some tr ->
              forallb (fun n => negb (is_dunder n)) (map fst (tr_publish tr)) = true) ->
  forallb (fun n => negb (is_dunder n)) (keys new_ctx) = true.
Proof.
  intros ts e in_ctx c c' new_ctx errs H Hp. apply forallb_forall. intros k Hk.
  destruct (finalize_context_names _ _ _ _ _ _ _ H k Hk) as [tr [Hn Hin]].
  specialize (Hp tr Hn). rewrite forallb_forall in Hp. apply Hp; exact Hin.
Qed.

Ltac step H :=
  unfold bind at 1 in H;
  lazymatch type of H with
  | (let (_, _) := ?m ?c in _) = _ =>
      let a := fresh "a" in destruct (m c) as [? [a|?]] eqn:?; [|discriminate H]
  end.

(* the first statement of get_task / next_task_for: the inbound context of the staged entry *)
Definition inbound_ctx_M (s : stg) (c : cstate) : M dict :=
  match get_staged_task (c_ws c) (s_id s) (s_route s) with
  | Some s' => get_task_context (s_in s')
  | None => match ws_task_entry (c_ws c) (s_id s) (s_route s) with
            | Some r => get_task_context (r_in r)
            | None => match nth_error (contexts (c_ws c)) 0 with
                      | Some d => ret d
                      | None => raise exn_index
                      end
            end
  end.

Theorem next_task_for_ctx : forall s c c' o, next_task_for ev s c = (c', Val (Some o)) ->
  exists c0 ctx0, inbound_ctx_M s c c = (c0, Val ctx0)
                  /\ o_ctx o = task_eval_ctx (s_id s) (s_route s) None ctx0 (c_ws c).
Proof.
  intros s c c' o H. unfold next_task_for in H.
  unfold bind at 1, get at 1 in H. cbv beta iota in H.
  step H. exists c0, a. split; [exact Heqp|].
  fold (task_eval_ctx (s_id s) (s_route s) None a (c_ws c)) in H.
  set (tc := task_eval_ctx (s_id s) (s_route s) None a (c_ws c)) in *.
  step H. step H. step H.
  destruct (ts_with a0) as [its|].
  - step H. step H. step H. step H.
    match type of H with (let '(_, _) := ?p in _) _ = _ => destruct p as [acts conc'] end.
    unfold ret in H. destruct acts; [destruct (Datatypes.length a1)|]; inversion H; reflexivity.
  - unfold ret in H. destruct a1; inversion H; reflexivity.
Qed.

Lemma inbound_ctx_initial : forall s c s' d0,
  get_staged_task (c_ws c) (s_id s) (s_route s) = Some s' -> s_in s' = [0] ->
  nth_error (contexts (c_ws c)) 0 = Some d0 -> NoDup (keys d0) ->
  inbound_ctx_M s c c = (c, Val d0).
Proof.
  intros s c s' d0 Hs Hin H0 Hd. unfold inbound_ctx_M. rewrite Hs, Hin.
  unfold get_task_context, bind, getws. rewrite (task_context_of_initial _ _ H0 Hd). reflexivity.
Qed.

Theorem first_task_sees_initial : forall s c c' o s' d0 n,
  next_task_for ev s c = (c', Val (Some o)) ->
  get_staged_task (c_ws c) (s_id s) (s_route s) = Some s' -> s_in s' = [0] ->
  nth_error (contexts (c_ws c)) 0 = Some d0 -> NoDup (keys d0) ->
  n <> "__current_task" -> n <> "__state" ->
  dget n (o_ctx o) = dget n d0
  /\ dhas "__current_task" (o_ctx o) = true /\ dhas "__state" (o_ctx o) = true.
Proof.
  intros s c c' o s' d0 n H Hs Hin H0 Hd Hn1 Hn2.
  destruct (next_task_for_ctx s c c' o H) as [c0 [ctx0 [Hc Ho]]].
  rewrite (inbound_ctx_initial s c s' d0 Hs Hin H0 Hd) in Hc. inversion Hc; subst c0 ctx0.
  rewrite Ho. split; [apply task_eval_ctx_user; assumption|].
  destruct (task_eval_ctx_internals (s_id s) (s_route s) None d0 (c_ws c)) as [H1 H2].
  split; [|exact H2]. now rewrite dhas_dget, H1.
Qed.

Section LiteralOut.
Hypothesis Hev : ev_literal_ok ev.

Theorem render_output_literal : forall c tctx, c_init c = true ->
  status_in (wstatus (c_ws c)) COMPLETED_STATUSES = true -> c_output c = None ->
  get_workflow_terminal_context c = (c, Val tctx) ->
  all_literal (wf_output (c_spec c)) = true ->
  render_workflow_output ev c =
  (match set_all (wf_output (c_spec c)) [] with [] => c | o => set_output c (Some o) end, Val tt).
Proof.
  intros c tctx Hi Hst Hout Ht Hl. unfold render_workflow_output.
  rewrite (bind_step _ _ _ _ _ _ _ (ensure_ws_inited ev c Hi)).
  unfold bind at 1, get at 1. cbv beta iota. rewrite Hst, Hout. change (true && true) with true. cbv beta iota.
  rewrite (bind_step _ _ _ _ _ _ _ Ht).
  rewrite (bind_step _ _ _ _ _ _ _ (render_vars_literal Hev _ _ _ _ _ Hl)). cbv beta iota.
  destruct (set_all (wf_output (c_spec c)) []); reflexivity.
Qed.
End LiteralOut.

End DataPath.

Theorem input_reaches_first_task : forall ev, ev_literal_ok ev -> forall c n v,
  c_init c = false -> contexts (c_ws c) = [] ->
  all_literal (input_values (wf_input (c_spec c)) (c_inputs c)) = true ->
  all_literal (wf_vars (c_spec c)) = true ->
  status_in (wstatus (c_ws c)) ABENDED_STATUSES = false ->
  NoDup (map fst (wf_input (c_spec c))) -> NoDup (keys (c_parent c)) ->
  In (n, v) (input_values (wf_input (c_spec c)) (c_inputs c)) ->
  ~ In n (map fst (wf_vars (c_spec c))) ->
  (is_jdict v = false \/ forall pv, dget n (c_parent c) = Some pv -> is_jdict pv = false) ->
  n <> "__current_task" -> n <> "__state" ->
  exists c1, ensure_ws ev c = (c1, Val tt)
    /\ nth_error (contexts (c_ws c1)) 0 = Some (init_ctx_of c)
    /\ dget n (init_ctx_of c) = Some v
    /\ get_task_context_from (contexts (c_ws c1)) [0] [] = Val (init_ctx_of c)
    /\ forall s s' c2 o, get_staged_task (c_ws c1) (s_id s) (s_route s) = Some s' -> s_in s' = [0] ->
         next_task_for ev s c1 = (c2, Val (Some o)) -> dget n (o_ctx o) = Some v.
Proof.
  intros ev Hev c n v Hi Hc Hin Hvars Hst Hnd Hp Hnv Hnot Hrep Hn1 Hn2.
  destruct (ensure_ws_literal ev Hev c Hi Hin Hvars Hst) as [c1 [He Hctx]].
  rewrite Hc in Hctx. simpl in Hctx.
  assert (H0 : nth_error (contexts (c_ws c1)) 0 = Some (init_ctx_of c)) by (rewrite Hctx; reflexivity).
  pose proof (init_ctx_holds_input c n v Hnd Hp Hnv Hnot Hrep) as Hv.
  pose proof (NoDup_keys_init_ctx c Hp) as Hk.
  exists c1. split; [exact He|]. split; [exact H0|]. split; [exact Hv|].
  split; [apply task_context_of_initial; assumption|].
  intros s s' c2 o Hs Hsin Hn.
  destruct (first_task_sees_initial ev s c1 c2 o s' (init_ctx_of c) n Hn Hs Hsin H0 Hk Hn1 Hn2) as [Hd _].
  rewrite Hd. exact Hv.
Qed.

Module C16Examples.

(* ints beyond 2^64 / 2^128, strings that look like numbers, booleans, null, format directives,
   JSON text; nested containers; a float extreme (opaque hex text) *)
Definition zoo : json :=
  JDict [("big", JInt 340282366920938463463374607431768211457);
         ("neg", JInt (-18446744073709551617));
         ("s1", JStr "1"); ("st", JStr "true"); ("sn", JStr "null"); ("fmt", JStr "%s");
         ("js", JStr "{""a"": [1, 2]}");
         ("f", JFloat "0x1.fffffffffffffp+1023");
         ("nested", JList [JDict [("k", JList [JNull; JBool true; JStr "{0}"; JInt 18446744073709551616])];
                           JList []; JDict []; JStr "%(a)s"]);
         ("1", JInt 1)].

(* a toy oracle: literals are returned, "<% ctx().NAME %>" looks NAME up, anything else fails *)
Definition ev_toy (s : string) (ctx : dict) : evalres :=
  if no_expr s then EvOk (JStr s)
  else if String.prefix "<% ctx()." s then
    match dget (substring 9 (String.length s - 12) s) ctx with
    | Some v => EvOk v
    | None => EvErr {| x_cls := "YaqlEvaluationException"; x_msg := "unresolved"; x_expr := true |}
    end
  else EvErr {| x_cls := "YaqlEvaluationException"; x_msg := "unsupported"; x_expr := true |}.

Lemma ev_toy_ok : ev_literal_ok ev_toy.
Proof. intros s ctx H. unfold ev_toy. rewrite H. reflexivity. Qed.

Definition t1_spec : task_spec :=
  {| ts_action := JStr "core.echo"; ts_input := JDict [("x", JStr "<% ctx().v %>"); ("lit", zoo)];
     ts_with := None; ts_delay := JNull; ts_join := JNull;
     ts_next := [{| tr_when := JNull; tr_publish := [("p", zoo); ("q", JStr "<% ctx().v %>")]; tr_do := ["t2"] |}] |}.

Definition spec0 : wf_spec :=
  {| wf_input := [("v", JNull); ("d", zoo)]; wf_vars := [("lv", zoo)]; wf_output := [("o", zoo)];
     wf_tasks := [("t1", t1_spec)] |}.

Definition graph0 : graph :=
  {| g_nodes := [{| n_id := "t1"; n_barrier := JNull; n_splits := None; n_retry := JNull |}]; g_edges := [] |}.

Definition c0 : cstate :=
  {| c_spec := spec0; c_graph := graph0; c_inputs := [("v", zoo)]; c_parent := [];
     c_init := false; c_ws := empty_ws; c_errors := []; c_log := []; c_output := None |}.

Example ex_zoo_literal : literal zoo = true /\ no_expr "<% ctx().v %>" = false /\ no_expr "{{ ctx().v }}" = false.
Proof. vm_compute. repeat split. Qed.

Example ex_merge :
  merge_dicts [("w", JDict [("a", JInt 1); ("n", JDict [("x", JInt 1)])]); ("e", JDict [("k", JInt 1)]); ("s", zoo)]
              [("w", JDict [("b", JInt 2); ("n", JDict [("y", JInt 2)])]); ("e", JDict []); ("new", zoo); ("s", JStr "1")]
  = [("w", JDict [("a", JInt 1); ("n", JDict [("x", JInt 1); ("y", JInt 2)]); ("b", JInt 2)]);
     ("e", JDict [("k", JInt 1)]); ("s", JStr "1"); ("new", zoo)].
Proof. vm_compute. reflexivity. Qed.

Example ex_merge_replace : merge_json zoo (JStr "1") = JStr "1" /\ merge_json (JInt 1) zoo = zoo
                           /\ merge_json (JList [zoo]) (JList []) = JList [].
Proof. vm_compute. repeat split. Qed.

Example ex_evaluate_identity : evaluate ev_toy zoo [("v", JInt 0)] c0 = (c0, Val zoo).
Proof. vm_compute. reflexivity. Qed.

Example ex_evaluate_reference :
  evaluate ev_toy (JDict [("x", JStr "<% ctx().v %>"); ("l", JList [JStr "<% ctx().v %>"; JStr "%s"])]) [("v", zoo)] c0
  = (c0, Val (JDict [("x", zoo); ("l", JList [zoo; JStr "%s"])])).
Proof. vm_compute. reflexivity. Qed.

Example ex_input_stored :
  contexts (c_ws (fst (ensure_ws ev_toy c0))) = [[("v", zoo); ("d", zoo); ("lv", zoo)]]
  /\ init_ctx_of c0 = [("v", zoo); ("d", zoo); ("lv", zoo)].
Proof. vm_compute. split; reflexivity. Qed.

Example ex_task_context :
  get_task_context_from [[("v", zoo); ("w", JDict [("a", JInt 1)])]; [("p", zoo); ("w", JDict [("b", JInt 2)]); ("v", JStr "null")]] [0; 1] []
  = Val [("v", JStr "null"); ("w", JDict [("a", JInt 1); ("b", JInt 2)]); ("p", zoo)].
Proof. vm_compute. reflexivity. Qed.

(* the whole first leg on the model: boot, poll; the offered action input and context hold zoo *)
Example ex_first_offer :
  match (request_workflow_status ev_toy S_RUNNING ;;; get_next_tasks ev_toy) c0 with
  | (_, Val [o]) => (dget "v" (o_ctx o), map a_input (o_actions o),
                     dhas "__current_task" (o_ctx o), dhas "__state" (o_ctx o))
  | _ => (None, [], false, false)
  end = (Some zoo, [JDict [("x", zoo); ("lit", zoo)]], true, true).
Proof. vm_compute. reflexivity. Qed.

(* publish: the delta holds exactly the published names, values unchanged; a dunder name enters
   only because the publish names it *)
Example ex_publish :
  render_vars ev_toy [("p", zoo); ("q", JStr "<% ctx().v %>"); ("__mine", JStr "%s"); ("bad", JStr "<% ctx().nope %>")]
              [("v", zoo); ("__state", JDict [("status", JStr "running")])] [] [] c0
  = (c0, Val ([("p", zoo); ("q", zoo); ("__mine", JStr "%s")],
              [{| x_cls := "YaqlEvaluationException"; x_msg := "unresolved"; x_expr := true |}])).
Proof. vm_compute. reflexivity. Qed.

Example ex_finalize :
  finalize_context ev_toy t1_spec {| e_src := "t1"; e_dst := "t2"; e_key := 0; e_ref := 0; e_criteria := [] |}
                   [("v", zoo); ("__current_task", JNull); ("__state", JNull)] c0
  = (c0, Val ([("p", zoo); ("q", zoo)], [])).
Proof. vm_compute. reflexivity. Qed.

Definition c_done : cstate :=
  {| c_spec := spec0; c_graph := graph0; c_inputs := [("v", zoo)]; c_parent := [];
     c_init := true;
     c_ws := {| contexts := [[("v", zoo)]]; routes := [[]];
                sequence := [{| r_id := "t1"; r_route := 0; r_in := [0]; r_out := None; r_prev := [];
                                r_next := []; r_status := Some S_SUCCEEDED; r_term := true; r_retry := None |}];
                staged := []; wstatus := S_SUCCEEDED; tasks := [(("t1", 0), 0)]; reruns := [] |};
     c_errors := []; c_log := []; c_output := None |}.

Example ex_output : c_output (fst (render_workflow_output ev_toy c_done)) = Some [("o", zoo)].
Proof. vm_compute. reflexivity. Qed.

Example ex_task_eval_ctx :
  keys (task_eval_ctx "t1" 0 None [("v", zoo); ("w", JInt 1)] empty_ws) = ["v"; "w"; "__current_task"; "__state"]
  /\ dget "v" (task_eval_ctx "t1" 0 None [("v", zoo); ("w", JInt 1)] empty_ws) = Some zoo.
Proof. vm_compute. split; reflexivity. Qed.

End C16Examples.
