(* C19Proofs.v -- asking for next tasks: the answer is sorted by (task id, route) whatever order the
   staged entries are in; in every status in which nothing may be offered the call is the identity on the
   conductor state. *)
From Coq Require Import String List Bool ZArith Arith Lia Sorted.
From Orq Require Import GenStatuses GenEvents GenTables GenSpecMeta Base State Machines Codec Conductor Decode Api.
From Orq Require Import ListFacts StateFacts F_tables Hoare ValuePost C04Proofs C09C10Proofs.
Import ListNotations.
Open Scope monad_scope.

Definition offer_le (a b : offer) : Prop := offer_leb a b = true.

Lemma offer_leb_total : forall a b, offer_leb a b = true \/ offer_leb b a = true.
Proof.
  intros a b. unfold offer_leb. rewrite (String.eqb_sym (o_id b) (o_id a)).
  destruct (String.eqb (o_id a) (o_id b)).
  - destruct (Nat.leb (o_route a) (o_route b)) eqn:E; [left; reflexivity|right].
    apply Nat.leb_le. apply Nat.leb_gt in E. lia.
  - apply String.leb_total.
Qed.

Section WithEval.
Variable ev : string -> dict -> evalres.

Theorem offers_sorted : forall c c' l, get_next_tasks ev c = (c', Val l) -> Sorted offer_le l.
Proof.
  intros c c' l H. unfold get_next_tasks in H.
  apply bind_val_inv' in H; destruct H as [c1 [u [_ H]]].
  apply bind_val_inv' in H; destruct H as [c2 [w [_ H]]].
  cbv zeta in H.
  match type of H with (if ?b then _ else _) _ = _ => destruct b end.
  - inversion H; subst; constructor.
  - apply bind_val_inv' in H; destruct H as [c3 [rs [_ H]]].
    destruct (existsb snd rs).
    + apply bind_val_inv' in H; destruct H as [c4 [u4 [_ H]]]. inversion H; subst; constructor.
    + inversion H; subst. exact (sort_by_Sorted offer_leb offer_leb_total _).
Qed.

(* in the statuses in which nothing may be offered, asking is the identity: same (empty) answer, and
   the conductor state is exactly the one before -- so asking twice is asking once *)
Theorem query_is_identity_when_nothing_to_offer : forall c, c_init c = true ->
  In (wstatus (c_ws c)) [S_PAUSING; S_PAUSED; S_CANCELING; S_CANCELED; S_SUCCEEDED] ->
  get_next_tasks ev c = (c, Val []) /\
  (forall c1 r1, get_next_tasks ev c = (c1, r1) -> get_next_tasks ev c1 = (c1, r1)).
Proof.
  intros c Hi Hs.
  assert (E : get_next_tasks ev c = (c, Val [])).
  { simpl in Hs. destruct Hs as [Hs|[Hs|[Hs|[Hs|[Hs|[]]]]]].
    - apply (no_offers_when_held ev c Hi); simpl; auto.
    - apply (no_offers_when_held ev c Hi); simpl; auto.
    - apply (no_offers_when_held ev c Hi); simpl; auto.
    - apply (no_offers_when_held ev c Hi); simpl; auto.
    - apply (no_offers_when_done ev c Hi); simpl; auto. }
  split; [exact E|]. intros c1 r1 H. rewrite E in H. inversion H; subst. exact E.
Qed.

End WithEval.
