(* C09C10Proofs.v -- nothing is offered while pausing/paused/canceling/canceled; a cancel is never
   followed by succeeded; control requests change statuses only. *)
From Coq Require Import String List Bool ZArith Arith Lia.
From Orq Require Import GenStatuses GenEvents GenTables GenSpecMeta Base State Machines Codec Conductor Decode Api.
From Orq Require Import F_tables ListFacts Hoare Frame StatusReach C04Proofs.
Import ListNotations.
Open Scope string_scope.
Open Scope monad_scope.

Section WithEval.
Variable ev : string -> dict -> evalres.

Theorem no_offers_when_held : forall c, c_init c = true ->
  In (wstatus (c_ws c)) [S_PAUSING; S_PAUSED; S_CANCELING; S_CANCELED] -> get_next_tasks ev c = (c, Val []).
Proof.
  intros c Hi Hs. apply no_offers; [exact Hi| |]; destruct Hs as [Hs|[Hs|[Hs|[Hs|[]]]]]; rewrite <- Hs; reflexivity.
Qed.

(* after canceling/canceled, whatever happens next (no rerun), the status stays in the cancel class
   or becomes failed; in particular it is never succeeded, running, pausing, paused or resuming *)
Theorem cancel_is_closed : forall ops c, forallb (fun op => negb (is_rerun op)) ops = true ->
  In (wstatus (c_ws c)) [S_CANCELING; S_CANCELED] ->
  In (wstatus (c_ws (run_ops ev ops c))) [S_CANCELING; S_CANCELED; S_FAILED].
Proof.
  intros ops c H Hs. pose proof (run_ops_reach ev ops c H) as R.
  eapply reach_cancel_closed; [|exact R]. simpl in *; tauto.
Qed.

Corollary cancel_never_succeeds : forall ops c, forallb (fun op => negb (is_rerun op)) ops = true ->
  In (wstatus (c_ws c)) [S_CANCELING; S_CANCELED] -> wstatus (c_ws (run_ops ev ops c)) <> S_SUCCEEDED.
Proof.
  intros ops c H Hs E. pose proof (cancel_is_closed ops c H Hs) as P. rewrite E in P.
  simpl in P; intuition discriminate.
Qed.

(* so nothing is offered after a cancel unless the workflow has meanwhile become failed with
   clean-up tasks listed beside a fail command *)
Corollary no_offers_after_cancel : forall ops c, forallb (fun op => negb (is_rerun op)) ops = true ->
  c_init (run_ops ev ops c) = true ->
  In (wstatus (c_ws c)) [S_CANCELING; S_CANCELED] ->
  wstatus (c_ws (run_ops ev ops c)) <> S_FAILED ->
  get_next_tasks ev (run_ops ev ops c) = (run_ops ev ops c, Val []).
Proof.
  intros ops c H Hi Hs Hnf. apply no_offers_when_held; [exact Hi|].
  pose proof (cancel_is_closed ops c H Hs) as P. simpl in *. intuition congruence.
Qed.

Definition rec_same_but_status (r r' : trec) : Prop :=
  r_id r' = r_id r /\ r_route r' = r_route r /\ r_in r' = r_in r /\ r_out r' = r_out r /\
  r_prev r' = r_prev r /\ r_next r' = r_next r /\ r_term r' = r_term r /\ r_retry r' = r_retry r.

Definition Rctl (c c' : cstate) : Prop :=
  contexts (c_ws c') = contexts (c_ws c) /\ routes (c_ws c') = routes (c_ws c) /\
  staged (c_ws c') = staged (c_ws c) /\ tasks (c_ws c') = tasks (c_ws c) /\
  reruns (c_ws c') = reruns (c_ws c) /\ c_output c' = c_output c /\
  Forall2 rec_same_but_status (sequence (c_ws c)) (sequence (c_ws c')).

Lemma rsbs_refl : forall r, rec_same_but_status r r.
Proof. intro; repeat split. Qed.
Lemma rsbs_trans : forall a b c, rec_same_but_status a b -> rec_same_but_status b c -> rec_same_but_status a c.
Proof. intros a b c H1 H2; unfold rec_same_but_status in *; intuition congruence. Qed.

Lemma Rctl_refl : forall c, Rctl c c.
Proof. intro; unfold Rctl; repeat split; auto. apply Forall2_refl; apply rsbs_refl. Qed.
Lemma Rctl_trans : forall a b c, Rctl a b -> Rctl b c -> Rctl a c.
Proof.
  unfold Rctl; intros a b c [A1 [A2 [A3 [A4 [A5 [A6 A7]]]]]] [B1 [B2 [B3 [B4 [B5 [B6 B7]]]]]].
  repeat split; try congruence. eapply Forall2_trans; [apply rsbs_trans|eauto|eauto].
Qed.

Lemma Forall2_set_nth : forall l i r f, nth_error l i = Some r -> rec_same_but_status r (f r) ->
  Forall2 rec_same_but_status l (list_set_nth i (f r) l).
Proof.
  induction l as [|a l IH]; intros [|i] r f H Hf; simpl in *; try discriminate.
  - inversion H; subst. constructor; [exact Hf|apply Forall2_refl; apply rsbs_refl].
  - constructor; [apply rsbs_refl|apply IH; assumption].
Qed.

Lemma Rctl_set_rec_status : forall c i s, Rctl c (set_ws c (ws_update_rec (c_ws c) i (fun r => r_set_status r s))).
Proof.
  intros c i s; unfold Rctl, ws_update_rec.
  destruct (nth_error (sequence (c_ws c)) i) as [r|] eqn:E; simpl; repeat split; auto.
  - apply (Forall2_set_nth _ _ r (fun r => r_set_status r s)); [exact E|repeat split].
  - apply Forall2_refl; apply rsbs_refl.
Qed.

Lemma pctl_wf_workflow_event : forall st, preserves Rctl (wf_workflow_event_M st).
Proof.
  apply (preserves_wf_workflow_event Rctl Rctl_refl (fun c s => Rctl_refl c)).
Qed.
Lemma pctl_log_entry_error : forall m t r tr res, preserves Rctl (log_entry_error m t r tr res).
Proof.
  intros; apply (preserves_modify Rctl); intro c; cbv zeta. destruct (existsb _ _); exact (Rctl_refl c).
Qed.
Lemma pctl_log_error : forall e t r tr, preserves Rctl (log_error e t r tr).
Proof. intros; unfold log_error; apply pctl_log_entry_error. Qed.
Lemma pctl_set_rec_status : forall i s, preserves Rctl (set_rec_status i s).
Proof. intros; apply (preserves_modws Rctl); intro; apply Rctl_set_rec_status. Qed.

Lemma pctl_request_status_core : forall st, preserves Rctl (request_status_core st).
Proof.
  intros; apply (frame_request_status_core Rctl Rctl_refl Rctl_trans);
    [exact pctl_log_entry_error|exact pctl_set_rec_status|exact pctl_wf_workflow_event].
Qed.

(* a status request on an initialised conductor: contexts, routes, staged entries, the pointer map,
   reruns, output and every field of every record except its status are untouched -- also when
   the request is rejected *)
Theorem control_request_frame : forall st c c' r, c_init c = true ->
  request_workflow_status ev st c = (c', r) -> Rctl c c'.
Proof.
  intros st c c' r Hi H. unfold request_workflow_status, bind in H.
  rewrite (ensure_ws_inited ev c Hi) in H. eapply pctl_request_status_core; exact H.
Qed.

Lemma wf_task_event_name_is_task_event : forall g w t route st,
  starts_with "task_" (wf_task_event_name g w t route st) = true.
Proof.
  intros. unfold wf_task_event_name, task_event_name_of, starts_with, TASK_EVENT_PREFIX, EV_TASK_REMEDIATED.
  change "task_remediated" with ("task_" ++ "remediated")%string.
  repeat match goal with |- context [if ?b then _ else _] => destruct b end;
    repeat rewrite app_assoc_s; apply prefix_app.
Qed.

Theorem task_event_while_pausing : forall t route st c c' r,
  wstatus (c_ws c) = S_PAUSING -> wf_task_event_M t route st c = (c', r) ->
  In (wstatus (c_ws c')) [S_PAUSING; S_PAUSED; S_FAILED; S_CANCELING; S_CANCELED].
Proof.
  intros t route st c c' r Hs H. apply wf_task_event_M_inv in H.
  destruct (wf_process_task_event (c_graph c) (c_ws c) t route st) as [[new unr]|e] eqn:E; destruct H as [-> _];
    [|rewrite Hs; simpl; auto].
  destruct (wf_process_task_event_val _ _ _ _ _ _ _ E) as [_ [_ Hv]]. rewrite Hs in Hv. simpl.
  destruct (tbl_step wf_table S_PAUSING _) as [n|] eqn:St; [|destruct Hv as [-> _]; simpl; auto].
  pose proof (F_wf_pausing_task_closed _ _ (wf_task_event_name_is_task_event _ _ _ _ _) St) as Hn.
  destruct (status_in n COMPLETED_STATUSES && _); [|destruct Hv as [-> _]; exact Hn].
  unfold fail_on_unreachable in Hv. destruct (get_unreachable_barriers _ _); inversion Hv; subst; [exact Hn|simpl; auto].
Qed.

End WithEval.
