(* OffersProofs.v -- what get_next_tasks may offer: only ready, not-completed staged entries (C01);
   with-items actions within the concurrency window, unset items only, in index order (C12); a
   re-offered retry carries the configured retry delay (C13). *)
From Coq Require Import String List Bool ZArith Arith Lia.
From Orq Require Import GenStatuses GenEvents GenTables GenSpecMeta Base State Machines Codec Conductor Decode Api.
From Orq Require Import F_tables Hoare ValuePost C04Proofs ListFacts.
Import ListNotations.
Open Scope monad_scope.

Section WithEval.
Variable ev : string -> dict -> evalres.

Definition offer_of (s : stg) (r : option offer) : Prop :=
  forall o, r = Some o -> o_id o = s_id s /\ o_route o = s_route s.

Lemma next_task_for_id : forall s, vpost (offer_of s) (next_task_for ev s).
Proof.
  intro s. unfold next_task_for.
  vw ltac:(intros o H;
           repeat match goal with H : context [match ?x with _ => _ end] |- _ => destruct x end;
           first [discriminate | inversion H; subst; simpl; auto]).
Qed.

Definition offers_from (todo : list stg) (l : list offer) : Prop :=
  forall o, In o l -> exists s, In s todo /\ o_id o = s_id s /\ o_route o = s_route s.

Lemma Forall2_offers : forall todo (rs : list (option offer * bool)),
  Forall2 (fun s (r : option offer * bool) => offer_of s (fst r)) todo rs ->
  offers_from todo (flat_map (fun '(o, _) => match o with Some x => [x] | None => [] end) rs).
Proof.
  intros todo rs H; induction H as [|s [o b] todo rs Hs Hr IH]; intros x Hx; simpl in Hx; [contradiction|].
  apply in_app_or in Hx; destruct Hx as [Hx|Hx].
  - destruct o as [o|]; simpl in Hx; [|contradiction]. destruct Hx as [Hx|[]]; subst.
    exists s; split; [left; reflexivity|]. apply (Hs x); reflexivity.
  - destruct (IH x Hx) as [s' [Hin Hs']]. exists s'; split; [right; exact Hin|exact Hs'].
Qed.

Theorem offers_are_staged : forall c c' l, c_init c = true -> get_next_tasks ev c = (c', Val l) ->
  forall o, In o l -> exists s, In s (staged (c_ws c)) /\ s_ready s = true /\ s_completed s = false /\
                                o_id o = s_id s /\ o_route o = s_route s.
Proof.
  intros c c' l Hi H o Ho.
  unfold get_next_tasks, bind in H. rewrite (ensure_ws_inited ev c Hi) in H.
  unfold getws in H. cbv beta iota in H.
  set (w := c_ws c) in *.
  set (staged_tasks := staged_filtered w) in *.
  set (remediation := if status_eqb (wstatus w) S_FAILED then filter s_run_on_fail staged_tasks else []) in *.
  destruct (negb (status_in (wstatus w) RUNNING_STATUSES) && match remediation with [] => true | _ => false end).
  { inversion H; subst; contradiction. }
  set (todo := match remediation with [] => staged_tasks | _ => remediation end) in *.
  (* every element of todo is a ready, not-completed staged entry *)
  assert (Htodo : forall s, In s todo -> In s (staged w) /\ s_ready s = true /\ s_completed s = false).
  { intros s Hs. assert (Hsf : In s staged_tasks).
    { unfold todo in Hs. destruct remediation as [|r rem] eqn:Er; [exact Hs|].
      unfold remediation in Er. destruct (status_eqb (wstatus w) S_FAILED); [|discriminate].
      rewrite <- Er in Hs. apply filter_In in Hs; tauto. }
    unfold staged_tasks, staged_filtered in Hsf. apply filter_In in Hsf. destruct Hsf as [Hin Hb].
    apply andb_prop in Hb; destruct Hb as [Hr Hc]. apply negb_true_iff in Hc. tauto. }
  match type of H with
  | (match ?m c with _ => _ end) = _ => destruct (m c) as [c1 [rs|e]] eqn:Em
  end; [|inversion H].
  assert (Hrs : Forall2 (fun s (r : option offer * bool) => offer_of s (fst r)) todo rs).
  { eapply (vpost_mapM _ _ (fun s (r : option offer * bool) => offer_of s (fst r))); [|exact Em].
    intro s. apply vpost_try_catch.
    - apply (vpost_bind_strong _ _ (offer_of s)); [apply next_task_for_id|intros r Hr].
      apply vpost_ret; exact Hr.
    - intro e. apply vpost_bind; intro. apply vpost_ret. intros o' Ho'; discriminate. }
  destruct (existsb snd rs).
  - (* a rendering error: nothing is returned *)
    unfold bind in H. destruct (request_status_core S_FAILED c1) as [c2 [u|e]]; inversion H; subst; contradiction.
  - inversion H; subst. apply in_sort_by in Ho.
    destruct (Forall2_offers _ _ Hrs o Ho) as [s [Hin [Hid Hrt]]].
    destruct (Htodo s Hin) as [H1 [H2 H3]]. exists s; tauto.
Qed.

(* with a concurrency k (<= 0 counts as 1): offered + already active <= k, whenever anything is offered *)
Theorem window_respected : forall A conc (items : list (A * status)) acts conc',
  choose_items conc items = Val (acts, conc') -> py_is_int conc = true -> acts <> [] ->
  (Z.of_nat (length acts) + Z.of_nat (items_nactive items) <= effective_concurrency conc)%Z.
Proof.
  intros A conc items acts conc' H Hint Hne. unfold choose_items in H.
  destruct conc; simpl in Hint; try discriminate; inversion H; subst; clear H.
  - destruct (Z.ltb 0 (effective_concurrency (JBool b) - Z.of_nat (items_nactive items))) eqn:E; [|congruence].
    apply Z.ltb_lt in E. rewrite map_length.
    pose proof (firstn_le_length (Z.to_nat (effective_concurrency (JBool b) - Z.of_nat (items_nactive items)))
                                 (items_notrun items)). lia.
  - destruct (Z.ltb 0 (effective_concurrency (JInt z) - Z.of_nat (items_nactive items))) eqn:E; [|congruence].
    apply Z.ltb_lt in E. rewrite map_length.
    pose proof (firstn_le_length (Z.to_nat (effective_concurrency (JInt z) - Z.of_nat (items_nactive items)))
                                 (items_notrun items)). lia.
Qed.

(* what is offered is a prefix (in item order) of the items that have not run: never an item that is
   active or finished, never out of order, never twice in one offer *)
Theorem offered_items_are_first_unset : forall A conc (items : list (A * status)) acts conc',
  choose_items conc items = Val (acts, conc') ->
  exists n, acts = map fst (firstn n (items_notrun items)).
Proof.
  intros A conc items acts conc' H. unfold choose_items in H.
  destruct conc; inversion H; subst; clear H.
  - exists (length (items_notrun items)). rewrite firstn_all; reflexivity.
  - destruct (Z.ltb 0 _); [eexists; reflexivity|exists 0; reflexivity].
  - destruct (Z.ltb 0 _); [eexists; reflexivity|exists 0; reflexivity].
Qed.

Lemma items_notrun_unset : forall A (items : list (A * status)) a st,
  In (a, st) (items_notrun items) -> st = S_UNSET /\ In (a, st) items.
Proof.
  intros A items a st H. unfold items_notrun in H. apply filter_In in H. destruct H as [Hin Hb].
  apply status_eqb_eq in Hb. tauto.
Qed.

(* without a concurrency value every unset item is offered *)
Theorem no_concurrency_offers_all_unset : forall A (items : list (A * status)) acts conc',
  choose_items JNull items = Val (acts, conc') -> acts = map fst (items_notrun items).
Proof. intros A items acts conc' H; inversion H; reflexivity. Qed.

(* a full window offers nothing *)
Theorem full_window_offers_nothing : forall A conc (items : list (A * status)) acts conc',
  choose_items conc items = Val (acts, conc') -> py_is_int conc = true ->
  (effective_concurrency conc <= Z.of_nat (items_nactive items))%Z -> acts = [].
Proof.
  intros A conc items acts conc' H Hint Hfull. unfold choose_items in H.
  destruct conc; simpl in Hint; try discriminate; inversion H; subst; clear H.
  - destruct (Z.ltb 0 _) eqn:E; [apply Z.ltb_lt in E; lia|reflexivity].
  - destruct (Z.ltb 0 _) eqn:E; [apply Z.ltb_lt in E; lia|reflexivity].
Qed.

Definition retry_delay_of (s : stg) (r : option offer) : Prop :=
  forall o rr, r = Some o -> s_retry s = Some rr ->
    o_delay o = Some (match rr_delay rr with Some d => if truthy d then d else JInt 0 | None => JInt 0 end).

Lemma next_task_for_retry_delay : forall s, vpost (retry_delay_of s) (next_task_for ev s).
Proof.
  intro s. unfold next_task_for.
  vw ltac:(intros o rr H Hr; try rewrite Hr in H;
           repeat match goal with H : context [match ?x with _ => _ end] |- _ => destruct x end;
           first [discriminate | inversion H; subst; simpl; try rewrite Hr; try reflexivity; congruence]).
Qed.

End WithEval.
