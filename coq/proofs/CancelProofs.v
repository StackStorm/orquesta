(* CancelProofs.v -- C10, the two clauses that were only tested.
   (a) a canceling / canceled workflow is not turned into failed by the engine's own bookkeeping: in the canceling
       row of the workflow table the only entry that leads to failed is the failure request "workflow_failed";
       every task event and every other workflow request keeps the workflow canceling or canceled, without running
       the unreachable-join check (no join is reported).  Over a whole API call: the workflow is failed afterwards
       only if the call is an explicit failure request or an exception was logged by a handler that then asked for
       the failure (C11b).
   (b) the output: what render_workflow_output evaluates the output expressions against is a pure function of the
       records flagged terminal; a status request never flags a record, so a workflow completed by a cancel request
       with nothing in flight renders from the empty context (finding D5a). *)
From Coq Require Import String List Bool ZArith Arith Lia.
From Orq Require Import GenStatuses GenEvents GenTables GenSpecMeta Base State Machines Codec Conductor Decode Api.
From Orq Require Import F_tables Hoare Frame ValuePost StatusReach C04Proofs C05Proofs C02C03Proofs InertProofs RetryProofs RecordedProofs StateFacts.
Import ListNotations.
Open Scope string_scope.
Open Scope monad_scope.

Definition cancel_class (c : cstate) : Prop := wstatus (c_ws c) = S_CANCELING \/ wstatus (c_ws c) = S_CANCELED.

Lemma F_canceling_to_failed : forall e, tbl_step wf_table S_CANCELING e = Some S_FAILED -> e = "workflow_failed".
Proof.
  intros e H.
  assert (T : table_forall wf_table (fun s e t => negb (status_eqb s S_CANCELING) || negb (status_eqb t S_FAILED)
                                                  || String.eqb e "workflow_failed") = true) by (vm_compute; reflexivity).
  pose proof (table_forall_step _ _ T _ _ _ H) as P; cbv beta in P. simpl in P. apply String.eqb_eq; exact P.
Qed.

Lemma F_cancel_class_step : forall s e t, s = S_CANCELING \/ s = S_CANCELED -> tbl_step wf_table s e = Some t ->
  t = S_CANCELING \/ t = S_CANCELED \/ (t = S_FAILED /\ e = "workflow_failed").
Proof.
  intros s e t [-> | ->] H.
  - destruct (F_wf_cancel_closed S_CANCELING e t (or_introl eq_refl) H) as [<- | [<- | [<- | []]]]; auto.
    right; right; split; [reflexivity|apply F_canceling_to_failed; exact H].
  - rewrite F_wf_canceled_final in H. discriminate.
Qed.

Lemma task_event_not_failure_request : forall n, string_in n TASK_EXECUTION_EVENTS = true -> n <> "workflow_failed".
Proof.
  intros n H E. subst n. vm_compute in H. discriminate.
Qed.

(* a task event on a canceling / canceled workflow: canceling or canceled afterwards, and no join is reported
   (the unreachable-join check is not even run: it runs for completed statuses other than canceled) *)
Lemma task_event_keeps_cancel : forall t route st c c' unr, cancel_class c ->
  wf_task_event_M t route st c = (c', Val unr) -> cancel_class c' /\ unr = [].
Proof.
  intros t route st c c' unr Hc H. apply wf_task_event_M_inv in H.
  destruct (wf_process_task_event (c_graph c) (c_ws c) t route st) as [[new u]|e] eqn:E; destruct H as [-> H];
    inversion H; subst u; clear H.
  destruct (wf_process_task_event_val _ _ _ _ _ _ _ E) as [Ev [_ Hv]].
  destruct (tbl_step wf_table _ _) as [n|] eqn:St.
  - destruct (F_cancel_class_step _ _ _ Hc St) as [Hn|[Hn|[_ Hn]]]; [| |exfalso; exact (task_event_not_failure_request _ Ev Hn)];
      subst n; simpl in Hv; destruct Hv as [-> ->]; split; try reflexivity; unfold cancel_class; simpl; auto.
  - destruct Hv as [-> ->]. split; [|reflexivity]. unfold cancel_class in *; simpl. exact Hc.
Qed.

Lemma workflow_event_keeps_cancel : forall st c c' unr, cancel_class c ->
  wf_workflow_event_M st c = (c', Val unr) ->
  unr = [] /\ (cancel_class c' \/ (wstatus (c_ws c') = S_FAILED /\ st = S_FAILED)).
Proof.
  intros st c c' unr Hc H. apply wf_workflow_event_M_inv in H.
  destruct (wf_process_workflow_event (c_graph c) (c_ws c) st) as [[new u]|e] eqn:E; destruct H as [-> H];
    inversion H; subst u; clear H.
  destruct (wf_process_workflow_event_val _ _ _ _ _ E) as [_ [_ Hv]].
  destruct (tbl_step wf_table _ _) as [n|] eqn:St;
    [|destruct Hv as [-> ->]; split; [reflexivity|left; unfold cancel_class in *; simpl; exact Hc]].
  assert (Hns : status_eqb n S_SUCCEEDED = false).
  { destruct (F_cancel_class_step _ _ _ Hc St) as [->|[->|[-> _]]]; reflexivity. }
  rewrite Hns, andb_false_r in Hv. destruct Hv as [-> ->]. split; [reflexivity|]. simpl.
  destruct (F_cancel_class_step _ _ _ Hc St) as [->|[->|[-> Hn]]]; [left; left; reflexivity|left; right; reflexivity|right].
  split; [reflexivity|].
  (* the name "workflow_failed" is built from the status failed only *)
  unfold wf_workflow_event_name in Hn. destruct st; try reflexivity; exfalso; revert Hn; simpl;
    repeat match goal with |- context [if ?b then _ else _] => destruct b end; discriminate.
Qed.

(* an exception was logged by a handler (the entry may have been in the log already: equal entries are dropped) *)
Definition logged (c : cstate) : Prop := exists e t r tr, recorded c (entry_of e t r tr).

Definition Rcn (c c' : cstate) : Prop :=
  Rst c c' /\ (exists l, c_errors c' = app (c_errors c) l) /\
  (cancel_class c -> wstatus (c_ws c') = S_FAILED -> logged c').

Lemma Rcn_refl : forall c, Rcn c c.
Proof.
  intro c. split; [apply Rst_refl|]. split; [exists []; rewrite app_nil_r; reflexivity|].
  intros [H|H] F; rewrite H in F; discriminate.
Qed.

Lemma logged_prefix : forall c c' l, c_errors c' = app (c_errors c) l -> logged c -> logged c'.
Proof.
  intros c c' l E [e [t [r [tr H]]]]. exists e, t, r, tr. unfold recorded in *. rewrite E, existsb_app, H. reflexivity.
Qed.

Lemma Rcn_trans : forall a b c, Rcn a b -> Rcn b c -> Rcn a c.
Proof.
  intros a b c [R1 [[l1 E1] S1]] [R2 [[l2 E2] S2]]. split; [eapply Rst_trans; eassumption|].
  split; [exists (app l1 l2); rewrite E2, E1, app_assoc; reflexivity|]. intros Ha Hf.
  assert (Hb : In (wstatus (c_ws b)) [S_CANCELING; S_CANCELED; S_FAILED]).
  { eapply reach_cancel_closed; [|exact R1]. destruct Ha as [Ha|Ha]; rewrite Ha; simpl; auto. }
  destruct Hb as [Hb|[Hb|[Hb|[]]]].
  - apply S2; [left; symmetry; exact Hb|exact Hf].
  - apply S2; [right; symmetry; exact Hb|exact Hf].
  - eapply logged_prefix; [exact E2|]. apply S1; [exact Ha|symmetry; exact Hb].
Qed.

Lemma Rcn_same : forall c c', wstatus (c_ws c') = wstatus (c_ws c) -> c_errors c' = c_errors c -> Rcn c c'.
Proof.
  intros c c' Hs He. split; [unfold Rst; rewrite Hs; apply wr_refl|]. split; [exists []; rewrite app_nil_r; exact He|].
  intros [H|H] F; rewrite Hs, H in F; discriminate.
Qed.

Lemma Rcn_logs : forall c c' l, c_ws c' = c_ws c -> c_errors c' = app (c_errors c) l -> Rcn c c'.
Proof.
  intros c c' l Hw He. split; [unfold Rst; rewrite Hw; apply wr_refl|]. split; [exists l; exact He|].
  intros [H|H] F; rewrite Hw, H in F; discriminate.
Qed.

(* the handler unit, for this relation: the exception is in the log when the request is made *)
Lemma unit_cn : forall A e t r tr (k : unit -> M A), (forall u, preserves Rcn (k u)) ->
  preserves Rcn (log_error e t r tr ;;; (u <- request_status_core S_FAILED ;; k u)).
Proof.
  intros A e t r tr k Hk c c' res H. destruct (log_error_spec e t r tr c) as [c1 [H1 [W1 [R1 E1]]]].
  unfold bind at 1 in H. rewrite H1 in H.
  assert (Pre : exists l, c_errors c1 = app (c_errors c) l)
    by (destruct E1 as [E1|E1]; [exists []; rewrite app_nil_r; exact E1|eexists; exact E1]).
  assert (Step : forall c2 r2, request_status_core S_FAILED c1 = (c2, r2) -> Rcn c c2).
  { intros c2 r2 H2. destruct (pben_request_status_core _ _ _ _ H2) as [l2 [E2 _]]. destruct Pre as [l E].
    split; [unfold Rst; rewrite <- W1; eapply pres_request_status_core; exact H2|].
    split; [exists (app l l2); rewrite E2, E, app_assoc; reflexivity|].
    intros _ _. exists e, t, r, tr. unfold recorded in *. rewrite E2, existsb_app, R1. reflexivity. }
  apply bind_inv in H. destruct H as [[c2 [u [E2 H]]]|[x [E2 ->]]].
  - eapply Rcn_trans; [eapply Step; exact E2|eapply Hk; exact H].
  - eapply Step; exact E2.
Qed.

Lemma unit_cn_errs : forall A e0 es t r tr (k : unit -> M A), (forall u, preserves Rcn (k u)) ->
  preserves Rcn (log_errors (e0 :: es) t r tr ;;; (u <- request_status_core S_FAILED ;; k u)).
Proof.
  intros A e0 es t r tr k Hk c c' res H. destruct (logs_only_log_errors (e0 :: es) t r tr c) as [c1 [l [H1 [W1 E1]]]].
  pose proof (log_errors_records _ _ _ _ _ _ _ H1 e0 (or_introl eq_refl)) as R1.
  unfold bind at 1 in H. rewrite H1 in H.
  assert (Step : forall c2 r2, request_status_core S_FAILED c1 = (c2, r2) -> Rcn c c2).
  { intros c2 r2 H2. destruct (pben_request_status_core _ _ _ _ H2) as [l2 [E2 _]].
    split; [unfold Rst; rewrite <- W1; eapply pres_request_status_core; exact H2|].
    split; [exists (app l l2); rewrite E2, E1, app_assoc; reflexivity|].
    intros _ _. exists e0, t, r, tr. unfold recorded in *. rewrite E2, existsb_app, R1. reflexivity. }
  apply bind_inv in H. destruct H as [[c2 [u [E2 H]]]|[x [E2 ->]]].
  - eapply Rcn_trans; [eapply Step; exact E2|eapply Hk; exact H].
  - eapply Step; exact E2.
Qed.

Lemma unit_cn_errs0 : forall e0 es t r tr,
  preserves Rcn (log_errors (e0 :: es) t r tr ;;; request_status_core S_FAILED).
Proof.
  intros e0 es t r tr c c' res H. destruct (logs_only_log_errors (e0 :: es) t r tr c) as [c1 [l [H1 [W1 E1]]]].
  pose proof (log_errors_records _ _ _ _ _ _ _ H1 e0 (or_introl eq_refl)) as R1.
  unfold bind at 1 in H. rewrite H1 in H. destruct (pben_request_status_core _ _ _ _ H) as [l2 [E2 _]].
  split; [unfold Rst; rewrite <- W1; eapply pres_request_status_core; exact H|].
  split; [exists (app l l2); rewrite E2, E1, app_assoc; reflexivity|].
  intros _ _. exists e0, t, r, tr. unfold recorded in *. rewrite E2, existsb_app, R1. reflexivity.
Qed.

Lemma Rcn_modws : forall f, (forall w, wstatus (f w) = wstatus w) -> preserves Rcn (modws f).
Proof. intros f Hf. apply (preserves_modws Rcn); intro c. apply Rcn_same; [simpl; apply Hf|reflexivity]. Qed.

Create HintDb prescn.

Section CancelCalls.
Variable ev : string -> dict -> evalres.

Lemma pcn_wf_task_event : forall t route st, preserves Rcn (wf_task_event_M t route st).
Proof.
  intros t route st c c' r H. split; [eapply pres_wf_task_event; exact H|].
  pose proof (wf_task_event_M_inv _ _ _ _ _ _ H) as Hi.
  assert (E : c_errors c' = c_errors c)
    by (destruct (wf_process_task_event _ _ _ _ _) as [[n u]|e]; destruct Hi as [-> _]; reflexivity).
  split; [exists []; rewrite app_nil_r; exact E|]. intros Hc Hf. exfalso.
  destruct r as [unr|x].
  - destruct (task_event_keeps_cancel _ _ _ _ _ _ Hc H) as [[Hk|Hk] _]; rewrite Hk in Hf; discriminate.
  - destruct (wf_process_task_event _ _ _ _ _) as [[n u]|e]; destruct Hi as [-> Hi]; [discriminate Hi|].
    destruct Hc as [Hc|Hc]; rewrite Hc in Hf; discriminate.
Qed.

Lemma pcn_wf_workflow_event : forall st, st <> S_FAILED -> preserves Rcn (wf_workflow_event_M st).
Proof.
  intros st Hst c c' r H. split; [eapply pres_wf_workflow_event; exact H|].
  pose proof (wf_workflow_event_M_inv _ _ _ _ H) as Hi.
  assert (E : c_errors c' = c_errors c)
    by (destruct (wf_process_workflow_event _ _ _) as [[n u]|e]; destruct Hi as [-> _]; reflexivity).
  split; [exists []; rewrite app_nil_r; exact E|]. intros Hc Hf. exfalso.
  destruct r as [unr|x].
  - destruct (workflow_event_keeps_cancel _ _ _ _ Hc H) as [_ [[Hk|Hk]|[_ Hk]]];
      [rewrite Hk in Hf; discriminate|rewrite Hk in Hf; discriminate|exact (Hst Hk)].
  - destruct (wf_process_workflow_event _ _ _) as [[n u]|e]; destruct Hi as [-> Hi]; [discriminate Hi|].
    destruct Hc as [Hc|Hc]; rewrite Hc in Hf; discriminate.
Qed.

Lemma pcn_log_entry_error : forall m t r tr res, preserves Rcn (log_entry_error m t r tr res).
Proof.
  intros m t r tr res c c' x H. unfold log_entry_error, modify in H. inversion H; subst c' x. cbv zeta.
  destruct (existsb _ (c_errors c)); [apply Rcn_refl|]. eapply Rcn_logs; reflexivity.
Qed.
Lemma pcn_log_unreachable : forall l, preserves Rcn (log_unreachable l).
Proof. intros; apply (frame_log_unreachable Rcn Rcn_refl Rcn_trans); exact pcn_log_entry_error. Qed.
Lemma pcn_set_rec_status : forall i s, preserves Rcn (set_rec_status i s).
Proof. intros; apply Rcn_modws; intro; apply wstatus_update_rec. Qed.
Lemma pcn_upd_rec : forall i f, preserves Rcn (upd_rec i f).
Proof. intros; apply Rcn_modws; intro; apply wstatus_update_rec. Qed.
Lemma pcn_init : preserves Rcn (modify (fun c => set_init c true)).
Proof. apply (preserves_modify Rcn); intro; apply Rcn_same; reflexivity. Qed.

Hint Resolve Rcn_modws wstatus_update_rec wstatus_remove_staged pcn_upd_rec pcn_set_rec_status pcn_wf_task_event pcn_init
  pcn_log_unreachable pcn_log_entry_error unit_cn unit_cn_errs unit_cn_errs0 : prescn.

Lemma pcn_request_status_core : forall st, st <> S_FAILED -> preserves Rcn (request_status_core st).
Proof.
  intros st Hst. pose proof (pcn_wf_workflow_event st Hst). unfold request_status_core.
  pw Rcn_refl Rcn_trans ltac:(auto with prescn).
Qed.

Lemma pcn_get_rec : forall i, preserves Rcn (get_rec i).
Proof. intros; apply (frame_get_rec Rcn Rcn_refl Rcn_trans). Qed.
Lemma pcn_render_input : forall specs rt rolling errs, preserves Rcn (render_input ev specs rt rolling errs).
Proof. intros; apply (frame_render_input ev Rcn Rcn_refl Rcn_trans). Qed.
Lemma pcn_render_vars : forall specs rolling rendered errs, preserves Rcn (render_vars ev specs rolling rendered errs).
Proof. intros; apply (frame_render_vars ev Rcn Rcn_refl Rcn_trans). Qed.
Lemma pcn_ensure_ws : preserves Rcn (ensure_ws ev).
Proof. apply (hframe_ensure_ws ev Rcn Rcn_refl Rcn_trans); auto with prescn. Qed.
Lemma pcn_get_task_context : forall idxs, preserves Rcn (get_task_context idxs).
Proof. intros; apply (frame_get_task_context Rcn Rcn_refl Rcn_trans). Qed.
Lemma pcn_setup_retry : forall t idxs, preserves Rcn (setup_retry ev t idxs).
Proof. intros; apply (frame_setup_retry ev Rcn Rcn_refl Rcn_trans). Qed.
Lemma pcn_add_task_state : forall t r i p, preserves Rcn (add_task_state ev t r i p).
Proof. intros; apply (hframe_add_task_state ev Rcn Rcn_refl Rcn_trans); auto with prescn. Qed.
Lemma pcn_evaluate_route : forall e r, preserves Rcn (evaluate_route e r).
Proof. intros; apply (frame_evaluate_route Rcn Rcn_refl Rcn_trans); auto with prescn. Qed.
Lemma pcn_evaluate_task_retry : forall r ctx, preserves Rcn (evaluate_task_retry ev r ctx).
Proof. intros; apply (frame_evaluate_task_retry ev Rcn Rcn_refl Rcn_trans). Qed.
Lemma pcn_finalize_context : forall ts e ctx, preserves Rcn (finalize_context ev ts e ctx).
Proof. intros; apply (frame_finalize_context ev Rcn Rcn_refl Rcn_trans). Qed.
Lemma pcn_process_transition : forall t route idx ts ctx e, preserves Rcn (process_transition ev t route idx ts ctx e).
Proof. intros; apply (hframe_process_transition ev Rcn Rcn_refl Rcn_trans); auto with prescn. Qed.
Lemma pcn_update_task_state : forall t route evt, preserves Rcn (update_task_state ev t route evt).
Proof. intros; apply (hframe_update_task_state ev Rcn Rcn_refl Rcn_trans); auto with prescn. Qed.

End CancelCalls.

Section CancelApi.
Variable ev : string -> dict -> evalres.

Lemma flagged_logged : forall todo (rs : list (option offer * bool)) c,
  Forall2 (fun s v => snd v = true ->
             exists cx c0 e, next_task_for ev s cx = (c0, Exc e) /\
                             recorded c (entry_of e (Some (s_id s)) (Some (s_route s)) None)) todo rs ->
  existsb snd rs = true -> logged c.
Proof.
  intros todo rs c H; induction H as [|s v todo rs Hv _ IH]; simpl; [discriminate|].
  intro Hx. apply orb_prop in Hx. destruct Hx as [Hx|Hx]; [|apply IH; exact Hx].
  destruct (Hv Hx) as [_ [_ [e [_ R]]]]. exists e, (Some (s_id s)), (Some (s_route s)), None. exact R.
Qed.

Lemma pcn_get_next_tasks : preserves Rcn (get_next_tasks ev).
Proof.
  intros c c' res H. unfold get_next_tasks in H.
  apply bind_inv in H. destruct H as [[c1 [u [E1 H]]]|[x [E1 ->]]]; [|eapply pcn_ensure_ws; exact E1].
  eapply Rcn_trans; [eapply pcn_ensure_ws; exact E1|]. clear E1 c. rename c1 into c.
  rewrite (bind_step _ _ _ _ _ _ _ (eq_refl : getws c = (c, Val (c_ws c)))) in H. cbv zeta in H.
  match type of H with (if ?b then _ else _) _ = _ => destruct b end; [inversion H; subst; apply Rcn_refl|].
  fold (gnt_elem ev) in H.
  match type of H with bind (mapM ?f ?todo) _ _ = _ => change f with (gnt_elem ev) in H; set (td := todo) in * end.
  apply bind_inv in H. destruct H as [[c1 [rs [E1 H]]]|[x [E1 ->]]].
  2: { destruct (gnt_loop_spec ev _ _ _ _ E1) as [rs [l [Hr _]]]. discriminate Hr. }
  destruct (gnt_loop_spec ev _ _ _ _ E1) as [rs' [l [Hr [W1 [El [Hn Hf]]]]]]. inversion Hr; subst rs'.
  assert (R1 : Rcn c c1).
  { split; [unfold Rst; rewrite W1; apply wr_refl|]. split; [exists l; exact El|].
    intros [Hc|Hc] F; rewrite W1, Hc in F; discriminate. }
  destruct (existsb snd rs) eqn:Ex; [|inversion H; subst; exact R1].
  pose proof (flagged_logged _ _ _ Hf Ex) as Lg.
  assert (Step : forall c2 r2, request_status_core S_FAILED c1 = (c2, r2) -> Rcn c1 c2).
  { intros c2 r2 H2. destruct (pben_request_status_core _ _ _ _ H2) as [l2 [E2 _]].
    split; [eapply pres_request_status_core; exact H2|]. split; [exists l2; exact E2|].
    intros _ _. eapply logged_prefix; [exact E2|exact Lg]. }
  eapply Rcn_trans; [exact R1|].
  apply bind_inv in H. destruct H as [[c2 [u2 [E2 H]]]|[x [E2 ->]]]; [inversion H; subst|]; eapply Step; exact E2.
Qed.

Lemma pcn_render_workflow_output : preserves Rcn (render_workflow_output ev).
Proof.
  unfold render_workflow_output. apply (preserves_bind _ Rcn_trans); [apply pcn_ensure_ws|intros _].
  intros c c' res H. destruct (render_output_core ev _ _ _ H) as [[R [l [E _]]] _].
  split; [exact R|]. split; [exists l; exact E|]. intros Hc Hf. exfalso. destruct Hc as [Hc|Hc].
  - rewrite (bind_step _ _ _ _ _ _ _ (eq_refl : get c = (c, Val c))) in H. cbv zeta in H. rewrite Hc in H.
    change (status_in S_CANCELING COMPLETED_STATUSES) with false in H. cbn [andb] in H. inversion H; subst. rewrite Hc in Hf; discriminate.
  - unfold Rst in R. rewrite Hc in R. apply reach_from_canceled in R. rewrite R in Hf. discriminate.
Qed.

Lemma pcn_persist : preserves Rcn (persist ev).
Proof. apply preserves_persist; [exact Rcn_trans|apply pcn_ensure_ws|intro; apply Rcn_same; reflexivity]. Qed.

(* (a) the exact list: a canceling / canceled workflow is failed after an API call only if the call is the explicit
   failure request, or an exception logged by a handler (which then asked for the failure) is in the log *)
Theorem canceled_failed_only_by : forall op c c' r, is_rerun op = false -> cancel_class c ->
  api_exec ev op c = (c', r) -> wstatus (c_ws c') = S_FAILED ->
  op = OpRequest S_FAILED \/ logged c'.
Proof.
  intros op c c' r Hop Hc H Hf.
  assert (G : forall (m : M unit) k, preserves Rcn m -> (m ;;; ret k) c = (c', r) -> logged c').
  { intros m k Pm Hm. apply bind_inv in Hm. destruct Hm as [[c1 [u1 [E1 Hm]]]|[x [E1 _]]];
      [inversion Hm; subst|]; destruct (Pm _ _ _ E1) as [_ [_ S]]; apply S; assumption. }
  destruct op; try discriminate; cbn [api_exec] in H.
  - right. apply (G _ _ (pcn_ensure_ws ev) H).
  - destruct (status_eqb st S_FAILED) eqn:Es; [left; apply status_eqb_eq in Es; subst; reflexivity|right].
    refine (G _ _ _ H). unfold request_workflow_status. apply (preserves_bind _ Rcn_trans); [apply pcn_ensure_ws|intros _].
    apply pcn_request_status_core. intro E; subst; discriminate.
  - right. apply bind_inv in H. destruct H as [[c1 [l1 [E1 H]]]|[x [E1 _]]];
      [inversion H; subst|]; destruct (pcn_get_next_tasks _ _ _ E1) as [_ [_ S]]; apply S; assumption.
  - right. exact (G _ _ (pcn_update_task_state ev t route e) H).
  - right. apply (G _ _ pcn_render_workflow_output H).
  - right. apply (G _ _ pcn_persist H).
Qed.

(* ... in particular, with no exception entry in the log, only the explicit request fails it *)
Corollary canceled_stays_unless_requested : forall op c c' r, is_rerun op = false -> cancel_class c ->
  api_exec ev op c = (c', r) -> ~ logged c' -> op <> OpRequest S_FAILED -> cancel_class c'.
Proof.
  intros op c c' r Hop Hc H Hl Hq.
  assert (R : Rst c c').
  { eapply (api_exec_reach ev op Hop); exact H. }
  assert (Hin : In (wstatus (c_ws c')) [S_CANCELING; S_CANCELED; S_FAILED]).
  { eapply reach_cancel_closed; [|exact R]. destruct Hc as [Hc|Hc]; rewrite Hc; simpl; auto. }
  destruct Hin as [H1|[H1|[H1|[]]]]; [left; symmetry; exact H1|right; symmetry; exact H1|].
  exfalso. destruct (canceled_failed_only_by op c c' r Hop Hc H (eq_sym H1)) as [E|E]; [exact (Hq E)|exact (Hl E)].
Qed.

End CancelApi.

Fixpoint merge_term_pure (ctxs : list dict) (l : list (nat * trec)) (acc : dict) : result dict :=
  match l with
  | [] => Val acc
  | (_, r) :: l' =>
      match nat_remove_first 0 (r_in r) with
      | None => Exc (mkexn "ValueError" "list.remove(x): x not in list")
      | Some idxs => match get_task_context_from ctxs idxs [] with
                     | Val d => merge_term_pure ctxs l' (merge_dicts acc d)
                     | Exc e => Exc e
                     end
      end
  end.

(* the context of the records flagged terminal: the first one's inbound contexts merged in order, then each further
   one's (without the initial context) merged over it; EMPTY when no record is flagged *)
Definition terminal_ctx (w : wstate) : result dict :=
  match get_terminal_tasks w with
  | [] => Val []
  | (_, first) :: others =>
      match get_task_context_from (contexts w) (r_in first) [] with
      | Val c0 => merge_term_pure (contexts w) others c0
      | Exc e => Exc e
      end
  end.

Lemma merge_term_contexts_pure : forall l acc c, merge_term_contexts l acc c = (c, merge_term_pure (contexts (c_ws c)) l acc).
Proof.
  induction l as [|[i r] l IH]; intros acc c; [reflexivity|]. simpl.
  destruct (nat_remove_first 0 (r_in r)) as [idxs|]; [|reflexivity].
  unfold bind, get_task_context, getws, bind. destruct (get_task_context_from (contexts (c_ws c)) idxs []) as [d|e]; simpl; [apply IH|reflexivity].
Qed.

Theorem terminal_context_is : forall c, get_workflow_terminal_context c = (c, terminal_ctx (c_ws c)).
Proof.
  intro c. unfold get_workflow_terminal_context, terminal_ctx, bind, getws. cbv beta iota.
  destruct (get_terminal_tasks (c_ws c)) as [|[i first] others]; [reflexivity|].
  unfold get_task_context, bind, getws. destruct (get_task_context_from (contexts (c_ws c)) (r_in first) []) as [c0|e]; simpl;
    [apply merge_term_contexts_pure|reflexivity].
Qed.

(* status requests (and polls) never flag a record terminal: the flags are written by update_task_state only --
   when a completed task has no outgoing transition, when none of its transitions is satisfied, and on the task whose
   report completes the workflow *)
Definition Rtm (c c' : cstate) : Prop := map r_term (sequence (c_ws c')) = map r_term (sequence (c_ws c)).
Lemma Rtm_refl : forall c, Rtm c c.
Proof. intro; reflexivity. Qed.
Lemma Rtm_trans : forall a b c, Rtm a b -> Rtm b c -> Rtm a c.
Proof. unfold Rtm; intros; congruence. Qed.

Lemma map_term_set_nth : forall (l : list trec) i r x, nth_error l i = Some r -> r_term x = r_term r ->
  map r_term (list_set_nth i x l) = map r_term l.
Proof.
  induction l as [|a l IH]; intros [|i] r x H E; simpl in *; try discriminate.
  - inversion H; subst. rewrite E. reflexivity.
  - f_equal. eapply IH; eassumption.
Qed.

Lemma Rtm_set_status : forall c i s, Rtm c (set_ws c (ws_update_rec (c_ws c) i (fun r => r_set_status r s))).
Proof.
  intros c i s. unfold Rtm, ws_update_rec; simpl. destruct (nth_error (sequence (c_ws c)) i) as [r|] eqn:E; [|reflexivity].
  simpl. eapply map_term_set_nth; [exact E|reflexivity].
Qed.

Section Flags.
Variable ev : string -> dict -> evalres.

Lemma ptm_request_status_core : forall st, preserves Rtm (request_status_core st).
Proof.
  intro st. apply (frame_request_status_core Rtm Rtm_refl Rtm_trans).
  - intros; apply (preserves_modify Rtm); intro; cbv zeta; destruct (existsb _ _); reflexivity.
  - intros; apply (preserves_modws Rtm); intro; apply Rtm_set_status.
  - apply (preserves_wf_workflow_event Rtm Rtm_refl); reflexivity.
Qed.

Theorem status_request_flags_nothing : forall st c c' r, c_init c = true ->
  request_workflow_status ev st c = (c', r) -> map r_term (sequence (c_ws c')) = map r_term (sequence (c_ws c)).
Proof.
  intros st c c' r Hi H. unfold request_workflow_status in H.
  rewrite (bind_step _ _ _ _ _ _ _ (ensure_ws_inited ev c Hi)) in H. eapply ptm_request_status_core; exact H.
Qed.

(* so: a workflow completed by a cancel request with no record flagged renders its output from the empty context *)
Corollary cancel_request_renders_from_nothing : forall st c c' r, c_init c = true ->
  get_terminal_tasks (c_ws c) = [] -> request_workflow_status ev st c = (c', r) -> terminal_ctx (c_ws c') = Val [].
Proof.
  intros st c c' r Hi Ht H. pose proof (status_request_flags_nothing st c c' r Hi H) as E.
  unfold terminal_ctx. assert (G : get_terminal_tasks (c_ws c') = []); [|rewrite G; reflexivity].
  unfold get_terminal_tasks in *.
  assert (F : forall (l l' : list trec) n, map r_term l' = map r_term l ->
              filter (fun '(_, r) => r_term r) (enumerate_from n l) = [] -> filter (fun '(_, r) => r_term r) (enumerate_from n l') = []).
  { induction l as [|a l IH]; intros [|a' l'] n Hm Hf; simpl in *; try discriminate; [reflexivity|].
    inversion Hm as [[Ha Hl]]. rewrite Ha. destruct (r_term a); [discriminate|]. eapply IH; eassumption. }
  eapply F; eassumption.
Qed.

End Flags.
