(* StatusReach.v -- the workflow status moves only along entries of the generated workflow
   table (or to failed through the unreachable-join check), in every API call except an accepted
   rerun.  Consequences: terminal statuses are final (C04), a canceled workflow never succeeds
   (C10). *)
From Coq Require Import String List Bool ZArith Arith Lia.
From Orq Require Import GenStatuses GenEvents GenTables GenSpecMeta Base State Machines Codec Conductor.
From Orq Require Import F_tables StateFacts Hoare Frame.
Import ListNotations.
Open Scope monad_scope.

(* wr_unreachable: a status that completes the workflow otherwise than by cancelation is replaced by failed when a
   staged join can no longer be satisfied (Machines.fail_on_unreachable) *)
Inductive wf_reach : status -> status -> Prop :=
  | wr_refl : forall s, wf_reach s s
  | wr_step : forall s e t u, tbl_step wf_table s e = Some t -> wf_reach t u -> wf_reach s u
  | wr_unreachable : forall s u, In s COMPLETED_STATUSES -> s <> S_CANCELED ->
                                 wf_reach S_FAILED u -> wf_reach s u.

Lemma wf_reach_trans : forall a b c, wf_reach a b -> wf_reach b c -> wf_reach a c.
Proof.
  intros a b c H; revert c; induction H as [s|s e t u Hs Hr IH|s u Hc Hn Hr IH]; intros c0 Hc0; auto.
  - eapply wr_step; eauto.
  - eapply wr_unreachable; eauto.
Qed.

Definition Rst (c c' : cstate) : Prop := wf_reach (wstatus (c_ws c)) (wstatus (c_ws c')).

Lemma Rst_refl : forall c, Rst c c.
Proof. intro; apply wr_refl. Qed.
Lemma Rst_trans : forall a b c, Rst a b -> Rst b c -> Rst a c.
Proof. unfold Rst; intros; eapply wf_reach_trans; eauto. Qed.

Lemma reach_from_failed : forall u, wf_reach S_FAILED u -> u = S_FAILED.
Proof.
  intros u H; remember S_FAILED as s0 eqn:E; induction H as [s|s e t u Hs Hr IH|s u Hc Hn Hr IH]; subst; auto.
  - rewrite F_wf_failed_final in Hs; discriminate.
Qed.

Lemma reach_from_canceled : forall u, wf_reach S_CANCELED u -> u = S_CANCELED.
Proof.
  intros u H; remember S_CANCELED as s0 eqn:E; induction H as [s|s e t u Hs Hr IH|s u Hc Hn Hr IH]; subst; auto.
  - rewrite F_wf_canceled_final in Hs; discriminate.
  - congruence.
Qed.

Lemma reach_from_succeeded : forall u, wf_reach S_SUCCEEDED u -> u = S_SUCCEEDED \/ u = S_FAILED.
Proof.
  intros u H; remember S_SUCCEEDED as s0 eqn:E; induction H as [s|s e t u Hs Hr IH|s u Hc Hn Hr IH]; subst; auto.
  - apply F_wf_succeeded_only_failed in Hs; subst. right; apply reach_from_failed; assumption.
  - right; apply reach_from_failed; assumption.
Qed.

Lemma reach_cancel_closed : forall s u, In s [S_CANCELING; S_CANCELED; S_FAILED] -> wf_reach s u ->
  In u [S_CANCELING; S_CANCELED; S_FAILED].
Proof.
  intros s0 u Hs0 H; induction H as [s|s e t u Hs Hr IH|s u Hc Hn Hr IH]; auto.
  - apply IH. destruct Hs0 as [Hs0|[Hs0|[Hs0|[]]]]; subst.
    + eapply F_wf_cancel_closed; [|eassumption]; simpl; auto.
    + eapply F_wf_cancel_closed; [|eassumption]; simpl; auto.
    + rewrite F_wf_failed_final in Hs; discriminate.
  - apply IH; simpl; auto.
Qed.

Lemma wf_process_task_event_val : forall g w t route st new unr,
  wf_process_task_event g w t route st = Val (new, unr) ->
  string_in (wf_task_event_name g w t route st) TASK_EXECUTION_EVENTS = true /\
  tbl_row wf_table (wstatus w) <> None /\
  match tbl_step wf_table (wstatus w) (wf_task_event_name g w t route st) with
  | None => new = wstatus w /\ unr = []
  | Some n => if status_in n COMPLETED_STATUSES && negb (status_eqb n S_CANCELED)
              then (new, unr) = fail_on_unreachable g (ws_set_status w n)
              else new = n /\ unr = []
  end.
Proof.
  intros g w t route st new unr H. unfold wf_process_task_event in H. cbv zeta in H.
  destruct (string_in (wf_task_event_name g w t route st) TASK_EXECUTION_EVENTS); [|discriminate H].
  split; [reflexivity|]. unfold tbl_step. cbn [negb] in H.
  destruct (tbl_row wf_table (wstatus w)) as [row|]; [|discriminate H]. split; [discriminate|].
  destruct (aget String.eqb _ row) as [n|]; [destruct (status_in n COMPLETED_STATUSES && _)|]; inversion H; auto.
Qed.

Lemma wf_process_workflow_event_val : forall g w st new unr,
  wf_process_workflow_event g w st = Val (new, unr) ->
  string_in (wf_workflow_event_name w st) WORKFLOW_EXECUTION_EVENTS = true /\
  tbl_row wf_table (wstatus w) <> None /\
  match tbl_step wf_table (wstatus w) (wf_workflow_event_name w st) with
  | None => new = wstatus w /\ unr = []
  | Some n => if negb (status_eqb n (wstatus w)) && status_eqb n S_SUCCEEDED
              then (new, unr) = fail_on_unreachable g (ws_set_status w n)
              else new = n /\ unr = []
  end.
Proof.
  intros g w st new unr H. unfold wf_process_workflow_event in H. cbv zeta in H.
  destruct (string_in (wf_workflow_event_name w st) WORKFLOW_EXECUTION_EVENTS); [|discriminate H].
  split; [reflexivity|]. unfold tbl_step. cbn [negb] in H.
  destruct (tbl_row wf_table (wstatus w)) as [row|]; [|discriminate H]. split; [discriminate|].
  destruct (aget String.eqb _ row) as [n|]; [destruct (negb (status_eqb n (wstatus w)) && _)|]; inversion H; auto.
Qed.

Section WithEval.
Variable ev : string -> dict -> evalres.

Lemma pres_modws : forall f, (forall w, wstatus (f w) = wstatus w) -> preserves Rst (modws f).
Proof. intros f Hf; apply (preserves_modws Rst); intro c; unfold Rst; simpl; rewrite Hf; apply wr_refl. Qed.
Lemma pres_modify : forall f, (forall c, c_ws (f c) = c_ws c) -> preserves Rst (modify f).
Proof. intros f Hf; apply (preserves_modify Rst); intro c; unfold Rst; rewrite Hf; apply wr_refl. Qed.

Lemma pres_upd_rec : forall i f, preserves Rst (upd_rec i f).
Proof. intros; apply pres_modws; intro; apply wstatus_update_rec. Qed.

Lemma pres_set_rec_status : forall i s, preserves Rst (set_rec_status i s).
Proof. intros; apply pres_modws; intro; apply wstatus_update_rec. Qed.

Lemma pres_remove_staged : forall t r, preserves Rst (modws (fun w => ws_remove_staged_task w t r)).
Proof. intros; apply pres_modws; intro; apply wstatus_remove_staged. Qed.

Lemma fail_on_unreachable_reach : forall g w,
  In (wstatus w) COMPLETED_STATUSES -> wstatus w <> S_CANCELED ->
  wf_reach (wstatus w) (fst (fail_on_unreachable g w)).
Proof.
  intros g w H1 H2; unfold fail_on_unreachable.
  destruct (get_unreachable_barriers g w); simpl; [apply wr_refl|].
  apply wr_unreachable; auto; apply wr_refl.
Qed.

Lemma pres_wf_workflow_event : forall st, preserves Rst (wf_workflow_event_M st).
Proof.
  intros st c c' r H. apply wf_workflow_event_M_inv in H.
  destruct (wf_process_workflow_event (c_graph c) (c_ws c) st) as [[new unr]|e] eqn:E; destruct H as [-> _]; [|apply Rst_refl].
  unfold Rst; simpl. destruct (wf_process_workflow_event_val _ _ _ _ _ E) as [_ [_ Hv]].
  destruct (tbl_step wf_table _ _) as [n|] eqn:St; [|destruct Hv as [-> _]; apply wr_refl].
  eapply wr_step; [exact St|].
  destruct (negb (status_eqb n (wstatus (c_ws c))) && status_eqb n S_SUCCEEDED) eqn:Eb; [|destruct Hv as [-> _]; apply wr_refl].
  apply andb_prop in Eb; destruct Eb as [_ Es]. apply status_eqb_eq in Es; subst n.
  pose proof (fail_on_unreachable_reach (c_graph c) (ws_set_status (c_ws c) S_SUCCEEDED)) as F.
  rewrite <- Hv in F. apply F; [vm_compute; tauto|discriminate].
Qed.

Lemma pres_wf_task_event : forall t route st, preserves Rst (wf_task_event_M t route st).
Proof.
  intros t route st c c' r H. apply wf_task_event_M_inv in H.
  destruct (wf_process_task_event (c_graph c) (c_ws c) t route st) as [[new unr]|e] eqn:E; destruct H as [-> _]; [|apply Rst_refl].
  unfold Rst; simpl. destruct (wf_process_task_event_val _ _ _ _ _ _ _ E) as [_ [_ Hv]].
  destruct (tbl_step wf_table _ _) as [n|] eqn:St; [|destruct Hv as [-> _]; apply wr_refl].
  eapply wr_step; [exact St|].
  destruct (status_in n COMPLETED_STATUSES && negb (status_eqb n S_CANCELED)) eqn:Eb; [|destruct Hv as [-> _]; apply wr_refl].
  apply andb_prop in Eb; destruct Eb as [Ec En].
  pose proof (fail_on_unreachable_reach (c_graph c) (ws_set_status (c_ws c) n)) as F.
  rewrite <- Hv in F. apply F; [apply status_in_In; exact Ec|].
  intro Hn; cbn [wstatus ws_set_status] in Hn; subst n. rewrite status_eqb_refl in En; discriminate.
Qed.

Lemma pres_log_entry_error : forall m t r tr res, preserves Rst (log_entry_error m t r tr res).
Proof. intros; apply pres_modify; intro c; cbv beta zeta; destruct (existsb _ _); reflexivity. Qed.

Create HintDb pres.
Hint Resolve pres_modws pres_modify pres_upd_rec pres_set_rec_status pres_remove_staged
  pres_wf_workflow_event pres_wf_task_event pres_log_entry_error : pres.

Lemma pres_log_error : forall e t r tr, preserves Rst (log_error e t r tr).
Proof. intros; unfold log_error; apply pres_log_entry_error. Qed.

Lemma pres_log_errors : forall es t r tr, preserves Rst (log_errors es t r tr).
Proof. intros; apply (frame_log_errors Rst Rst_refl Rst_trans); auto with pres. Qed.

Lemma pres_log_unreachable : forall l, preserves Rst (log_unreachable l).
Proof. intros; apply (frame_log_unreachable Rst Rst_refl Rst_trans); auto with pres. Qed.

Lemma pres_request_status_core : forall st, preserves Rst (request_status_core st).
Proof. intros; apply (frame_request_status_core Rst Rst_refl Rst_trans); auto with pres. Qed.

Lemma pres_render_input : forall specs rt rolling errs, preserves Rst (render_input ev specs rt rolling errs).
Proof. intros; apply (frame_render_input ev Rst Rst_refl Rst_trans). Qed.

Lemma pres_render_vars : forall specs rolling rendered errs, preserves Rst (render_vars ev specs rolling rendered errs).
Proof. intros; apply (frame_render_vars ev Rst Rst_refl Rst_trans). Qed.

Lemma pres_ensure_ws : preserves Rst (ensure_ws ev).
Proof. apply (frame_ensure_ws ev Rst Rst_refl Rst_trans); auto with pres. Qed.

Theorem pres_request_workflow_status : forall st, preserves Rst (request_workflow_status ev st).
Proof. intros; apply (frame_request_workflow_status ev Rst Rst_refl Rst_trans); auto with pres. Qed.

Lemma pres_get_task_context : forall idxs, preserves Rst (get_task_context idxs).
Proof. intros; apply (frame_get_task_context Rst Rst_refl Rst_trans). Qed.

Lemma pres_render_task : forall ts ctx, preserves Rst (render_task ev ts ctx).
Proof. intros; apply (frame_render_task ev Rst Rst_refl Rst_trans). Qed.

Lemma pres_next_task_for : forall s, preserves Rst (next_task_for ev s).
Proof. intros; apply (frame_next_task_for ev Rst Rst_refl Rst_trans); auto with pres. Qed.

Theorem pres_get_next_tasks : preserves Rst (get_next_tasks ev).
Proof. apply (frame_get_next_tasks ev Rst Rst_refl Rst_trans); auto with pres. Qed.

Lemma pres_setup_retry : forall t idxs, preserves Rst (setup_retry ev t idxs).
Proof. intros; apply (frame_setup_retry ev Rst Rst_refl Rst_trans). Qed.


Lemma pres_evaluate_route : forall e r, preserves Rst (evaluate_route e r).
Proof. intros; apply (frame_evaluate_route Rst Rst_refl Rst_trans); auto with pres. Qed.

Lemma pres_evaluate_task_retry : forall r ctx, preserves Rst (evaluate_task_retry ev r ctx).
Proof. intros; apply (frame_evaluate_task_retry ev Rst Rst_refl Rst_trans). Qed.

Lemma pres_finalize_context : forall ts e ctx, preserves Rst (finalize_context ev ts e ctx).
Proof. intros; apply (frame_finalize_context ev Rst Rst_refl Rst_trans). Qed.

Lemma pres_get_rec : forall i, preserves Rst (get_rec i).
Proof. intros; apply (frame_get_rec Rst Rst_refl Rst_trans). Qed.

Lemma pres_process_transition : forall t route idx ts ctx e,
  preserves Rst (process_transition ev t route idx ts ctx e).
Proof. intros; apply (frame_process_transition ev Rst Rst_refl Rst_trans); auto with pres. Qed.

Lemma pres_update_task_state_fuel : forall fuel t route evt,
  preserves Rst (update_task_state_fuel ev fuel t route evt).
Proof. intros; apply (frame_update_task_state_fuel ev Rst Rst_refl Rst_trans); auto with pres. Qed.

Theorem pres_update_task_state : forall t route evt, preserves Rst (update_task_state ev t route evt).
Proof. intros; apply pres_update_task_state_fuel. Qed.

Lemma pres_merge_term_contexts : forall l acc, preserves Rst (merge_term_contexts l acc).
Proof. intros; apply (frame_merge_term_contexts Rst Rst_refl Rst_trans). Qed.

Theorem pres_render_workflow_output : preserves Rst (render_workflow_output ev).
Proof. apply (frame_render_workflow_output ev Rst Rst_refl Rst_trans); auto with pres. Qed.

End WithEval.
