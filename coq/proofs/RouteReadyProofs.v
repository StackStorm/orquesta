(* RouteReadyProofs.v -- process_transition computes the "ready" flag of the entry it stages for (next task, NEXT route)
   from the inbound criteria evaluated on the route of the SOURCE task.  The two routes differ only when the next task
   is a split task outside every cycle, and then the flag is true: the difference is never harmful. *)
From Coq Require Import String List Bool ZArith Arith Lia.
From Orq Require Import GenStatuses GenEvents GenTables GenSpecMeta Base State Machines Codec Conductor Decode Api.
From Orq Require Import F_tables ListFacts StateFacts Hoare ValuePost C05Proofs RetryProofs SysProofs SysNextProofs SysItemsProofs.
Import ListNotations.
Open Scope string_scope.

(* split tasks have no barrier in the graph (true of composed graphs: the composer sets a barrier for join tasks only) *)
Definition split_no_barrier (sp : wf_spec) (g : graph) : bool :=
  forallb (fun n => negb (spec_is_split_task sp (n_id n)) || is_jnull (n_barrier n)) (g_nodes g).

Lemma split_barrier_null : forall sp g t, split_no_barrier sp g = true -> spec_is_split_task sp t = true ->
  g_barrier g t = JNull.
Proof.
  intros sp g t H Hs. unfold g_barrier, g_get_node. destruct (find _ (g_nodes g)) as [n|] eqn:E; [|reflexivity].
  apply find_some in E. destruct E as [Hin Hn]. apply String.eqb_eq in Hn. unfold split_no_barrier in H.
  rewrite forallb_forall in H. specialize (H n Hin). rewrite Hn, Hs in H. simpl in H.
  destruct (n_barrier n); try discriminate H. reflexivity.
Qed.

Lemma filter_pos : forall A (p : A -> bool) l x, In x l -> p x = true -> 1 <= length (filter p l).
Proof.
  intros A p l x Hin Hp. assert (H : In x (filter p l)) by (apply filter_In; auto). destruct (filter p l); [destruct H|simpl; lia].
Qed.

(* a split task without barrier: one inbound transition recorded as followed on the route is enough *)
Lemma split_inbound_satisfied : forall g w nt route e r,
  g_barrier g nt = JNull -> In e (g_edges g) -> e_dst e = nt ->
  ws_task_entry w (e_src e) route = Some r -> aget trid_eqb (nt, e_key e) (r_next r) = Some true ->
  get_inbound_criteria_status g w nt route = InbSatisfied.
Proof.
  intros g w nt route e r Hb Hin Hd Hr Hn. unfold get_inbound_criteria_status.
  assert (Hreq : forall k, inbound_requirement g nt k = 1%Z) by (intro k; unfold inbound_requirement; rewrite Hb; reflexivity).
  rewrite Hreq.
  assert (Hinb : In e (g_prev_transitions g nt)).
  { unfold g_prev_transitions. apply filter_In. split; [exact Hin|]. rewrite Hd. apply String.eqb_refl. }
  assert (Hev : In (e_src e, Some true) (inbound_evaluation g w nt route)).
  { unfold inbound_evaluation. apply in_map_iff. exists (e_src e). split.
    - rewrite Hr. f_equal. f_equal. apply existsb_exists. exists e. split; [exact Hinb|]. rewrite String.eqb_refl, Hn. reflexivity.
    - apply In_dedup_by. apply in_map. exact Hinb. }
  match goal with |- context [filter ?ff (inbound_evaluation g w nt route)] =>
    assert (L : 1 <= length (filter ff (inbound_evaluation g w nt route)))
      by (apply (filter_pos _ ff _ (e_src e, Some true)); [exact Hev|reflexivity]) end.
  match goal with |- context [Z.leb 1 ?z] => assert (X : Z.leb 1 z = true) by (apply Z.leb_le; lia) end.
  rewrite X. reflexivity.
Qed.

Section RouteReady.
Variable ev : string -> dict -> evalres.

Lemma evaluate_route_eff : forall e route c c' nr, evaluate_route e route c = (c', Val nr) ->
  sequence (c_ws c') = sequence (c_ws c) /\ tasks (c_ws c') = tasks (c_ws c) /\ staged (c_ws c') = staged (c_ws c) /\
  c_graph c' = c_graph c /\ c_spec c' = c_spec c /\
  (nr <> route -> spec_is_split_task (c_spec c) (e_dst e) = true /\ g_in_cycle (c_graph c) (e_dst e) = false).
Proof.
  intros e route c c' nr H. unfold evaluate_route in H. unfold bind at 1 in H. unfold get at 1 in H.
  assert (Same : ret route c = (c', Val nr) ->
    sequence (c_ws c') = sequence (c_ws c) /\ tasks (c_ws c') = tasks (c_ws c) /\ staged (c_ws c') = staged (c_ws c) /\
    c_graph c' = c_graph c /\ c_spec c' = c_spec c /\
    (nr <> route -> spec_is_split_task (c_spec c) (e_dst e) = true /\ g_in_cycle (c_graph c) (e_dst e) = false)).
  { intro X. inversion X; subst. repeat split; auto; exfalso; apply H0; reflexivity. }
  destruct (spec_is_split_task (c_spec c) (e_dst e)) eqn:Es; [|apply Same; exact H].
  destruct (g_in_cycle (c_graph c) (e_dst e)) eqn:Ec; [apply Same; exact H|]. simpl in H.
  destruct (nth_error (routes (c_ws c)) route) as [old|]; [|inversion H].
  destruct (existsb (trid_eqb (e_src e, e_key e)) old); [apply Same; exact H|].
  unfold bind, modws in H. inversion H; subst. simpl. repeat split; auto.
Qed.

(* the transition loop body.  Either it stages nothing, or the entry of (next task, nr) is in staging afterwards with the
   flag the inbound criteria give on the SOURCE's route; and when nr is not that route, the next task is a split task
   outside every cycle and the flag is true *)
Theorem split_route_ready : forall t route idx ts ctx e c c' res,
  process_transition ev t route idx ts ctx e c = (c', Val res) ->
  split_no_barrier (c_spec c) (c_graph c) = true ->
  ws_task_idx (c_ws c) t route = Some idx -> In e (g_edges (c_graph c)) -> e_src e = t ->
  staged (c_ws c') = staged (c_ws c) \/
  exists nr s, get_staged_task (c_ws c') (e_dst e) nr = Some s /\
    (nr <> route -> spec_is_split_task (c_spec c) (e_dst e) = true /\ g_in_cycle (c_graph c) (e_dst e) = false /\
                    s_ready s = true) /\
    (s_ready s = true -> res = (if is_engine_command (e_dst e) then (Some (e_dst e, nr), None) else (None, Some (e_dst e, nr)))).
Proof.
  intros t route idx ts ctx e c c' res H Hsb Hp Hin Hsrc.
  destruct (process_transition_val_inv ev t route idx ts ctx e c c' res H) as [rv [_ Hrv]]. destruct rv as [vs|x].
  2: { left. destruct Hrv as [_ [c1 [E2 E3]]].
       pose proof (vlt_log_error _ _ _ _ _ _ _ E2) as [_ [_ [S2 _]]]. pose proof (vlt_request_failed _ _ _ E3) as [_ [_ [S3 _]]].
       congruence. }
  unfold pt_decided in Hrv.
  destruct (forallb truthy vs); [|left; destruct Hrv as [-> _]; simpl; apply staged_update_rec].
  set (tid := (e_dst e, e_key e)) in *.
  set (cA := set_ws c (ws_update_rec (c_ws c) idx (fun r => r_set_next r (aset trid_eqb tid true (r_next r))))) in *.
  destruct Hrv as [c2 [new_ctx [errors [E2 Ho]]]].
  pose proof (vlt_finalize_context ev _ _ _ _ _ _ E2) as (Q2 & T2 & S2 & _ & _ & _ & G2 & P2 & _).
  destruct errors as [|er errs].
  2: { left. destruct Ho as [_ [c3 [E3 E4]]].
       pose proof (vlt_log_errors _ _ _ _ _ _ _ E3) as [_ [_ [S3 _]]]. pose proof (vlt_request_failed _ _ _ E4) as [_ [_ [S4 _]]].
       rewrite S4, S3, S2. unfold cA. simpl. apply staged_update_rec. }
  destruct Ho as [r2 [c4 [nr [c5 [Hr2 [E4 [Ea [-> ->]]]]]]]].
  assert (R2 : aget trid_eqb tid (r_next r2) = Some true).
  { rewrite Q2 in Hr2. unfold cA in Hr2. simpl in Hr2. unfold ws_update_rec in Hr2.
    destruct (nth_error (sequence (c_ws c)) idx) as [r0|] eqn:E0.
    - simpl in Hr2. rewrite (nth_error_set_nth_same _ _ _ _ _ E0) in Hr2. inversion Hr2; subst r2. simpl. apply aget_aset_same, trid_eqb_refl.
    - rewrite E0 in Hr2. discriminate. }
  set (c3 := published idx e new_ctx c2) in *.
  assert (K3 : exists r3, nth_error (sequence (c_ws c3)) idx = Some r3 /\ r_next r3 = r_next r2 /\
                          tasks (c_ws c3) = tasks (c_ws c2) /\ staged (c_ws c3) = staged (c_ws c2) /\
                          c_graph c3 = c_graph c2 /\ c_spec c3 = c_spec c2).
  { unfold c3, published. destruct new_ctx as [|kv nc]; [exists r2; repeat split; auto|].
    simpl. unfold ws_update_rec. simpl. rewrite Hr2. simpl.
    eexists. split; [eapply nth_error_set_nth_same; exact Hr2|auto]. }
  destruct K3 as (r3 & Hr3 & N3 & T3 & S3 & G3 & P3).
  destruct (evaluate_route_eff _ _ _ _ _ E4) as (Q4 & T4 & S4 & G4 & P4 & Hsplit).
  set (nt := e_dst e) in *.
  assert (K5 : sequence (c_ws c5) = sequence (c_ws c4) /\ tasks (c_ws c5) = tasks (c_ws c4) /\
               c_graph c5 = c_graph c4 /\ c_spec c5 = c_spec c4 /\ exists s5, get_staged_task (c_ws c5) nt nr = Some s5).
  { unfold arrived in Ea. fold nt in Ea. destruct (get_staged_task (c_ws c4) nt nr) as [sx|] eqn:Eg.
    - destruct (nat_remove_first 0 _); inversion Ea; subst c5. simpl.
      repeat split; auto. unfold get_staged_task in *. simpl.
      rewrite find_staged_update_same by (intro; split; reflexivity). rewrite Eg. eexists; reflexivity.
    - inversion Ea; subst c5. simpl. repeat split; auto. unfold get_staged_task in *. simpl.
      eexists. apply find_app_last; [exact Eg|]. unfold stg_matches, mk_staged. simpl. rewrite String.eqb_refl, Nat.eqb_refl. reflexivity. }
  destruct K5 as (Q5 & T5 & G5 & P5 & s5 & Hs5).
  unfold flagged, pt_result, target_ready. fold nt.
  set (ready := inbound_eqb (get_inbound_criteria_status (c_graph c5) (c_ws c5) nt route) InbSatisfied) in *.
  right. exists nr, (s_set_ready s5 ready).
  split.
  { unfold get_staged_task in *. simpl. rewrite find_staged_update_same by (intro; split; reflexivity). rewrite Hs5. reflexivity. }
  assert (Gc : c_graph c5 = c_graph c) by (rewrite G5, G4, G3, G2; reflexivity).
  assert (Pc : c_spec c5 = c_spec c) by (rewrite P5, P4, P3, P2; reflexivity).
  split.
  - intro Hne. destruct (Hsplit Hne) as [Hs Hc]. rewrite P3, P2 in Hs. rewrite G3, G2 in Hc. simpl in Hs, Hc.
    split; [exact Hs|]. split; [exact Hc|]. simpl. unfold ready.
    rewrite (split_inbound_satisfied (c_graph c5) (c_ws c5) nt route e r3); [reflexivity| | |reflexivity| |].
    + rewrite Gc. apply (split_barrier_null (c_spec c)); [exact Hsb|exact Hs].
    + rewrite Gc. exact Hin.
    + rewrite Hsrc. unfold ws_task_entry, ws_task_idx. rewrite T5, T4, T3, T2. unfold cA. simpl. rewrite tasks_update_rec.
      unfold ws_task_idx in Hp. rewrite Hp. rewrite Q5, Q4. exact Hr3.
    + rewrite N3. exact R2.
  - simpl. intro Hr. rewrite Hr. reflexivity.
Qed.

(* the hypotheses of [split_route_ready] hold at every call of the transition loop of one task event: the loop runs over
   the outgoing edges of the task, and a transition moves neither the pointer of the task, nor the graph, nor the spec *)
Lemma transition_keeps_hyps : forall t route idx ts ctx e c c' res,
  process_transition ev t route idx ts ctx e c = (c', Val res) ->
  ws_task_idx (c_ws c') t route = ws_task_idx (c_ws c) t route /\ c_graph c' = c_graph c /\ c_spec c' = c_spec c.
Proof.
  intros t route idx ts ctx e c c' res H. destruct (vfr_process_transition ev _ _ _ _ _ _ _ _ _ H) as [T [_ [_ [G [P _]]]]].
  unfold ws_task_idx. rewrite T. auto.
Qed.

End RouteReady.
