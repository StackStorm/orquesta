(* SysItemsIdleProofs.v -- the with-items provider protocol: when the workflow reports paused or canceled no task
   execution is active, hence nothing is in flight. *)
From Coq Require Import String List Bool ZArith Arith Lia.
From Orq Require Import GenStatuses GenEvents GenTables GenSpecMeta Base State Machines Codec Conductor Decode Api Driver ProviderSys ProviderSysItems ProviderSysItemsMon ProviderSysItemsMon2.
From Orq Require Import ListFacts StateFacts F_tables F_names F_sys F_sysitems Hoare ValuePost StatusReach C04Proofs C05Proofs C02C03Proofs C09C10Proofs OffersProofs InertProofs RetryProofs SysProofs SysNextProofs SysItemsProofs SysItemsRecProofs SysItemsPlainProofs.
Import ListNotations.
Open Scope string_scope.

(* some pointed record is active: what has_active_tasks computes *)
Definition HA (c : cstate) : Prop :=
  exists i r, nth_error (sequence (c_ws c)) i = Some r /\ ostatus_in (r_status r) ACTIVE_STATUSES = true /\
              ws_pointed (c_ws c) i = true.

Lemma has_active_HA : forall c, has_active_tasks (c_ws c) = true <-> HA c.
Proof.
  intro c. unfold has_active_tasks, HA. split.
  - destruct (ws_tasks_by_status (c_ws c) ACTIVE_STATUSES) as [|[i r] l] eqn:E; [discriminate|]. intros _.
    assert (Hin : In (i, r) (ws_tasks_by_status (c_ws c) ACTIVE_STATUSES)) by (rewrite E; left; reflexivity).
    destruct (tasks_by_status_In _ _ _ _ Hin) as [A B]. exists i, r. split; [exact A|]. split; [exact B|].
    unfold ws_tasks_by_status in Hin. apply filter_In in Hin. destruct Hin as [_ Hf]. apply andb_prop in Hf. apply Hf.
  - intros [i [r [A [B C]]]].
    assert (Hin : In (i, r) (ws_tasks_by_status (c_ws c) ACTIVE_STATUSES)).
    { unfold ws_tasks_by_status. apply filter_In. split; [|rewrite B, C; reflexivity].
      unfold enumerate. exact (In_enumerate_from_nth _ _ 0 i r A). }
    destruct (ws_tasks_by_status (c_ws c) ACTIVE_STATUSES); [destruct Hin|reflexivity].
Qed.

Definition REST2 : list status := [S_PAUSED; S_CANCELED].
Definition Phi (c : cstate) : Prop := In (wstatus (c_ws c)) REST2 -> ~ HA c.
Definition Rphi (c c' : cstate) : Prop := Phi c -> Phi c'.
Lemma Rphi_refl : forall c, Rphi c c. Proof. intros c H; exact H. Qed.
Lemma Rphi_trans : forall a b c, Rphi a b -> Rphi b c -> Rphi a c. Proof. unfold Rphi; auto. Qed.

(* the workflow status is kept or failed, and no record becomes active or pointed *)
Definition Rdown (c c' : cstate) : Prop :=
  (wstatus (c_ws c') = wstatus (c_ws c) \/ wstatus (c_ws c') = S_FAILED) /\ (HA c' -> HA c).
Lemma Rdown_refl : forall c, Rdown c c. Proof. intro c; split; auto. Qed.
Lemma Rdown_trans : forall a b c, Rdown a b -> Rdown b c -> Rdown a c.
Proof. intros a b c [A1 A2] [B1 B2]. split; [|auto]. destruct B1 as [B1|B1]; [|right; exact B1]. destruct A1 as [A1|A1]; [left|right]; congruence. Qed.
Lemma Rdown_phi : forall c c', Rdown c c' -> Rphi c c'.
Proof.
  intros c c' [W H] P Hin Ha. destruct W as [W|W]; [|rewrite W in Hin; simpl in Hin; intuition discriminate].
  rewrite W in Hin. exact (P Hin (H Ha)).
Qed.
Lemma Rdown_rest : forall c c', Rdown c c' -> ~ In (wstatus (c_ws c)) REST2 -> ~ In (wstatus (c_ws c')) REST2.
Proof. intros c c' [[W|W] _] H X; rewrite W in X; [exact (H X)|simpl in X; intuition discriminate]. Qed.

Lemma HA_sig : forall c c', tasks (c_ws c') = tasks (c_ws c) -> map sig (sequence (c_ws c')) = map sig (sequence (c_ws c)) ->
  HA c' -> HA c.
Proof.
  intros c c' Ht Hs [i [r [A [B C]]]]. destruct (nth_map_sig _ _ _ _ (eq_sym Hs) A) as [r0 [A0 S]]. destruct (sig_key _ _ S) as [_ S1].
  exists i, r0. split; [exact A0|]. split; [rewrite S1; exact B|]. unfold ws_pointed in *. rewrite <- Ht. exact C.
Qed.
Lemma Rdown_fr0 : forall c c', Rfr0 c c' -> Rdown c c'.
Proof. intros c c' [T [S W]]. split; [exact W|apply HA_sig; assumption]. Qed.
Lemma Rdown_fr : forall c c', Rfr c c' -> Rdown c c'.
Proof. intros c c' H. apply Rdown_fr0. apply Rfr_Rfr0. exact H. Qed.

Section PhiFrame.
Variable ev : string -> dict -> evalres.

Lemma down_fr : forall A (m : M A), vpres Rfr m -> vpres Rdown m.
Proof. intros A m H c c' a E. apply Rdown_fr. exact (H _ _ _ E). Qed.
Lemma phi_fr : forall A (m : M A), vpres Rfr m -> vpres Rphi m.
Proof. intros A m H c c' a E. apply Rdown_phi. apply Rdown_fr. exact (H _ _ _ E). Qed.

Lemma down_add_task_state : forall t rt ins prev, vpres Rdown (add_task_state ev t rt ins prev).
Proof.
  intros t rt ins prev c c' idx H. destruct (add_task_state_eff ev _ _ _ _ _ _ _ H) as [cm [retry [L [-> [-> _]]]]].
  apply (Rdown_trans _ cm); [apply Rdown_fr; apply Rlt_Rfr; exact L|]. split; [left; reflexivity|].
  intros [i [r [A [B C]]]]. simpl in A, C.
  destruct (Nat.lt_ge_cases i (length (sequence (c_ws cm)))) as [Hlt|Hge].
  - rewrite nth_error_app1 in A by exact Hlt. exists i, r. split; [exact A|]. split; [exact B|].
    unfold ws_pointed in *. simpl in C. apply existsb_exists in C. destruct C as [[k j] [Hin Hj]]. apply Nat.eqb_eq in Hj. subst j.
    apply (In_aset tkey_eqb tkey_eqb_eq) in Hin. destruct Hin as [Hin|Hin]; [inversion Hin; lia|].
    apply existsb_exists. exists (k, i). split; [exact Hin|apply Nat.eqb_refl].
  - rewrite nth_error_app2 in A by exact Hge. destruct (i - length (sequence (c_ws cm))) as [|k]; simpl in A; [inversion A; subst r; discriminate B|destruct k; discriminate A].
Qed.

Lemma down_sel1 : forall t s0 e0, vpres Rdown (uts_sel1 ev t s0 e0).
Proof.
  intros t s0 e0. unfold uts_sel1, uts_need_staged.
  destruct e0; [destruct (is_engine_command t); [|apply (vp_ret _ Rdown_refl)]|];
    (apply (vp_bind _ Rdown_trans); [destruct s0; [apply (vp_ret _ Rdown_refl)|apply vp_raise]|intro; apply down_add_task_state]).
Qed.
Lemma down_sel2 : forall t evt s0 r1 i, vpres Rdown (uts_sel2 ev t evt s0 r1 i).
Proof.
  intros t evt s0 r1 i. unfold uts_sel2, uts_need_staged. destruct (_ && _ && _); [|apply (vp_ret _ Rdown_refl)].
  apply (vp_bind _ Rdown_trans); [destruct s0; [apply (vp_ret _ Rdown_refl)|apply vp_raise]|intro; apply down_add_task_state].
Qed.

(* the workflow machine on a task event: paused / canceled are entered only when no task is active *)
Lemma phi_wf_task_event : forall t route st, vpres Rphi (wf_task_event_M t route st).
Proof.
  intros t route st c c' unr H P. destruct (wf_task_event_eff _ _ _ _ _ _ H) as [n [-> Hn]].
  intros Hin Ha. simpl in Hin.
  assert (Ha0 : HA c).
  { destruct Ha as [i [r [A [B C]]]]. exists i, r. auto. }
  destruct Hn as [->|Hn]; [simpl in Hin; intuition discriminate|].
  subst n. unfold wf_task_event_name in Hin.
  destruct (F_rest_needs_dormant_task _ _ _ _ _ _ _ Hin) as [Hf|Hs].
  - apply has_active_HA in Ha0. congruence.
  - rewrite Hs in Hin. exact (P Hin Ha0).
Qed.

(* engine events: commands and the retry event *)
Definition ENGINE_NAMES : list string := ["task_continue_requested"; "task_fail_requested"; "task_noop_requested"; "task_retry_requested"].
Definition calm (e : event) : Prop :=
  match e with
  | EvEngine n _ => string_in n ENGINE_NAMES = true
  | EvAction st _ | EvItem _ st _ _ => status_in st COMPLETED_STATUSES = true
  | EvWorkflow _ => False
  end.

Lemma engine_event_calm : forall n e, engine_event n = Some e -> calm e.
Proof.
  intros n e H. unfold engine_event in H. destruct (aget String.eqb n ENGINE_EVENT_MAP) as [[nm st]|] eqn:E; inversion H; subst e.
  simpl. apply aget_In in E. simpl in E. repeat (destruct E as [E|E]; [inversion E; subst; reflexivity|]). destruct E.
Qed.

Lemma phi_set_status : forall c idx r s, nth_error (sequence (c_ws c)) idx = Some r ->
  ((ostatus_in s ACTIVE_STATUSES = true -> ostatus_in (r_status r) ACTIVE_STATUSES = true) \/ ~ In (wstatus (c_ws c)) REST2) ->
  Rphi c (set_ws c (ws_update_rec (c_ws c) idx (fun r0 => r_set_status r0 s))).
Proof.
  intros c idx r s Hr H P Hin Ha. simpl in Hin. rewrite wstatus_update_rec in Hin. destruct H as [Hs|Hn]; [|exact (Hn Hin)]. apply (P Hin).
  unfold ws_update_rec in Ha. rewrite Hr in Ha.
  destruct Ha as [i [r' [A [B C]]]]. simpl in A, C. destruct (Nat.eq_dec i idx) as [->|Hne].
  - rewrite (nth_error_set_nth_same _ _ _ _ _ Hr) in A. inversion A; subst r'. simpl in B. exists idx, r. auto.
  - rewrite nth_error_set_nth_other in A by congruence. exists i, r'. auto.
Qed.

Lemma phi_setst : forall idx ns c c' r, nth_error (sequence (c_ws c)) idx = Some r ->
  (forall x, ns = Some x -> status_in x ACTIVE_STATUSES = true -> ostatus_in (r_status r) ACTIVE_STATUSES = true) \/ ~ In (wstatus (c_ws c)) REST2 ->
  uts_setst idx ns c = (c', Val tt) -> Rphi c c'.
Proof.
  intros idx ns c c' r Hr H E. unfold uts_setst in E. destruct ns as [s|]; [|inversion E; apply Rphi_refl].
  unfold set_rec_status, modws in E. inversion E; subst c'. apply (phi_set_status c idx r (Some s) Hr).
  destruct H as [H|H]; [left; simpl; apply H; reflexivity|right; exact H].
Qed.

Lemma rstatus_active : forall r, status_in (rstatus r) ACTIVE_STATUSES = true -> ostatus_in (r_status r) ACTIVE_STATUSES = true.
Proof. intros r H. unfold rstatus in H. destruct (r_status r); [exact H|discriminate H]. Qed.

Lemma down_ensure_ws : vpres Rdown (ensure_ws ev).
Proof.
  apply (vpres_sub Rfr0); [exact Rdown_fr0|apply vfr0_ensure_ws].
Qed.

Lemma phi_set_calm : forall (t : string) (route : nat) e idx c r ns c', calm e -> nth_error (sequence (c_ws c)) idx = Some r ->
  task_process_event (c_ws c) r e = Val ns -> uts_setst idx ns c = (c', Val tt) -> Rphi c c'.
Proof.
  intros _ _ e idx c r ns c' Hc Hr Ens E1. apply (phi_setst idx ns c c' r Hr); [left|exact E1].
  intros x -> Hx. destruct e as [st|st res|i st res acc|n st]; try (exfalso; exact Hc).
  - unfold task_process_event in Ens. destruct (negb _); [discriminate|]. apply task_table_step_val in Ens.
    apply rstatus_active. exact (F_completion_no_activation _ _ _ Ens (F_action_name_completion _ Hc) Hx).
  - unfold task_process_event in Ens. destruct (negb _); [discriminate|].
    destruct (item_event_name (c_ws c) (r_id r) (r_route r) i st) as [nm|e] eqn:En; [|discriminate].
    apply task_table_step_val in Ens.
    apply rstatus_active. exact (F_completion_no_activation _ _ _ Ens (F_item_name_completion _ _ _ _ _ _ Hc En) Hx).
  - apply tpe_engine in Ens. rewrite (F_engine_not_active _ _ _ Hc Ens) in Hx. discriminate Hx.
Qed.

Lemma phi_fuel_calm : forall fuel t route evt, calm evt -> vpres Rphi (update_task_state_fuel ev fuel t route evt).
Proof.
  exact (rec_walk ev Rphi (fun _ _ e => calm e) Rphi_refl Rphi_trans (fun c c' F => Rdown_phi _ _ (Rdown_fr _ _ F))
           (vpres_sub Rdown Rphi Rdown_phi _ _ down_ensure_ws)
           (fun t rt ins prev => vpres_sub Rdown Rphi Rdown_phi _ _ (down_add_task_state t rt ins prev))
           phi_wf_task_event phi_set_calm (fun n _ e => engine_event_calm n e) (fun _ _ _ _ => eq_refl)).
Qed.

(* away from rest any status may be written *)
Lemma phi_pre_machine : forall t route evt ts idx c cp p, ~ In (wstatus (c_ws c)) REST2 ->
  pre_machine ev t route evt ts idx c = (cp, Val p) -> Rphi c cp.
Proof.
  intros t route evt ts idx c cp p Hn H. unfold pre_machine in H.
  apply bind_val_inv' in H. destruct H as [c0 [r [E0 H]]]. apply get_rec_inv in E0. destruct E0 as [-> Hr].
  apply bind_val_inv' in H. destruct H as [c0 [w [E0 H]]]. inversion E0; subst c0 w; clear E0.
  apply bind_val_inv' in H. destruct H as [c0 [ns [E0 H]]]. apply lift_res_inv in E0. destruct E0 as [-> _].
  apply bind_val_inv' in H. destruct H as [c1 [[] [E1 H]]].
  apply (Rphi_trans _ c1); [exact (phi_setst idx ns c c1 r Hr (or_intror Hn) E1)|]. clear E1 Hr Hn. revert c1 cp p H.
  apply (vp_bind _ Rphi_trans); [apply phi_fr; apply vfr_get_rec|intro r'].
  apply (vp_bind _ Rphi_trans); [apply phi_fr; apply vfr_retrying|intros _].
  apply (vp_bind _ Rphi_trans); [apply phi_fr; apply vfr_completion|intro compl; apply (vp_ret _ Rphi_refl)].
Qed.

Lemma phi_fuel : forall fuel t route evt c c', calm evt \/ ~ In (wstatus (c_ws c)) REST2 ->
  update_task_state_fuel ev fuel t route evt c = (c', Val tt) -> Rphi c c'.
Proof.
  intros fuel t route evt c c' [Hc|Hn] H; [exact (phi_fuel_calm fuel t route evt Hc _ _ _ H)|].
  destruct fuel as [|fuel]; [inversion H|]. rewrite uts_unfold, body_eq in H. apply bind_val_inv' in H. destruct H as [cp [p [Ep Htl]]].
  unfold uts_prefix in Ep. apply bind_val_inv' in Ep. destruct Ep as [ce [[] [Ee Ep]]]. pose proof (down_ensure_ws _ _ _ Ee) as De.
  unfold bind at 1 in Ep. unfold get at 1 in Ep. destruct (negb (g_has_task (c_graph ce) t)); [inversion Ep|]. cbv zeta in Ep.
  apply bind_val_inv' in Ep. destruct Ep as [c0 [ts [E0 Ep]]].
  assert (c0 = ce) by (destruct (spec_get_task (c_spec ce) t); inversion E0; reflexivity). subst c0.
  assert (Hm : exists s0 e0, pre_main ev t route evt ts s0 e0 ce = (cp, Val p)).
  { destruct (get_staged_task (c_ws ce) t route), (ws_task_idx (c_ws ce) t route); try (eexists; eexists; exact Ep). inversion Ep. }
  destruct Hm as [s0 [e0 Hm]].
  destruct (pre_main_open ev _ _ _ _ _ _ _ _ _ Hm) as (c1 & idx1 & r1 & c2 & idx & ca & cb & c3 & E1 & _ & E2 & E3 & E4 & E5 & E6).
  (* up to the task machine the workflow status is kept or failed, so the machine still runs away from rest *)
  assert (D : Rdown c c3).
  { apply (Rdown_trans _ ce); [exact De|]. apply (Rdown_trans _ c1); [exact (down_sel1 _ _ _ _ _ _ E1)|].
    apply (Rdown_trans _ c2); [exact (down_sel2 _ _ _ _ _ _ _ _ E2)|].
    apply (Rdown_trans _ ca); [exact (Rdown_fr _ _ (vfr_unstage _ _ _ _ _ _ _ E3))|].
    apply (Rdown_trans _ cb); [exact (Rdown_fr _ _ (vfr_item _ _ _ _ _ _ _ E4))|exact (Rdown_fr _ _ (vfr_logfail _ _ _ _ _ E5))]. }
  apply (Rphi_trans _ c3); [exact (Rdown_phi _ _ D)|].
  apply (Rphi_trans _ cp); [exact (phi_pre_machine _ _ _ _ _ _ _ _ (Rdown_rest _ _ D Hn) E6)|].
  (* the rest of the call sends itself engine events only *)
  exact (rw_tail ev Rphi (fun _ _ e => calm e) Rphi_refl Rphi_trans (fun c c' F => Rdown_phi _ _ (Rdown_fr _ _ F)) phi_wf_task_event
           (fun n _ e => engine_event_calm n e) (fun _ _ _ _ => eq_refl) _ (phi_fuel_calm fuel) t route retry_event p eq_refl _ _ _ Htl).
Qed.

Definition Rws (c c' : cstate) : Prop := wstatus (c_ws c') = wstatus (c_ws c).
Lemma Rws_refl : forall c, Rws c c. Proof. intro; reflexivity. Qed.
Lemma Rws_trans : forall a b c, Rws a b -> Rws b c -> Rws a c. Proof. unfold Rws; intros; congruence. Qed.

Lemma ws_set_rec_status : forall i s, preserves Rws (set_rec_status i s).
Proof. intros i s c c' x H. unfold set_rec_status, modws in H. inversion H; subst. unfold Rws. simpl. apply wstatus_update_rec. Qed.

Lemma phi_wf_workflow_event : forall st c c' unr, wf_workflow_event_M st c = (c', Val unr) ->
  (Phi c \/ ~ In (wstatus (c_ws c)) REST2) -> Phi c'.
Proof.
  intros st c c' unr H P. destruct (wf_workflow_event_eff _ _ _ _ H) as [n [-> Hn]].
  intros Hin Ha. simpl in Hin.
  assert (Ha0 : HA c) by (destruct Ha as [i [r [A [B C]]]]; exists i, r; auto).
  destruct Hn as [->|Hn]; [simpl in Hin; intuition discriminate|].
  subst n. rewrite wf_workflow_event_name_eq in Hin.
  destruct (F_rest_needs_dormant_request _ _ _ _ Hin) as [Hf|Hs].
  - apply has_active_HA in Ha0. congruence.
  - rewrite Hs in Hin. destruct P as [P|P]; [exact (P Hin Ha0)|exact (P Hin)].
Qed.

Lemma phi_request_status_core : forall st c c' x, request_status_core st c = (c', x) -> Phi c -> Phi c'.
Proof.
  intros st c c' x H P. unfold request_status_core in H.
  unfold bind at 1 in H. unfold getws at 1 in H. cbv zeta in H.
  set (active := ws_tasks_by_status (c_ws c) ACTIVE_STATUSES) in *.
  assert (L1 : forall l : list (nat * trec), preserves Rws (forM_ l (fun '(i, _) =>
              w <- getws ;;
              match nth_error (sequence w) i with
              | None => ret tt
              | Some r => ns <- lift_res (task_process_event w r (EvWorkflow st)) ;;
                          match ns with Some s => set_rec_status i (Some s) | None => ret tt end
              end) : M unit)).
  { intro l. apply (preserves_forM _ Rws_refl Rws_trans). intros [i r0].
    apply (preserves_bind _ Rws_trans); [apply (preserves_getws _ Rws_refl)|intro w].
    destruct (nth_error (sequence w) i); [|apply (preserves_ret _ Rws_refl)].
    apply (preserves_bind _ Rws_trans); [apply (preserves_lift_res _ Rws_refl)|intro ns].
    destruct ns; [apply ws_set_rec_status|apply (preserves_ret _ Rws_refl)]. }
  assert (L2 : forall l : list (nat * trec), preserves Rws (forM_ l (fun '(i, r) => set_rec_status i (r_status r)))).
  { intro l. apply (preserves_forM _ Rws_refl Rws_trans). intros [i r]. apply ws_set_rec_status. }
  assert (Rest : forall c1, (Phi c1 \/ ~ In (wstatus (c_ws c1)) REST2) -> wstatus (c_ws c1) = wstatus (c_ws c) ->
            (~ In (wstatus (c_ws c)) REST2 \/ active = []) ->
            (unreachable <- wf_workflow_event_M st ;;
             log_unreachable unreachable ;;;
             w1 <- getws ;;
             (if status_eqb st S_PAUSED && status_eqb (wstatus (c_ws c)) S_PAUSING && status_eqb (wstatus w1) S_PAUSING then ret tt
              else if status_eqb st S_CANCELED && status_eqb (wstatus (c_ws c)) S_CANCELING && status_eqb (wstatus w1) S_CANCELING then ret tt
              else if negb (status_eqb st (wstatus (c_ws c))) && status_eqb (wstatus (c_ws c)) (wstatus w1)
              then forM_ active (fun '(i, r) => set_rec_status i (r_status r)) ;;; raise (exn_invalid_wf_transition (wstatus (c_ws c)) (WORKFLOW_EVENT_PREFIX ++ status_name st))
              else ret tt)) c1 = (c', x) -> Phi c').
  { intros c1 P1 W1 Hcase X.
    destruct (bind_inv _ _ _ _ _ _ _ X) as [[c2 [unr [E2 X2]]]|[e [E2 _]]].
    2: { unfold wf_workflow_event_M in E2. destruct (wf_process_workflow_event (c_graph c1) (c_ws c1) st) as [[? ?]|?]; inversion E2; subst.
         destruct P1 as [P1|P1]; [exact P1|intros Y; contradiction]. }
    pose proof (phi_wf_workflow_event _ _ _ _ E2 P1) as P2.
    destruct (bind_inv _ _ _ _ _ _ _ X2) as [[c3 [u3 [E3 X3]]]|[e [E3 _]]].
    2: { exact (Rdown_phi _ _ (Rdown_fr _ _ (fr_log_unreachable _ _ _ _ E3)) P2). }
    pose proof (Rdown_phi _ _ (Rdown_fr _ _ (fr_log_unreachable _ _ _ _ E3)) P2) as P3.
    unfold bind at 1 in X3. unfold getws at 1 in X3.
    destruct (_ && _ && _); [inversion X3; subst; exact P3|].
    destruct (_ && _ && _); [inversion X3; subst; exact P3|].
    destruct (negb (status_eqb st (wstatus (c_ws c))) && status_eqb (wstatus (c_ws c)) (wstatus (c_ws c3))) eqn:Ec; [|inversion X3; subst; exact P3].
    apply andb_prop in Ec. destruct Ec as [_ Ec]. apply status_eqb_eq in Ec.
    destruct (bind_inv _ _ _ _ _ _ _ X3) as [[c4 [u4 [E4 X4]]]|[e [E4 _]]].
    - inversion X4; subst c'. destruct Hcase as [Hn|Hn].
      + intros Y. exfalso. apply Hn. rewrite Ec. rewrite <- (L2 _ _ _ _ E4). exact Y.
      + rewrite Hn in E4. simpl in E4. inversion E4; subst. exact P3.
    - destruct Hcase as [Hn|Hn].
      + intros Y. exfalso. apply Hn. rewrite Ec. rewrite <- (L2 _ _ _ _ E4). exact Y.
      + rewrite Hn in E4. simpl in E4. inversion E4. }
  assert (Dec : In (wstatus (c_ws c)) REST2 \/ ~ In (wstatus (c_ws c)) REST2).
  { destruct (status_in (wstatus (c_ws c)) REST2) eqn:Er; [left; apply status_in_In; exact Er|right; intro X; apply status_in_In in X; congruence]. }
  destruct (bind_inv _ _ _ _ _ _ _ H) as [[c1 [u1 [E1 X1]]]|[e [E1 _]]].
  - pose proof (L1 _ _ _ _ E1) as W1. unfold Rws in W1. destruct Dec as [Hr|Hr].
    + (* at rest: no record is active, the loops visit nothing *)
      assert (Hact : active = []).
      { unfold active. destruct (ws_tasks_by_status (c_ws c) ACTIVE_STATUSES) eqn:E; [reflexivity|]. exfalso. apply (P Hr).
        apply has_active_HA. unfold has_active_tasks. rewrite E. reflexivity. }
      rewrite Hact in E1. simpl in E1. inversion E1; subst c1. apply (Rest c); auto.
    + apply (Rest c1); auto. right. rewrite W1. exact Hr.
  - pose proof (L1 _ _ _ _ E1) as W1. unfold Rws in W1. destruct Dec as [Hr|Hr].
    + assert (Hact : active = []).
      { unfold active. destruct (ws_tasks_by_status (c_ws c) ACTIVE_STATUSES) eqn:E; [reflexivity|]. exfalso. apply (P Hr).
        apply has_active_HA. unfold has_active_tasks. rewrite E. reflexivity. }
      rewrite Hact in E1. simpl in E1. inversion E1.
    + intros Y. exfalso. apply Hr. rewrite <- W1. exact Y.
Qed.

End PhiFrame.

Lemma at_rest_false : forall s, at_rest s = false <-> ~ In (wstatus (c_ws (si_c s))) REST2.
Proof.
  intro s. unfold at_rest, REST2. split.
  - intros H X. apply status_in_In in X. congruence.
  - intro H. destruct (status_in (wstatus (c_ws (si_c s))) [S_PAUSED; S_CANCELED]) eqn:E; [|reflexivity]. exfalso. apply H. apply status_in_In. exact E.
Qed.

Lemma aget_pointed : forall (d : list (tkey * nat)) k i, aget tkey_eqb k d = Some i -> existsb (fun '(_, j) => Nat.eqb i j) d = true.
Proof.
  induction d as [|[k1 v1] d IH]; simpl; intros k i H; [discriminate|]. destruct (tkey_eqb k k1).
  - inversion H; subst. rewrite Nat.eqb_refl. reflexivity.
  - rewrite (IH _ _ H). apply orb_true_r.
Qed.

Lemma entry_HA : forall c t r rec, ws_task_entry (c_ws c) t r = Some rec -> ostatus_in (r_status rec) ACTIVE_STATUSES = true -> HA c.
Proof.
  intros c t r rec H Ha. unfold ws_task_entry in H. destruct (ws_task_idx (c_ws c) t r) as [idx|] eqn:E; [|discriminate].
  exists idx, rec. split; [exact H|]. split; [exact Ha|]. unfold ws_pointed. eapply aget_pointed. exact E.
Qed.

Section PhiSystem.
Variable ev : string -> dict -> evalres.

Lemma phi_event : forall s t r e, ibad (isys_event ev s t r e) = false -> calm e \/ at_rest s = false ->
  Phi (si_c s) -> Phi (si_c (isys_event ev s t r e)).
Proof.
  intros s t r e Hb Hc P. pose proof (ievent_val ev s t r e Hb) as H. unfold update_task_state in H.
  refine (phi_fuel ev _ t r e _ _ _ H P). destruct Hc as [Hc|Hc]; [left; exact Hc|right; apply at_rest_false; exact Hc].
Qed.

Lemma phi_ack : forall t r s a, ibad (isys_ack ev t r s a) = false -> at_rest s = false -> Phi (si_c s) -> Phi (si_c (isys_ack ev t r s a)).
Proof. intros t r s a Hb Hr P. unfold isys_ack in *. destruct (a_item a); apply phi_event; auto. Qed.

Lemma phi_fold_ack : forall t r acts s, acks_stale2 ev t r acts s = false -> ibad (fold_left (isys_ack ev t r) acts s) = false ->
  Phi (si_c s) -> Phi (si_c (fold_left (isys_ack ev t r) acts s)).
Proof.
  intros t r acts s Hst Hb P.
  refine (proj2 (fold_left_inv _ (isys_ack ev t r) (fun rest x => acks_stale2 ev t r rest x = false /\ Phi (si_c x))
                   (ibad_ack_mono ev t r) _ acts s (conj Hst P) Hb)).
  intros a rest x [Hs Px] Hb1. destruct (acks_stale2_cons ev _ _ _ _ _ Hs) as [Hr [_ Hs2]]. split; [exact Hs2|exact (phi_ack t r x a Hb1 Hr Px)].
Qed.

Lemma phi_ack_offer : forall s o,
  (match o_items_count o with Some O => at_rest s | _ => acks_stale2 ev (o_id o) (o_route o) (o_actions o) s end) = false ->
  ibad (isys_ack_offer ev s o) = false -> Phi (si_c s) -> Phi (si_c (isys_ack_offer ev s o)).
Proof.
  intros s o Hst Hb P. unfold isys_ack_offer in *. destruct (o_items_count o) as [[|m]|]; try (apply phi_fold_ack; assumption).
  apply phi_event; [exact Hb|left; reflexivity|]. apply phi_event; [|right; exact Hst|exact P].
  apply (not_bad_before (fun x => isys_event ev x (o_id o) (o_route o) (EvAction S_SUCCEEDED (JList [])))); [apply ibad_event_mono|exact Hb].
Qed.

Lemma phi_fold_offer : forall offers s, offers_stale2 ev offers s = false -> ibad (fold_left (isys_ack_offer ev) offers s) = false ->
  Phi (si_c s) -> Phi (si_c (fold_left (isys_ack_offer ev) offers s)).
Proof.
  intros offers s Hst Hb P.
  refine (proj2 (fold_left_inv _ (isys_ack_offer ev) (fun rest x => offers_stale2 ev rest x = false /\ Phi (si_c x))
                   (ibad_ack_offer_mono ev) _ offers s (conj Hst P) Hb)).
  intros o rest x [Hs Px] Hb1. destruct (offers_stale2_cons ev _ _ _ Hs) as [Hs1 Hs2]. split; [exact Hs2|exact (phi_ack_offer x o Hs1 Hb1 Px)].
Qed.

Lemma phi_poll_inited : forall s, c_init (si_c s) = true -> Phi (si_c s) -> poll_odd2 ev s = false -> ibad (isys_poll ev s) = false ->
  Phi (si_c (isys_poll ev s)).
Proof.
  intros s Hi P Ho Hb. unfold poll_odd2 in Ho. unfold isys_poll in *.
  destruct (get_next_tasks ev (si_c s)) as [c1 [offers|x]] eqn:Hg; [|discriminate Hb].
  apply orb_false_iff in Ho. destruct Ho as [_ Hst].
  destruct (gn_items_eff ev _ _ _ Hi Hg) as [(_ & _ & _ & Hseq & Htk & Hw & _) _].
  apply phi_fold_offer; [exact Hst|exact Hb|]. simpl.
  apply (Rdown_phi (si_c s)); [|exact P]. split; [exact Hw|].
  intros [i [r [A [B C]]]]. exists i, r. rewrite Hseq in A. unfold ws_pointed in *. rewrite Htk in C. auto.
Qed.

Definition phi_inv (s : isys) : Prop := ibad s = false -> Phi (si_c s).

Lemma phi_live : forall s op, c_init (si_c s) = true -> Phi (si_c s) -> op_odd2 ev s op = false ->
  ibad (isys_step ev s op) = false -> Phi (si_c (isys_step ev s op)).
Proof.
  intros s op Hi P Ho Hb.
  assert (Rq : forall st, Phi (si_c (isys_request ev s st))).
  { intro st. destruct (irequest_val ev s st Hi) as [->|[c' [x [_ [R [_ ->]]]]]]; [exact P|exact (phi_request_status_core st _ _ _ R P)]. }
  assert (Cl : forall o, o = OpRender \/ o = OpPersist -> ibad (isys_call ev s o) = false -> Phi (si_c (isys_call ev s o))).
  { intros o Hop Hb'. destruct (icall_val ev s o Hi Hop Hb') as [L _]. exact (Rdown_phi _ _ (Rdown_fr _ _ (Rlt_Rfr _ _ L)) P). }
  destruct op; cbn [isys_step op_odd2] in *; auto.
  - apply phi_poll_inited; assumption.
  - unfold isys_report in *. destruct (ikey_in _ _ && _) eqn:En; [|exact P]. apply andb_true_iff in En. destruct En as [_ Hst].
    assert (Hc : status_in st COMPLETED_STATUSES = true) by exact Hst.
    destruct item; apply phi_event; try assumption; left; exact Hc.
Qed.

Lemma phi_step : forall s op, isys_inv2 s -> phi_inv s -> op_odd2 ev s op = false -> phi_inv (isys_step ev s op).
Proof.
  intros s op H2 H3 Ho Hb. pose proof (not_bad_before (fun x => isys_step ev x op) s (fun X => ibad_step_mono ev _ _ X) Hb) as Hb0.
  specialize (H3 Hb0). destruct (inv2_link s H2 Hb0) as [[Hu HF]|[Hi _]]; [|apply phi_live; assumption].
  destruct (isys_step_unborn ev s op HF Hb) as [E|[c0 [En E]]]; rewrite E in *; [exact H3|].
  apply phi_live; [exact (ensure_ws_init_after ev _ _ _ En)|exact (Rdown_phi _ _ (down_ensure_ws ev _ _ _ En) H3)| |exact Hb].
  destruct op; try reflexivity. cbn [op_odd2] in *. unfold poll_odd2 in *. simpl. rewrite <- (get_next_ensure ev _ _ _ En). exact Ho.
Qed.

Lemma phi_run : forall ops s, isys_inv2 s -> phi_inv s -> run_odd2 ev ops s = false -> phi_inv (isys_run ev ops s).
Proof.
  induction ops as [|op ops IH]; intros s H2 H3 Ho; [exact H3|]. cbn [isys_run fold_left]. simpl in Ho.
  apply orb_false_iff in Ho. destruct Ho as [Ho1 Ho2].
  apply IH; [apply isys_step_inv2; exact H2|apply phi_step; assumption|exact Ho2].
Qed.

End PhiSystem.

Section IdleReachable.
Variable ev : string -> dict -> evalres.
Variables (sp : wf_spec) (g : graph) (inputs parent : dict).

(* when the workflow reports paused or canceled no pointed task record is active ... *)
Theorem rest_no_active_record : forall ops, let s := ireach ev sp g inputs parent ops in
  si_fault s = false -> si_wiped s = false -> run_odd2 ev ops (isys_init sp g inputs parent) = false ->
  In (wstatus (c_ws (si_c s))) [S_PAUSED; S_CANCELED] -> has_active_tasks (c_ws (si_c s)) = false.
Proof.
  intros ops s Hf Hw Ho Hin.
  assert (P : Phi (si_c s)).
  { apply (phi_run ev ops _ (isys_init_inv2 sp g inputs parent)); [|exact Ho|apply ibad_false; assumption].
    intros _ X. simpl in X. intuition discriminate. }
  destruct (has_active_tasks (c_ws (si_c s))) eqn:E; [|reflexivity]. exfalso. apply (P Hin). apply has_active_HA. exact E.
Qed.

(* ... hence nothing is in flight *)
Theorem paused_canceled_idle : forall ops, let s := ireach ev sp g inputs parent ops in
  si_fault s = false -> si_wiped s = false -> run_odd ev ops (isys_init sp g inputs parent) = false ->
  run_odd2 ev ops (isys_init sp g inputs parent) = false ->
  In (wstatus (c_ws (si_c s))) [S_PAUSED; S_CANCELED] -> si_inflight s = [].
Proof.
  intros ops s Hf Hw Ho Ho2 Hin. pose proof (rest_no_active_record ops Hf Hw Ho2 Hin) as Hna.
  destruct (si_inflight s) as [|[[t r] [i|]] F] eqn:EF; [reflexivity| |]; exfalso.
  - destruct (items_record_active ev sp g inputs parent ops Hf Hw Ho t r i) as [rec [A [_ [_ B]]]]; [fold s; rewrite EF; left; reflexivity|].
    pose proof (proj2 (has_active_HA _) (entry_HA _ _ _ _ A B)) as X. unfold s in Hna. rewrite X in Hna. discriminate Hna.
  - destruct (plain_record_active ev sp g inputs parent ops Hf Hw Ho Ho2 t r) as [rec [A [_ [_ B]]]]; [fold s; rewrite EF; left; reflexivity|].
    pose proof (proj2 (has_active_HA _) (entry_HA _ _ _ _ A B)) as X. unfold s in Hna. rewrite X in Hna. discriminate Hna.
Qed.

End IdleReachable.
