(* RerunProofs.v -- C17: what an accepted rerun does, exactly.
   (a) which executions are re-run: [cand_of] is the candidate list as a pure function of the workflow state and
       the request dictionary; the model computes exactly it, without touching the state ([rerun_accepted_inv]).
       Default request: per (task, route) key the LAST terminal abended record ([default_cand_iff]).  Explicit
       request: the requested keys minus the collapsed ones ([collapsed_iff]: with two or more requests a request
       survives iff SOME request's sequence does not contain all of its own -- not "every other"; see
       props/C17b.v, Example three_requests_collapsed).
   (b) what re-running one candidate does ([rerun_plain_exact], [rerun_items_exact]: equations between states).
   (c) what else changes: contexts, routes, graph, definition never; staged entries of other keys never
       ([rerun_accepted_frame]; stale entries survive -- finding D21); records only lose the terminal flag or are
       appended; the rerun log gets one entry.
   (e) an empty candidate set is accepted and only flips the status ([empty_rerun_exact]; finding D9). *)
From Coq Require Import String List Bool ZArith Arith Lia.
From Orq Require Import GenStatuses GenEvents GenTables GenSpecMeta Base State Machines Codec Conductor Decode Api.
From Orq Require Import F_tables Hoare Frame ValuePost StatusReach C04Proofs C05Proofs C17Proofs C18Proofs OffersProofs
  InertProofs RetryProofs NoInternalProofs ListFacts StateFacts.
Import ListNotations.
Open Scope string_scope.
Open Scope monad_scope.

Definition cand := (tkey * (nat * trec))%type.

Definition rkey (r : trec) : tkey := (r_id r, r_route r).

Definition default_cands (w : wstate) : list cand :=
  fold_left (fun acc '(i, r) => if ostatus_in (r_status r) ABENDED_STATUSES then aset tkey_eqb (rkey r) (i, r) acc else acc)
            (get_terminal_tasks w) [].

Definition seq_of (w : wstate) (q : rerun_req) : list nat :=
  match get_task_sequence w (rq_task q) (rq_route q) with Val s => s | Exc _ => [] end.

Definition seqs_of (w : wstate) (tasks_d : list (tkey * rerun_req)) : list (tkey * list nat) :=
  map (fun '(k, q) => (k, seq_of w q)) tasks_d.

Definition collapse (tasks_d : list (tkey * rerun_req)) (seqs : list (tkey * list nat)) : list (tkey * list nat) :=
  match tasks_d with
  | [_] => seqs
  | _ => filter (fun '(_, i) => negb (existsb (fun '(_, j) => nat_list_proper_subset i j) seqs)) seqs
  end.

Definition explicit_cands (w : wstate) (tasks_d : list (tkey * rerun_req)) : list cand :=
  let collapsed := collapse tasks_d (seqs_of w tasks_d) in
  flat_map (fun '(k, q) =>
              if ahas tkey_eqb k collapsed then
                match ws_task_idx w (rq_task q) (rq_route q) with
                | Some i => match nth_error (sequence w) i with Some r => [(k, (i, r))] | None => [] end
                | None => []
                end
              else []) tasks_d.

Definition cand_of (w : wstate) (tasks_d : list (tkey * rerun_req)) : list cand :=
  match tasks_d with [] => default_cands w | _ => explicit_cands w tasks_d end.

Definition cand_leb : cand -> cand -> bool :=
  fun '(_, (_, a)) '(_, (_, b)) =>
    if String.eqb (r_id a) (r_id b) then Nat.leb (r_route a) (r_route b) else String.leb (r_id a) (r_id b).

Definition rerun_rest (ev : string -> dict -> evalres) (tasks_d : list (tkey * rerun_req)) (cands : list cand) : M unit :=
  modws (fun w => ws_set_reruns w (app (reruns w) [map (fun '(_, (i, _)) => i) cands])) ;;;
  forM_ (sort_by cand_leb cands) (fun '(_, (_, r)) =>
    let reset := match aget tkey_eqb (r_id r, r_route r) tasks_d with Some q => rq_reset_items q | None => false end in
    request_task_rerun ev (r_id r) (r_route r) reset) ;;;
  w <- getws ;;
  let continuable :=
    fold_left (fun acc '(i, r) => if existsb (fun '(_, b) => b) (r_next r) then aset tkey_eqb (r_id r, r_route r) i acc else acc)
              (get_terminal_tasks w) [] in
  forM_ continuable (fun '(_, i) => upd_rec i (fun r => r_set_term r false)) ;;;
  modify (fun c => set_output c None) ;;;
  modws (fun w => ws_set_status w S_RESUMING).

Lemma reqs_dict_keys : forall reqs k q, In (k, q) (reqs_dict reqs) -> k = (rq_task q, rq_route q).
Proof.
  intro reqs. unfold reqs_dict.
  assert (G : forall acc, (forall k q, In (k, q) acc -> k = (rq_task q, rq_route q)) ->
              forall k q, In (k, q) (fold_left (fun acc q => aset tkey_eqb (rq_task q, rq_route q) q acc) reqs acc) ->
              k = (rq_task q, rq_route q)).
  { induction reqs as [|q0 reqs IH]; intros acc Hacc k q Hin; [apply Hacc; exact Hin|].
    simpl in Hin. eapply IH; [|exact Hin]. clear -Hacc. intros k q Hin.
    induction acc as [|[k1 q1] acc IHa]; simpl in Hin.
    - destruct Hin as [Hin|[]]. inversion Hin; subst; reflexivity.
    - destruct (tkey_eqb (rq_task q0, rq_route q0) k1) eqn:E; simpl in Hin.
      + destruct Hin as [Hin|Hin]; [inversion Hin; subst; apply tkey_eqb_eq in E; symmetry; exact E|apply Hacc; right; exact Hin].
      + destruct Hin as [Hin|Hin]; [apply Hacc; left; exact Hin|]. apply IHa; [intros; apply Hacc; right; assumption|exact Hin]. }
  apply G. intros k q [].
Qed.

Section Candidates.
Variable ev : string -> dict -> evalres.

Lemma seqs_pure : forall w tasks_d c,
  (forall k q, In (k, q) tasks_d -> ws_task_idx w (rq_task q) (rq_route q) <> None) ->
  mapM (fun '(k, q) => s <- lift_res (get_task_sequence w (rq_task q) (rq_route q)) ;; ret (k, s)) tasks_d c
  = (c, Val (seqs_of w tasks_d)).
Proof.
  intros w tasks_d c; induction tasks_d as [|[k q] l IH]; intro H; [reflexivity|].
  assert (E : exists s, get_task_sequence w (rq_task q) (rq_route q) = Val s).
  { unfold get_task_sequence. destruct (ws_task_idx w (rq_task q) (rq_route q)) eqn:Ei; [eexists; reflexivity|].
    exfalso. apply (H k q); [left; reflexivity|exact Ei]. }
  destruct E as [s Es].
  assert (E1 : (let '(k, q) := (k, q) in s <- lift_res (get_task_sequence w (rq_task q) (rq_route q)) ;; ret (k, s)) c
               = (c, Val (k, s))) by (cbv beta iota; unfold bind; rewrite Es; reflexivity).
  cbn [mapM]. rewrite (bind_step _ _ _ _ _ _ _ E1). rewrite (bind_step _ _ _ _ _ _ _ (IH (fun k' q' Hin => H k' q' (or_intror Hin)))).
  cbn [seqs_of map]. unfold seq_of at 1. rewrite Es. reflexivity.
Qed.

(* an accepted rerun: the workflow was completed, every requested execution exists, the candidates are [cand_of],
   computed without touching the state, and the rest runs from the unchanged state *)
Theorem rerun_accepted_inv : forall reqs c c', c_init c = true ->
  request_workflow_rerun ev reqs c = (c', Val tt) ->
  status_in (wstatus (c_ws c)) COMPLETED_STATUSES = true /\
  (forall k q, In (k, q) (reqs_dict reqs) -> ahas tkey_eqb k (tasks (c_ws c)) = true) /\
  rerun_rest ev (reqs_dict reqs) (cand_of (c_ws c) (reqs_dict reqs)) c = (c', Val tt).
Proof.
  intros reqs c c' Hi H. unfold request_workflow_rerun in H.
  rewrite (bind_step _ _ _ _ _ _ _ (ensure_ws_inited ev c Hi)) in H.
  rewrite (bind_step _ _ _ _ _ _ _ (eq_refl : getws c = (c, Val (c_ws c)))) in H.
  destruct (status_in (wstatus (c_ws c)) COMPLETED_STATUSES) eqn:Es; [|inversion H]. cbn [negb] in H. cbv zeta in H.
  fold (reqs_dict reqs) in H.
  destruct (filter (fun '(k, _) => negb (ahas tkey_eqb k (tasks (c_ws c)))) (reqs_dict reqs)) as [|x l] eqn:Ef; [|inversion H].
  assert (Hall : forall k q, In (k, q) (reqs_dict reqs) -> ahas tkey_eqb k (tasks (c_ws c)) = true).
  { intros k q Hin. destruct (ahas tkey_eqb k (tasks (c_ws c))) eqn:Ea; [reflexivity|]. exfalso.
    assert (Hx : In (k, q) (filter (fun '(k, _) => negb (ahas tkey_eqb k (tasks (c_ws c)))) (reqs_dict reqs)))
      by (apply filter_In; split; [exact Hin|rewrite Ea; reflexivity]).
    rewrite Ef in Hx. destruct Hx. }
  split; [reflexivity|]. split; [exact Hall|].
  assert (Hc : forall (K : list cand -> M unit),
    (candidates <- (match reqs_dict reqs with
                    | [] => ret (default_cands (c_ws c))
                    | _ => seqs <- mapM (fun '(k, q) => s <- lift_res (get_task_sequence (c_ws c) (rq_task q) (rq_route q)) ;; ret (k, s))
                                        (reqs_dict reqs) ;;
                           ret (flat_map (fun '(k, q) =>
                                  if ahas tkey_eqb k (collapse (reqs_dict reqs) seqs) then
                                    match ws_task_idx (c_ws c) (rq_task q) (rq_route q) with
                                    | Some i => match nth_error (sequence (c_ws c)) i with Some r => [(k, (i, r))] | None => [] end
                                    | None => []
                                    end
                                  else []) (reqs_dict reqs))
                    end) ;; K candidates) c = K (cand_of (c_ws c) (reqs_dict reqs)) c).
  { intro K. unfold cand_of. destruct (reqs_dict reqs) as [|p l0] eqn:Ed; [reflexivity|].
    unfold bind at 1. unfold bind at 1. rewrite seqs_pure; [reflexivity|].
    intros k q Hin. specialize (Hall k q Hin). rewrite (reqs_dict_keys reqs k q) in Hall by (rewrite Ed; exact Hin).
    unfold ahas, ws_task_idx in *. destruct (aget tkey_eqb (rq_task q, rq_route q) (tasks (c_ws c))); [discriminate|discriminate Hall]. }
  rewrite Hc in H. exact H.
Qed.

End Candidates.

Lemma aget_fold_aset : forall X V (L : list X) (key : X -> tkey) (val : X -> V) (p : X -> bool) acc k,
  aget tkey_eqb k (fold_left (fun acc x => if p x then aset tkey_eqb (key x) (val x) acc else acc) L acc) =
  fold_left (fun o x => if p x && tkey_eqb k (key x) then Some (val x) else o) L (aget tkey_eqb k acc).
Proof.
  intros X V L key val p; induction L as [|x L IH]; intros acc k; simpl; [reflexivity|].
  rewrite IH. f_equal. destruct (p x); simpl; [|reflexivity]. apply (aget_aset tkey_eqb tkey_eqb_eq).
Qed.

Lemma fold_last_iff : forall X V (cond : X -> bool) (val : X -> V) (L : list X) o0 v,
  fold_left (fun o x => if cond x then Some (val x) else o) L o0 = Some v <->
  (exists L1 x L2, L = app L1 (x :: L2) /\ cond x = true /\ val x = v /\ forall y, In y L2 -> cond y = false) \/
  (o0 = Some v /\ forall y, In y L -> cond y = false).
Proof.
  intros X V cond val L; induction L as [|x L IH]; intros o0 v; simpl.
  - split; [intro H; right; split; [exact H|intros y []]|intros [[L1 [x [L2 [H _]]]]|[H _]]; [destruct L1; discriminate|exact H]].
  - rewrite IH. split.
    + intros [[L1 [y [L2 [E [C [Vv Hn]]]]]]|[Ho Hn]].
      * left. exists (x :: L1), y, L2. rewrite E. auto.
      * destruct (cond x) eqn:Cx.
        -- inversion Ho; subst. left. exists [], x, L. auto.
        -- right. split; [exact Ho|]. intros y [<-|Hy]; auto.
    + intros [[L1 [y [L2 [E [C [Vv Hn]]]]]]|[Ho Hn]].
      * destruct L1 as [|z L1]; simpl in E; inversion E; subst.
        -- right. rewrite C. split; [reflexivity|exact Hn].
        -- left. exists L1, y, L2. auto.
      * right. rewrite (Hn x (or_introl eq_refl)). split; [exact Ho|]. intros y Hy; apply Hn; right; exact Hy.
Qed.

Theorem default_cand_iff : forall w k i r,
  aget tkey_eqb k (default_cands w) = Some (i, r) <->
  exists L1 L2, get_terminal_tasks w = app L1 ((i, r) :: L2) /\
                ostatus_in (r_status r) ABENDED_STATUSES = true /\ rkey r = k /\
                forall j r', In (j, r') L2 -> ostatus_in (r_status r') ABENDED_STATUSES && tkey_eqb k (rkey r') = false.
Proof.
  intros w k i r. unfold default_cands.
  rewrite (fold_left_ext_all _ _ _ (fun acc (x : nat * trec) => if ostatus_in (r_status (snd x)) ABENDED_STATUSES
                                                         then aset tkey_eqb (rkey (snd x)) x acc else acc))
    by (intros acc [j r0]; reflexivity).
  rewrite (aget_fold_aset _ _ (get_terminal_tasks w) (fun x => rkey (snd x)) (fun x => x)
             (fun x => ostatus_in (r_status (snd x)) ABENDED_STATUSES) [] k).
  simpl. rewrite (fold_last_iff _ _ (fun x => ostatus_in (r_status (snd x)) ABENDED_STATUSES && tkey_eqb k (rkey (snd x))) (fun x => x)).
  split.
  - intros [[L1 [[j r0] [L2 [E [C [V Hn]]]]]]|[Ho _]]; [|discriminate]. inversion V; subst j r0. simpl in C.
    apply andb_prop in C. destruct C as [C1 C2]. apply tkey_eqb_eq in C2.
    exists L1, L2. split; [exact E|]. split; [exact C1|]. split; [symmetry; exact C2|]. intros j r' Hin. apply (Hn (j, r') Hin).
  - intros [L1 [L2 [E [C1 [C2 Hn]]]]]. left. exists L1, (i, r), L2. split; [exact E|]. simpl. rewrite C1, <- C2, tkey_eqb_refl.
    split; [reflexivity|]. split; [reflexivity|]. intros [j r'] Hin. rewrite C2. apply (Hn j r' Hin).
Qed.

Lemma terminal_tasks_In : forall w i r, In (i, r) (get_terminal_tasks w) <-> nth_error (sequence w) i = Some r /\ r_term r = true.
Proof.
  intros w i r. unfold get_terminal_tasks. rewrite filter_In. split.
  - intros [H1 H2]. split; [apply In_enumerate; exact H1|exact H2].
  - intros [H1 H2]. split; [|exact H2]. unfold enumerate.
    assert (G : forall (l : list trec) n j x, nth_error l j = Some x -> In (n + j, x) (enumerate_from n l)).
    { induction l as [|a l IH]; intros n j x Hn; [destruct j; discriminate|]. destruct j; simpl in *.
      - inversion Hn; subst. left. f_equal. lia.
      - right. replace (n + S j) with (S n + j) by lia. apply IH; exact Hn. }
    apply (G _ 0 i r H1).
Qed.

Lemma nat_in_iff : forall x l, nat_in x l = true <-> In x l.
Proof.
  intros x l; split; [apply nat_in_In|]. induction l as [|m l IH]; [intros []|]. simpl.
  intros [->|H]; [rewrite Nat.eqb_refl; reflexivity|rewrite IH by exact H; apply orb_true_r].
Qed.

Definition proper_subset (s s' : list nat) : Prop := (forall x, In x s -> In x s') /\ exists y, In y s' /\ ~ In y s.

Lemma diff_nonempty_iff : forall a b, nat_list_diff_nonempty a b = true <-> exists x, In x a /\ ~ In x b.
Proof.
  intros a b. unfold nat_list_diff_nonempty. rewrite existsb_exists. split.
  - intros [x [Hx Hn]]. exists x. split; [exact Hx|]. apply negb_true_iff in Hn. intro Hc. apply nat_in_iff in Hc. congruence.
  - intros [x [Hx Hn]]. exists x. split; [exact Hx|]. apply negb_true_iff. destruct (nat_in x b) eqn:E; [|reflexivity].
    exfalso. apply Hn. apply nat_in_iff; exact E.
Qed.

Lemma proper_subset_iff : forall s s', nat_list_proper_subset s s' = true <-> proper_subset s s'.
Proof.
  intros s s'. unfold nat_list_proper_subset, proper_subset. rewrite andb_true_iff, negb_true_iff, diff_nonempty_iff. split.
  - intros [H1 H2]. split; [|exact H2]. intros x Hx. destruct (nat_in x s') eqn:E; [apply nat_in_iff; exact E|].
    exfalso. assert (Hd : nat_list_diff_nonempty s s' = true); [|congruence].
    apply diff_nonempty_iff. exists x. split; [exact Hx|]. intro Hc. apply nat_in_iff in Hc. congruence.
  - intros [H1 H2]. split; [|exact H2]. destruct (nat_list_diff_nonempty s s') eqn:E; [|reflexivity].
    apply diff_nonempty_iff in E. destruct E as [x [Hx Hn]]. exfalso. exact (Hn (H1 x Hx)).
Qed.

(* a single request always survives; otherwise a request is dropped iff its sequence (its record and everything
   downstream that already ran) is a proper subset of another request's sequence *)
Theorem collapsed_iff : forall tasks_d seqs k s, In (k, s) (collapse tasks_d seqs) <->
  In (k, s) seqs /\ (length tasks_d = 1 \/ ~ exists k' s', In (k', s') seqs /\ proper_subset s s').
Proof.
  intros tasks_d seqs k s. unfold collapse.
  assert (F : In (k, s) (filter (fun '(_, i) => negb (existsb (fun '(_, j) => nat_list_proper_subset i j) seqs)) seqs) <->
              In (k, s) seqs /\ ~ exists k' s', In (k', s') seqs /\ proper_subset s s').
  { rewrite filter_In. split; intros [H1 H2]; (split; [exact H1|]).
    - apply negb_true_iff in H2. intros [k' [s' [Hin Hp]]].
      assert (existsb (fun '(_, j) => nat_list_proper_subset s j) seqs = true); [|congruence].
      apply existsb_exists. exists (k', s'). split; [exact Hin|apply proper_subset_iff; exact Hp].
    - apply negb_true_iff. destruct (existsb (fun '(_, j) => nat_list_proper_subset s j) seqs) eqn:E; [|reflexivity].
      exfalso. apply H2. apply existsb_exists in E. destruct E as [[k' s'] [Hin Hp]]. exists k', s'. split; [exact Hin|apply proper_subset_iff; exact Hp]. }
  destruct tasks_d as [|p [|p2 l]].
  - rewrite F. split; intros [H1 H2]; (split; [exact H1|]); [right; exact H2|destruct H2 as [H2|H2]; [discriminate|exact H2]].
  - split; [intro H; split; [exact H|left; reflexivity]|intros [H _]; exact H].
  - rewrite F. split; intros [H1 H2]; (split; [exact H1|]); [right; exact H2|destruct H2 as [H2|H2]; [discriminate|exact H2]].
Qed.

Theorem explicit_cand_iff : forall w tasks_d k i r, In (k, (i, r)) (explicit_cands w tasks_d) <->
  exists q, In (k, q) tasks_d /\ ahas tkey_eqb k (collapse tasks_d (seqs_of w tasks_d)) = true /\
            ws_task_idx w (rq_task q) (rq_route q) = Some i /\ nth_error (sequence w) i = Some r.
Proof.
  intros w tasks_d k i r. unfold explicit_cands. cbv zeta. rewrite in_flat_map. split.
  - intros [[k' q] [Hin H]]. destruct (ahas tkey_eqb k' (collapse tasks_d (seqs_of w tasks_d))) eqn:Ea; [|destruct H].
    destruct (ws_task_idx w (rq_task q) (rq_route q)) as [j|] eqn:Ei; [|destruct H].
    destruct (nth_error (sequence w) j) as [r0|] eqn:En; [|destruct H]. destruct H as [H|[]]. inversion H; subst.
    exists q. auto.
  - intros [q [Hin [Ha [Hi Hn]]]]. exists (k, q). split; [exact Hin|]. rewrite Ha, Hi, Hn. left; reflexivity.
Qed.

Definition clear_term (c : cstate) (i : nat) : cstate :=
  set_ws c (ws_update_rec (c_ws c) i (fun r => r_set_term r false)).
Definition clear_terms (l : list nat) (c : cstate) : cstate := fold_left clear_term l c.

Lemma forM_clear_run : forall l c, forM_ l (fun i => upd_rec i (fun r => r_set_term r false)) c = (clear_terms l c, Val tt).
Proof.
  induction l as [|i l IH]; intro c; [reflexivity|]. cbn [forM_ clear_terms fold_left].
  unfold bind, upd_rec at 1, modws. rewrite IH. reflexivity.
Qed.

Definition drop_task_errors (t : string) (c : cstate) : cstate :=
  set_errors c (filter (fun e => negb (opt_eqb String.eqb (er_task e) (Some t))) (c_errors c)).
Definition uncomplete (t : string) (route : nat) (c : cstate) : cstate :=
  set_ws c (ws_set_staged (c_ws c) (staged_update (fun s => s_set_completed s false) t route (staged (c_ws c)))).
(* common to both kinds: the record loses its terminal flag, the staged entry (if any) its completed flag, the error
   log every entry of the task (of ANY route and execution of that task id) *)
Definition rerun_prep (t : string) (route idx : nat) (c : cstate) : cstate :=
  drop_task_errors t (uncomplete t route (clear_term c idx)).

Definition new_rec (t : string) (route : nat) (r : trec) : trec :=
  {| r_id := t; r_route := route; r_in := match r_in r with [] => [0] | _ => r_in r end; r_out := None; r_prev := r_prev r;
     r_next := []; r_status := None; r_term := false; r_retry := None |}.

Definition downstream (c : cstate) (t : string) (route : nat) : list nat :=
  match get_task_sequence (c_ws c) t route with Val s => s | Exc _ => [] end.

(* a task without retry policy that is not a staged with-items task: a new record (same id, route, inbound contexts
   and predecessors as the old one; no status, no transition decision, no retry bookkeeping) is appended, the pointer
   moves to it, a ready staged entry is appended, and the terminal flag is cleared down the old record's branch *)
Definition rerun_plain_state (t : string) (route idx : nat) (r : trec) (c : cstate) : cstate :=
  let c1 := rerun_prep t route idx c in
  let w := c_ws c1 in
  let c2 := set_ws c1 (ws_set_tasks (ws_set_sequence w (app (sequence w) [new_rec t route r]))
                                     (aset tkey_eqb (t, route) (length (sequence w)) (tasks w))) in
  let c3 := set_ws c2 (ws_add_staged (c_ws c2) (mk_staged t route (r_in r) (r_prev r) true None)) in
  clear_terms (downstream c3 t route) c3.

(* a with-items task whose staged entry is still there (it failed): nothing is appended; the abended items (all items
   with reset_items) become unset *)
Definition reset_items_state (t : string) (route : nat) (reset : bool) (c : cstate) : cstate :=
  set_ws c (ws_set_staged (c_ws c)
    (staged_update (fun s => s_set_items s (match s_items s with
                                             | Some l => Some (map (fun st => if reset || status_in st ABENDED_STATUSES then S_UNSET else st) l)
                                             | None => None end)) t route (staged (c_ws c)))).
Definition rerun_items_state (t : string) (route idx : nat) (reset : bool) (c : cstate) : cstate :=
  let c2 := reset_items_state t route reset (rerun_prep t route idx c) in
  clear_terms (downstream c2 t route) c2.



Section OneCandidate.
Variable ev : string -> dict -> evalres.

Theorem rerun_plain_exact : forall t route reset idx r ts c,
  ws_task_idx (c_ws c) t route = Some idx -> nth_error (sequence (c_ws c)) idx = Some r ->
  spec_get_task (c_spec c) t = Some ts ->
  (task_has_items ts = false \/ get_staged_task (c_ws c) t route = None) ->
  g_has_task (c_graph c) t = true -> g_task_has_retry (c_graph c) t = false ->
  request_task_rerun ev t route reset c = (rerun_plain_state t route idx r c, Val tt).
Proof.
  intros t route reset idx r ts c Hp Hn Hts Hplain Hg Hnr. unfold request_task_rerun.
  rewrite (bind_step _ _ _ _ _ _ _ (eq_refl : get c = (c, Val c))). rewrite Hp.
  rewrite (bind_step _ _ _ _ _ _ _ (eq_refl : ret idx c = (c, Val idx))).
  assert (Eg : get_rec idx c = (c, Val r)) by (unfold get_rec, bind, getws; rewrite Hn; reflexivity).
  rewrite (bind_step _ _ _ _ _ _ _ Eg). rewrite Hts. rewrite (bind_step _ _ _ _ _ _ _ (eq_refl : ret ts c = (c, Val ts))).
  unfold bind at 1, upd_rec at 1, modws at 1. unfold bind at 1, modws at 1. unfold bind at 1, modify at 1.
  fold (clear_term c idx). fold (uncomplete t route (clear_term c idx)). fold (drop_task_errors t (uncomplete t route (clear_term c idx))).
  fold (rerun_prep t route idx c). set (c1 := rerun_prep t route idx c).
  rewrite (bind_step _ _ _ _ _ _ _ (eq_refl : getws c1 = (c1, Val (c_ws c1)))).
  assert (Hbr : task_has_items ts && match get_staged_task (c_ws c1) t route with Some _ => true | None => false end = false).
  { destruct Hplain as [Hi|Hs]; [rewrite Hi; reflexivity|]. apply andb_false_intro2.
    unfold c1, rerun_prep, drop_task_errors, uncomplete, clear_term, get_staged_task in *. simpl. rewrite staged_update_rec.
    rewrite find_staged_update_none; [reflexivity|intro; split; reflexivity|exact Hs]. }
  rewrite Hbr.
  assert (Hg1 : c_graph c1 = c_graph c) by reflexivity.
  (* the new record: no retry policy, so the evaluator is not consulted *)
  assert (Ea : add_task_state ev t route (r_in r) (r_prev r) c1 =
               (set_ws c1 (ws_set_tasks (ws_set_sequence (c_ws c1) (app (sequence (c_ws c1)) [new_rec t route r]))
                                        (aset tkey_eqb (t, route) (length (sequence (c_ws c1))) (tasks (c_ws c1)))),
                Val (length (sequence (c_ws c1))))).
  { unfold add_task_state. rewrite (bind_step _ _ _ _ _ _ _ (eq_refl : get c1 = (c1, Val c1))). rewrite Hg1, Hg, Hnr. cbn [negb]. cbv zeta.
    rewrite (bind_step _ _ _ _ _ _ _ (eq_refl : ret (@None retry_rec) c1 = (c1, Val None))).
    rewrite (bind_step _ _ _ _ _ _ _ (eq_refl : getws c1 = (c1, Val (c_ws c1)))). unfold bind, modws. reflexivity. }
  set (c2 := set_ws c1 (ws_set_tasks (ws_set_sequence (c_ws c1) (app (sequence (c_ws c1)) [new_rec t route r]))
                                     (aset tkey_eqb (t, route) (length (sequence (c_ws c1))) (tasks (c_ws c1))))) in *.
  set (c3 := set_ws c2 (ws_add_staged (c_ws c2) (mk_staged t route (r_in r) (r_prev r) true None))).
  assert (Eb : (add_task_state ev t route (r_in r) (r_prev r) ;;;
                modws (fun w => ws_add_staged w (mk_staged t route (r_in r) (r_prev r) true None))) c1 = (c3, Val tt))
    by (unfold bind; rewrite Ea; reflexivity).
  rewrite (bind_step _ _ _ _ _ _ _ Eb).
  rewrite (bind_step _ _ _ _ _ _ _ (eq_refl : getws c3 = (c3, Val (c_ws c3)))).
  assert (Es : exists s, get_task_sequence (c_ws c3) t route = Val s).
  { unfold get_task_sequence. destruct (ws_task_idx (c_ws c3) t route) eqn:E; [eexists; reflexivity|].
    exfalso. unfold c3, ws_task_idx in E. simpl in E. rewrite (aget_aset_same _ _ tkey_eqb (t, route)) in E by apply tkey_eqb_refl. discriminate. }
  destruct Es as [s Es]. unfold bind at 1. unfold lift_res. rewrite Es. unfold ret. rewrite forM_clear_run.
  unfold rerun_plain_state. cbv zeta. fold c1. fold c2. fold c3. unfold downstream. rewrite Es. reflexivity.
Qed.

Theorem rerun_items_exact : forall t route reset idx r ts c s0,
  ws_task_idx (c_ws c) t route = Some idx -> nth_error (sequence (c_ws c)) idx = Some r ->
  spec_get_task (c_spec c) t = Some ts -> task_has_items ts = true -> get_staged_task (c_ws c) t route = Some s0 ->
  request_task_rerun ev t route reset c = (rerun_items_state t route idx reset c, Val tt).
Proof.
  intros t route reset idx r ts c s0 Hp Hn Hts Hi Hs. unfold request_task_rerun.
  rewrite (bind_step _ _ _ _ _ _ _ (eq_refl : get c = (c, Val c))). rewrite Hp.
  rewrite (bind_step _ _ _ _ _ _ _ (eq_refl : ret idx c = (c, Val idx))).
  assert (Eg : get_rec idx c = (c, Val r)) by (unfold get_rec, bind, getws; rewrite Hn; reflexivity).
  rewrite (bind_step _ _ _ _ _ _ _ Eg). rewrite Hts. rewrite (bind_step _ _ _ _ _ _ _ (eq_refl : ret ts c = (c, Val ts))).
  unfold bind at 1, upd_rec at 1, modws at 1. unfold bind at 1, modws at 1. unfold bind at 1, modify at 1.
  fold (clear_term c idx). fold (uncomplete t route (clear_term c idx)). fold (drop_task_errors t (uncomplete t route (clear_term c idx))).
  fold (rerun_prep t route idx c). set (c1 := rerun_prep t route idx c).
  rewrite (bind_step _ _ _ _ _ _ _ (eq_refl : getws c1 = (c1, Val (c_ws c1)))).
  assert (Hbr : task_has_items ts && match get_staged_task (c_ws c1) t route with Some _ => true | None => false end = true).
  { rewrite Hi. cbn [andb]. unfold c1, rerun_prep, drop_task_errors, uncomplete, clear_term, get_staged_task in *. simpl.
    rewrite staged_update_rec.
    destruct (find (stg_matches t route) (staged_update (fun s => s_set_completed s false) t route (staged (c_ws c)))) eqn:E;
      [reflexivity|exfalso]. revert E. apply find_staged_update_some; [intro; reflexivity|rewrite Hs; discriminate]. }
  rewrite Hbr. unfold bind at 1, modws at 1. fold (reset_items_state t route reset c1). set (c2 := reset_items_state t route reset c1).
  rewrite (bind_step _ _ _ _ _ _ _ (eq_refl : getws c2 = (c2, Val (c_ws c2)))).
  assert (Es : exists s, get_task_sequence (c_ws c2) t route = Val s).
  { unfold get_task_sequence. assert (E : ws_task_idx (c_ws c2) t route = Some idx).
    { unfold c2, reset_items_state, c1, rerun_prep, drop_task_errors, uncomplete, clear_term, ws_task_idx in *. simpl. rewrite tasks_update_rec. exact Hp. }
    rewrite E. eexists; reflexivity. }
  destruct Es as [s Es]. unfold bind at 1. unfold lift_res. rewrite Es. unfold ret. rewrite forM_clear_run.
  unfold rerun_items_state. cbv zeta. fold c1. fold c2. unfold downstream. rewrite Es. reflexivity.
Qed.

End OneCandidate.

Definition Rcr (c c' : cstate) : Prop :=
  contexts (c_ws c') = contexts (c_ws c) /\ routes (c_ws c') = routes (c_ws c) /\ reruns (c_ws c') = reruns (c_ws c) /\
  c_graph c' = c_graph c /\ c_spec c' = c_spec c /\ c_inputs c' = c_inputs c /\ c_parent c' = c_parent c /\ c_init c' = c_init c.
Lemma Rcr_refl : forall c, Rcr c c.
Proof. intro; repeat split. Qed.
Lemma Rcr_trans : forall a b c, Rcr a b -> Rcr b c -> Rcr a c.
Proof. unfold Rcr; intros a b c H1 H2; intuition congruence. Qed.


Definition outside (K : list tkey) (s : stg) : bool := negb (existsb (tkey_eqb (s_id s, s_route s)) K).
Definition Rsk (K : list tkey) (c c' : cstate) : Prop :=
  filter (outside K) (staged (c_ws c')) = filter (outside K) (staged (c_ws c)).
Lemma Rsk_refl : forall K c, Rsk K c c.
Proof. intros; reflexivity. Qed.
Lemma Rsk_trans : forall K a b c, Rsk K a b -> Rsk K b c -> Rsk K a c.
Proof. unfold Rsk; intros; congruence. Qed.

Lemma filter_staged_update_in : forall K f t r l, (forall s, s_id (f s) = s_id s /\ s_route (f s) = s_route s) ->
  existsb (tkey_eqb (t, r)) K = true -> filter (outside K) (staged_update f t r l) = filter (outside K) l.
Proof.
  intros K f t r l Hf HK; induction l as [|s l IH]; simpl; [reflexivity|].
  destruct (stg_matches t r s) eqn:Em; simpl.
  - assert (E1 : outside K (f s) = false /\ outside K s = false).
    { unfold stg_matches in Em. apply andb_prop in Em. destruct Em as [A B]. apply String.eqb_eq in A. apply Nat.eqb_eq in B.
      unfold outside. destruct (Hf s) as [-> ->]. rewrite A, B, HK. split; reflexivity. }
    destruct E1 as [-> ->]. reflexivity.
  - destruct (outside K s); [f_equal|]; exact IH.
Qed.

Section Frames.
Variable ev : string -> dict -> evalres.

Ltac leafc :=
  first
    [ apply (preserves_modws Rcr); intro; repeat split; simpl;
      first [reflexivity | apply contexts_update_rec | apply routes_update_rec | apply reruns_update_rec]
    | apply (preserves_modify Rcr); intro; cbv zeta;
      try match goal with |- context [if ?b then _ else _] => destruct b end; repeat split; reflexivity
    | assumption ].

Lemma pcr_wf_workflow_event : forall st, preserves Rcr (wf_workflow_event_M st).
Proof. apply (preserves_wf_workflow_event Rcr Rcr_refl); intros; repeat split. Qed.
Lemma pcr_request_task_rerun : forall t route b, preserves Rcr (request_task_rerun ev t route b).
Proof. intros; apply (frame_request_task_rerun ev Rcr Rcr_refl Rcr_trans); intros; first [apply pcr_wf_workflow_event|leafc]. Qed.

Lemma psk_request_status_core : forall K st, preserves (Rsk K) (request_status_core st).
Proof. intros K st c c' r H. destruct (pst_request_status_core st _ _ _ H) as [E _]. unfold Rsk. rewrite E. reflexivity. Qed.

Lemma psk_request_task_rerun : forall K t route b, existsb (tkey_eqb (t, route)) K = true ->
  preserves (Rsk K) (request_task_rerun ev t route b).
Proof.
  intros K t route b HK. unfold request_task_rerun, upd_rec, add_task_state, setup_retry, get_task_context, get_rec, log_error, log_entry_error.
  pw (Rsk_refl K) (Rsk_trans K)
     ltac:(first [ apply psk_request_status_core
                 | apply (preserves_modws (Rsk K)); intro; unfold Rsk; simpl; first
                     [ reflexivity
                     | rewrite staged_update_rec; reflexivity
                     | apply filter_staged_update_in; [intro; split; reflexivity|exact HK]
                     | rewrite filter_app; simpl; unfold outside at 2; simpl; rewrite HK; simpl; apply app_nil_r ]
                 | apply (preserves_modify (Rsk K)); intro; reflexivity
                 | apply (preserves_modify (Rsk K)); intro; cbv zeta; match goal with |- context [if ?b then _ else _] => destruct b end; reflexivity
                 | assumption ]).
Qed.

Definition cand_keys (cands : list cand) : list tkey := map (fun '(_, (_, r)) => rkey r) cands.

Lemma cand_key_in : forall cands k i r, In (k, (i, r)) cands -> existsb (tkey_eqb (rkey r)) (cand_keys cands) = true.
Proof.
  intros cands k i r H. apply existsb_exists. exists (rkey r). split; [|apply tkey_eqb_refl].
  unfold cand_keys. apply in_map_iff. exists (k, (i, r)). split; [reflexivity|exact H].
Qed.

Theorem rerun_rest_frame : forall tasks_d cands c c' res, rerun_rest ev tasks_d cands c = (c', res) ->
  contexts (c_ws c') = contexts (c_ws c) /\ routes (c_ws c') = routes (c_ws c) /\
  c_graph c' = c_graph c /\ c_spec c' = c_spec c /\ c_init c' = c_init c /\
  reruns (c_ws c') = app (reruns (c_ws c)) [map (fun '(_, (i, _)) => i) cands] /\
  Rsk (cand_keys cands) c c'.
Proof.
  intros tasks_d cands c c' res H. unfold rerun_rest in H.
  unfold bind at 1, modws at 1 in H.
  set (c1 := set_ws c (ws_set_reruns (c_ws c) (app (reruns (c_ws c)) [map (fun '(_, (i, _)) => i) cands]))) in *.
  assert (Loop : forall cx cy ry,
            forM_ (sort_by cand_leb cands) (fun '(_, (_, r)) =>
              request_task_rerun ev (r_id r) (r_route r)
                match aget tkey_eqb (r_id r, r_route r) tasks_d with Some q => rq_reset_items q | None => false end) cx = (cy, ry) ->
            Rcr cx cy /\ Rsk (cand_keys cands) cx cy).
  { intros cx cy ry E. split.
    - revert E. apply (preserves_forM _ Rcr_refl Rcr_trans). intros [k [i r]]. apply pcr_request_task_rerun.
    - revert E. apply (preserves_forM_In _ (Rsk_refl _) (Rsk_trans _)). intros [k [i r]] Hin.
      apply in_sort_by in Hin. apply psk_request_task_rerun. exact (cand_key_in _ _ _ _ Hin). }
  assert (Tail : forall cx cy ry,
            (w <- getws ;;
             forM_ (fold_left (fun acc '(i, r) => if existsb (fun '(_, b) => b) (r_next r) then aset tkey_eqb (r_id r, r_route r) i acc else acc)
                              (get_terminal_tasks w) [])
                   (fun '(_, i) => upd_rec i (fun r => r_set_term r false)) ;;;
             modify (fun c => set_output c None) ;;; modws (fun w => ws_set_status w S_RESUMING)) cx = (cy, ry) ->
            Rcr cx cy /\ Rsk (cand_keys cands) cx cy).
  { intros cx cy ry E. split.
    - match type of E with ?m _ = _ => assert (P : preserves Rcr m) by (unfold upd_rec; pw Rcr_refl Rcr_trans ltac:(first [leafc])) end.
      eapply P; exact E.
    - match type of E with ?m _ = _ => assert (P : preserves (Rsk (cand_keys cands)) m) end; [|eapply P; exact E].
      unfold upd_rec.
      pw (Rsk_refl (cand_keys cands)) (Rsk_trans (cand_keys cands))
         ltac:(first [ apply (preserves_modws (Rsk (cand_keys cands))); intro; unfold Rsk; simpl; first [reflexivity|rewrite staged_update_rec; reflexivity]
                     | apply (preserves_modify (Rsk (cand_keys cands))); intro; reflexivity ]). }
  assert (All : Rcr c1 c' /\ Rsk (cand_keys cands) c1 c').
  { apply bind_inv in H. destruct H as [[c2 [u [E2 H]]]|[x [E2 ->]]]; [|apply (Loop _ _ _ E2)].
    destruct (Loop _ _ _ E2) as [A1 A2]. destruct (Tail _ _ _ H) as [B1 B2].
    split; [eapply Rcr_trans; eassumption|eapply Rsk_trans; eassumption]. }
  destruct All as [[A1 [A2 [A3 [A4 [A5 [_ [_ A8]]]]]]] B]. simpl in *.
  repeat (split; [assumption|]). exact B.
Qed.

End Frames.

Definition continuable (w : wstate) : list (tkey * nat) :=
  fold_left (fun acc '(i, r) => if existsb (fun '(_, b) => b) (r_next r) then aset tkey_eqb (r_id r, r_route r) i acc else acc)
            (get_terminal_tasks w) [].

(* what a rerun with no candidate leaves behind: the input state with one empty entry in the rerun log, the terminal
   flag cleared on the continuable records (per key the last terminal record that has a satisfied transition), the
   output reset and the status resuming -- nothing staged, nothing appended (finding D9) *)
Definition empty_rerun_state (c : cstate) : cstate :=
  let c1 := set_ws c (ws_set_reruns (c_ws c) (app (reruns (c_ws c)) [[]])) in
  let c2 := clear_terms (map snd (continuable (c_ws c1))) c1 in
  let c3 := set_output c2 None in
  set_ws c3 (ws_set_status (c_ws c3) S_RESUMING).

Section Whole.
Variable ev : string -> dict -> evalres.

Lemma forM_continuable_run : forall (l : list (tkey * nat)) c,
  forM_ l (fun '(_, i) => upd_rec i (fun r => r_set_term r false)) c = (clear_terms (map snd l) c, Val tt).
Proof.
  induction l as [|[k i] l IH]; intro c; [reflexivity|]. cbn [forM_ map snd clear_terms fold_left].
  unfold bind, upd_rec at 1, modws. rewrite IH. reflexivity.
Qed.

Theorem empty_rerun_exact : forall reqs c, c_init c = true ->
  status_in (wstatus (c_ws c)) COMPLETED_STATUSES = true ->
  (forall k q, In (k, q) (reqs_dict reqs) -> ahas tkey_eqb k (tasks (c_ws c)) = true) ->
  cand_of (c_ws c) (reqs_dict reqs) = [] ->
  request_workflow_rerun ev reqs c = (empty_rerun_state c, Val tt).
Proof.
  intros reqs c Hi Hs Hall He. unfold request_workflow_rerun.
  rewrite (bind_step _ _ _ _ _ _ _ (ensure_ws_inited ev c Hi)).
  rewrite (bind_step _ _ _ _ _ _ _ (eq_refl : getws c = (c, Val (c_ws c)))). rewrite Hs. cbn [negb]. cbv zeta.
  fold (reqs_dict reqs).
  assert (Ef : filter (fun '(k, _) => negb (ahas tkey_eqb k (tasks (c_ws c)))) (reqs_dict reqs) = []).
  { destruct (filter _ (reqs_dict reqs)) as [|[k q] l] eqn:E; [reflexivity|]. exfalso.
    assert (Hin : In (k, q) (filter (fun '(k, _) => negb (ahas tkey_eqb k (tasks (c_ws c)))) (reqs_dict reqs))) by (rewrite E; left; reflexivity).
    apply filter_In in Hin. destruct Hin as [Hin Hb]. rewrite (Hall k q Hin) in Hb. discriminate. }
  rewrite Ef.
  assert (Hc : forall (K : list cand -> M unit),
    (candidates <- (match reqs_dict reqs with
                    | [] => ret (default_cands (c_ws c))
                    | _ => seqs <- mapM (fun '(k, q) => s <- lift_res (get_task_sequence (c_ws c) (rq_task q) (rq_route q)) ;; ret (k, s))
                                        (reqs_dict reqs) ;;
                           ret (flat_map (fun '(k, q) =>
                                  if ahas tkey_eqb k (collapse (reqs_dict reqs) seqs) then
                                    match ws_task_idx (c_ws c) (rq_task q) (rq_route q) with
                                    | Some i => match nth_error (sequence (c_ws c)) i with Some r => [(k, (i, r))] | None => [] end
                                    | None => []
                                    end
                                  else []) (reqs_dict reqs))
                    end) ;; K candidates) c = K (cand_of (c_ws c) (reqs_dict reqs)) c).
  { intro K. unfold cand_of. destruct (reqs_dict reqs) as [|p l0] eqn:Ed; [reflexivity|].
    unfold bind at 1. unfold bind at 1. rewrite seqs_pure; [reflexivity|].
    intros k q Hin. specialize (Hall k q Hin). rewrite (reqs_dict_keys reqs k q) in Hall by (rewrite Ed; exact Hin).
    unfold ahas, ws_task_idx in *. destruct (aget tkey_eqb (rq_task q, rq_route q) (tasks (c_ws c))); [discriminate|discriminate Hall]. }
  rewrite Hc. rewrite He. cbn [map sort_by fold_left forM_].
  unfold bind at 1, modws at 1. unfold bind at 1, ret at 1.
  set (c1 := set_ws c (ws_set_reruns (c_ws c) (app (reruns (c_ws c)) [[]]))).
  rewrite (bind_step _ _ _ _ _ _ _ (eq_refl : getws c1 = (c1, Val (c_ws c1)))). cbv zeta. fold (continuable (c_ws c1)).
  unfold bind at 1. rewrite forM_continuable_run. unfold bind, modify, modws. reflexivity.
Qed.

Theorem rerun_accepted_frame : forall reqs c c', c_init c = true -> request_workflow_rerun ev reqs c = (c', Val tt) ->
  let cands := cand_of (c_ws c) (reqs_dict reqs) in
  contexts (c_ws c') = contexts (c_ws c) /\ routes (c_ws c') = routes (c_ws c) /\
  c_graph c' = c_graph c /\ c_spec c' = c_spec c /\ c_init c' = true /\
  reruns (c_ws c') = app (reruns (c_ws c)) [map (fun '(_, (i, _)) => i) cands] /\
  filter (outside (cand_keys cands)) (staged (c_ws c')) = filter (outside (cand_keys cands)) (staged (c_ws c)) /\
  wstatus (c_ws c') = S_RESUMING /\ c_output c' = None.
Proof.
  intros reqs c c' Hi H. cbv zeta. destruct (rerun_accepted_inv ev reqs c c' Hi H) as [_ [_ Hr]].
  destruct (rerun_rest_frame ev _ _ _ _ _ Hr) as [A1 [A2 [A3 [A4 [A5 [A6 A7]]]]]].
  destruct (rerun_accepted_effect ev reqs c c' H) as [B1 B2].
  repeat (split; [first [assumption|congruence]|]). exact B2.
Qed.

Corollary rerun_staged_origin : forall reqs c c' s, c_init c = true -> request_workflow_rerun ev reqs c = (c', Val tt) ->
  In s (staged (c_ws c')) ->
  existsb (tkey_eqb (s_id s, s_route s)) (cand_keys (cand_of (c_ws c) (reqs_dict reqs))) = true \/ In s (staged (c_ws c)).
Proof.
  intros reqs c c' s Hi H Hin. destruct (rerun_accepted_frame reqs c c' Hi H) as [_ [_ [_ [_ [_ [_ [F _]]]]]]].
  destruct (existsb (tkey_eqb (s_id s, s_route s)) (cand_keys (cand_of (c_ws c) (reqs_dict reqs)))) eqn:E; [left; reflexivity|right].
  assert (Hf : In s (filter (outside (cand_keys (cand_of (c_ws c) (reqs_dict reqs)))) (staged (c_ws c')))).
  { apply filter_In. split; [exact Hin|]. unfold outside. rewrite E. reflexivity. }
  rewrite F in Hf. apply filter_In in Hf. apply Hf.
Qed.

(* (d) what the next poll can offer: ready, not-completed staged entries -- each of a candidate's key or staged ready
   before the rerun already (this is where stale entries of the first attempt come back: finding D21) *)
Corollary offers_after_rerun : forall reqs c c' c'' l, c_init c = true -> request_workflow_rerun ev reqs c = (c', Val tt) ->
  get_next_tasks ev c' = (c'', Val l) ->
  forall o, In o l -> exists s, In s (staged (c_ws c')) /\ s_ready s = true /\ s_completed s = false /\
    o_id o = s_id s /\ o_route o = s_route s /\
    (existsb (tkey_eqb (s_id s, s_route s)) (cand_keys (cand_of (c_ws c) (reqs_dict reqs))) = true \/ In s (staged (c_ws c))).
Proof.
  intros reqs c c' c'' l Hi H Hn o Ho.
  assert (Hi' : c_init c' = true) by (destruct (rerun_accepted_frame reqs c c' Hi H) as [_ [_ [_ [_ [X _]]]]]; exact X).
  destruct (offers_are_staged ev c' c'' l Hi' Hn o Ho) as [s [S1 [S2 [S3 [S4 S5]]]]].
  exists s. repeat (split; [assumption|]). eapply rerun_staged_origin; eassumption.
Qed.

End Whole.
