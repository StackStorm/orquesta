(* C17Proofs.v -- rerun: admission (only a completed workflow, only existing executions; a refused
   request changes nothing) and the immediate effect of an accepted one (resuming, output reset,
   history only appended to). *)
From Coq Require Import String List Bool ZArith Arith Lia.
From Orq Require Import GenStatuses GenEvents GenTables GenSpecMeta Base State Machines Codec Conductor Decode Api.
From Orq Require Import F_tables StateFacts Hoare ValuePost C04Proofs C18Proofs.
Import ListNotations.
Open Scope monad_scope.

Section WithEval.
Variable ev : string -> dict -> evalres.

Definition reqs_dict (reqs : list rerun_req) : list (tkey * rerun_req) :=
  fold_left (fun acc q => aset tkey_eqb (rq_task q, rq_route q) q acc) reqs [].

(* refused while the workflow is not completed: an exception, and the state is exactly as before *)
Theorem rerun_refused_when_active : forall reqs c, c_init c = true ->
  status_in (wstatus (c_ws c)) COMPLETED_STATUSES = false ->
  exists e, request_workflow_rerun ev reqs c = (c, Exc e) /\ x_cls e = "WorkflowIsActiveAndNotRerunableError"%string.
Proof.
  intros reqs c Hi Hs. unfold request_workflow_rerun, bind. rewrite (ensure_ws_inited ev c Hi).
  unfold getws. cbv beta iota. rewrite Hs. simpl. eexists; split; reflexivity.
Qed.

(* refused when a request names a task execution that does not exist: exception, state unchanged *)
Theorem rerun_refused_for_unknown_task : forall reqs c, c_init c = true ->
  status_in (wstatus (c_ws c)) COMPLETED_STATUSES = true ->
  existsb (fun '(k, _) => negb (ahas tkey_eqb k (tasks (c_ws c)))) (reqs_dict reqs) = true ->
  exists e, request_workflow_rerun ev reqs c = (c, Exc e) /\ x_cls e = "InvalidTaskRerunRequest"%string.
Proof.
  intros reqs c Hi Hs Hbad. unfold request_workflow_rerun, bind. rewrite (ensure_ws_inited ev c Hi).
  unfold getws. cbv beta iota. rewrite Hs. cbn [negb].
  fold (reqs_dict reqs).
  destruct (filter (fun '(k, _) => negb (ahas tkey_eqb k (tasks (c_ws c)))) (reqs_dict reqs)) as [|x l] eqn:Ef.
  - exfalso. apply existsb_exists in Hbad. destruct Hbad as [y [Hin Hy]].
    assert (In y []) as F; [|destruct F]. rewrite <- Ef. apply filter_In; split; assumption.
  - eexists; split; reflexivity.
Qed.

(* an accepted rerun leaves the workflow resuming with the output reset *)
Theorem rerun_accepted_effect : forall reqs c c', request_workflow_rerun ev reqs c = (c', Val tt) ->
  wstatus (c_ws c') = S_RESUMING /\ c_output c' = None.
Proof.
  intros reqs c c' H. unfold request_workflow_rerun in H.
  apply bind_val_inv' in H; destruct H as [c1 [u1 [_ H]]].
  apply bind_val_inv' in H; destruct H as [c2 [w [_ H]]].
  destruct (negb (status_in (wstatus w) COMPLETED_STATUSES)); [inversion H|].
  destruct (filter _ _); [|inversion H].
  apply bind_val_inv' in H; destruct H as [c3 [cands [_ H]]].
  apply bind_val_inv' in H; destruct H as [c4 [u4 [_ H]]].
  apply bind_val_inv' in H; destruct H as [c5 [u5 [_ H]]].
  apply bind_val_inv' in H; destruct H as [c6 [w6 [_ H]]].
  apply bind_val_inv' in H; destruct H as [c7 [u7 [_ H]]].
  apply bind_val_inv' in H; destruct H as [c8 [u8 [H8 H]]].
  unfold modify in H8; inversion H8; subst. unfold modws in H; inversion H; subst. simpl. split; reflexivity.
Qed.

(* and only appends to the history: no earlier record, context snapshot or route is lost or rewritten *)
Theorem rerun_appends_only : forall reqs c c' r, request_workflow_rerun ev reqs c = (c', r) -> R18 c c'.
Proof. intros reqs c c' r H. exact (p18_request_workflow_rerun ev reqs c c' r H). Qed.

End WithEval.
