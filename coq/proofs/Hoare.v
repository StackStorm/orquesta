(* Hoare.v -- the judgements about computations in the state+exception monad, and their rules.
   [preserves R m]: every run of m, returning or raising, relates the state before to the state after by R
   (a preorder: the rules for bind, try and the loops need reflexivity and transitivity only).
   [run m c Q]: the same from one given start state, with a postcondition on the result as well, for
   invariants whose side conditions must be carried from step to step.
   [raises_only P m]: every exception that escapes m satisfies P.
   What the two steps of the workflow machine write; [evaluate_ind], the induction over expression evaluation.
   The walkers [pw] (preserves), [pwh] (preserves, with the error handlers closed as units) and [rw]
   (raises_only) take a monadic term apart by these rules and hand the primitives to a leaf tactic. *)
From Coq Require Import String List Bool ZArith Arith Lia.
From Orq Require Import GenStatuses GenEvents GenTables GenSpecMeta Base State Machines Codec Conductor.
From Orq Require Import ListFacts StateFacts.
Import ListNotations.
Open Scope monad_scope.

Section Preserves.
  Variable R : cstate -> cstate -> Prop.
  Hypothesis R_refl : forall c, R c c.
  Hypothesis R_trans : forall a b c, R a b -> R b c -> R a c.

  Definition preserves {A} (m : M A) : Prop := forall c c' r, m c = (c', r) -> R c c'.

  Lemma preserves_ret : forall A (a : A), preserves (ret a).
  Proof. intros A a c c' r H; inversion H; subst; apply R_refl. Qed.

  Lemma preserves_raise : forall A e, preserves (@raise A e).
  Proof. intros A e c c' r H; inversion H; subst; apply R_refl. Qed.

  Lemma preserves_get : preserves get.
  Proof. intros c c' r H; inversion H; subst; apply R_refl. Qed.

  Lemma preserves_getws : preserves getws.
  Proof. intros c c' r H; inversion H; subst; apply R_refl. Qed.

  Lemma preserves_bind : forall A B (m : M A) (f : A -> M B),
    preserves m -> (forall a, preserves (f a)) -> preserves (bind m f).
  Proof.
    intros A B m f Hm Hf c c' r H. unfold bind in H.
    destruct (m c) as [c1 [a|e]] eqn:E.
    - eapply R_trans; [eapply Hm; exact E | eapply Hf; exact H].
    - inversion H; subst. eapply Hm; exact E.
  Qed.

  Lemma preserves_try_catch : forall A (m : M A) h,
    preserves m -> (forall e, preserves (h e)) -> preserves (try_catch m h).
  Proof.
    intros A m h Hm Hh c c' r H. unfold try_catch in H.
    destruct (m c) as [c1 [a|e]] eqn:E.
    - inversion H; subst. eapply Hm; exact E.
    - eapply R_trans; [eapply Hm; exact E | eapply Hh; exact H].
  Qed.

  Lemma preserves_try_catch_expr : forall A (m : M A) h,
    preserves m -> (forall e, preserves (h e)) -> preserves (try_catch_expr m h).
  Proof.
    intros A m h Hm Hh c c' r H. unfold try_catch_expr in H.
    destruct (m c) as [c1 [a|e]] eqn:E.
    - inversion H; subst. eapply Hm; exact E.
    - destruct (x_expr e).
      + eapply R_trans; [eapply Hm; exact E | eapply Hh; exact H].
      + inversion H; subst. eapply Hm; exact E.
  Qed.

  Lemma preserves_mapM : forall A B (f : A -> M B) l,
    (forall a, preserves (f a)) -> preserves (mapM f l).
  Proof.
    intros A B f l Hf; induction l as [|x l IH]; simpl.
    - apply preserves_ret.
    - apply preserves_bind; [apply Hf|intro y].
      apply preserves_bind; [exact IH|intro ys]. apply preserves_ret.
  Qed.

  Lemma preserves_forM : forall A (l : list A) f,
    (forall a, preserves (f a)) -> preserves (forM_ l f).
  Proof.
    intros A l f Hf; induction l as [|x l IH]; simpl.
    - apply preserves_ret.
    - apply preserves_bind; [apply Hf|intro]. exact IH.
  Qed.

  Lemma preserves_forM_In : forall A (l : list A) f,
    (forall a, In a l -> preserves (f a)) -> preserves (forM_ l f).
  Proof.
    intros A l f; induction l as [|x l IH]; intro Hf; simpl; [apply preserves_ret|].
    apply preserves_bind; [apply Hf; left; reflexivity|intros _; apply IH; intros y Hy; apply Hf; right; exact Hy].
  Qed.

  Lemma preserves_lift_res : forall A (r : result A), preserves (lift_res r).
  Proof. intros A r; destruct r; [apply preserves_ret|apply preserves_raise]. Qed.

  Lemma preserves_lift_eval : forall r, preserves (lift_eval r).
  Proof. intros r; destruct r; [apply preserves_ret|apply preserves_raise]. Qed.

  Lemma preserves_modify : forall f, (forall c, R c (f c)) -> preserves (modify f).
  Proof. intros f Hf c c' r H; inversion H; subst; apply Hf. Qed.

  Lemma preserves_modws : forall f, (forall c, R c (set_ws c (f (c_ws c)))) -> preserves (modws f).
  Proof. intros f Hf c c' r H; inversion H; subst; apply Hf. Qed.

  Lemma preserves_put_from_get : forall A (k : cstate -> M A),
    (forall c, preserves (k c)) -> preserves (bind get k).
  Proof. intros A k Hk; apply preserves_bind; [apply preserves_get|exact Hk]. Qed.

  Lemma preserves_when : forall b m, preserves m -> preserves (when_ b m).
  Proof. intros b m Hm; destruct b; [exact Hm|apply preserves_ret]. Qed.
End Preserves.

Lemma preserves_sub : forall (R1 R2 : cstate -> cstate -> Prop), (forall c c', R1 c c' -> R2 c c') ->
  forall A (m : M A), preserves R1 m -> preserves R2 m.
Proof. intros R1 R2 H A m Hm c c' r E; apply H; eapply Hm; exact E. Qed.

(* [run m c Q]: Q holds of the final state and the result of m started in c, whether it returns or
   raises.  What is known of c stays in the context, so that an invariant with side conditions
   (which [preserves] forgets at every bind) is threaded through a sequence step by step. *)
Definition run {A} (m : M A) (c : cstate) (Q : cstate -> result A -> Prop) : Prop :=
  forall c' r, m c = (c', r) -> Q c' r.

Lemma run_bind : forall A B (m : M A) (f : A -> M B) c (Qm : cstate -> result A -> Prop) (Q : cstate -> result B -> Prop),
  run m c Qm -> (forall c1 e, Qm c1 (Exc e) -> Q c1 (Exc e)) -> (forall c1 a, Qm c1 (Val a) -> run (f a) c1 Q) ->
  run (bind m f) c Q.
Proof.
  intros A B m f c Qm Q Hm He Hk c' r H. apply bind_inv in H. destruct H as [[c1 [a [E H]]]|[e [E ->]]].
  - exact (Hk c1 a (Hm _ _ E) _ _ H).
  - exact (He _ _ (Hm _ _ E)).
Qed.

Lemma run_read : forall A B (m : M A) (f : A -> M B) c a (Q : cstate -> result B -> Prop),
  m c = (c, Val a) -> run (f a) c Q -> run (bind m f) c Q.
Proof. intros A B m f c a Q E H c' r. rewrite (bind_step _ _ _ _ _ _ _ E). apply H. Qed.

Lemma run_conseq : forall A (m : M A) c (Q Q' : cstate -> result A -> Prop),
  run m c Q -> (forall c' r, Q c' r -> Q' c' r) -> run m c Q'.
Proof. intros A m c Q Q' H HQ c' r E. apply HQ, H, E. Qed.

Lemma run_eq : forall A (m : M A) c (Q : cstate -> result A -> Prop),
  run m c Q -> run m c (fun c' r => m c = (c', r) /\ Q c' r).
Proof. intros A m c Q H c' r E. split; [exact E|exact (H c' r E)]. Qed.

(* a loop, with an invariant of the state and of what is left of the list *)
Lemma run_mapM : forall A B (f : A -> M B) (I : list A -> cstate -> Prop) (J : cstate -> Prop),
  (forall l c, I l c -> J c) ->
  (forall x l c, I (x :: l) c -> run (f x) c (fun c' _ => I l c')) ->
  forall l c, I l c -> run (mapM f l) c (fun c' _ => J c').
Proof.
  intros A B f I J HJ Hf. induction l as [|x l IH]; intros c Hi; cbn [mapM].
  - intros c' r E; inversion E; subst; exact (HJ _ _ Hi).
  - eapply run_bind; [exact (Hf x l c Hi)|intros c1 e H1; exact (HJ _ _ H1)|]. intros c1 y H1.
    eapply run_bind; [exact (IH c1 H1)|auto|]. intros c2 ys H2 c' r E; inversion E; subst; exact H2.
Qed.

Lemma ensure_ws_inited : forall ev c, c_init c = true -> ensure_ws ev c = (c, Val tt).
Proof. intros ev c H; unfold ensure_ws, bind, get; simpl; rewrite H; reflexivity. Qed.

Lemma wf_workflow_event_M_inv : forall st c c' res, wf_workflow_event_M st c = (c', res) ->
  match wf_process_workflow_event (c_graph c) (c_ws c) st with
  | Exc e => c' = c /\ res = Exc e
  | Val (new, unr) => c' = set_ws c (ws_set_status (c_ws c) new) /\ res = Val unr
  end.
Proof.
  intros st c c' res H. unfold wf_workflow_event_M in H.
  destruct (wf_process_workflow_event (c_graph c) (c_ws c) st) as [[new unr]|e]; inversion H; auto.
Qed.

Lemma wf_task_event_M_inv : forall t route st c c' res, wf_task_event_M t route st c = (c', res) ->
  match wf_process_task_event (c_graph c) (c_ws c) t route st with
  | Exc e => c' = c /\ res = Exc e
  | Val (new, unr) => c' = set_ws c (ws_set_status (c_ws c) new) /\ res = Val unr
  end.
Proof.
  intros t route st c c' res H. unfold wf_task_event_M in H.
  destruct (wf_process_task_event (c_graph c) (c_ws c) t route st) as [[new unr]|e]; inversion H; auto.
Qed.

Lemma preserves_wf_workflow_event : forall R : cstate -> cstate -> Prop, (forall c, R c c) ->
  (forall c s, R c (set_ws c (ws_set_status (c_ws c) s))) -> forall st, preserves R (wf_workflow_event_M st).
Proof.
  intros R Rr Hs st c c' r H. apply wf_workflow_event_M_inv in H.
  destruct (wf_process_workflow_event _ _ _) as [[new unr]|e]; destruct H as [-> _]; auto.
Qed.
Lemma preserves_wf_task_event : forall R : cstate -> cstate -> Prop, (forall c, R c c) ->
  (forall c s, R c (set_ws c (ws_set_status (c_ws c) s))) -> forall t route st, preserves R (wf_task_event_M t route st).
Proof.
  intros R Rr Hs t route st c c' r H. apply wf_task_event_M_inv in H.
  destruct (wf_process_task_event _ _ _ _ _) as [[new unr]|e]; destruct H as [-> _]; auto.
Qed.

(* for a relation that looks at the sequence of records only; the db also holds the equation that unstaging keeps it *)
Section SeqOnly.
Variable R : cstate -> cstate -> Prop.
Hypothesis R_same_seq : forall c c', sequence (c_ws c') = sequence (c_ws c) -> R c c'.

Lemma so_modws : forall f, (forall w, sequence (f w) = sequence w) -> preserves R (modws f).
Proof. intros f Hf; apply (preserves_modws R); intro c; apply R_same_seq, Hf. Qed.
Lemma so_modify : forall f, (forall c, c_ws (f c) = c_ws c) -> preserves R (modify f).
Proof. intros f Hf; apply (preserves_modify R); intro c; apply R_same_seq; rewrite Hf; reflexivity. Qed.
Lemma so_log_entry_error : forall m t r tr res, preserves R (log_entry_error m t r tr res).
Proof. intros; apply so_modify; intro c; cbv zeta; destruct (existsb _ _); reflexivity. Qed.
Lemma so_wf_workflow_event : forall st, preserves R (wf_workflow_event_M st).
Proof. apply preserves_wf_workflow_event; intros; apply R_same_seq; reflexivity. Qed.
Lemma so_wf_task_event : forall t route st, preserves R (wf_task_event_M t route st).
Proof. apply preserves_wf_task_event; intros; apply R_same_seq; reflexivity. Qed.
End SeqOnly.

Create HintDb seqonly.
#[export] Hint Resolve so_modws so_modify so_log_entry_error so_wf_workflow_event so_wf_task_event seq_remove_staged : seqonly.

Definition raises_only (P : exn -> Prop) {A} (m : M A) : Prop := forall c c' e, m c = (c', Exc e) -> P e.

Section RaisesOnly.
  Variable P : exn -> Prop.
  Lemma ro_ret : forall A (a : A), raises_only P (ret a).
  Proof. intros A a c c' e H; inversion H. Qed.
  Lemma ro_raise : forall A e, P e -> raises_only P (@raise A e).
  Proof. intros A e Hp c c' e' H; inversion H; subst; exact Hp. Qed.
  Lemma ro_get : raises_only P get.
  Proof. intros c c' e H; inversion H. Qed.
  Lemma ro_getws : raises_only P getws.
  Proof. intros c c' e H; inversion H. Qed.
  Lemma ro_modify : forall f, raises_only P (modify f).
  Proof. intros f c c' e H; inversion H. Qed.
  Lemma ro_modws : forall f, raises_only P (modws f).
  Proof. intros f c c' e H; inversion H. Qed.
  Lemma ro_bind : forall A B (m : M A) (f : A -> M B),
    raises_only P m -> (forall a, raises_only P (f a)) -> raises_only P (bind m f).
  Proof.
    intros A B m f Hm Hf c c' e H. unfold bind in H. destruct (m c) as [c1 [a|e1]] eqn:E.
    - eapply Hf; exact H.
    - inversion H; subst. eapply Hm; exact E.
  Qed.
  (* except Exception: whatever the body raises is handled *)
  Lemma ro_try_catch : forall A (m : M A) h, (forall e, raises_only P (h e)) -> raises_only P (try_catch m h).
  Proof.
    intros A m h Hh c c' e H. unfold try_catch in H.
    destruct (m c) as [c1 [a|e1]] eqn:E; [inversion H|]. eapply Hh; exact H.
  Qed.
  (* except ExpressionEvaluationException: the other exceptions of the body pass through *)
  Lemma ro_try_catch_expr : forall A (m : M A) h,
    raises_only (fun e => x_expr e = false -> P e) m -> (forall e, raises_only P (h e)) ->
    raises_only P (try_catch_expr m h).
  Proof.
    intros A m h Hm Hh c c' e H. unfold try_catch_expr in H.
    destruct (m c) as [c1 [a|e1]] eqn:E; [inversion H|].
    destruct (x_expr e1) eqn:Ex; [eapply Hh; exact H|inversion H; subst; eapply Hm; eassumption].
  Qed.
  Lemma ro_mapM : forall A B (f : A -> M B) l, (forall a, raises_only P (f a)) -> raises_only P (mapM f l).
  Proof.
    intros A B f l Hf; induction l as [|x l IH]; cbn [mapM]; [apply ro_ret|].
    apply ro_bind; [apply Hf|intro y]. apply ro_bind; [exact IH|intro; apply ro_ret].
  Qed.
  Lemma ro_forM : forall A (l : list A) f, (forall a, raises_only P (f a)) -> raises_only P (forM_ l f).
  Proof.
    intros A l f Hf; induction l as [|x l IH]; cbn [forM_]; [apply ro_ret|].
    apply ro_bind; [apply Hf|intro; exact IH].
  Qed.
  Lemma ro_lift_res : forall A (r : result A), (forall e, r = Exc e -> P e) -> raises_only P (lift_res r).
  Proof. intros A [a|e0] Hr c c' e H; inversion H; subst. apply Hr; reflexivity. Qed.
End RaisesOnly.

Lemma ro_all : forall (P : exn -> Prop) A (m : M A), (forall e, P e) -> raises_only P m.
Proof. intros P A m H c c' e _; apply H. Qed.

Lemma raises_only_sub : forall (P Q : exn -> Prop), (forall e, P e -> Q e) ->
  forall A (m : M A), raises_only P m -> raises_only Q m.
Proof. intros P Q H A m Hm c c' e E; apply H; eapply Hm; exact E. Qed.

(* one entry of a dictionary in [evaluate]: the key expression, the refusal of an unhashable key, the value [mv], and
   the rest of the entries [g] *)
Definition eval_entry (ev : string -> dict -> evalres) (k : string) (ctx : dict) (mv : M json) (g : string -> json -> M dict)
  : M dict :=
  k' <- lift_eval (ev k ctx) ;;
  (match k' with
   | JList _ => raise (exn_unhashable_key "list" k)
   | JDict _ => raise (exn_unhashable_key "dict" k)
   | _ => ret tt
   end) ;;;
  v' <- mv ;;
  match k' with
  | JStr ks => g ks v'
  | _ => raise (mkexn "TypeError" "unsupported dictionary key produced by expression")
  end.

(* [Q] holds of [evaluate] when it is closed under ret, bind, the evaluator's answers and the entry step (which is
   left whole, so that [Q] may depend on what the key expression evaluates to) *)
Lemma evaluate_ind : forall ev (Q : forall A, M A -> Prop),
  (forall A (a : A), Q A (ret a)) ->
  (forall A B (m : M A) (f : A -> M B), Q A m -> (forall a, Q B (f a)) -> Q B (bind m f)) ->
  (forall s ctx, Q json (lift_eval (ev s ctx))) ->
  (forall k ctx mv g, Q json mv -> (forall ks v', Q dict (g ks v')) -> Q dict (eval_entry ev k ctx mv g)) ->
  forall stmt ctx, Q json (evaluate ev stmt ctx).
Proof.
  intros ev Q Qret Qbind Qev Qentry stmt.
  induction stmt as [| | | |s|l IH|kv IH] using json_ind'; intro ctx; try (simpl; apply Qret).
  - simpl; apply Qev.
  - simpl. apply Qbind; [|intro; apply Qret].
    induction IH as [|x l Hx Hl IHl]; [apply Qret|].
    apply Qbind; [apply Hx|intro y]. apply Qbind; [exact IHl|intro; apply Qret].
  - simpl. apply Qbind; [|intro; apply Qret].
    generalize (@nil (string * json)) as acc.
    induction IH as [|[k v] kv' Hx Hl IHl]; intro acc; [apply Qret|].
    apply (Qentry k ctx (evaluate ev v ctx) (fun ks v' => _ kv' (dset ks v' acc))); [apply Hx|intros; apply IHl].
Qed.

(* the entry step taken apart: its binds, and the two exceptions it raises by itself *)
Section EvaluateClosed.
  Variable ev : string -> dict -> evalres.
  Variable Q : forall A, M A -> Prop.
  Hypothesis Q_ret : forall A (a : A), Q A (ret a).
  Hypothesis Q_bind : forall A B (m : M A) (f : A -> M B), Q A m -> (forall a, Q B (f a)) -> Q B (bind m f).
  Hypothesis Q_eval : forall s ctx, Q json (lift_eval (ev s ctx)).
  Hypothesis Q_unhashable : forall A ty k, Q A (raise (exn_unhashable_key ty k)).
  Hypothesis Q_key : forall A msg, Q A (raise (mkexn "TypeError" msg)).

  Lemma evaluate_closed : forall stmt ctx, Q json (evaluate ev stmt ctx).
  Proof.
    apply (evaluate_ind ev Q Q_ret Q_bind Q_eval). intros k ctx mv g Hmv Hg. unfold eval_entry.
    apply Q_bind; [apply Q_eval|intro k'].
    apply Q_bind; [destruct k'; first [apply Q_unhashable|apply Q_ret]|intros _].
    apply Q_bind; [exact Hmv|intro v']. destruct k'; first [apply Hg|apply Q_key].
  Qed.
End EvaluateClosed.

Section EvalPure.
  Variable ev : string -> dict -> evalres.

  Definition state_pure {A} (m : M A) : Prop := forall c, fst (m c) = c.

  Lemma state_pure_preserves : forall (R : cstate -> cstate -> Prop) (Rr : forall c, R c c) A (m : M A),
    state_pure m -> preserves R m.
  Proof. intros R Rr A m H c c' r E. specialize (H c). rewrite E in H; simpl in H; subst; apply Rr. Qed.

  Lemma state_pure_ret : forall A (a : A), state_pure (ret a).
  Proof. intros A a c; reflexivity. Qed.
  Lemma state_pure_raise : forall A e, state_pure (@raise A e).
  Proof. intros A e c; reflexivity. Qed.
  Lemma state_pure_bind : forall A B (m : M A) (f : A -> M B),
    state_pure m -> (forall a, state_pure (f a)) -> state_pure (bind m f).
  Proof.
    intros A B m f Hm Hf c. unfold bind. specialize (Hm c).
    destruct (m c) as [c1 [a|e]]; simpl in *; subst; [apply Hf|reflexivity].
  Qed.
  Lemma state_pure_lift_eval : forall r, state_pure (lift_eval r).
  Proof. intros [v|e] c; reflexivity. Qed.

  Lemma evaluate_pure : forall stmt ctx, state_pure (evaluate ev stmt ctx).
  Proof.
    apply (evaluate_closed ev (fun A m => state_pure m)); intros;
      first [apply state_pure_ret|apply state_pure_bind; assumption|apply state_pure_lift_eval|apply state_pure_raise].
  Qed.

  Lemma state_pure_mapM : forall A B (f : A -> M B) l, (forall a, state_pure (f a)) -> state_pure (mapM f l).
  Proof.
    intros A B f l Hf; induction l as [|x l IH]; simpl; [apply state_pure_ret|].
    apply state_pure_bind; [apply Hf|intro]. apply state_pure_bind; [exact IH|intro; apply state_pure_ret].
  Qed.

  Lemma render_task_pure : forall ts ctx, state_pure (render_task ev ts ctx).
  Proof.
    intros ts ctx. unfold render_task. destruct (ts_with ts) as [its|].
    - apply state_pure_bind; [apply evaluate_pure|intro items]. destruct items; try apply state_pure_raise.
      apply state_pure_mapM. intros [idx item]. cbv zeta.
      apply state_pure_bind; [apply evaluate_pure|intro]. apply state_pure_bind; [apply evaluate_pure|intro; apply state_pure_ret].
    - apply state_pure_bind; [apply evaluate_pure|intro]. apply state_pure_bind; [apply evaluate_pure|intro; apply state_pure_ret].
  Qed.
End EvalPure.

(* the walk: decompose a monadic term, calling [leaf] at the primitives.  [Rr], [Rt]: reflexivity and transitivity
   of the relation.  What neither a rule nor [leaf] closes is left as a goal: a caller's Qed fails on it, and an
   interactive user sees which primitive is missing. *)
Ltac head_of t := lazymatch t with ?f _ => head_of f | _ => t end.

Ltac pw Rr Rt leaf :=
  lazymatch goal with
  | |- preserves _ (ret _) => apply (preserves_ret _ Rr)
  | |- preserves _ (raise _) => apply (preserves_raise _ Rr)
  | |- preserves _ get => apply (preserves_get _ Rr)
  | |- preserves _ getws => apply (preserves_getws _ Rr)
  | |- preserves _ (bind _ _) => apply (preserves_bind _ Rt); [ pw Rr Rt leaf | intro; pw Rr Rt leaf ]
  | |- preserves _ (try_catch _ _) =>
      apply (preserves_try_catch _ Rt); [ pw Rr Rt leaf | intro; pw Rr Rt leaf ]
  | |- preserves _ (try_catch_expr _ _) =>
      apply (preserves_try_catch_expr _ Rt); [ pw Rr Rt leaf | intro; pw Rr Rt leaf ]
  | |- preserves _ (mapM _ _) => apply (preserves_mapM _ Rr Rt); intro; pw Rr Rt leaf
  | |- preserves _ (forM_ _ _) => apply (preserves_forM _ Rr Rt); intro; pw Rr Rt leaf
  | |- preserves _ (when_ _ _) => apply (preserves_when _ Rr); pw Rr Rt leaf
  | |- preserves _ (lift_res _) => apply (preserves_lift_res _ Rr)
  | |- preserves _ (lift_eval _) => apply (preserves_lift_eval _ Rr)
  | |- preserves _ (evaluate _ _ _) => apply (state_pure_preserves _ Rr); apply evaluate_pure
  | |- preserves _ (match ?x with _ => _ end) => destruct x; pw Rr Rt leaf
  | |- preserves _ ?m =>
      first [ solve [leaf]
            | let h := head_of m in progress (unfold h); pw Rr Rt leaf
            | progress (cbv beta); pw Rr Rt leaf
            | idtac ]
  end.

(* [pw] for relations that an error handler keeps only as a whole: "log the exception(s), then ask for the
   failure of the workflow" is closed by the three given lemmas and not split at its binds: [Hf] for one logged
   exception followed by a continuation, [Hfs] for a non-empty list of them, [Hfs0] for the list with nothing after *)
Ltac pwh Rr Rt Hf Hfs Hfs0 leaf :=
  lazymatch goal with
  | |- preserves _ (bind (log_error ?e ?t ?r ?tr) (fun _ => bind (request_status_core S_FAILED) ?k)) =>
      apply (Hf _ e t r tr k); intro; pwh Rr Rt Hf Hfs Hfs0 leaf
  | |- preserves _ (bind (log_errors (?e0 :: ?es) ?t ?r ?tr) (fun _ => bind (request_status_core S_FAILED) ?k)) =>
      apply (Hfs _ e0 es t r tr k); intro; pwh Rr Rt Hf Hfs Hfs0 leaf
  | |- preserves _ (bind (log_errors (?e0 :: ?es) ?t ?r ?tr) (fun _ => request_status_core S_FAILED)) =>
      apply (Hfs0 e0 es t r tr)
  | |- preserves _ (ret _) => apply (preserves_ret _ Rr)
  | |- preserves _ (raise _) => apply (preserves_raise _ Rr)
  | |- preserves _ get => apply (preserves_get _ Rr)
  | |- preserves _ getws => apply (preserves_getws _ Rr)
  | |- preserves _ (bind _ _) =>
      apply (preserves_bind _ Rt); [ pwh Rr Rt Hf Hfs Hfs0 leaf | intro; pwh Rr Rt Hf Hfs Hfs0 leaf ]
  | |- preserves _ (try_catch _ _) =>
      apply (preserves_try_catch _ Rt); [ pwh Rr Rt Hf Hfs Hfs0 leaf | intro; pwh Rr Rt Hf Hfs Hfs0 leaf ]
  | |- preserves _ (try_catch_expr _ _) =>
      apply (preserves_try_catch_expr _ Rt); [ pwh Rr Rt Hf Hfs Hfs0 leaf | intro; pwh Rr Rt Hf Hfs Hfs0 leaf ]
  | |- preserves _ (mapM _ _) => apply (preserves_mapM _ Rr Rt); intro; pwh Rr Rt Hf Hfs Hfs0 leaf
  | |- preserves _ (forM_ _ _) => apply (preserves_forM _ Rr Rt); intro; pwh Rr Rt Hf Hfs Hfs0 leaf
  | |- preserves _ (lift_res _) => apply (preserves_lift_res _ Rr)
  | |- preserves _ (lift_eval _) => apply (preserves_lift_eval _ Rr)
  | |- preserves _ (evaluate _ _ _) => apply (state_pure_preserves _ Rr); apply evaluate_pure
  | |- preserves _ (match ?x with _ => _ end) => destruct x; pwh Rr Rt Hf Hfs Hfs0 leaf
  | |- preserves _ ?m =>
      first [ solve [leaf]
            | let h := head_of m in progress (unfold h); pwh Rr Rt Hf Hfs Hfs0 leaf
            | progress (cbv beta); pwh Rr Rt Hf Hfs Hfs0 leaf
            | idtac ]
  end.

(* the same walk for [raises_only P]: [lit] proves P of a literal exception, [leaf] closes what is left *)
Ltac rw lit leaf :=
  lazymatch goal with
  | |- raises_only _ (ret _) => apply ro_ret
  | |- raises_only _ (raise _) => apply ro_raise; lit
  | |- raises_only _ get => apply ro_get
  | |- raises_only _ getws => apply ro_getws
  | |- raises_only _ (modify _) => apply ro_modify
  | |- raises_only _ (modws _) => apply ro_modws
  | |- raises_only _ (bind _ _) => apply ro_bind; [ rw lit leaf | intro; rw lit leaf ]
  | |- raises_only _ (try_catch _ _) => apply ro_try_catch; intro; rw lit leaf
  | |- raises_only _ (try_catch_expr _ _) =>
      apply ro_try_catch_expr; [ first [ solve [leaf] | rw lit leaf ] | intro; rw lit leaf ]
  | |- raises_only _ (mapM _ _) => apply ro_mapM; intro; rw lit leaf
  | |- raises_only _ (forM_ _ _) => apply ro_forM; intro; rw lit leaf
  | |- raises_only _ (match ?x with _ => _ end) => destruct x; rw lit leaf
  | |- raises_only _ ?m =>
      first [ solve [leaf]
            | let h := head_of m in progress (unfold h); rw lit leaf
            | progress (cbv beta); rw lit leaf
            | idtac ]
  end.
