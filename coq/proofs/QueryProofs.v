(* QueryProofs.v -- C19, "asking for the next tasks again, without an intervening event, returns the
   same answer and leaves the persisted state as the first call left it".

   On the model (= the engine) this is FALSE for an arbitrary evaluator: every expression is rendered
   against a context that contains __state, the serialized workflow state, and the first call may
   change that state (it creates the item table of a with-items entry; on a rendering failure it
   fails the workflow).  An expression that reads that bookkeeping renders differently the second
   time ([query_not_idempotent_for_state_reading_expression]).  The offered context itself contains
   __state, so two answers can only be compared modulo that entry.

   Proved: for every evaluator that does not look at the __state entry of its context
   ([state_blind]), every initialised state in which no clean-up (run_on_fail) entry is staged
   unless the workflow has already failed: the second call leaves the state EXACTLY as the first
   left it and returns the same answer -- the same exception, or the same offers (ids, routes,
   rendered actions, delay, items_count, concurrency; contexts equal except for __state).  The second
   hypothesis is needed too ([query_not_idempotent_with_cleanup_staged]). *)
From Coq Require Import String List Bool ZArith Arith Lia.
From Orq Require Import GenStatuses GenEvents GenTables GenSpecMeta Base State Machines Codec Conductor Decode Api.
From Orq Require Import F_tables ListFacts StateFacts Hoare ValuePost StatusReach C04Proofs C05Proofs RetryProofs InertProofs.
Import ListNotations.
Open Scope string_scope.
Open Scope monad_scope.


Definition sim (a b : dict) : Prop :=
  Forall2 (fun p q => fst p = fst q /\ (fst p = "__state" \/ snd p = snd q)) a b.

Lemma sim_refl : forall a, sim a a.
Proof. induction a as [|[k v] a IH]; constructor; [split; [reflexivity|right; reflexivity]|exact IH]. Qed.

Lemma sim_dset : forall k v a b, sim a b -> sim (dset k v a) (dset k v b).
Proof.
  intros k v a b H; induction H as [|[k1 v1] [k2 v2] a b [Hk Hv] H IH]; simpl.
  - constructor; [split; [reflexivity|right; reflexivity]|constructor].
  - simpl in Hk; subst k2. destruct (String.eqb k k1).
    + constructor; [split; [reflexivity|right; reflexivity]|exact H].
    + constructor; [split; [reflexivity|exact Hv]|exact IH].
Qed.

Lemma sim_dget : forall k a b, sim a b -> k <> "__state" -> dget k a = dget k b.
Proof.
  intros k a b H Hk; induction H as [|[k1 v1] [k2 v2] a b [Hk1 Hv] H IH]; simpl; [reflexivity|].
  simpl in Hk1; subst k2. destruct (String.eqb k k1) eqn:E.
  - apply String.eqb_eq in E; subst k1. simpl in Hv. destruct Hv as [Hv|Hv]; [congruence|rewrite Hv; reflexivity].
  - exact IH.
Qed.

Lemma sim_app_state : forall a v v', sim (app a [("__state", v)]) (app a [("__state", v')]).
Proof.
  induction a as [|[k x] a IH]; intros v v'; simpl.
  - constructor; [split; [reflexivity|left; reflexivity]|constructor].
  - constructor; [split; [reflexivity|right; reflexivity]|apply IH].
Qed.

Lemma sim_dset_state : forall a v v', sim (dset "__state" v a) (dset "__state" v' a).
Proof.
  unfold dset. induction a as [|[k x] a IH]; intros v v'; cbn [aset].
  - rewrite String.eqb_refl || idtac. constructor; [split; [reflexivity|left; reflexivity]|constructor].
  - destruct (String.eqb "__state" k) eqn:E.
    + apply String.eqb_eq in E; subst k. constructor; [split; [reflexivity|left; reflexivity]|apply sim_refl].
    + constructor; [split; [reflexivity|right; reflexivity]|apply IH].
Qed.

Lemma sim_state_ctx : forall d w w', sim (merge_dicts d (state_ctx w)) (merge_dicts d (state_ctx w')).
Proof.
  intros d w w'. unfold merge_dicts, state_ctx. cbn [merge_json].
  destruct (dget "__state" d) as [lv|]; [apply sim_dset_state|apply sim_app_state].
Qed.

(* the evaluator does not look at the __state entry of the context *)
Definition state_blind (ev : string -> dict -> evalres) : Prop :=
  forall s a b, sim a b -> ev s a = ev s b.


Definition same {A} (m m' : M A) : Prop := forall c c', snd (m c) = snd (m' c').

Lemma same_ret : forall A (a : A), same (ret a) (ret a).
Proof. intros A a c c'; reflexivity. Qed.
Lemma same_raise : forall A e, same (@raise A e) (raise e).
Proof. intros A e c c'; reflexivity. Qed.
Lemma same_bind : forall A B (m m' : M A) (f f' : A -> M B),
  same m m' -> (forall a, same (f a) (f' a)) -> same (bind m f) (bind m' f').
Proof.
  intros A B m m' f f' Hm Hf c c'. unfold bind. specialize (Hm c c').
  destruct (m c) as [c1 [a|e]], (m' c') as [c1' [a'|e']]; simpl in *; try discriminate.
  - inversion Hm; subst. apply Hf.
  - inversion Hm; reflexivity.
Qed.
Lemma same_lift_eval : forall r, same (lift_eval r) (lift_eval r).
Proof. intros [v|e] c c'; reflexivity. Qed.

Section Blind.
Variable ev : string -> dict -> evalres.
Hypothesis Hblind : state_blind ev.

Lemma evaluate_same : forall stmt ctx ctx', sim ctx ctx' -> same (evaluate ev stmt ctx) (evaluate ev stmt ctx').
Proof.
  intro stmt; induction stmt as [| | | |s|l IH|kv IH] using json_ind'; intros ctx ctx' Hs;
    try (simpl; apply same_ret).
  - simpl. rewrite (Hblind s ctx ctx' Hs). apply same_lift_eval.
  - simpl. apply same_bind; [|intro; apply same_ret].
    induction IH as [|x l Hx Hl IHl]; [apply same_ret|].
    apply same_bind; [apply Hx; exact Hs|intro y]. apply same_bind; [exact IHl|intro; apply same_ret].
  - simpl. apply same_bind; [|intro; apply same_ret].
    generalize (@nil (string * json)) as acc.
    induction IH as [|[k v] kv' Hx Hl IHl]; intro acc; [apply same_ret|].
    apply same_bind; [rewrite (Hblind k ctx ctx' Hs); apply same_lift_eval|intro k'].
    apply same_bind; [destruct k'; first [apply same_raise|apply same_ret]|intros _].
    apply same_bind; [apply Hx; exact Hs|intro v']. destruct k'; try apply same_raise. apply IHl.
Qed.

Lemma same_mapM : forall A B (f f' : A -> M B) l, (forall a, same (f a) (f' a)) -> same (mapM f l) (mapM f' l).
Proof.
  intros A B f f' l Hf; induction l as [|x l IH]; simpl; [apply same_ret|].
  apply same_bind; [apply Hf|intro y]. apply same_bind; [exact IH|intro; apply same_ret].
Qed.

Lemma render_task_same : forall ts ctx ctx', sim ctx ctx' -> same (render_task ev ts ctx) (render_task ev ts ctx').
Proof.
  intros ts ctx ctx' Hs. unfold render_task. destruct (ts_with ts) as [its|].
  - apply same_bind; [apply evaluate_same; exact Hs|intro items]. destruct items; try apply same_raise.
    apply same_mapM. intros [idx item]. cbv zeta.
    apply same_bind; [apply evaluate_same; apply sim_dset; exact Hs|intro].
    apply same_bind; [apply evaluate_same; apply sim_dset; exact Hs|intro; apply same_ret].
  - apply same_bind; [apply evaluate_same; exact Hs|intro].
    apply same_bind; [apply evaluate_same; exact Hs|intro; apply same_ret].
Qed.


Definition nt_mkctx (t : string) (route : nat) (ctx0 : dict) (w : wstate) : dict :=
  merge_dicts (dset "__current_task" (current_task_json t route None) ctx0) (state_ctx w).

Definition nt_ctx0 (t : string) (route : nat) (c : cstate) : M dict :=
  match get_staged_task (c_ws c) t route with
  | Some s' => get_task_context (s_in s')
  | None => match ws_task_entry (c_ws c) t route with
            | Some r => get_task_context (r_in r)
            | None => match nth_error (contexts (c_ws c)) 0 with
                      | Some d => ret d
                      | None => raise exn_index
                      end
            end
  end.

Definition nt_delay (ts : task_spec) (task_ctx : dict) : M (option json) :=
  if truthy (ts_delay ts) then
    d <- (match ts_delay ts with JStr _ => evaluate ev (ts_delay ts) task_ctx | v => ret v end) ;;
    if py_is_int d then ret (Some d)
    else raise (exn_type "The value of task delay is not type of integer.")
  else ret None.

(* what is read and rendered: nothing is written *)
Definition nt_pre (t : string) (route : nat) (c : cstate) : M (dict * task_spec * list action_spec * option json) :=
  ctx0 <- nt_ctx0 t route c ;;
  let task_ctx := nt_mkctx t route ctx0 (c_ws c) in
  ts <- (match spec_get_task (c_spec c) t with Some ts => ret ts | None => raise (exn_key t) end) ;;
  actions <- render_task ev ts task_ctx ;;
  delay <- nt_delay ts task_ctx ;;
  ret (ctx0, ts, actions, delay).

Definition nt_delay' (retry : option retry_rec) (delay : option json) : option json :=
  match retry with
  | Some rr => Some (match rr_delay rr with
                     | Some d => if truthy d then d else JInt 0
                     | None => JInt 0 end)
  | None => delay end.

(* the item table of the entry and the choice of items *)
Definition nt_post (t : string) (route : nat) (retry : option retry_rec) (c : cstate)
           (p : dict * task_spec * list action_spec * option json) : M (option offer) :=
  let '(ctx0, ts, actions, delay) := p in
  let task_ctx := nt_mkctx t route ctx0 (c_ws c) in
  match ts_with ts with
  | None =>
      ret (match actions with
           | [] => None
           | _ => Some {| o_id := t; o_route := route; o_ctx := task_ctx; o_actions := actions;
                          o_delay := nt_delay' retry delay; o_items_count := None; o_concurrency := None |}
           end)
  | Some its =>
      conc <- evaluate ev (it_concurrency its) task_ctx ;;
      let count := length actions in
      w <- getws ;;
      st_items <- (match get_staged_task w t route with
                   | None => raise (exn_type "argument of type 'NoneType' is not iterable")
                   | Some s' =>
                       match s_items s' with
                       | Some (x :: xs) => ret (x :: xs)
                       | _ =>
                           let fresh := repeat S_UNSET count in
                           modws (fun w => ws_set_staged w
                                    (staged_update (fun e => s_set_items e (Some fresh)) t route (staged w))) ;;;
                           ret fresh
                       end
                   end) ;;
      chosen <- lift_res (choose_items conc (combine actions st_items)) ;;
      let '(acts, conc') := chosen in
      ret (match acts, count with
           | [], S _ => None
           | _, _ => Some {| o_id := t; o_route := route; o_ctx := task_ctx; o_actions := acts;
                             o_delay := nt_delay' retry delay; o_items_count := Some count;
                             o_concurrency := Some conc' |}
           end)
  end.

Lemma nt_eq : forall s c,
  next_task_for ev s c = bind (nt_pre (s_id s) (s_route s) c) (nt_post (s_id s) (s_route s) (s_retry s) c) c.
Proof.
  intros s c. unfold next_task_for, nt_pre. unfold bind at 1, get. cbv beta iota zeta.
  fold (nt_ctx0 (s_id s) (s_route s) c).
  rewrite bind_assoc_pt. apply bind_congr; intros c1 ctx0 _. cbv zeta.
  fold (nt_mkctx (s_id s) (s_route s) ctx0 (c_ws c)).
  rewrite bind_assoc_pt. apply bind_congr; intros c2 ts _.
  rewrite bind_assoc_pt. apply bind_congr; intros c3 actions _.
  fold (nt_delay ts (nt_mkctx (s_id s) (s_route s) ctx0 (c_ws c))).
  rewrite bind_assoc_pt. apply bind_congr; intros c4 delay _.
  rewrite (bind_step _ _ (ret (ctx0, ts, actions, delay)) _ c4 c4 _ eq_refl).
  unfold nt_post, nt_delay'. cbv beta iota zeta.
  destruct (ts_with ts); reflexivity.
Qed.


Definition offer_plain (t : string) (route : nat) (retry : option retry_rec) (x : cstate) (ctx0 : dict)
           (actions : list action_spec) (delay : option json) : option offer :=
  match actions with
  | [] => None
  | _ => Some {| o_id := t; o_route := route; o_ctx := nt_mkctx t route ctx0 (c_ws x); o_actions := actions;
                 o_delay := nt_delay' retry delay; o_items_count := None; o_concurrency := None |}
  end.

Definition offer_items (t : string) (route : nat) (retry : option retry_rec) (x : cstate) (ctx0 : dict)
           (count : nat) (delay : option json) (acts : list action_spec) (conc' : json) : option offer :=
  match acts, count with
  | [], S _ => None
  | _, _ => Some {| o_id := t; o_route := route; o_ctx := nt_mkctx t route ctx0 (c_ws x); o_actions := acts;
                    o_delay := nt_delay' retry delay; o_items_count := Some count; o_concurrency := Some conc' |}
  end.

Definition set_tbl (x : cstate) (t : string) (route : nat) (T : option (list status)) : cstate :=
  set_ws x (ws_set_staged (c_ws x) (staged_update (fun e => s_set_items e T) t route (staged (c_ws x)))).

Definition items_of (T : option (list status)) (n : nat) : list status :=
  match T with Some (y :: ys) => y :: ys | _ => repeat S_UNSET n end.

(* the item table after the step: kept when it has entries, else n unset items *)
Definition delta (T : option (list status)) (n : nat) : option (list status) :=
  match T with Some (y :: ys) => T | _ => Some (repeat S_UNSET n) end.

Lemma nt_ctx0_pure : forall t route c, state_pure (nt_ctx0 t route c).
Proof.
  intros t route c x. unfold nt_ctx0.
  assert (G : forall idxs, fst (get_task_context idxs x) = x).
  { intro idxs. unfold get_task_context, bind, getws, lift_res.
    destruct (get_task_context_from (contexts (c_ws x)) idxs []); reflexivity. }
  destruct (get_staged_task (c_ws c) t route); [apply G|].
  destruct (ws_task_entry (c_ws c) t route); [apply G|]. destruct (nth_error (contexts (c_ws c)) 0); reflexivity.
Qed.

Lemma nt_delay_pure : forall ts ctx, state_pure (nt_delay ts ctx).
Proof.
  intros ts ctx. unfold nt_delay. destruct (truthy (ts_delay ts)); [|apply state_pure_ret].
  apply state_pure_bind.
  - destruct (ts_delay ts); try apply state_pure_ret. apply evaluate_pure.
  - intro d. destruct (py_is_int d); [apply state_pure_ret|apply state_pure_raise].
Qed.

Lemma nt_delay_same : forall ts ctx ctx', sim ctx ctx' -> same (nt_delay ts ctx) (nt_delay ts ctx').
Proof.
  intros ts ctx ctx' Hs. unfold nt_delay. destruct (truthy (ts_delay ts)); [|apply same_ret].
  apply same_bind.
  - destruct (ts_delay ts) eqn:E; try apply same_ret. rewrite <- E. apply evaluate_same; exact Hs.
  - intro d. destruct (py_is_int d); [apply same_ret|apply same_raise].
Qed.

Lemma nt_pre_pure : forall t route c, state_pure (nt_pre t route c).
Proof.
  intros t route c. unfold nt_pre.
  apply state_pure_bind; [apply nt_ctx0_pure|intro ctx0]. cbv zeta.
  apply state_pure_bind; [destruct (spec_get_task (c_spec c) t); [apply state_pure_ret|apply state_pure_raise]|intro ts].
  apply state_pure_bind; [apply render_task_pure|intro actions].
  apply state_pure_bind; [apply nt_delay_pure|intro delay; apply state_pure_ret].
Qed.

Definition pre_res (t : string) (route : nat) (x : cstate) := snd (nt_pre t route x x).

Lemma nt_pre_run : forall t route x, nt_pre t route x x = (x, pre_res t route x).
Proof.
  intros t route x. unfold pre_res. pose proof (nt_pre_pure t route x x) as H.
  destruct (nt_pre t route x x) as [x' r]; simpl in *; subst; reflexivity.
Qed.

Definition conc_res (t : string) (route : nat) (x : cstate) (ctx0 : dict) (its : items_spec) : result json :=
  snd (evaluate ev (it_concurrency its) (nt_mkctx t route ctx0 (c_ws x)) x).

Definition type_err_none : exn := exn_type "argument of type 'NoneType' is not iterable".

(* the whole of next_task_for on a state x, as a value *)
Definition nt_value (t : string) (route : nat) (retry : option retry_rec) (x : cstate) : cstate * result (option offer) :=
  match pre_res t route x with
  | Exc e => (x, Exc e)
  | Val (ctx0, ts, actions, delay) =>
      match ts_with ts with
      | None => (x, Val (offer_plain t route retry x ctx0 actions delay))
      | Some its =>
          match conc_res t route x ctx0 its with
          | Exc e => (x, Exc e)
          | Val cv =>
              match get_staged_task (c_ws x) t route with
              | None => (x, Exc type_err_none)
              | Some e =>
                  let n := length actions in
                  (match s_items e with Some (_ :: _) => x | _ => set_tbl x t route (Some (repeat S_UNSET n)) end,
                   match choose_items cv (combine actions (items_of (s_items e) n)) with
                   | Exc ex => Exc ex
                   | Val (acts, conc') => Val (offer_items t route retry x ctx0 n delay acts conc')
                   end)
              end
          end
      end
  end.

Lemma nt_run : forall s x, next_task_for ev s x = nt_value (s_id s) (s_route s) (s_retry s) x.
Proof.
  intros s x. rewrite nt_eq. unfold bind at 1. rewrite nt_pre_run. unfold nt_value.
  destruct (pre_res (s_id s) (s_route s) x) as [[[[ctx0 ts] actions] delay]|e]; [|reflexivity].
  unfold nt_post. cbv zeta. destruct (ts_with ts) as [its|]; [|reflexivity].
  unfold bind at 1. unfold conc_res.
  pose proof (evaluate_pure ev (it_concurrency its) (nt_mkctx (s_id s) (s_route s) ctx0 (c_ws x)) x) as Hp.
  destruct (evaluate ev (it_concurrency its) (nt_mkctx (s_id s) (s_route s) ctx0 (c_ws x)) x) as [x1 [cv|e]];
    simpl in Hp; subst x1; cbn [snd]; [|reflexivity].
  unfold bind at 1, getws. cbv beta iota.
  destruct (get_staged_task (c_ws x) (s_id s) (s_route s)) as [e|]; [|reflexivity]. cbv zeta.
  destruct (s_items e) as [[|y ys]|]; cbn [items_of];
    unfold bind, modws, ret, lift_res;
    match goal with |- context [choose_items ?a ?b] => destruct (choose_items a b) as [[acts conc']|ex] end; reflexivity.
Qed.


Definition stg_core (s s' : stg) : Prop :=
  s_id s' = s_id s /\ s_route s' = s_route s /\ s_in s' = s_in s /\ s_prev s' = s_prev s /\
  s_ready s' = s_ready s /\ s_retry s' = s_retry s /\ s_completed s' = s_completed s /\
  s_run_on_fail s' = s_run_on_fail s.

(* same definition, same snapshots, same staged entries up to their item tables *)
Definition Q (a b : cstate) : Prop :=
  c_spec a = c_spec b /\ contexts (c_ws a) = contexts (c_ws b) /\
  Forall2 stg_core (staged (c_ws a)) (staged (c_ws b)).

Lemma stg_core_refl : forall s, stg_core s s.
Proof. intro; repeat split. Qed.
Lemma stg_core_sym : forall s s', stg_core s s' -> stg_core s' s.
Proof. unfold stg_core; intros; intuition congruence. Qed.
Lemma stg_core_trans : forall a b c, stg_core a b -> stg_core b c -> stg_core a c.
Proof. unfold stg_core; intros; intuition congruence. Qed.

Lemma Q_refl : forall a, Q a a.
Proof. intro; repeat split; apply Forall2_refl; apply stg_core_refl. Qed.
Lemma Q_sym : forall a b, Q a b -> Q b a.
Proof. intros a b [A [B C]]; repeat split; [congruence|congruence|apply Forall2_sym; [apply stg_core_sym|exact C]]. Qed.
Lemma Q_trans : forall a b c, Q a b -> Q b c -> Q a c.
Proof.
  intros a b c [A1 [B1 C1]] [A2 [B2 C2]]; repeat split; [congruence|congruence|].
  eapply Forall2_trans; [apply stg_core_trans|eassumption|eassumption].
Qed.

Lemma find_core : forall t r l l', Forall2 stg_core l l' ->
  match find (stg_matches t r) l, find (stg_matches t r) l' with
  | Some e, Some e' => stg_core e e'
  | None, None => True
  | _, _ => False
  end.
Proof.
  intros t r l l' F; induction F as [|x y l l' Hxy F IH]; simpl; [exact I|].
  assert (E : stg_matches t r y = stg_matches t r x).
  { destruct Hxy as [H1 [H2 _]]. unfold stg_matches. rewrite H1, H2. reflexivity. }
  rewrite E. destruct (stg_matches t r x); [exact Hxy|exact IH].
Qed.

Definition found (x : cstate) (t : string) (route : nat) : Prop := get_staged_task (c_ws x) t route <> None.

Lemma found_Q : forall a b t route, Q a b -> found a t route -> found b t route.
Proof.
  intros a b t route [_ [_ F]] H. unfold found, get_staged_task in *. pose proof (find_core t route _ _ F) as G.
  destruct (find (stg_matches t route) (staged (c_ws a))); [|congruence].
  destruct (find (stg_matches t route) (staged (c_ws b))); [discriminate|contradiction].
Qed.

Lemma snd_bind_pure : forall A B (m m' : M A) (f f' : A -> M B) a b,
  state_pure m -> state_pure m' -> snd (m a) = snd (m' b) -> (forall v, snd (f v a) = snd (f' v b)) ->
  snd (bind m f a) = snd (bind m' f' b).
Proof.
  intros A B m m' f f' a b Hp Hp' Hm Hf. unfold bind. specialize (Hp a). specialize (Hp' b).
  destruct (m a) as [a1 [v|e]], (m' b) as [b1 [v'|e']]; simpl in *; subst; try discriminate.
  - inversion Hm; subst. apply Hf.
  - inversion Hm; reflexivity.
Qed.

Lemma pre_res_ext : forall a b t route, c_spec a = c_spec b ->
  snd (nt_ctx0 t route a a) = snd (nt_ctx0 t route b b) -> pre_res t route a = pre_res t route b.
Proof.
  intros a b t route Hsp Hctx. unfold pre_res, nt_pre.
  apply snd_bind_pure; [apply nt_ctx0_pure|apply nt_ctx0_pure|exact Hctx|].
  intro ctx0. cbv zeta. rewrite Hsp.
  apply snd_bind_pure.
  - destruct (spec_get_task (c_spec b) t); [apply state_pure_ret|apply state_pure_raise].
  - destruct (spec_get_task (c_spec b) t); [apply state_pure_ret|apply state_pure_raise].
  - destruct (spec_get_task (c_spec b) t); reflexivity.
  - intro ts. apply snd_bind_pure; [apply render_task_pure|apply render_task_pure| |].
    + apply render_task_same. apply sim_state_ctx.
    + intro actions. apply snd_bind_pure; [apply nt_delay_pure|apply nt_delay_pure| |intro; reflexivity].
      apply nt_delay_same. apply sim_state_ctx.
Qed.

Lemma get_task_context_snd : forall idxs a b, contexts (c_ws a) = contexts (c_ws b) ->
  snd (get_task_context idxs a) = snd (get_task_context idxs b).
Proof.
  intros idxs a b H. unfold get_task_context, bind, getws, lift_res. rewrite H.
  destruct (get_task_context_from (contexts (c_ws b)) idxs []); reflexivity.
Qed.

Lemma pre_res_Q : forall a b t route, Q a b -> found a t route -> pre_res t route a = pre_res t route b.
Proof.
  intros a b t route [Hsp [Hctx F]] Hf. apply pre_res_ext; [exact Hsp|].
  unfold nt_ctx0. unfold found, get_staged_task in *. pose proof (find_core t route _ _ F) as G.
  destruct (find (stg_matches t route) (staged (c_ws a))) as [e|]; [|congruence].
  destruct (find (stg_matches t route) (staged (c_ws b))) as [e'|]; [|contradiction].
  destruct G as [_ [_ [Hin _]]]. rewrite Hin. apply get_task_context_snd. exact Hctx.
Qed.

Lemma conc_res_Q : forall a b t route ctx0 its, conc_res t route a ctx0 its = conc_res t route b ctx0 its.
Proof. intros. unfold conc_res. apply evaluate_same. apply sim_state_ctx. Qed.

(* how many item actions the entry renders to, when its item table is reached at all *)
Definition kappa (x : cstate) (t : string) (route : nat) : option nat :=
  match pre_res t route x with
  | Val (ctx0, ts, actions, _) =>
      match ts_with ts with
      | Some its => match conc_res t route x ctx0 its with Val _ => Some (length actions) | Exc _ => None end
      | None => None
      end
  | Exc _ => None
  end.

Lemma kappa_Q : forall a b t route, Q a b -> found a t route -> kappa a t route = kappa b t route.
Proof.
  intros a b t route HQ Hf. unfold kappa. rewrite (pre_res_Q a b t route HQ Hf).
  destruct (pre_res t route b) as [[[[ctx0 ts] actions] delay]|e]; [|reflexivity].
  destruct (ts_with ts) as [its|]; [|reflexivity]. rewrite (conc_res_Q a b). reflexivity.
Qed.


(* the item table of the entry (t, route) *)
Definition tblv (x : cstate) (t : string) (route : nat) : option (list status) :=
  match get_staged_task (c_ws x) t route with Some e => s_items e | None => None end.

(* ... after a step that reaches it with k actions, or does not reach it *)
Definition dk (k : option nat) (T : option (list status)) : option (list status) :=
  match k with Some n => delta T n | None => T end.

Lemma dk_idem : forall k T, dk k (dk k T) = dk k T.
Proof. intros [n|] T; [|reflexivity]. simpl. unfold delta. destruct T as [[|y ys]|]; try reflexivity; destruct n; reflexivity. Qed.

Definition err_of (e : exn) (t : string) (route : nat) : errent :=
  mk_errent "error" (x_cls e ++ ": " ++ x_msg e) (Some t) (Some route) None JNull.

Definition log_val (e : exn) (t : string) (route : nat) (x : cstate) : cstate :=
  if existsb (errent_eqb (err_of e t route)) (c_errors x) then x
  else set_errors x (app (c_errors x) [err_of e t route]).

Definition key3 (s : stg) : string * nat * option retry_rec := (s_id s, s_route s, s_retry s).

Definition step_value (k : string * nat * option retry_rec) (x : cstate) : cstate * (option offer * bool) :=
  let '(t, route, retry) := k in
  match nt_value t route retry x with
  | (x1, Val o) => (x1, (o, false))
  | (x1, Exc e) => (log_val e t route x1, (None, true))
  end.

Lemma step_run : forall s x,
  try_catch (o <- next_task_for ev s ;; ret (o, false))
            (fun e => log_error e (Some (s_id s)) (Some (s_route s)) None ;;; ret (None, true)) x
  = (fst (step_value (key3 s) x), Val (snd (step_value (key3 s) x))).
Proof.
  intros s x. unfold try_catch, bind at 1. rewrite nt_run. unfold step_value, key3.
  destruct (nt_value (s_id s) (s_route s) (s_retry s) x) as [x1 [o|e]]; [reflexivity|].
  unfold bind, log_error, log_entry_error, modify, ret. reflexivity.
Qed.

Fixpoint steps (K : list (string * nat * option retry_rec)) (x : cstate) : cstate * list (option offer * bool) :=
  match K with
  | [] => (x, [])
  | k :: K' => let '(x1, r) := step_value k x in let '(x2, rs) := steps K' x1 in (x2, r :: rs)
  end.

Lemma mapM_steps : forall l x,
  mapM (fun s => try_catch (o <- next_task_for ev s ;; ret (o, false))
                           (fun e => log_error e (Some (s_id s)) (Some (s_route s)) None ;;; ret (None, true))) l x
  = (fst (steps (map key3 l) x), Val (snd (steps (map key3 l) x))).
Proof.
  induction l as [|s l IH]; intro x; [reflexivity|]. cbn [mapM map steps]. unfold bind at 1. rewrite step_run.
  destruct (step_value (key3 s) x) as [x1 r] eqn:E. cbn [fst snd]. unfold bind at 1. rewrite IH.
  destruct (steps (map key3 l) x1) as [x2 rs]. reflexivity.
Qed.


Definition errs_sub (x y : cstate) : Prop := forall E, In E (c_errors x) -> In E (c_errors y).

Lemma errs_sub_refl : forall x, errs_sub x x.
Proof. intros x E H; exact H. Qed.
Lemma errs_sub_trans : forall a b c, errs_sub a b -> errs_sub b c -> errs_sub a c.
Proof. intros a b c H1 H2 E H; apply H2, H1, H. Qed.

(* what every step of the query keeps: the bookkeeping relation, the error log as a subset, status and init *)
Definition Rb (x x1 : cstate) : Prop :=
  Q x x1 /\ errs_sub x x1 /\ wstatus (c_ws x1) = wstatus (c_ws x) /\ c_init x1 = c_init x.
Lemma Rb_refl : forall x, Rb x x.
Proof. intro x. split; [apply Q_refl|]. split; [apply errs_sub_refl|]. split; reflexivity. Qed.
Lemma Rb_trans : forall a b c, Rb a b -> Rb b c -> Rb a c.
Proof.
  intros a b c [Q1 [E1 [S1 I1]]] [Q2 [E2 [S2 I2]]].
  split; [eapply Q_trans; eassumption|]. split; [eapply errs_sub_trans; eassumption|]. split; congruence.
Qed.

Lemma F2_staged_update_core : forall f t r l, (forall s, stg_core s (f s)) -> Forall2 stg_core l (staged_update f t r l).
Proof.
  intros f t r l Hf; induction l as [|s l IH]; simpl; [constructor|].
  destruct (stg_matches t r s); constructor; [apply Hf|apply Forall2_refl; apply stg_core_refl|apply stg_core_refl|exact IH].
Qed.

Lemma set_tbl_facts : forall x t route T,
  Rb x (set_tbl x t route T) /\
  (found x t route -> tblv (set_tbl x t route T) t route = T) /\
  (forall t' r', (t', r') <> (t, route) -> tblv (set_tbl x t route T) t' r' = tblv x t' r').
Proof.
  intros x t route T. unfold set_tbl. split; [|split].
  - split; [|split; [intros E H; exact H|split; reflexivity]].
    repeat split. cbn [c_ws set_ws staged ws_set_staged]. apply F2_staged_update_core. intro s; repeat split.
  - intro Hf. unfold tblv, found, get_staged_task in *. cbn [c_ws set_ws staged ws_set_staged].
    rewrite find_staged_update_same by (intro s; reflexivity).
    destruct (find (stg_matches t route) (staged (c_ws x))); [reflexivity|congruence].
  - intros t' r' Hne. unfold tblv, get_staged_task. cbn [c_ws set_ws staged ws_set_staged].
    rewrite find_staged_update_other; [reflexivity|exact Hne|intro s; split; reflexivity].
Qed.

Lemma log_val_facts : forall e t route x,
  Rb x (log_val e t route x) /\
  (forall t' r', tblv (log_val e t route x) t' r' = tblv x t' r') /\
  existsb (errent_eqb (err_of e t route)) (c_errors (log_val e t route x)) = true.
Proof.
  intros e t route x. unfold log_val.
  destruct (existsb (errent_eqb (err_of e t route)) (c_errors x)) eqn:Ex.
  - split; [apply Rb_refl|]. split; [reflexivity|exact Ex].
  - split; [|split; [reflexivity|]].
    { split; [exact (Q_refl x)|]. split; [|split; reflexivity].
      intros E H; cbn [c_errors set_errors]; apply in_or_app; left; exact H. }
    cbn [c_errors set_errors]. rewrite existsb_app. apply orb_true_iff; right. cbn [existsb].
    apply orb_true_iff; left. unfold errent_eqb, err_of, mk_errent. cbn [er_type er_message er_task er_route er_trans er_result opt_eqb].
    rewrite !String.eqb_refl, Nat.eqb_refl. reflexivity.
Qed.


Definition step_ok (x x1 : cstate) (t : string) (route : nat) : Prop :=
  Rb x x1 /\ tblv x1 t route = dk (kappa x t route) (tblv x t route) /\
  (forall t' r', (t', r') <> (t, route) -> tblv x1 t' r' = tblv x t' r').

Lemma step_ok_refl_none : forall x t route, kappa x t route = None -> step_ok x x t route.
Proof.
  intros x t route Hk. unfold step_ok. rewrite Hk. split; [apply Rb_refl|]. split; reflexivity.
Qed.

Lemma nt_value_facts : forall t route retry x, found x t route ->
  step_ok x (fst (nt_value t route retry x)) t route.
Proof.
  intros t route retry x Hf. unfold nt_value.
  destruct (pre_res t route x) as [[[[ctx0 ts] actions] delay]|e] eqn:Ep;
    [|cbn [fst]; apply step_ok_refl_none; unfold kappa; rewrite Ep; reflexivity].
  destruct (ts_with ts) as [its|] eqn:Ew;
    [|cbn [fst]; apply step_ok_refl_none; unfold kappa; rewrite Ep, Ew; reflexivity].
  destruct (conc_res t route x ctx0 its) as [cv|e] eqn:Ec;
    [|cbn [fst]; apply step_ok_refl_none; unfold kappa; rewrite Ep, Ew, Ec; reflexivity].
  assert (Hk : kappa x t route = Some (length actions)) by (unfold kappa; rewrite Ep, Ew, Ec; reflexivity).
  unfold found in Hf. destruct (get_staged_task (c_ws x) t route) as [e|] eqn:Eg; [|congruence].
  cbv zeta. cbn [fst]. unfold step_ok. rewrite Hk. cbn [dk].
  assert (Ht : tblv x t route = s_items e) by (unfold tblv; rewrite Eg; reflexivity). rewrite Ht.
  destruct (s_items e) as [[|y ys]|] eqn:Ei; cbn [delta].
  - destruct (set_tbl_facts x t route (Some (repeat S_UNSET (length actions)))) as [A [E F]].
    split; [exact A|]. split; [apply E; unfold found; congruence|exact F].
  - split; [apply Rb_refl|]. split; [exact Ht|reflexivity].
  - destruct (set_tbl_facts x t route (Some (repeat S_UNSET (length actions)))) as [A [E F]].
    split; [exact A|]. split; [apply E; unfold found; congruence|exact F].
Qed.

Lemma step_facts : forall t route retry x, found x t route ->
  step_ok x (fst (step_value (t, route, retry) x)) t route.
Proof.
  intros t route retry x Hf. pose proof (nt_value_facts t route retry x Hf) as H. unfold step_value.
  destruct (nt_value t route retry x) as [x1 [o|e]]; cbn [fst] in *; [exact H|].
  destruct H as [A [E F]]. destruct (log_val_facts e t route x1) as [A' [E' _]].
  split; [eapply Rb_trans; eassumption|]. split; [rewrite E'; exact E|].
  intros t' r' Hne. rewrite E'. apply F; exact Hne.
Qed.


Definition offer_sim (o o' : offer) : Prop :=
  o_id o' = o_id o /\ o_route o' = o_route o /\ o_actions o' = o_actions o /\ o_delay o' = o_delay o /\
  o_items_count o' = o_items_count o /\ o_concurrency o' = o_concurrency o /\ sim (o_ctx o) (o_ctx o').

Definition oo_sim (o o' : option offer) : Prop :=
  match o, o' with Some a, Some b => offer_sim a b | None, None => True | _, _ => False end.

Definition res_sim (r r' : option offer * bool) : Prop := oo_sim (fst r) (fst r') /\ snd r = snd r'.

Lemma set_tbl_same : forall x t route e, get_staged_task (c_ws x) t route = Some e ->
  set_tbl x t route (s_items e) = x.
Proof.
  intros x t route e H. unfold set_tbl.
  assert (E : staged_update (fun e0 => s_set_items e0 (s_items e)) t route (staged (c_ws x)) = staged (c_ws x)).
  { unfold get_staged_task in H. induction (staged (c_ws x)) as [|s l IH]; [reflexivity|]. simpl in *.
    destruct (stg_matches t route s).
    - inversion H; subst. destruct e; reflexivity.
    - rewrite IH; [reflexivity|exact H]. }
  rewrite E. destruct x as [sp g inp par ini w er lg out]; destruct w; reflexivity.
Qed.

Lemma existsb_sub : forall E l l', existsb (errent_eqb E) l = true -> (forall X, In X l -> In X l') ->
  existsb (errent_eqb E) l' = true.
Proof.
  intros E l l' H Hs. apply existsb_exists in H. destruct H as [X [Hin HX]].
  apply existsb_exists. exists X; split; [apply Hs; exact Hin|exact HX].
Qed.

Lemma step_again : forall t route retry a b, Q a b -> found a t route ->
  tblv b t route = dk (kappa a t route) (tblv a t route) ->
  errs_sub (fst (step_value (t, route, retry) a)) b ->
  fst (step_value (t, route, retry) b) = b /\
  res_sim (snd (step_value (t, route, retry) a)) (snd (step_value (t, route, retry) b)).
Proof.
  intros t route retry a b HQ Hf Ht He. pose proof (found_Q _ _ _ _ HQ Hf) as Hfb.
  unfold step_value, nt_value in *. unfold kappa in Ht. rewrite <- (pre_res_Q a b t route HQ Hf).
  assert (Hlog : forall e a1, errs_sub (log_val e t route a1) b -> log_val e t route b = b).
  { intros e a1 Hs. unfold log_val at 1.
    rewrite (existsb_sub _ _ _ (proj2 (proj2 (log_val_facts e t route a1))) Hs). reflexivity. }
  destruct (pre_res t route a) as [[[[ctx0 ts] actions] delay]|e]; [|cbn [fst snd] in *].
  2: { split; [eapply Hlog; exact He|split; [exact I|reflexivity]]. }
  destruct (ts_with ts) as [its|].
  2: { cbn [fst snd]. split; [reflexivity|]. split; [|reflexivity]. unfold offer_plain.
       destruct actions; [exact I|]. repeat split. apply sim_state_ctx. }
  rewrite <- (conc_res_Q a b). destruct (conc_res t route a ctx0 its) as [cv|e]; [|cbn [fst snd] in *].
  2: { split; [eapply Hlog; exact He|split; [exact I|reflexivity]]. }
  unfold found in Hf, Hfb. unfold tblv in Ht.
  destruct (get_staged_task (c_ws a) t route) as [ea|] eqn:Ea; [|congruence].
  destruct (get_staged_task (c_ws b) t route) as [eb|] eqn:Eb; [|congruence].
  cbv zeta in *. cbn [dk] in Ht.
  (* the item list both calls work with, and the second call's state *)
  assert (Hit : items_of (s_items eb) (length actions) = items_of (s_items ea) (length actions) /\
                (match s_items eb with Some (_ :: _) => b | _ => set_tbl b t route (Some (repeat S_UNSET (length actions))) end) = b).
  { pose proof (set_tbl_same b t route eb Eb) as X. rewrite Ht in X. rewrite Ht. clear Ht.
    unfold delta in *. destruct (s_items ea) as [[|y ys]|]; cbn [items_of].
    - destruct (length actions) as [|n]; cbn [repeat items_of] in *; [split; [reflexivity|exact X]|split; reflexivity].
    - split; reflexivity.
    - destruct (length actions) as [|n]; cbn [repeat items_of] in *; [split; [reflexivity|exact X]|split; reflexivity]. }
  destruct Hit as [Hi Hb]. rewrite Hi, Hb.
  destruct (choose_items cv (combine actions (items_of (s_items ea) (length actions)))) as [[acts conc']|ex];
    cbn [fst snd] in *.
  - split; [reflexivity|]. split; [|reflexivity]. unfold offer_items.
    destruct acts as [|a0 acts]; [destruct (length actions); [|exact I]|]; repeat split; apply sim_state_ctx.
  - split; [eapply Hlog; exact He|split; [exact I|reflexivity]].
Qed.


Definition key2 (k : string * nat * option retry_rec) : string * nat := fst k.
Definition kfound (x : cstate) (k : string * nat * option retry_rec) : Prop := found x (fst (fst k)) (snd (fst k)).

(* in y the table of (t, route) is still that of x, or has been advanced by the step; stable: advancing it again changes nothing *)
Definition adv (x y : cstate) (t : string) (route : nat) : Prop :=
  tblv y t route = tblv x t route \/ tblv y t route = dk (kappa x t route) (tblv x t route).
Definition stable (y : cstate) (t : string) (route : nat) : Prop :=
  dk (kappa y t route) (tblv y t route) = tblv y t route.

Lemma key_dec : forall a b : string * nat, {a = b} + {a <> b}.
Proof. intros [a1 a2] [b1 b2]. destruct (string_dec a1 b1); destruct (Nat.eq_dec a2 b2); subst; auto; right; congruence. Qed.

Lemma steps_cons : forall k K x,
  steps (k :: K) x = (fst (steps K (fst (step_value k x))), snd (step_value k x) :: snd (steps K (fst (step_value k x)))).
Proof.
  intros k K x. cbn [steps]. destruct (step_value k x) as [x1 r]. cbn [fst snd].
  destruct (steps K x1) as [x2 rs]. reflexivity.
Qed.

Lemma steps_facts : forall K x, (forall k, In k K -> kfound x k) ->
  Rb x (fst (steps K x)) /\
  (forall t r, found x t r -> adv x (fst (steps K x)) t r) /\
  (forall k, In k K -> stable (fst (steps K x)) (fst (fst k)) (snd (fst k))).
Proof.
  induction K as [|[[t route] retry] K IH]; intros x Hf.
  - cbn [steps fst]. split; [apply Rb_refl|]. split; [intros t r _; left; reflexivity|intros k []].
  - rewrite steps_cons. cbn [fst].
    assert (Hfk : found x t route) by (apply (Hf (t, route, retry)); left; reflexivity).
    destruct (step_facts t route retry x Hfk) as [R1 [T1 O1]]. pose proof (proj1 R1) as Q1.
    set (x1 := fst (step_value (t, route, retry) x)) in *.
    assert (Hf1 : forall k, In k K -> kfound x1 k).
    { intros k Hk. unfold kfound. eapply found_Q; [exact Q1|]. apply (Hf k). right; exact Hk. }
    destruct (IH x1 Hf1) as [R2 [A2 B2]]. pose proof (proj1 R2) as Q2.
    set (xn := fst (steps K x1)) in *.
    assert (Hadv : forall t' r', found x t' r' -> adv x xn t' r').
    { intros t' r' Hf'. pose proof (found_Q _ _ _ _ Q1 Hf') as Hf1'.
      specialize (A2 t' r' Hf1'). unfold adv in *. rewrite <- (kappa_Q x x1 t' r' Q1 Hf') in A2.
      destruct (key_dec (t', r') (t, route)) as [E|N].
      - inversion E; subst t' r'. rewrite T1 in A2. rewrite dk_idem in A2. right. destruct A2; assumption.
      - rewrite (O1 t' r' N) in A2. exact A2. }
    split; [eapply Rb_trans; eassumption|]. split; [exact Hadv|].
    intros k [<-|Hk]; [|apply B2; exact Hk]. cbn [fst snd]. unfold stable.
    assert (QX : Q x xn) by (eapply Q_trans; eassumption).
    rewrite <- (kappa_Q x xn t route QX Hfk).
    assert (Ht : tblv xn t route = dk (kappa x t route) (tblv x t route)).
    { pose proof (found_Q _ _ _ _ Q1 Hfk) as Hf1'. specialize (A2 t route Hf1'). unfold adv in A2.
      rewrite <- (kappa_Q x x1 t route Q1 Hfk) in A2. rewrite T1 in A2. rewrite dk_idem in A2. destruct A2; assumption. }
    rewrite Ht. apply dk_idem.
Qed.

Lemma steps_again : forall K a b, (forall k, In k K -> kfound a k) -> Q a b ->
  errs_sub (fst (steps K a)) b ->
  (forall k, In k K -> adv a b (fst (fst k)) (snd (fst k))) ->
  (forall k, In k K -> stable b (fst (fst k)) (snd (fst k))) ->
  fst (steps K b) = b /\ Forall2 res_sim (snd (steps K a)) (snd (steps K b)).
Proof.
  induction K as [|[[t route] retry] K IH]; intros a b Hf HQ He Ha Hs.
  - cbn [steps fst snd]. split; [reflexivity|constructor].
  - rewrite !steps_cons. cbn [fst snd]. rewrite steps_cons in He. cbn [fst] in He.
    assert (Hfk : found a t route) by (apply (Hf (t, route, retry)); left; reflexivity).
    destruct (step_facts t route retry a Hfk) as [[Q1 _] [T1 O1]].
    set (a1 := fst (step_value (t, route, retry) a)) in *.
    assert (Hf1 : forall k, In k K -> kfound a1 k).
    { intros k Hk. unfold kfound. eapply found_Q; [exact Q1|]. apply (Hf k). right; exact Hk. }
    destruct (steps_facts K a1 Hf1) as [[_ [E2 _]] _].
    assert (Htb : tblv b t route = dk (kappa a t route) (tblv a t route)).
    { destruct (Ha (t, route, retry) (or_introl eq_refl)) as [H|H]; [|exact H]. cbn [fst snd] in H.
      pose proof (Hs (t, route, retry) (or_introl eq_refl)) as St. cbn [fst snd] in St. unfold stable in St.
      rewrite <- (kappa_Q a b t route HQ Hfk) in St. rewrite H in St. rewrite St. exact H. }
    destruct (step_again t route retry a b HQ Hfk Htb) as [Sb Rb].
    { eapply errs_sub_trans; [exact E2|exact He]. }
    rewrite Sb.
    assert (Q1b : Q a1 b) by (eapply Q_trans; [apply Q_sym; exact Q1|exact HQ]).
    destruct (IH a1 b Hf1 Q1b He) as [Sn Rn].
    + intros k Hk. pose proof (Ha k (or_intror Hk)) as Hk'. unfold adv in *.
      assert (Hfk' : found a (fst (fst k)) (snd (fst k))) by (apply (Hf k); right; exact Hk).
      rewrite <- (kappa_Q a a1 _ _ Q1 Hfk').
      destruct (key_dec (fst (fst k), snd (fst k)) (t, route)) as [E|N].
      * inversion E as [[E1' E2']]. rewrite E1', E2'. left. rewrite T1. exact Htb.
      * rewrite (O1 _ _ N). exact Hk'.
    + intros k Hk. apply Hs. right; exact Hk.
    + split; [exact Sn|]. constructor; [exact Rb|exact Rn].
Qed.

Theorem steps_idempotent : forall K x, (forall k, In k K -> kfound x k) ->
  fst (steps K (fst (steps K x))) = fst (steps K x) /\
  Forall2 res_sim (snd (steps K x)) (snd (steps K (fst (steps K x)))).
Proof.
  intros K x Hf. destruct (steps_facts K x Hf) as [[HQ _] [Ha Hs]].
  apply steps_again; [exact Hf|exact HQ|apply errs_sub_refl| |exact Hs].
  intros k Hk. apply Ha. apply (Hf k Hk).
Qed.


Lemma rsc_failed_cases : forall x x' r, request_status_core S_FAILED x = (x', r) ->
  x' = x \/ (x' = set_ws x (ws_set_status (c_ws x) S_FAILED) /\ wstatus (c_ws x) <> S_FAILED /\ r = Val tt).
Proof.
  intros x x' r H. rewrite rsc_failed_run in H.
  destruct (tbl_step wf_table (wstatus (c_ws x)) "workflow_failed"); inversion H; subst x' r; [|left; reflexivity].
  destruct (status_eqb (wstatus (c_ws x)) S_FAILED) eqn:Ef.
  - left. apply status_eqb_eq in Ef. rewrite <- Ef. apply set_status_same.
  - right. split; [reflexivity|]. split; [|reflexivity]. intro E. rewrite E in Ef. discriminate Ef.
Qed.


Definition todo_of (w : wstate) : list stg :=
  let st := staged_filtered w in
  let rem := if status_eqb (wstatus w) S_FAILED then filter s_run_on_fail st else [] in
  match rem with [] => st | _ => rem end.

Definition held (w : wstate) : bool :=
  let st := staged_filtered w in
  let rem := if status_eqb (wstatus w) S_FAILED then filter s_run_on_fail st else [] in
  negb (status_in (wstatus w) RUNNING_STATUSES) && match rem with [] => true | _ => false end.

Definition offers_of (rs : list (option offer * bool)) : list offer :=
  sort_by offer_leb (flat_map (fun '(o, _) => match o with Some x => [x] | None => [] end) rs).

Definition gnt_value (x : cstate) : cstate * result (list offer) :=
  if held (c_ws x) then (x, Val [])
  else
    let '(xn, rs) := steps (map key3 (todo_of (c_ws x))) x in
    if existsb snd rs then
      match request_status_core S_FAILED xn with
      | (x', Val _) => (x', Val [])
      | (x', Exc e) => (x', Exc e)
      end
    else (xn, Val (offers_of rs)).

Lemma gnt_run : forall x, c_init x = true -> get_next_tasks ev x = gnt_value x.
Proof.
  intros x Hi. unfold get_next_tasks, bind at 1. rewrite (ensure_ws_inited ev x Hi).
  unfold bind at 1, getws. cbv beta iota zeta. unfold gnt_value, held, todo_of. cbv zeta.
  match goal with |- (if ?b then _ else _) _ = (if ?b' then _ else _) => change b' with b; destruct b end; [reflexivity|].
  unfold bind at 1. rewrite mapM_steps.
  destruct (steps (map key3 _) x) as [xn rs]. cbn [fst snd].
  destruct (existsb snd rs); [|reflexivity].
  unfold bind. destruct (request_status_core S_FAILED xn) as [x' [u|e]]; reflexivity.
Qed.


Lemma filter_F2 : forall A (R : A -> A -> Prop) (p : A -> bool) l l', Forall2 R l l' ->
  (forall x y, R x y -> p x = p y) -> Forall2 R (filter p l) (filter p l').
Proof.
  intros A R p l l' F Hp; induction F as [|x y l l' Hxy F IH]; simpl; [constructor|].
  rewrite <- (Hp x y Hxy). destruct (p x); [constructor; assumption|exact IH].
Qed.

Lemma key3_core : forall l l', Forall2 stg_core l l' -> map key3 l = map key3 l'.
Proof.
  intros l l' F; induction F as [|x y l l' [H1 [H2 [_ [_ [_ [H6 _]]]]]] F IH]; simpl; [reflexivity|].
  unfold key3 at 1 3. rewrite H1, H2, H6, IH. reflexivity.
Qed.

Lemma F2_nil_iff : forall A B (R : A -> B -> Prop) l l', Forall2 R l l' -> (l = [] <-> l' = []).
Proof. intros A B R l l' F; destruct F; split; intro; congruence. Qed.

Lemma todo_core : forall a b, Q a b -> wstatus (c_ws a) = wstatus (c_ws b) ->
  Forall2 stg_core (todo_of (c_ws a)) (todo_of (c_ws b)) /\ held (c_ws a) = held (c_ws b).
Proof.
  intros a b [_ [_ F]] Hs. unfold todo_of, held, staged_filtered. cbv zeta. rewrite <- Hs.
  assert (F1 : Forall2 stg_core (filter (fun s => s_ready s && negb (s_completed s)) (staged (c_ws a)))
                                (filter (fun s => s_ready s && negb (s_completed s)) (staged (c_ws b)))).
  { apply filter_F2; [exact F|]. intros x y [_ [_ [_ [_ [H5 [_ [H7 _]]]]]]]. rewrite H5, H7. reflexivity. }
  destruct (status_eqb (wstatus (c_ws a)) S_FAILED).
  - assert (F2 : Forall2 stg_core (filter s_run_on_fail (filter (fun s => s_ready s && negb (s_completed s)) (staged (c_ws a))))
                                  (filter s_run_on_fail (filter (fun s => s_ready s && negb (s_completed s)) (staged (c_ws b))))).
    { apply filter_F2; [exact F1|]. intros x y [_ [_ [_ [_ [_ [_ [_ H8]]]]]]]. symmetry; exact H8. }
    inversion F2 as [|x y l l' Hxy Fl E1 E2]; [split; [exact F1|reflexivity]|].
    split; [constructor; assumption|reflexivity].
  - split; [exact F1|reflexivity].
Qed.

Lemma In_find : forall A (p : A -> bool) l x, In x l -> p x = true -> find p l <> None.
Proof.
  intros A p l x; induction l as [|a l IH]; simpl; intros Hin Hp; [destruct Hin|].
  destruct (p a) eqn:E; [discriminate|]. destruct Hin as [->|Hin]; [congruence|apply IH; assumption].
Qed.

Lemma todo_found : forall x k, In k (map key3 (todo_of (c_ws x))) -> kfound x k.
Proof.
  intros x k Hk. apply in_map_iff in Hk. destruct Hk as [s [<- Hin]]. unfold kfound, key3, found, get_staged_task. cbn [fst snd].
  assert (Hs : In s (staged (c_ws x))).
  { unfold todo_of, staged_filtered in Hin. cbv zeta in Hin.
    destruct (status_eqb (wstatus (c_ws x)) S_FAILED).
    - destruct (filter s_run_on_fail _) eqn:Ef; [apply filter_In in Hin; tauto|].
      rewrite <- Ef in Hin. apply filter_In in Hin. destruct Hin as [Hin _]. apply filter_In in Hin; tauto.
    - apply filter_In in Hin; tauto. }
  eapply In_find; [exact Hs|]. unfold stg_matches. rewrite String.eqb_refl, Nat.eqb_refl. reflexivity.
Qed.


Definition ans_sim (r r' : result (list offer)) : Prop :=
  match r, r' with
  | Val l, Val l' => Forall2 offer_sim l l'
  | Exc e, Exc e' => e = e'
  | _, _ => False
  end.

Lemma offer_leb_sim : forall a a' b b', offer_sim a a' -> offer_sim b b' -> offer_leb a b = offer_leb a' b'.
Proof.
  intros a a' b b' [A1 [A2 _]] [B1 [B2 _]]. unfold offer_leb. rewrite A1, A2, B1, B2. reflexivity.
Qed.

Lemma insert_sim : forall x x' l l', offer_sim x x' -> Forall2 offer_sim l l' ->
  Forall2 offer_sim (insert_sorted offer_leb x l) (insert_sorted offer_leb x' l').
Proof.
  intros x x' l l' Hx F; induction F as [|y y' l l' Hy F IH]; simpl; [constructor; [exact Hx|constructor]|].
  rewrite <- (offer_leb_sim y y' x x' Hy Hx). destruct (offer_leb y x).
  - constructor; [exact Hy|exact IH].
  - constructor; [exact Hx|constructor; assumption].
Qed.

Lemma sort_sim : forall l l', Forall2 offer_sim l l' -> Forall2 offer_sim (sort_by offer_leb l) (sort_by offer_leb l').
Proof.
  intros l l' F. unfold sort_by.
  assert (G : forall acc acc', Forall2 offer_sim acc acc' ->
            Forall2 offer_sim (fold_left (fun acc x => insert_sorted offer_leb x acc) l acc)
                              (fold_left (fun acc x => insert_sorted offer_leb x acc) l' acc')).
  { induction F as [|x x' l l' Hx F IH]; intros acc acc' Ha; simpl; [exact Ha|].
    apply IH. apply insert_sim; assumption. }
  apply G. constructor.
Qed.

Lemma offers_of_sim : forall rs rs', Forall2 res_sim rs rs' ->
  Forall2 offer_sim (offers_of rs) (offers_of rs') /\ existsb snd rs = existsb snd rs'.
Proof.
  intros rs rs' F. split.
  - unfold offers_of. apply sort_sim. induction F as [|[o b] [o' b'] rs rs' [Ho Hb] F IH]; simpl; [constructor|].
    cbn [fst] in Ho. destruct o as [x|], o' as [x'|]; simpl in Ho; try contradiction; [constructor; assumption|exact IH].
  - induction F as [|[o b] [o' b'] rs rs' [Ho Hb] F IH]; simpl; [reflexivity|]. cbn [snd] in Hb. rewrite Hb, IH. reflexivity.
Qed.

Lemma ans_sim_refl : forall r, ans_sim r r.
Proof.
  intros [l|e]; simpl; [|reflexivity]. apply Forall2_refl. intro o. repeat split. apply sim_refl.
Qed.


(* no clean-up entry is staged unless the workflow has already failed *)
Definition no_cleanup_pending (c : cstate) : Prop :=
  wstatus (c_ws c) <> S_FAILED -> filter s_run_on_fail (staged_filtered (c_ws c)) = [].

Theorem query_idempotent : forall c c1 r1, c_init c = true -> no_cleanup_pending c ->
  get_next_tasks ev c = (c1, r1) ->
  exists r2, get_next_tasks ev c1 = (c1, r2) /\ ans_sim r1 r2.
Proof.
  intros c c1 r1 Hi Hnc H. rewrite (gnt_run c Hi) in H. unfold gnt_value in H.
  destruct (held (c_ws c)) eqn:Eh.
  { inversion H; subst c1 r1. exists (Val []). split; [|apply ans_sim_refl].
    rewrite (gnt_run c Hi). unfold gnt_value. rewrite Eh. reflexivity. }
  pose proof (steps_facts (map key3 (todo_of (c_ws c))) c (todo_found c)) as [[HQ [_ [Hst Hin]]] _].
  pose proof (steps_idempotent (map key3 (todo_of (c_ws c))) c (todo_found c)) as [Hfix Hres].
  destruct (steps (map key3 (todo_of (c_ws c))) c) as [xn rs] eqn:Es. cbn [fst snd] in *.
  destruct (todo_core c xn HQ (eq_sym Hst)) as [Htodo Hheld].
  assert (HK : map key3 (todo_of (c_ws xn)) = map key3 (todo_of (c_ws c))) by (symmetry; apply key3_core; exact Htodo).
  assert (Hixn : c_init xn = true) by congruence.
  (* the second query, when it starts from xn *)
  assert (Hsecond : gnt_value xn =
            let '(xn', rs') := steps (map key3 (todo_of (c_ws c))) xn in
            if existsb snd rs' then
              match request_status_core S_FAILED xn' with (x', Val _) => (x', Val []) | (x', Exc e) => (x', Exc e) end
            else (xn', Val (offers_of rs'))).
  { unfold gnt_value. rewrite <- Hheld, Eh, HK. reflexivity. }
  destruct (steps (map key3 (todo_of (c_ws c))) xn) as [xn' rs'] eqn:Es'. cbn [fst snd] in *. subst xn'.
  destruct (offers_of_sim rs rs' Hres) as [Hoff Hex].
  destruct (existsb snd rs) eqn:Ef.
  - (* a rendering failure: the workflow is failed from the query *)
    destruct (request_status_core S_FAILED xn) as [x' rr] eqn:Er.
    destruct (rsc_failed_cases xn x' rr Er) as [->|[-> [Hnf ->]]].
    + (* state unchanged by the failing request: the second query repeats the first *)
      assert (E1 : (c1, r1) = match rr with Val _ => (xn, Val []) | Exc e => (xn, Exc e) end)
        by (destruct rr; symmetry; exact H).
      assert (c1 = xn) as -> by (destruct rr; inversion E1; reflexivity).
      exists r1. split; [|apply ans_sim_refl].
      rewrite (gnt_run xn Hixn), Hsecond. cbv beta iota zeta. rewrite <- Hex. symmetry; exact E1.
    + (* the workflow became failed: nothing to clean up, the second query answers [] at once *)
      inversion H; subst c1 r1. exists (Val []). split; [|apply ans_sim_refl].
      assert (Hi' : c_init (set_ws xn (ws_set_status (c_ws xn) S_FAILED)) = true) by exact Hixn.
      rewrite (gnt_run _ Hi'). unfold gnt_value, held. cbn [c_ws set_ws wstatus ws_set_status staged_filtered staged].
      replace (status_eqb S_FAILED S_FAILED) with true by reflexivity.
      replace (status_in S_FAILED RUNNING_STATUSES) with false by reflexivity. cbn [negb andb].
      assert (Hrem : filter s_run_on_fail (staged_filtered (c_ws xn)) = []).
      { assert (Hc : filter s_run_on_fail (staged_filtered (c_ws c)) = []) by (apply Hnc; congruence).
        destruct HQ as [_ [_ F]]. unfold staged_filtered in *.
        assert (F2 : Forall2 stg_core (filter s_run_on_fail (filter (fun s => s_ready s && negb (s_completed s)) (staged (c_ws c))))
                                      (filter s_run_on_fail (filter (fun s => s_ready s && negb (s_completed s)) (staged (c_ws xn))))).
        { apply filter_F2; [apply filter_F2; [exact F|]|].
          - intros x y [_ [_ [_ [_ [H5 [_ [H7 _]]]]]]]. rewrite H5, H7. reflexivity.
          - intros x y [_ [_ [_ [_ [_ [_ [_ H8]]]]]]]. symmetry; exact H8. }
        rewrite Hc in F2. inversion F2. reflexivity. }
      change (staged_filtered (ws_set_status (c_ws xn) S_FAILED)) with (staged_filtered (c_ws xn)). rewrite Hrem. reflexivity.
  - (* no failure: the offers *)
    inversion H; subst c1 r1. exists (Val (offers_of rs')). split; [|exact Hoff].
    rewrite (gnt_run xn Hixn), Hsecond. cbv beta iota zeta. rewrite <- Hex. reflexivity.
Qed.


(* the first call of all, on a conductor whose workflow state does not exist yet: provided its lazy
   creation does not itself raise, the same holds from the state it creates *)
Corollary query_idempotent_from_creation : forall c c0 c1 r1, ensure_ws ev c = (c0, Val tt) ->
  no_cleanup_pending c0 -> get_next_tasks ev c = (c1, r1) ->
  exists r2, get_next_tasks ev c1 = (c1, r2) /\ ans_sim r1 r2.
Proof.
  intros c c0 c1 r1 E Hnc H. pose proof (ensure_ws_init_after ev _ _ _ E) as Hi.
  assert (G : get_next_tasks ev c = get_next_tasks ev c0).
  { unfold get_next_tasks. rewrite (bind_step _ _ _ _ _ _ _ E). rewrite (bind_step _ _ _ _ _ _ _ (ensure_ws_inited ev c0 Hi)). reflexivity. }
  rewrite G in H. eapply query_idempotent; eassumption.
Qed.

End Blind.


(* an evaluator that reads __state: "peek" returns the staged list of the serialized workflow state *)
Definition q_ev (s : string) (ctx : dict) : evalres :=
  if String.eqb s "xs" then EvOk (JList [JInt 1; JInt 2])
  else if String.eqb s "peek" then
    EvOk (match dget "__state" ctx with
          | Some (JDict d) => match dget "staged" d with Some x => x | None => JNull end
          | _ => JNull
          end)
  else if String.eqb s "bad" then EvErr {| x_cls := "YaqlEvaluationException"; x_msg := "boom"; x_expr := true |}
  else EvOk JNull.
Definition q_task (act : json) (w : option items_spec) : task_spec :=
  {| ts_action := act; ts_input := JNull; ts_with := w; ts_delay := JNull; ts_join := JNull; ts_next := [] |}.
Definition q_spec : wf_spec :=
  {| wf_input := []; wf_vars := []; wf_output := [];
     wf_tasks := [("w", q_task (JStr "peek") (Some {| it_expr := "xs"; it_keys := None; it_concurrency := JNull |}));
                  ("t1", q_task (JStr "bad") None); ("t2", q_task JNull None)] |}.
Definition q_node (n : string) : gnode := {| n_id := n; n_barrier := JNull; n_splits := None; n_retry := JNull |}.
Definition q_fresh (g : graph) : cstate :=
  {| c_spec := q_spec; c_graph := g; c_inputs := []; c_parent := []; c_init := false;
     c_ws := empty_ws; c_errors := []; c_log := []; c_output := None |}.
(* a with-items task w whose action reads the bookkeeping; the workflow has just been started *)
Definition q_c0 : cstate := run_ops q_ev [OpRequest S_RUNNING] (q_fresh {| g_nodes := [q_node "w"]; g_edges := [] |}).

Definition q_actions (r : result (list offer)) : list (list json) :=
  match r with Val l => map (fun o => map a_action (o_actions o)) l | Exc _ => [] end.

(* REFUTED for an evaluator that reads __state: the first query renders the action before the item
   table exists, the second one after; the state is the same after both, the answers differ *)
Theorem query_not_idempotent_for_state_reading_expression :
  c_init q_c0 = true /\ no_cleanup_pending q_c0 /\
  let '(c1, r1) := get_next_tasks q_ev q_c0 in
  let '(c2, r2) := get_next_tasks q_ev c1 in
  c2 = c1 /\ q_actions r1 <> q_actions r2.
Proof.
  split; [reflexivity|]. split; [intros _; vm_compute; reflexivity|].
  destruct (get_next_tasks q_ev q_c0) as [c1 r1] eqn:E1. destruct (get_next_tasks q_ev c1) as [c2 r2] eqn:E2.
  vm_compute in E1. inversion E1; subst c1 r1; clear E1. vm_compute in E2. inversion E2; subst c2 r2; clear E2.
  split; [reflexivity|]. vm_compute. intro H. discriminate.
Qed.

(* a hand-made state: running, t1 staged (its action fails to render) and t2 staged as clean-up.  A clean-up entry
   in a running workflow is what a rerun can leave behind (DESIGN, C19; findings D21/D8) *)
Definition q_stg (t : string) (rof : bool) : stg :=
  {| s_id := t; s_route := 0; s_in := [0]; s_prev := []; s_ready := true; s_retry := None; s_items := None;
     s_completed := false; s_run_on_fail := rof |}.
Definition q_c1 : cstate :=
  {| c_spec := q_spec; c_graph := {| g_nodes := [q_node "t1"; q_node "t2"]; g_edges := [] |};
     c_inputs := []; c_parent := []; c_init := true;
     c_ws := {| contexts := [[]]; routes := [[]]; sequence := []; staged := [q_stg "t1" false; q_stg "t2" true];
                wstatus := S_RUNNING; tasks := []; reruns := [] |};
     c_errors := []; c_log := []; c_output := None |}.

(* REFUTED when a clean-up entry is staged while the workflow runs: the first query fails the
   workflow and answers [], the second one, now in failed status, offers the clean-up task *)
Theorem query_not_idempotent_with_cleanup_staged :
  c_init q_c1 = true /\ ~ no_cleanup_pending q_c1 /\
  let '(c1, r1) := get_next_tasks q_ev q_c1 in
  let '(c2, r2) := get_next_tasks q_ev c1 in
  (match r1 with Val l => map o_id l | Exc _ => ["?"] end) = [] /\
  (match r2 with Val l => map o_id l | Exc _ => ["?"] end) = ["t2"].
Proof.
  split; [reflexivity|]. split.
  - intro H. assert (X : wstatus (c_ws q_c1) <> S_FAILED) by (vm_compute; discriminate).
    specialize (H X). vm_compute in H. discriminate.
  - destruct (get_next_tasks q_ev q_c1) as [c1 r1] eqn:E1. destruct (get_next_tasks q_ev c1) as [c2 r2] eqn:E2.
    vm_compute in E1. inversion E1; subst c1 r1; clear E1. vm_compute in E2. inversion E2; subst c2 r2; clear E2.
    split; reflexivity.
Qed.

(* non-vacuity of the theorem: a state-blind evaluator on the same with-items workflow *)
Definition q_ev_blind (s : string) (ctx : dict) : evalres :=
  if String.eqb s "xs" then EvOk (JList [JInt 1; JInt 2]) else EvOk (JStr s).

Lemma q_ev_blind_is_blind : state_blind q_ev_blind.
Proof. intros s a b _. reflexivity. Qed.

Example q_blind_query_creates_table_then_is_idempotent :
  let c0 := run_ops q_ev_blind [OpRequest S_RUNNING] (q_fresh {| g_nodes := [q_node "w"]; g_edges := [] |}) in
  let '(c1, r1) := get_next_tasks q_ev_blind c0 in
  let '(c2, r2) := get_next_tasks q_ev_blind c1 in
  map s_items (staged (c_ws c0)) = [None] /\ map s_items (staged (c_ws c1)) = [Some [S_UNSET; S_UNSET]] /\
  c2 = c1 /\ q_actions r1 = q_actions r2 /\ q_actions r1 = [[JStr "peek"; JStr "peek"]].
Proof. vm_compute. repeat split. Qed.

Lemma state_blind_unfold : forall ev, state_blind ev <-> (forall s a b, sim a b -> ev s a = ev s b).
Proof. intros; split; intro H; exact H. Qed.
Lemma sim_unfold : forall a b,
  sim a b <-> Forall2 (fun p q => fst p = fst q /\ (fst p = "__state" \/ snd p = snd q)) a b.
Proof. intros; split; intro H; exact H. Qed.
Lemma ans_sim_unfold : forall r r',
  ans_sim r r' <-> match r, r' with
                   | Val l, Val l' => Forall2 offer_sim l l'
                   | Exc e, Exc e' => e = e'
                   | _, _ => False
                   end.
Proof. intros; split; intro H; exact H. Qed.
Lemma offer_sim_unfold : forall o o',
  offer_sim o o' <->
  (o_id o' = o_id o /\ o_route o' = o_route o /\ o_actions o' = o_actions o /\ o_delay o' = o_delay o /\
   o_items_count o' = o_items_count o /\ o_concurrency o' = o_concurrency o /\ sim (o_ctx o) (o_ctx o')).
Proof. intros; split; intro H; exact H. Qed.
