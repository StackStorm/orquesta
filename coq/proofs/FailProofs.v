(* C02, last sentence, at the level of a whole update_task_state call: "a task failure with no matching transition,
   a fail command or a runtime error always ends in failed unless a cancellation is in progress".
   (a) a failure report that completes a plain task none of whose transitions is satisfied, with no retry left;
   (b) the engine's own call of the `fail` command.  (The runtime error is C11b.) *)
From Coq Require Import String List Bool ZArith Arith Lia.
From Orq Require Import GenStatuses GenEvents GenTables Base State Machines Conductor Api.
From Orq Require Import F_tables F_names Hoare Frame ValuePost StatusReach C02C03Proofs C04Proofs InertProofs RetryProofs
  FrozenProofs NoInternalProofs SysProofs RecordedProofs LateProofs StateFacts.
Import ListNotations.
Open Scope string_scope.
Open Scope monad_scope.

Definition in_progress (s : status) : Prop := In s [S_RUNNING; S_PAUSING; S_PAUSED; S_RESUMING].

(* none of the task's transitions is recorded satisfied (`continue` does not count: it is no successor) *)
Definition unsatisfied (g : graph) (t : string) (r : trec) : Prop :=
  forall e, In e (g_next_transitions g t) ->
    e_dst e = "continue" \/ aget trid_eqb (e_dst e, e_key e) (r_next r) <> Some true.

Lemma has_next_unsatisfied : forall g w t route r b,
  ws_task_entry w t route = Some r -> unsatisfied g t r -> has_next g w t route b = false.
Proof.
  intros g w t route r b He Hu. unfold has_next. rewrite He.
  destruct (negb (ostatus_in (r_status r) COMPLETED_STATUSES)); [reflexivity|].
  apply not_true_is_false. intro Hex. apply existsb_exists in Hex. destruct Hex as [e [Hin He']].
  destruct (Hu e Hin) as [Hc|Hn].
  - rewrite Hc in He'. simpl in He'. discriminate.
  - destruct (String.eqb (e_dst e) "continue"); [discriminate|].
    destruct (aget trid_eqb (e_dst e, e_key e) (r_next r)) as [[|]|]; try discriminate. apply Hn; reflexivity.
Qed.

Section WithEval.
Variable ev : string -> dict -> evalres.

Definition rec_ok (rec : string -> nat -> event -> M unit) : Prop :=
  (forall i r0 n rt e, decided r0 -> is_engine_command n = true -> preserves (FrozenProofs.Rf i r0) (rec n rt e)) /\
  (forall n rt e, preserves StatusReach.Rst (rec n rt e)).
Lemma rec_ok_fuel : forall fuel, rec_ok (update_task_state_fuel ev fuel).
Proof.
  intro fuel. split.
  - intros i r0 n rt e Hd Hc ca cb rr Hr Hfa. eapply (uts_frozen_w i r0 Hd ev); [exact Hr|exact Hfa|]. right; left; exact Hc.
  - intros; apply pres_update_task_state_fuel.
Qed.
Lemma loop_frozen : forall rec i r0 q c c' res, rec_ok rec -> decided r0 -> Forall cmd_pair q ->
  forM_ q (uts_call rec) c = (c', res) -> Fz i r0 c -> Fz i r0 c'.
Proof.
  intros rec i r0 q c c' res [Hrec _] Hd Hq H.
  revert c c' res H. apply (preserves_forM_In _ (FrozenProofs.Rf_refl i r0) (FrozenProofs.Rf_trans i r0)).
  intros [n rt] Hin. unfold uts_call.
  destruct (engine_event n) as [e|]; [|apply (preserves_raise _ (FrozenProofs.Rf_refl i r0))].
  apply Hrec; [exact Hd|]. rewrite Forall_forall in Hq. exact (Hq _ Hin).
Qed.
Lemma loop_reach : forall rec q c c' res, rec_ok rec ->
  forM_ q (uts_call rec) c = (c', res) -> StatusReach.Rst c c'.
Proof.
  intros rec q c c' res [_ Hrec]. revert c c' res.
  apply (preserves_forM _ StatusReach.Rst_refl StatusReach.Rst_trans). intros [n rt]. unfold uts_call.
  destruct (engine_event n) as [e|]; [apply Hrec|apply (preserves_raise _ StatusReach.Rst_refl)].
Qed.

Lemma uts_after_inv : forall rec t route idx q c c', uts_after rec t route idx q c = (c', Val tt) ->
  exists r st c3 unr c4 c5,
    nth_error (sequence (c_ws c)) idx = Some r /\ r_status r = Some st /\
    wf_task_event_M t route st c = (c3, Val unr) /\ log_unreachable unr c3 = (c4, Val tt) /\
    forM_ q (uts_call rec) c4 = (c5, Val tt) /\
    (c' = c5 \/ c' = set_ws c5 (ws_update_rec (c_ws c5) idx (fun r => r_set_term r true))).
Proof.
  intros rec t route idx q c c' H. unfold uts_after in H.
  apply bind_val_inv' in H. destruct H as [cx [r [Eg H]]]. apply get_rec_inv in Eg. destruct Eg as [-> Hr].
  destruct (r_status r) as [st|] eqn:Hst; [|inversion H].
  rewrite (bind_step _ _ _ _ _ _ _ (eq_refl : ret st c = (c, Val st))) in H.
  apply bind_val_inv' in H. destruct H as [c3 [unr [E3 H]]].
  apply bind_val_inv' in H. destruct H as [c4 [[] [E4 H]]].
  apply bind_val_inv' in H. destruct H as [c5 [[] [E5 H]]].
  rewrite (bind_step _ _ _ _ _ _ _ (eq_refl : getws c5 = (c5, Val (c_ws c5)))) in H.
  exists r, st, c3, unr, c4, c5. split; [exact Hr|]. split; [exact Hst|]. split; [exact E3|]. split; [exact E4|]. split; [exact E5|].
  destruct (status_in (wstatus (c_ws c5)) COMPLETED_STATUSES); [right|left]; inversion H; reflexivity.
Qed.

(* a failed workflow stays failed through the workflow machine's step for a task *)
Lemma task_event_failed_stays : forall t route st c c3 unr, wstatus (c_ws c) = S_FAILED ->
  wf_task_event_M t route st c = (c3, Val unr) -> wstatus (c_ws c3) = S_FAILED.
Proof.
  intros t route st c c3 unr E E3. destruct (wf_task_event_M_spec _ _ _ _ _ _ E3) as [[e [He _]]|[u [_ Hspec]]]; [discriminate|].
  cbv zeta in Hspec. rewrite E, F_wf_failed_final in Hspec. congruence.
Qed.

Lemma reach_end : forall x c5 c' idx, StatusReach.Rst x c5 ->
  c' = c5 \/ c' = set_ws c5 (ws_update_rec (c_ws c5) idx (fun r => r_set_term r true)) ->
  wf_reach (wstatus (c_ws x)) (wstatus (c_ws c')).
Proof.
  intros x c5 c' idx R [-> | ->]; [exact R|]. unfold StatusReach.Rst in *. cbn [c_ws set_ws]. rewrite wstatus_update_rec. exact R.
Qed.

Lemma map_nth_same : forall A B (f : A -> B) l l' i a b, map f l' = map f l ->
  nth_error l i = Some a -> nth_error l' i = Some b -> f b = f a.
Proof.
  intros A B f l l' i a b Hm Ha Hb. apply (map_nth_error f) in Ha. apply (map_nth_error f) in Hb.
  rewrite Hm in Hb. congruence.
Qed.

Lemma late_call_split : forall rec t route st res ts idx r s c c',
  WF c -> no_retry_left r -> is_engine_command t = false -> g_has_task (c_graph c) t = true ->
  spec_get_task (c_spec c) t = Some ts -> task_has_items ts = false ->
  ws_task_idx (c_ws c) t route = Some idx -> nth_error (sequence (c_ws c)) idx = Some r ->
  r_status r = Some s -> In s [S_RUNNING; S_PAUSING; S_CANCELING] -> status_in st COMPLETED_STATUSES = true ->
  uts_body ev rec t route (EvAction st res) c = (c', Val tt) ->
  exists c1 ctx c2 q r2 c3 unr c4 c5,
    uts_prefix ev t route (EvAction st res) c =
      (c1, Val {| po_ts := ts; po_idx := idx; po_old := s; po_new := reported st; po_compl := Some (ctx, false) |}) /\
    kept c c1 /\ nth_error (sequence (c_ws c1)) idx = Some (r_set_status r (Some (reported st))) /\ WF c1 /\
    uts_queue ev t route idx ts s (reported st) (Some (ctx, false)) c1 = (c2, Val q) /\
    nth_error (sequence (c_ws c2)) idx = Some r2 /\ r_status r2 = Some (reported st) /\
    wf_task_event_M t route (reported st) c2 = (c3, Val unr) /\ log_unreachable unr c3 = (c4, Val tt) /\
    forM_ q (uts_call rec) c4 = (c5, Val tt) /\
    (c' = c5 \/ c' = set_ws c5 (ws_update_rec (c_ws c5) idx (fun r0 => r_set_term r0 true))).
Proof.
  intros rec t route st res ts idx r s c c' Wc Hnr Hcmd Hg Hts Hit Hp Hr Hs Hin Hst H. rewrite body_eq in H.
  destruct (late_prefix ev t route st res ts idx r s c Wc (or_intror Hnr) Hcmd Hg Hts Hit Hp Hr Hs Hin Hst)
    as [c1 [ctx [E1 [K [Hr1 W1]]]]].
  rewrite (bind_step _ _ _ _ _ _ _ E1) in H. unfold tail_of in H. cbn [po_ts po_idx po_old po_new po_compl] in H.
  rewrite uts_tail_eq in H. unfold uts_rest in H.
  apply bind_val_inv' in H. destruct H as [c2 [q [E2 H]]].
  pose proof (vfr_queue ev _ _ _ _ _ _ _ _ _ _ E2) as [_ [F2 _]].
  destruct (uts_after_inv _ _ _ _ _ _ _ H) as [r2 [st2 [c3 [unr [c4 [c5 [Hr2 [Hs2 [E3 [E4 [E5 Hend]]]]]]]]]]].
  assert (st2 = reported st) as ->.
  { pose proof (map_nth_same _ _ sig _ _ _ _ _ F2 Hr1 Hr2) as E. unfold sig in E. inversion E. congruence. }
  exists c1, ctx, c2, q, r2, c3, unr, c4, c5.
  split; [exact E1|]. split; [exact K|]. split; [exact Hr1|]. split; [exact W1|]. split; [exact E2|]. split; [exact Hr2|].
  split; [exact Hs2|]. split; [exact E3|]. split; [exact E4|]. split; [exact E5|exact Hend].
Qed.

(* (a) a failure report completes a plain task; no retry is left; none of its transitions is satisfied when the call
   returns: the workflow is failed *)
Theorem unremediated_failure_fails_call : forall t route st res ts idx r s c c' r',
  WF c -> in_progress (wstatus (c_ws c)) ->
  is_engine_command t = false -> g_has_task (c_graph c) t = true ->
  spec_get_task (c_spec c) t = Some ts -> task_has_items ts = false ->
  ws_task_idx (c_ws c) t route = Some idx -> nth_error (sequence (c_ws c)) idx = Some r ->
  r_status r = Some s -> In s [S_RUNNING; S_PAUSING; S_CANCELING] ->
  status_in st COMPLETED_STATUSES = true -> reported st = S_FAILED -> no_retry_left r ->
  update_task_state ev t route (EvAction st res) c = (c', Val tt) ->
  nth_error (sequence (c_ws c')) idx = Some r' -> unsatisfied (c_graph c) t r' ->
  wstatus (c_ws c') = S_FAILED.
Proof.
  intros t route st res ts idx r s c c' r' Wc Hip Hcmd Hg Hts Hit Hp Hr Hs Hin Hst Hrep Hnr H Hr' Hun.
  unfold update_task_state in H. rewrite uts_unfold in H.
  (* update_task_state has fuel 3: the callee of its body is the function with fuel 2 *)
  pose proof (rec_ok_fuel 2) as Hrec. set (rec := update_task_state_fuel ev 2) in *. clearbody rec.
  destruct (late_call_split rec t route st res ts idx r s c c' Wc Hnr Hcmd Hg Hts Hit Hp Hr Hs Hin Hst H)
    as [c1 [ctx [c2 [q [r2 [c3 [unr [c4 [c5 [_ [K [_ [_ [E2 [Hr2 [Hs2 [E3 [E4 [E5 Hend]]]]]]]]]]]]]]]]]]]. clear H.
  rewrite Hrep in Hs2, E2, E3.
  destruct K as [K1 [_ [_ [K4 [K5 _]]]]].
  pose proof (vfr_queue ev _ _ _ _ _ _ _ _ _ _ E2) as [F1 [_ [F3 [F4 _]]]].
  pose proof (queue_cmds ev _ _ _ _ _ _ _ _ _ _ E2) as Hq.
  (* the record as the workflow machine sees it is the record at the end *)
  assert (Hd2 : decided r2) by (unfold decided; rewrite Hs2; reflexivity).
  assert (Fz5 : Fz idx r2 c5).
  { eapply (loop_frozen rec idx r2 q c4 c5 _ Hrec Hd2 Hq E5). eapply pfz_log_unreachable; [exact E4|].
    eapply pfz_wf_task_event; [exact E3|]. exists r2. split; [exact Hr2|apply sd_refl]. }
  assert (Fz' : Fz idx r2 c').
  { destruct Hend as [-> | ->]; [exact Fz5|].
    eapply (pfz_upd_term idx r2 idx true c5 _ (Val tt)); [reflexivity|exact Fz5]. }
  destruct Fz' as [r'' [Hr'' Hsd]].
  rewrite Hr' in Hr''. inversion Hr''; subst r''. clear Hr''.
  assert (Hnx : r_next r' = r_next r2) by (destruct Hsd as [_ [_ [_ [_ [_ [X _]]]]]]; exact X).
  assert (He2 : ws_task_entry (c_ws c2) t route = Some r2).
  { unfold ws_task_entry, ws_task_idx in *. rewrite F1, K1, Hp. exact Hr2. }
  assert (Hu2 : unsatisfied (c_graph c2) t r2).
  { intros e He. rewrite F4, K5 in He. destruct (Hun e He) as [A|A]; [left; exact A|right; rewrite <- Hnx; exact A]. }
  assert (Hf3 : wstatus (c_ws c3) = S_FAILED).
  { destruct F3 as [F3|F3].
    - eapply unremediated_failure_fails_workflow; [|apply (has_next_unsatisfied _ _ _ _ _ true He2 Hu2)
                                                    |apply (has_next_unsatisfied _ _ _ _ _ false He2 Hu2)|exact E3].
      rewrite F3, K4. exact Hip.
    - exact (task_event_failed_stays _ _ _ _ _ _ F3 E3). }
  assert (R5 : StatusReach.Rst c3 c5).
  { eapply StatusReach.Rst_trans; [eapply pres_log_unreachable; exact E4|eapply loop_reach; [exact Hrec|exact E5]]. }
  pose proof (reach_end _ _ _ _ R5 Hend) as Hreach.
  rewrite Hf3 in Hreach. apply reach_from_failed; exact Hreach.
Qed.

(* ... unless a cancellation is in progress: any call leaves a canceling / canceled workflow in that class or failed *)
Theorem call_keeps_cancel_class : forall t route evt c c' res,
  In (wstatus (c_ws c)) [S_CANCELING; S_CANCELED] -> update_task_state ev t route evt c = (c', res) ->
  In (wstatus (c_ws c')) [S_CANCELING; S_CANCELED; S_FAILED].
Proof.
  intros t route evt c c' res Hc H. pose proof (pres_update_task_state ev _ _ _ _ _ _ H) as Hreach.
  eapply reach_cancel_closed; [|exact Hreach]. destruct Hc as [<-|[<-|[]]]; simpl; tauto.
Qed.

(* everything a call does before the workflow machine's step keeps the workflow status or makes it failed: the engine's
   only status request there is the request to fail *)
Ltac fleaf :=
  first
    [ apply pfail_rsc
    | apply (frame_evaluate_task_retry ev Rfail Rfail_refl Rfail_trans)
    | apply (frame_get_task_context Rfail Rfail_refl Rfail_trans)
    | apply (preserves_modws Rfail); intro; left; cbn [c_ws set_ws]; rewrite ?wstatus_update_rec, ?wstatus_remove_staged; reflexivity
    | apply (preserves_modify Rfail); intro; left; cbv zeta;
      try match goal with |- context [if ?b then _ else _] => destruct b end; reflexivity ].

Lemma pfail_ensure_ws : preserves Rfail (ensure_ws ev).
Proof.
  apply (hframe_ensure_ws ev Rfail Rfail_refl Rfail_trans); try (intros; fleaf).
  intros. unfold log_errors, log_error, log_entry_error. pw Rfail_refl Rfail_trans fleaf.
Qed.
Lemma pfail_add_task_state : forall t r i p, preserves Rfail (add_task_state ev t r i p).
Proof.
  apply (hframe_add_task_state ev Rfail Rfail_refl Rfail_trans); [intros; fleaf|].
  intros A e t r tr k Hk. unfold log_error, log_entry_error. pw Rfail_refl Rfail_trans ltac:(first [apply Hk|fleaf]).
Qed.

Lemma pfail_prefix : forall t route evt, preserves Rfail (uts_prefix ev t route evt).
Proof.
  intros. unfold uts_prefix.
  pw Rfail_refl Rfail_trans ltac:(first [apply pfail_ensure_ws|apply pfail_add_task_state|fleaf]).
Qed.

Lemma has_next_inert : forall g w n rt b, g_next_transitions g n = [] -> has_next g w n rt b = false.
Proof.
  intros g w n rt b H. unfold has_next. destruct (ws_task_entry w n rt) as [r|]; [|reflexivity].
  destruct (negb _); [reflexivity|]. rewrite H. reflexivity.
Qed.

Lemma map_nth_exists : forall A B (f : A -> B) l l' i a, map f l' = map f l ->
  nth_error l i = Some a -> exists b, nth_error l' i = Some b /\ f b = f a.
Proof.
  intros A B f l l' i a Hm Ha. pose proof (map_nth_error f _ _ Ha) as Ha'. rewrite <- Hm in Ha'.
  destruct (nth_error l' i) as [b|] eqn:E.
  - exists b. split; [reflexivity|]. apply (map_nth_error f) in E. congruence.
  - apply nth_error_None in E. assert (nth_error (map f l') i = None) by (apply nth_error_None; rewrite map_length; exact E). congruence.
Qed.

(* the entry of `fail` in ENGINE_EVENT_MAP (gen/GenEvents.v, from orquesta/events.py; C02c_fail_event_is_the_commands) *)
Definition fail_event : event := EvEngine "task_fail_requested" S_FAILED.

(* the `fail` command, delivered by the engine to a workflow in progress (or already failed), for a (command, route)
   that has no record yet: when the call returns, the workflow is failed *)
Theorem fail_command_call_fails : forall fuel rt c c',
  graph_commands_inert (c_graph c) -> c_init c = true -> ws_task_idx (c_ws c) "fail" rt = None ->
  (in_progress (wstatus (c_ws c)) \/ wstatus (c_ws c) = S_FAILED) ->
  update_task_state_fuel ev (S fuel) "fail" rt fail_event c = (c', Val tt) ->
  wstatus (c_ws c') = S_FAILED.
Proof.
  intros fuel rt c c' Hin Hi Hno Hs0 H. rewrite uts_unfold, body_eq in H.
  apply bind_val_inv' in H. destruct H as [c1 [p [Ep H]]].
  assert (Hcmd : is_engine_command "fail" = true) by reflexivity.
  destruct (Hin "fail" Hcmd) as [Htr Hnr].
  pose proof (pfail_prefix _ _ _ _ _ _ Ep) as St1.
  pose proof (pg_prefix ev _ _ _ _ _ _ Ep) as G1. unfold Rg in G1.
  (* the record is new and the command's event takes it to failed *)
  destruct (prefix_to_machine ev _ _ _ _ _ _ Ep) as [cE [ts [idx [c3 [r [EE [Em [_ [Hr3 [_ Hd]]]]]]]]]].
  rewrite (ensure_ws_inited ev c Hi) in EE. inversion EE; subst cE; clear EE.
  destruct Hd as [[Hx _]|[Hnone _]]; [rewrite Hno in Hx; discriminate|].
  destruct (pre_machine_inv ev _ _ _ _ _ _ _ _ Em) as [r' [ns [cA [cB [HrA [Hns [_ [HnA [_ [_ [ER [EC [_ [Hpi [_ Hpn]]]]]]]]]]]]]]].
  rewrite Hr3 in HrA; inversion HrA; subst r'; clear HrA.
  assert (Ens : ns = Some S_FAILED).
  { unfold task_process_event, fail_event, rstatus in Hns. rewrite Hnone in Hns. vm_compute in Hns. inversion Hns; reflexivity. }
  subst ns.
  pose proof (vfr_retrying _ _ _ _ _ _ _ _ ER) as [_ [FR _]].
  pose proof (vfr_completion ev _ _ _ _ _ _ _ _ _ _ EC) as [_ [FC _]].
  destruct (map_nth_exists _ _ sig _ _ _ _ FR HnA) as [rB [HrB SB]].
  destruct (map_nth_exists _ _ sig _ _ _ _ FC HrB) as [r1 [Hr1 S1]].
  assert (Hs1 : r_status r1 = Some S_FAILED) by (unfold sig in SB, S1; inversion SB; inversion S1; congruence).
  unfold tail_of in H. rewrite Hpi, uts_tail_eq in H.
  assert (Hb : forall ctx b, po_compl p = Some (ctx, b) -> b = false)
    by (intros ctx b Hc; exact (prefix_cmd_no_retry ev _ _ _ _ _ _ Hcmd Hnr Ep ctx b Hc)).
  assert (Rest : uts_rest ev (update_task_state_fuel ev fuel) "fail" rt (po_ts p) idx (po_old p) (po_new p) (po_compl p) c1
                 = (c', Val tt)).
  { destruct (po_compl p) as [[ctx b]|] eqn:Ec; [|exact H]. rewrite (Hb ctx b eq_refl) in H. exact H. }
  clear H. unfold uts_rest in Rest. apply bind_val_inv' in Rest. destruct Rest as [c2 [q [E2 H]]].
  assert (Hq : q = []) by (eapply queue_nil; [exact E2|right; rewrite G1; exact Htr]). subst q.
  pose proof (vfr_queue ev _ _ _ _ _ _ _ _ _ _ E2) as [_ [F2 [F3 [F4 _]]]].
  destruct (uts_after_inv _ _ _ _ _ _ _ H) as [r2 [st2 [c3' [unr [c4 [c5 [Hr2 [Hs2 [E3 [E4 [E5 Hend]]]]]]]]]]]. clear H.
  assert (st2 = S_FAILED) as ->.
  { pose proof (map_nth_same _ _ sig _ _ _ _ _ F2 Hr1 Hr2) as E. unfold sig in E. inversion E. congruence. }
  assert (Hf3 : wstatus (c_ws c3') = S_FAILED).
  { assert (St2 : Rfail c c2) by (destruct F3 as [F3|F3]; [unfold Rfail in *; rewrite F3; exact St1|right; exact F3]).
    assert (Htr2 : g_next_transitions (c_graph c2) "fail" = []) by (rewrite F4, G1; exact Htr).
    assert (Fails : in_progress (wstatus (c_ws c2)) -> wstatus (c_ws c3') = S_FAILED).
    { intro Hip. eapply unremediated_failure_fails_workflow; [exact Hip|apply has_next_inert; exact Htr2|apply has_next_inert; exact Htr2|exact E3]. }
    destruct St2 as [E|E]; [|exact (task_event_failed_stays _ _ _ _ _ _ E E3)].
    destruct Hs0 as [Hip|Hf]; [apply Fails; rewrite E; exact Hip|apply (task_event_failed_stays _ _ _ _ _ _ (eq_trans E Hf) E3)]. }
  assert (R5 : StatusReach.Rst c3' c5).
  { eapply StatusReach.Rst_trans; [eapply pres_log_unreachable; exact E4|]. cbn [forM_] in E5. inversion E5; subst. apply StatusReach.Rst_refl. }
  pose proof (reach_end _ _ _ _ R5 Hend) as Hreach. rewrite Hf3 in Hreach. apply reach_from_failed; exact Hreach.
Qed.

Definition flag (s : stg) : stg := s_set_run_on_fail s true.
Definition flagged (l : list stg) (k : string * nat) : Prop :=
  forall s, find (stg_matches (fst k) (snd k)) l = Some s -> s_run_on_fail s = true.

Lemma find_update_any : forall n rt n' rt' l s', find (stg_matches n' rt') (staged_update flag n rt l) = Some s' ->
  exists s, find (stg_matches n' rt') l = Some s /\ (s' = s \/ s' = flag s).
Proof.
  intros n rt n' rt' l; induction l as [|x l IH]; intros s' H; simpl in *; [discriminate|].
  destruct (stg_matches n rt x) eqn:E.
  - simpl in H. assert (M : stg_matches n' rt' (flag x) = stg_matches n' rt' x) by reflexivity. rewrite M in H.
    destruct (stg_matches n' rt' x); [inversion H; subst; exists x; split; [reflexivity|right; reflexivity]|].
    exists s'. split; [exact H|left; reflexivity].
  - simpl in H. destruct (stg_matches n' rt' x); [inversion H; subst; exists s'; split; [reflexivity|left; reflexivity]|].
    apply IH; exact H.
Qed.

Lemma flag_loop : forall (l D : list (string * nat)) c c' r,
  forM_ l (fun '(n, rt) => modws (fun w => ws_set_staged w (staged_update (fun s => s_set_run_on_fail s true) n rt (staged w)))) c = (c', r) ->
  (forall k, In k D -> flagged (staged (c_ws c)) k) ->
  r = Val tt /\ (forall k, In k (app D l) -> flagged (staged (c_ws c')) k) /\ sequence (c_ws c') = sequence (c_ws c) /\
  wstatus (c_ws c') = wstatus (c_ws c).
Proof.
  induction l as [|[n rt] l IH]; intros D c c' r H HD.
  - inversion H; subst. rewrite app_nil_r. repeat split; auto.
  - cbn [forM_] in H. unfold bind at 1, modws at 1 in H. cbv beta iota in H.
    match type of H with forM_ _ _ ?cz = _ => set (c1 := cz) in * end.
    destruct (IH (app D [(n, rt)]) c1 c' r H) as [A [B [C E]]].
    + intros k Hk. apply in_app_or in Hk. unfold c1; cbn [c_ws set_ws staged ws_set_staged].
      intros s' Hs'. change (fun s => s_set_run_on_fail s true) with flag in Hs'.
      destruct Hk as [Hk|[<-|[]]].
      * destruct (find_update_any _ _ _ _ _ _ Hs') as [s [Hs [->| ->]]]; [apply (HD k Hk); exact Hs|reflexivity].
      * cbn [fst snd] in Hs'. destruct (find_update_any _ _ _ _ _ _ Hs') as [s [Hs _]].
        rewrite (find_staged_update_same flag n rt _ (fun _ => eq_refl)), Hs in Hs'. inversion Hs'; reflexivity.
    + split; [exact A|]. split; [intros k Hk; apply B; rewrite <- app_assoc; exact Hk|]. split; [exact C|exact E].
Qed.

(* when `fail` is among the commands the transitions queue, every sibling the same completion staged ready (the
   second components of the transitions' results) is flagged run_on_fail when the queue is returned *)
Theorem fail_flags_siblings : forall t route idx ts o n ctx b c c' q rt,
  uts_queue ev t route idx ts o n (Some (ctx, b)) c = (c', Val q) -> In ("fail", rt) q ->
  exists c1 c2 rs,
    mapM (process_transition ev t route idx ts ctx) (g_next_transitions (c_graph c) t) c1 = (c2, Val rs) /\
    q = flat_map (fun '(x, _) => match x with Some y => [y] | None => [] end) rs /\
    forall k, In k (flat_map (fun '(_, x) => match x with Some y => [y] | None => [] end) rs) ->
      flagged (staged (c_ws c')) k.
Proof.
  intros t route idx ts o n ctx b c c' q rt H Hin.
  destruct (uts_queue_inv ev _ _ _ _ _ _ _ _ _ _ H) as [[_ [-> _]]|[ctx' [b' [c1 [c2 [rs [c3 [r4 [Ec [_ [E2 [E3 [_ [E5 ->]]]]]]]]]]]]]]; [destruct Hin|].
  inversion Ec; subst ctx' b'; clear Ec.
  exists c1, c2, rs. split; [exact E2|]. split; [reflexivity|].
  assert (Hex : existsb (fun '(n0, _) => String.eqb n0 "fail") (cmds_of rs) = true).
  { apply existsb_exists. exists ("fail", rt). split; [exact Hin|reflexivity]. }
  rewrite Hex in E3.
  destruct (flag_loop _ [] _ _ _ E3) as [_ [B _]]; [intros k []|]. simpl in B.
  assert (S5 : staged (c_ws c') = staged (c_ws c3)).
  { destruct (g_next_transitions (c_graph c) t); [inversion E5; reflexivity|].
    destruct (existsb _ (r_next r4)); [inversion E5; reflexivity|].
    unfold upd_rec, modws in E5. inversion E5; subst. cbn [c_ws set_ws]. apply staged_update_rec. }
  intros k Hk. rewrite S5. apply B; exact Hk.
Qed.

End WithEval.
