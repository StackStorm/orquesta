(* C07Proofs.v -- joins: what "barrier satisfied" means (distinct inbound tasks with a satisfied transition
   into the join on the same route, all of them or the given count), that only ready entries are offered,
   and that completing with a partially satisfied, unsatisfiable join fails the workflow. *)
From Coq Require Import String List Bool ZArith Arith Lia.
From Orq Require Import GenStatuses GenEvents GenTables GenSpecMeta Base State Machines Codec Conductor Decode Api.
From Orq Require Import F_tables ListFacts Hoare StatusReach C02C03Proofs.
Import ListNotations.
Open Scope string_scope.

(* number of distinct inbound tasks whose record on the route has a satisfied transition into t *)
Definition satisfied_sources (g : graph) (w : wstate) (t : string) (route : nat) : nat :=
  length (filter (fun '(_, v) => match v with Some true => true | _ => false end) (inbound_evaluation g w t route)).

Lemma dedup_by_NoDup : forall l : list string, NoDup (dedup_by String.eqb l).
Proof.
  intro l. unfold dedup_by.
  assert (G : forall acc, NoDup acc ->
              NoDup (fold_left (fun acc x => if existsb (String.eqb x) acc then acc else app acc [x]) l acc)).
  { induction l as [|x l IH]; intros acc H; simpl; [exact H|].
    apply IH. destruct (existsb (String.eqb x) acc) eqn:E; [exact H|].
    apply NoDup_snoc; [exact H|]. intro Hin.
    assert (existsb (String.eqb x) acc = true) as T; [|congruence].
    apply existsb_exists; exists x; split; [exact Hin|apply String.eqb_refl]. }
  apply G; constructor.
Qed.

(* each inbound task is counted once, however many transitions it has into the join *)
Theorem inbound_sources_distinct : forall g w t route, NoDup (map fst (inbound_evaluation g w t route)).
Proof.
  intros. unfold inbound_evaluation. rewrite map_map. simpl. rewrite map_id. apply dedup_by_NoDup.
Qed.

(* a source counts as satisfied exactly when its record on this route has a satisfied transition into t *)
Theorem inbound_source_satisfied : forall g w t route src,
  In (src, Some true) (inbound_evaluation g w t route) ->
  exists r e, ws_task_entry w src route = Some r /\ In e (g_prev_transitions g t) /\ e_src e = src /\
              aget trid_eqb (t, e_key e) (r_next r) = Some true.
Proof.
  intros g w t route src H. unfold inbound_evaluation in H. apply in_map_iff in H.
  destruct H as [s [E Hin]].
  assert (Es : s = src) by congruence. subst s.
  destruct (ws_task_entry w src route) as [r|] eqn:Er; [|congruence].
  assert (Hb : existsb (fun e => String.eqb (e_src e) src &&
                                 match aget trid_eqb (t, e_key e) (r_next r) with Some true => true | _ => false end)
                       (g_prev_transitions g t) = true) by congruence.
  apply existsb_exists in Hb. destruct Hb as [e [He Hc]].
  apply andb_prop in Hc; destruct Hc as [Hs Hn]. apply String.eqb_eq in Hs.
  exists r, e. split; [reflexivity|]. split; [exact He|]. split; [exact Hs|].
  destruct (aget trid_eqb (t, e_key e) (r_next r)) as [[|]|]; try discriminate; reflexivity.
Qed.

(* the barrier: satisfied iff the number of satisfied distinct sources reaches the requirement, which is
   the number of distinct inbound tasks for "join: all" and the given count for "join: n" *)
Theorem barrier_satisfied_iff : forall g w t route,
  get_inbound_criteria_status g w t route = InbSatisfied <->
  (inbound_requirement g t (length (inbound_evaluation g w t route)) <= Z.of_nat (satisfied_sources g w t route))%Z.
Proof.
  intros. unfold get_inbound_criteria_status, satisfied_sources.
  destruct (Z.leb _ _) eqn:E.
  - apply Z.leb_le in E. split; auto.
  - apply Z.leb_gt in E. split; [|lia].
    destruct (existsb _ _ && _); discriminate.
Qed.

Theorem requirement_all : forall g t n, g_barrier g t = JStr "*" -> inbound_requirement g t n = Z.of_nat n.
Proof. intros g t n H; unfold inbound_requirement; rewrite H; reflexivity. Qed.

Theorem requirement_count : forall g t n k, g_barrier g t = JInt k -> (0 < k)%Z -> inbound_requirement g t n = k.
Proof.
  intros g t n k H Hk; unfold inbound_requirement; rewrite H.
  destruct (Z.eqb k 0) eqn:E; [apply Z.eqb_eq in E; lia|reflexivity].
Qed.

(* join: all is satisfied only when every distinct inbound task has a satisfied transition into it *)
Corollary barrier_all_needs_every_source : forall g w t route, g_barrier g t = JStr "*" ->
  get_inbound_criteria_status g w t route = InbSatisfied ->
  forall src v, In (src, v) (inbound_evaluation g w t route) -> v = Some true.
Proof.
  intros g w t route Hb Hs src v Hin.
  apply barrier_satisfied_iff in Hs. rewrite (requirement_all _ _ _ Hb) in Hs.
  unfold satisfied_sources in Hs.
  set (l := inbound_evaluation g w t route) in *.
  set (f := fun '((_, v) : string * option bool) => match v with Some true => true | _ => false end) in *.
  assert (Hlen : length (filter f l) = length l).
  { pose proof (filter_len_le _ f l). lia. }
  assert (Hall : forall x, In x l -> f x = true).
  { clear -Hlen. induction l as [|y l IH]; intros x Hx; [destruct Hx|].
    simpl in Hlen. destruct (f y) eqn:Ey.
    - simpl in Hlen. destruct Hx as [Hx|Hx]; [subst; exact Ey|]. apply IH; [lia|exact Hx].
    - pose proof (filter_len_le _ f l). lia. }
  specialize (Hall _ Hin). unfold f in Hall. destruct v as [[|]|]; try discriminate; reflexivity.
Qed.

(* unreachable joins: exactly the staged joins that are not ready and can no longer be satisfied *)
Theorem unreachable_barriers_spec : forall g w s,
  In s (get_unreachable_barriers g w) <->
  In s (staged w) /\ g_is_barrier_node g (s_id s) = true /\ s_ready s = false /\
  get_inbound_criteria_status g w (s_id s) (s_route s) = InbNotSatisfied.
Proof.
  intros g w s. unfold get_unreachable_barriers. rewrite filter_In. split.
  - intros [Hin Hb]. apply andb_prop in Hb; destruct Hb as [Hb Hi]. apply andb_prop in Hb; destruct Hb as [Hb Hr].
    apply negb_true_iff in Hr. repeat split; auto.
    destruct (get_inbound_criteria_status g w (s_id s) (s_route s)); simpl in Hi; try discriminate; reflexivity.
  - intros [Hin [Hb [Hr Hi]]]. split; [exact Hin|]. rewrite Hb, Hr, Hi. reflexivity.
Qed.

(* when a task event would complete the workflow (not by cancelation) while such a join exists, the workflow
   is failed and the joins are handed over to be logged as unreachable-join errors *)
Theorem completion_with_unreachable_join_fails : forall t route st c c' unr n,
  tbl_step wf_table (wstatus (c_ws c)) (wf_task_event_name (c_graph c) (c_ws c) t route st) = Some n ->
  In n COMPLETED_STATUSES -> n <> S_CANCELED ->
  get_unreachable_barriers (c_graph c) (ws_set_status (c_ws c) n) <> [] ->
  wf_task_event_M t route st c = (c', Val unr) ->
  wstatus (c_ws c') = S_FAILED /\ unr = get_unreachable_barriers (c_graph c) (ws_set_status (c_ws c) n).
Proof.
  intros t route st c c' unr n Hstep Hc Hn Hu H. apply wf_task_event_M_inv in H.
  destruct (wf_process_task_event (c_graph c) (c_ws c) t route st) as [[new u]|e] eqn:E; destruct H as [-> H];
    inversion H; subst u; clear H.
  destruct (wf_process_task_event_val _ _ _ _ _ _ _ E) as [_ [_ Hv]]. rewrite Hstep in Hv.
  assert (Hb : status_in n COMPLETED_STATUSES && negb (status_eqb n S_CANCELED) = true).
  { apply andb_true_intro; split; [apply status_in_In; exact Hc|].
    apply negb_true_iff. destruct (status_eqb n S_CANCELED) eqn:Es; [apply status_eqb_eq in Es; contradiction|reflexivity]. }
  rewrite Hb in Hv. unfold fail_on_unreachable in Hv.
  destruct (get_unreachable_barriers (c_graph c) (ws_set_status (c_ws c) n)) eqn:Eu; [contradiction|].
  inversion Hv; subst. simpl. split; reflexivity.
Qed.
