(* StateFacts.v -- equations and small facts about the conductor state of State.v / Conductor.v that
   every proof about the model reaches for: keys, the record updates of the workflow state, the list of
   staged entries, and the state-and-exception monad. *)
From Coq Require Import String List Bool ZArith Arith Lia.
From Orq Require Import GenStatuses GenEvents GenTables GenSpecMeta Base State Machines Conductor.
From Orq Require Import ListFacts.
Import ListNotations.
Open Scope string_scope.

Lemma trid_eqb_eq : forall a b : trid, trid_eqb a b = true <-> a = b.
Proof.
  intros [a1 a2] [b1 b2]; unfold trid_eqb; simpl; split.
  - intro H. apply andb_prop in H. destruct H as [H1 H2].
    apply String.eqb_eq in H1. apply Nat.eqb_eq in H2. subst; reflexivity.
  - intro H; inversion H; subst. rewrite String.eqb_refl, Nat.eqb_refl. reflexivity.
Qed.

Lemma tkey_eqb_eq : forall a b : tkey, tkey_eqb a b = true <-> a = b.
Proof. exact trid_eqb_eq. Qed.

Lemma tkey_eqb_refl : forall k, tkey_eqb k k = true.
Proof. intro k. now apply tkey_eqb_eq. Qed.

Lemma trid_eqb_refl : forall k, trid_eqb k k = true.
Proof. intro k. now apply trid_eqb_eq. Qed.

Section UpdateRec.
  Variables (w : wstate) (i : nat) (f : trec -> trec).

  Lemma wstatus_update_rec : wstatus (ws_update_rec w i f) = wstatus w.
  Proof. unfold ws_update_rec; destruct (nth_error (sequence w) i); reflexivity. Qed.

  Lemma staged_update_rec : staged (ws_update_rec w i f) = staged w.
  Proof. unfold ws_update_rec; destruct (nth_error (sequence w) i); reflexivity. Qed.

  Lemma contexts_update_rec : contexts (ws_update_rec w i f) = contexts w.
  Proof. unfold ws_update_rec; destruct (nth_error (sequence w) i); reflexivity. Qed.

  Lemma routes_update_rec : routes (ws_update_rec w i f) = routes w.
  Proof. unfold ws_update_rec; destruct (nth_error (sequence w) i); reflexivity. Qed.

  Lemma tasks_update_rec : tasks (ws_update_rec w i f) = tasks w.
  Proof. unfold ws_update_rec; destruct (nth_error (sequence w) i); reflexivity. Qed.

  Lemma reruns_update_rec : reruns (ws_update_rec w i f) = reruns w.
  Proof. unfold ws_update_rec; destruct (nth_error (sequence w) i); reflexivity. Qed.

  Lemma length_update_rec : length (sequence (ws_update_rec w i f)) = length (sequence w).
  Proof.
    unfold ws_update_rec. destruct (nth_error (sequence w) i); [|reflexivity].
    cbn [sequence ws_set_sequence]. apply length_set_nth.
  Qed.

  Lemma nth_update_rec_same : forall r, nth_error (sequence w) i = Some r ->
    nth_error (sequence (ws_update_rec w i f)) i = Some (f r).
  Proof. intros r H; unfold ws_update_rec; rewrite H; simpl. eapply nth_error_set_nth_same; exact H. Qed.

  Lemma nth_update_rec_other : forall j, i <> j ->
    nth_error (sequence (ws_update_rec w i f)) j = nth_error (sequence w) j.
  Proof.
    intros j H; unfold ws_update_rec. destruct (nth_error (sequence w) i); [|reflexivity].
    simpl; apply nth_error_set_nth_other; exact H.
  Qed.

  Lemma update_rec_absent : nth_error (sequence w) i = None -> ws_update_rec w i f = w.
  Proof. intro H; unfold ws_update_rec; rewrite H; reflexivity. Qed.
End UpdateRec.

Section RemoveStaged.
  Variables (w : wstate) (t : string) (r : nat).

  Lemma seq_remove_staged : sequence (ws_remove_staged_task w t r) = sequence w.
  Proof.
    unfold ws_remove_staged_task. destruct (get_staged_task w t r) as [s|]; [|reflexivity].
    destruct (items_any_active s); reflexivity.
  Qed.

  Lemma tasks_remove_staged : tasks (ws_remove_staged_task w t r) = tasks w.
  Proof.
    unfold ws_remove_staged_task. destruct (get_staged_task w t r) as [s|]; [|reflexivity].
    destruct (items_any_active s); reflexivity.
  Qed.

  Lemma contexts_remove_staged : contexts (ws_remove_staged_task w t r) = contexts w.
  Proof.
    unfold ws_remove_staged_task. destruct (get_staged_task w t r) as [s|]; [|reflexivity].
    destruct (items_any_active s); reflexivity.
  Qed.

  Lemma routes_remove_staged : routes (ws_remove_staged_task w t r) = routes w.
  Proof.
    unfold ws_remove_staged_task. destruct (get_staged_task w t r) as [s|]; [|reflexivity].
    destruct (items_any_active s); reflexivity.
  Qed.

  Lemma wstatus_remove_staged : wstatus (ws_remove_staged_task w t r) = wstatus w.
  Proof.
    unfold ws_remove_staged_task. destruct (get_staged_task w t r) as [s|]; [|reflexivity].
    destruct (items_any_active s); reflexivity.
  Qed.
End RemoveStaged.

Lemma engine_event_cmd : forall n e, engine_event n = Some e -> is_engine_command n = true.
Proof.
  intros n e H. unfold engine_event in H. unfold is_engine_command, ahas.
  destruct (aget String.eqb n ENGINE_EVENT_MAP) as [[x y]|]; [reflexivity|discriminate H].
Qed.

Lemma stg_matches_refl : forall s, stg_matches (s_id s) (s_route s) s = true.
Proof. intro s; unfold stg_matches. rewrite String.eqb_refl, Nat.eqb_refl; reflexivity. Qed.

Lemma stg_matches_id : forall t r s, stg_matches t r s = true -> s_id s = t /\ s_route s = r.
Proof.
  intros t r s H; unfold stg_matches in H. apply andb_prop in H; destruct H as [H1 H2].
  apply String.eqb_eq in H1; apply Nat.eqb_eq in H2; split; assumption.
Qed.

Lemma stg_matches_other : forall t r t' r' s, (t', r') <> (t, r) -> stg_matches t r s = true -> stg_matches t' r' s = false.
Proof.
  intros t r t' r' s Hne H. apply stg_matches_id in H. destruct H as [<- <-].
  destruct (stg_matches t' r' s) eqn:E; [|reflexivity]. apply stg_matches_id in E. destruct E as [<- <-]. congruence.
Qed.

Lemma get_staged_matches : forall w t route s, get_staged_task w t route = Some s -> s_id s = t /\ s_route s = route.
Proof. intros w t route s H; unfold get_staged_task in H. apply find_some in H. now apply stg_matches_id. Qed.

Lemma In_staged_update : forall f t r l s', In s' (staged_update f t r l) ->
  In s' l \/ exists s, In s l /\ stg_matches t r s = true /\ s' = f s.
Proof.
  intros f t r l s'; induction l as [|s l IH]; simpl; [tauto|].
  destruct (stg_matches t r s) eqn:E; simpl; intros [H|H].
  - right; exists s; split; [left; reflexivity|split; [exact E|symmetry; exact H]].
  - left; right; exact H.
  - left; left; exact H.
  - destruct (IH H) as [H1|[s1 [H1 H2]]]; [left; right; exact H1|right; exists s1; split; [right; exact H1|exact H2]].
Qed.

Lemma In_staged_remove_first : forall t r l s', In s' (staged_remove_first t r l) -> In s' l.
Proof.
  intros t r l s'; induction l as [|s l IH]; simpl; [tauto|].
  destruct (stg_matches t r s); simpl; intro H; [right; exact H|].
  destruct H as [H|H]; [left; exact H|right; apply IH; exact H].
Qed.

Lemma staged_update_other : forall f nt r l s, In s l -> s_id s <> nt -> In s (staged_update f nt r l).
Proof.
  intros f nt r l s; induction l as [|x l IH]; simpl; intros H Hn; [contradiction|].
  destruct (stg_matches nt r x) eqn:E.
  - destruct H as [H|H]; [|right; exact H]. subst x. apply stg_matches_id in E. destruct E; contradiction.
  - destruct H as [H|H]; [left; exact H|right; apply IH; assumption].
Qed.

Lemma su_fwd : forall f t r l s, In s l -> exists s', In s' (staged_update f t r l) /\ (s' = s \/ (stg_matches t r s = true /\ s' = f s)).
Proof.
  induction l as [|a l IH]; intros s Hin; [destruct Hin|]. simpl. destruct (stg_matches t r a) eqn:E.
  - destruct Hin as [->|Hin]; [exists (f s); split; [left; reflexivity|right; auto]|exists s; split; [right; exact Hin|left; reflexivity]].
  - destruct Hin as [->|Hin]; [exists s; split; [left; reflexivity|left; reflexivity]|].
    destruct (IH _ Hin) as [s' [H1 H2]]. exists s'; split; [right; exact H1|exact H2].
Qed.

Lemma su_hit : forall f t r l s0, find (stg_matches t r) l = Some s0 -> In (f s0) (staged_update f t r l).
Proof.
  induction l as [|a l IH]; intros s0 H; [discriminate|]. simpl in *. destruct (stg_matches t r a).
  - inversion H; subst. left; reflexivity.
  - right. apply IH; exact H.
Qed.

Lemma find_staged_update_same : forall f t r l, (forall s, stg_matches t r (f s) = stg_matches t r s) ->
  find (stg_matches t r) (staged_update f t r l) = option_map f (find (stg_matches t r) l).
Proof.
  intros f t r l Hf; induction l as [|s l IH]; simpl; [reflexivity|].
  destruct (stg_matches t r s) eqn:E; simpl; [rewrite Hf, E; reflexivity|rewrite E; exact IH].
Qed.

Lemma find_staged_update_some : forall f t r l, (forall s, stg_matches t r (f s) = stg_matches t r s) ->
  find (stg_matches t r) l <> None -> find (stg_matches t r) (staged_update f t r l) <> None.
Proof.
  intros f t r l Hf H. rewrite (find_staged_update_same f t r l Hf).
  destruct (find (stg_matches t r) l); [discriminate|congruence].
Qed.

Lemma find_staged_update_other : forall f t r t' r' l, (t', r') <> (t, r) ->
  (forall s, s_id (f s) = s_id s /\ s_route (f s) = s_route s) ->
  find (stg_matches t' r') (staged_update f t r l) = find (stg_matches t' r') l.
Proof.
  intros f t r t' r' l Hne Hf; induction l as [|s l IH]; simpl; [reflexivity|].
  destruct (stg_matches t r s) eqn:E; simpl.
  - assert (E1 : stg_matches t' r' s = false) by (eapply stg_matches_other; eassumption).
    assert (E2 : stg_matches t' r' (f s) = false).
    { unfold stg_matches in *. destruct (Hf s) as [A B]. rewrite A, B. exact E1. }
    rewrite E1, E2. reflexivity.
  - destruct (stg_matches t' r' s); [reflexivity|exact IH].
Qed.

Lemma find_staged_update_none : forall f t r t' r' l,
  (forall x, s_id (f x) = s_id x /\ s_route (f x) = s_route x) ->
  find (stg_matches t' r') l = None -> find (stg_matches t' r') (staged_update f t r l) = None.
Proof.
  intros f t r t' r' l Hf; induction l as [|s l IH]; simpl; [reflexivity|].
  assert (E : stg_matches t' r' (f s) = stg_matches t' r' s) by (unfold stg_matches; destruct (Hf s) as [-> ->]; reflexivity).
  destruct (stg_matches t' r' s) eqn:Em; [discriminate|]. intro H. destruct (stg_matches t r s); simpl; rewrite ?E, ?Em; auto.
Qed.

Lemma bind_inv : forall A B (m : M A) (f : A -> M B) c c' r, bind m f c = (c', r) ->
  (exists c1 a, m c = (c1, Val a) /\ f a c1 = (c', r)) \/ (exists e, m c = (c', Exc e) /\ r = Exc e).
Proof.
  intros A B m f c c' r H; unfold bind in H. destruct (m c) as [c1 [a|e]] eqn:E.
  - left; exists c1, a; split; [reflexivity|exact H].
  - right; inversion H; subst; exists e; split; reflexivity.
Qed.

Lemma bind_val_inv' : forall A B (m : M A) (f : A -> M B) c c' b,
  bind m f c = (c', Val b) -> exists c1 a, m c = (c1, Val a) /\ f a c1 = (c', Val b).
Proof.
  intros A B m f c c' b H. unfold bind in H. destruct (m c) as [c1 [a|e]] eqn:E; [|inversion H].
  exists c1, a; split; [reflexivity|exact H].
Qed.

Lemma bind_step : forall A B (m : M A) (f : A -> M B) c c1 a, m c = (c1, Val a) -> bind m f c = f a c1.
Proof. intros A B m f c c1 a H; unfold bind; rewrite H; reflexivity. Qed.

Lemma bind_exc : forall A B (m : M A) (f : A -> M B) c c1 e, m c = (c1, Exc e) -> bind m f c = (c1, Exc e).
Proof. intros A B m f c c1 e H; unfold bind; rewrite H; reflexivity. Qed.

Lemma bind_assoc_pt : forall A B C (m : M A) (f : A -> M B) (g : B -> M C) c,
  bind (bind m f) g c = bind m (fun a => bind (f a) g) c.
Proof. intros; unfold bind. destruct (m c) as [c1 [a|e]]; reflexivity. Qed.

Lemma bind_congr : forall A B (m : M A) (f1 f2 : A -> M B) c,
  (forall c1 a, m c = (c1, Val a) -> f1 a c1 = f2 a c1) -> bind m f1 c = bind m f2 c.
Proof. intros A B m f1 f2 c H; unfold bind. destruct (m c) as [c1 [a|e]] eqn:E; [apply H; reflexivity|reflexivity]. Qed.

Lemma bind_ext : forall A B (m m' : M A) (f f' : A -> M B) c,
  m c = m' c -> (forall a c', f a c' = f' a c') -> bind m f c = bind m' f' c.
Proof.
  intros A B m m' f f' c Hm Hf. unfold bind. rewrite Hm. destruct (m' c) as [c1 [a|e]]; [apply Hf | reflexivity].
Qed.

Lemma In_next_transitions : forall g t e, In e (g_next_transitions g t) -> In e (g_edges g) /\ e_src e = t.
Proof.
  intros g t e H. unfold g_next_transitions in H. apply in_sort_by in H. apply filter_In in H.
  destruct H as [H1 H2]. apply String.eqb_eq in H2. split; assumption.
Qed.
