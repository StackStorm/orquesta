(* SysItemsBusyProofs.v -- the with-items provider protocol: no task record ever has one of the statuses the protocol
   does not use, and when the workflow reports pausing or canceling some task execution is active. *)
From Coq Require Import String List Bool ZArith Arith Lia.
From Orq Require Import GenStatuses GenEvents GenTables GenSpecMeta Base State Machines Codec Conductor Decode Api Driver ProviderSys ProviderSysItems ProviderSysItemsMon ProviderSysItemsMon2.
From Orq Require Import ListFacts StateFacts F_tables F_names F_sys F_sysitems Hoare ValuePost StatusReach C04Proofs C05Proofs C02C03Proofs C09C10Proofs OffersProofs InertProofs RetryProofs SysProofs SysNextProofs SysItemsProofs SysItemsRecProofs SysItemsPlainProofs SysItemsIdleProofs.
Import ListNotations.
Open Scope string_scope.

Definition okst (o : option status) : Prop := ostatus_in o UNUSED_STATUSES = false /\ o <> Some S_UNSET.
Definition NB (c : cstate) : Prop := forall i rec, nth_error (sequence (c_ws c)) i = Some rec -> okst (r_status rec).
Lemma okst_rstatus : forall r, okst (r_status r) -> status_in (rstatus r) UNUSED_STATUSES = false.
Proof. intros r [H _]. unfold rstatus in *. destruct (r_status r); [exact H|reflexivity]. Qed.

Lemma okst_none : okst None.
Proof. split; [reflexivity|discriminate]. Qed.
Lemma okst_step : forall w r e s, nbad e -> okst (r_status r) -> task_process_event w r e = Val (Some s) -> okst (Some s).
Proof.
  intros w r e s He Hq H. split; [exact (F_tpe_nbad _ _ _ _ He (okst_rstatus _ Hq) H)|].
  pose proof (F_tpe_not_unset _ _ _ _ H). congruence.
Qed.
Lemma engine_event_nbad : forall n e, engine_event n = Some e -> nbad e.
Proof.
  intros n e H. unfold engine_event in H. destruct (aget String.eqb n ENGINE_EVENT_MAP) as [[nm st]|] eqn:E; inversion H; subst e.
  simpl. apply aget_In in E. simpl in E. repeat (destruct E as [E|E]; [inversion E; subst; reflexivity|]). destruct E.
Qed.
Lemma nbad_provider : forall st, st = S_RUNNING \/ status_in st report_statuses = true ->
  (forall i res acc, nbad (EvItem i st res acc)) /\ (forall res, nbad (EvAction st res)).
Proof. intros st [->|H]; [split; reflexivity|]. destruct st; try discriminate H; split; reflexivity. Qed.

Lemma nb_request_status_core : forall st, preserves (Rall okst) (request_status_core st).
Proof. exact (all_request_status_core okst nbad okst_step (fun _ => Logic.I)). Qed.

Section NoUnusedSystem.
Variable ev : string -> dict -> evalres.

Lemma nb_event : forall s t r e, nbad e -> ibad (isys_event ev s t r e) = false -> NB (si_c s) -> NB (si_c (isys_event ev s t r e)).
Proof. exact (all_event ev okst nbad okst_none okst_step engine_event_nbad eq_refl). Qed.

Definition nb_inv (s : isys) : Prop := ibad s = false -> NB (si_c s).

Lemma nb_run : forall ops s, isys_inv2 s -> nb_inv s -> nb_inv (isys_run ev ops s).
Proof. exact (all_run ev okst nbad okst_none okst_step engine_event_nbad eq_refl (fun _ => Logic.I) nbad_provider). Qed.

End NoUnusedSystem.

Definition HELD2 : list status := [S_PAUSING; S_CANCELING].
Definition Psi (c : cstate) : Prop := In (wstatus (c_ws c)) HELD2 -> HA c.

Lemma HA_sig_up : forall c c', tasks (c_ws c') = tasks (c_ws c) -> map sig (sequence (c_ws c')) = map sig (sequence (c_ws c)) ->
  HA c -> HA c'.
Proof. intros c c' Ht Hs H. apply (HA_sig c' c); [symmetry; exact Ht|symmetry; exact Hs|exact H]. Qed.

Lemma psi_fr : forall c c', Rfr c c' -> Psi c -> Psi c'.
Proof.
  intros c c' [T [S [W _]]] P Hin. destruct W as [W|W]; [|rewrite W in Hin; simpl in Hin; intuition discriminate].
  rewrite W in Hin. exact (HA_sig_up _ _ T S (P Hin)).
Qed.

(* the record the pointer map gives for (t, route), if any, has a status the protocol uses *)
Definition OwnOk (c : cstate) (t : string) (route : nat) : Prop :=
  forall idx0 r0, ws_task_idx (c_ws c) t route = Some idx0 -> nth_error (sequence (c_ws c)) idx0 = Some r0 -> okst (r_status r0).

Section PsiFrame.
Variable ev : string -> dict -> evalres.

Lemma psi_wf_task_event : forall t route st c c' unr idx r, wf_task_event_M t route st c = (c', Val unr) ->
  ws_task_idx (c_ws c) t route = Some idx -> nth_error (sequence (c_ws c)) idx = Some r -> r_status r = Some st ->
  status_in st ITEM_STATUSES = true -> Psi c'.
Proof.
  intros t route st c c' unr idx r H Hp Hr Hst Hit. destruct (wf_task_event_eff _ _ _ _ _ _ H) as [n [-> Hn]].
  intros Hin. simpl in Hin.
  destruct Hn as [->|Hn]; [simpl in Hin; intuition discriminate|]. subst n. unfold wf_task_event_name in Hin.
  assert (Ha : has_active_tasks (c_ws c) = true).
  { eapply F_held_needs_active_task; [exact Hit| |exact Hin]. intro Hact. apply has_active_HA.
    apply (entry_HA c t route r); [unfold ws_task_entry; rewrite Hp; exact Hr|rewrite Hst; exact Hact]. }
  apply has_active_HA in Ha. destruct Ha as [i [r' [A [B C]]]]. exists i, r'. auto.
Qed.

Lemma psi_cmds : forall (rec : string -> nat -> event -> M unit),
  (forall t r e c c', nbad e -> is_engine_command t = true -> c_init c = true -> P_ok c -> rec t r e c = (c', Val tt) ->
                      Psi c' /\ c_init c' = true /\ P_ok c') ->
  forall queue c c', c_init c = true -> P_ok c -> Psi c -> forM_ queue (uts_call rec) c = (c', Val tt) -> Psi c'.
Proof.
  intros rec Hrec. induction queue as [|[nn rt] queue IH]; intros c c' Ia Pa P H; simpl in H; [inversion H; subst; exact P|].
  apply bind_val_inv' in H. destruct H as [c1 [[] [E1 H]]]. unfold uts_call in E1.
  destruct (engine_event nn) as [e|] eqn:E; [|inversion E1].
  destruct (Hrec nn rt e c c1 (engine_event_nbad _ _ E) (engine_event_cmd _ _ E) Ia Pa E1) as [P1 [I1 Q1]].
  exact (IH c1 c' I1 Q1 P1 H).
Qed.

Lemma psi_fuel : forall fuel t route evt c c', update_task_state_fuel ev fuel t route evt c = (c', Val tt) ->
  c_init c = true -> P_ok c -> nbad evt -> (is_engine_command t = true \/ OwnOk c t route) -> Psi c'.
Proof.
  induction fuel as [|fuel IH]; intros t route evt c c' H Ia Pa Hn Hown; [inversion H|]. rewrite uts_unfold in H.
  destruct (own_step ev _ _ _ _ _ _ H Ia Pa) as (ts & idx & rr & ns & c3 & c4 & compl &
    (I3 & P3 & A1 & A2) & (Hp3 & Hr3 & Hk3) & Orig & _ & Ens & (r4 & Hr4 & Hs4) &
    Hp4 & I4 & P4 & B1 & B2 & Hnc & Hretry & Htl).
  destruct (sig_key _ _ Hs4) as [K4 S4].
  assert (Hrr : status_in (rstatus rr) UNUSED_STATUSES = false).
  { destruct Orig as [[O _]|[Hc [Op [r0 [Or0 [Os _]]]]]]; [unfold rstatus; rewrite O; reflexivity|].
    destruct Hown as [X|X]; [congruence|]. unfold rstatus. rewrite Os. apply (okst_rstatus r0). exact (X idx r0 Op Or0). }
  assert (Hok4 : okst (r_status r4)).
  { rewrite S4. destruct ns as [x|]; simpl.
    - split; [exact (F_tpe_nbad _ _ _ _ Hn Hrr Ens)|]. pose proof (F_tpe_not_unset _ _ _ _ Ens). congruence.
    - destruct Orig as [[O _]|[Hc [Op [r0 [Or0 [Os _]]]]]]; [rewrite O; split; [reflexivity|discriminate]|].
      destruct Hown as [X|X]; [congruence|]. rewrite Os. exact (X idx r0 Op Or0). }
  assert (Hcase : (exists ctx, compl = Some (ctx, true)) \/ forall ctx0 : dict, compl <> Some (ctx0, true))
    by (destruct compl as [[ctx [|]]|]; [left; eauto|right; discriminate|right; discriminate]).
  destruct Hcase as [[ctx ->]|Hno].
  - (* a retry was decided: the call goes on with the retry event *)
    unfold uts_tail in Htl. refine (IH t route retry_event c4 c' Htl I4 P4 eq_refl _). right.
    intros idx0 r0 X Y. rewrite Hp4 in X. inversion X; subst idx0. rewrite Hr4 in Y. inversion Y; subst r0. exact Hok4.
  - destruct (tail_inv ev _ _ _ _ _ _ _ _ _ _ Htl Hno) as (queue & cq & r & st & unr & cw & cl & cn & Eq & Hr & Hst & Ew & El & Wl & En & Hfl).
    pose proof (vfr_queue ev _ _ _ _ _ _ _ _ _ _ Eq) as Fq.
    assert (Hpq : ws_task_idx (c_ws cq) t route = Some idx) by (unfold ws_task_idx in *; destruct Fq as [T _]; rewrite T; exact Hp4).
    assert (Hitem : status_in st ITEM_STATUSES = true).
    { destruct (nth_sig_fr _ _ _ _ Fq Hr4) as [rq [Hrq Sq]]. rewrite Hr in Hrq. inversion Hrq; subst rq.
      destruct (sig_key _ _ Sq) as [_ Sq1]. destruct Hok4 as [O1 O2]. rewrite <- Sq1, Hst in O1, O2. simpl in O1.
      apply F_item_status; [exact O1|congruence]. }
    pose proof (psi_wf_task_event _ _ _ _ _ _ _ _ Ew Hpq Hr Hst Hitem) as Pw.
    assert (Pl : Psi cl) by (intros X; rewrite Wl in X; destruct (Pw X) as [i [r' [A [B C]]]]; exists i, r'; rewrite Wl; auto).
    destruct (RK_Rfr (fun _ => False) _ _ Fq I4 P4) as [Iq [Pq _]].
    destruct (wf_task_event_eff _ _ _ _ _ _ Ew) as [nw [-> _]].
    assert (Il : c_init cl = true).
    { pose proof (pd_log_unreachable unr _ _ _ El) as [_ [_ X]]. apply X. exact Iq. }
    assert (Pkl : P_ok cl).
    { intros t0 r0 i0 X. unfold ws_task_idx in *. rewrite Wl in *. simpl in *. exact (Pq t0 r0 i0 X). }
    assert (Pn : Psi cn).
    { refine (psi_cmds _ _ queue cl cn Il Pkl Pl En). intros t0 r0 e0 ca cb He Hc Ia0 Pa0 Ecall.
      split; [exact (IH t0 r0 e0 ca cb Ecall Ia0 Pa0 He (or_introl Hc))|].
      destruct (rk_fuel ev fuel t0 r0 e0 _ _ _ Ecall Ia0 Pa0) as [X [Y _]]. auto. }
    destruct Hfl as [Ffl _]. exact (psi_fr _ _ Ffl Pn).
Qed.

End PsiFrame.

Section PsiRequests.
Variable ev : string -> dict -> evalres.

Lemma rq_loop1_val : forall st (l : list (nat * trec)) c, status_in st request_statuses_f = true -> NB c ->
  exists c1, forM_ l (rq_body1 st) c = (c1, Val tt) /\ wstatus (c_ws c1) = wstatus (c_ws c) /\
             tasks (c_ws c1) = tasks (c_ws c) /\ length (sequence (c_ws c1)) = length (sequence (c_ws c)) /\ NB c1.
Proof. intros st l c Hst. exact (rq_loop1_run okst st Hst okst_rstatus (fun w r s => okst_step w r (EvWorkflow st) s Logic.I) l c). Qed.

Lemma rq_restore : forall (l : list (nat * trec)) c, NoDup (map fst l) ->
  exists c', forM_ l (fun '(i, r) => set_rec_status i (r_status r)) c = (c', Val tt) /\
    wstatus (c_ws c') = wstatus (c_ws c) /\ tasks (c_ws c') = tasks (c_ws c) /\
    forall i r, In (i, r) l -> i < length (sequence (c_ws c)) ->
      exists r', nth_error (sequence (c_ws c')) i = Some r' /\ r_status r' = r_status r.
Proof.
  induction l as [|[i r] l IH]; intros c Hnd; simpl; [exists c; repeat split; auto; intros i r []|].
  inversion Hnd as [|x xs Hx Hnd']; subst.
  set (c0 := set_ws c (ws_update_rec (c_ws c) i (fun r0 => r_set_status r0 (r_status r)))).
  destruct (IH c0 Hnd') as [c' [E [W [T Hrec]]]].
  exists c'. unfold bind, set_rec_status, modws. fold c0. split; [exact E|].
  split; [rewrite W; unfold c0; simpl; apply wstatus_update_rec|]. split; [rewrite T; unfold c0; simpl; apply tasks_update_rec|].
  assert (Len : length (sequence (c_ws c0)) = length (sequence (c_ws c))).
  { unfold c0. simpl. unfold ws_update_rec. destruct (nth_error (sequence (c_ws c)) i); [simpl; apply length_set_nth|reflexivity]. }
  intros j rj [Hj|Hj] Hlt.
  - inversion Hj; subst j rj.
    destruct (nth_error (sequence (c_ws c)) i) as [ri|] eqn:Hri; [|apply nth_error_None in Hri; lia].
    (* the later entries of the snapshot leave record i alone: restated through the induction *)
    assert (Keep : forall (l0 : list (nat * trec)) ca cb, ~ In i (map fst l0) ->
              forM_ l0 (fun '(i, r) => set_rec_status i (r_status r)) ca = (cb, Val tt) ->
              nth_error (sequence (c_ws cb)) i = nth_error (sequence (c_ws ca)) i).
    { induction l0 as [|[k rk] l0 IH0]; intros ca cb Hni X; simpl in X; [inversion X; reflexivity|].
      unfold bind, set_rec_status, modws in X. simpl in Hni.
      rewrite (IH0 _ _ (fun Y => Hni (or_intror Y)) X). simpl. unfold ws_update_rec.
      destruct (nth_error (sequence (c_ws ca)) k); [|reflexivity]. simpl. apply nth_error_set_nth_other. intro Y. apply Hni. left. exact Y. }
    rewrite (Keep l c0 c' Hx E). unfold c0. simpl. unfold ws_update_rec. rewrite Hri. simpl.
    rewrite (nth_error_set_nth_same _ _ _ _ _ Hri). eexists. split; reflexivity.
  - apply (Hrec j rj Hj). rewrite Len. exact Hlt.
Qed.

Lemma psi_request_status_core : forall st c c' x, request_status_core st c = (c', x) ->
  status_in st request_statuses_f = true -> NB c -> Psi c -> Psi c'.
Proof.
  intros st c c' x H Hst N P Hheld.
  unfold request_status_core in H. unfold bind at 1 in H. unfold getws at 1 in H. cbv zeta in H.
  set (active := ws_tasks_by_status (c_ws c) ACTIVE_STATUSES) in *. fold (rq_body1 st) in H.
  destruct (rq_loop1_val st active c Hst N) as [c1 [E1 [W1 [T1 [L1 N1]]]]].
  unfold bind at 1 in H. rewrite E1 in H.
  destruct (bind_inv _ _ _ _ _ _ _ H) as [[c2 [unr [E2 X2]]]|[e [E2 _]]].
  2: { (* it raised: impossible from pausing / canceling *)
       exfalso. unfold wf_workflow_event_M in E2.
       destruct (wf_process_workflow_event (c_graph c1) (c_ws c1) st) as [[? ?]|?] eqn:Ew; inversion E2; subst c'.
       unfold wf_process_workflow_event in Ew. rewrite wf_workflow_event_name_eq in Ew.
       rewrite F_req_event_valid in Ew; [|exact Hst|intro Hd; apply andb_prop in Hd; destruct Hd as [Hd _]; apply andb_prop in Hd; destruct Hd as [Hd _];
                                              apply andb_prop in Hd; destruct Hd as [Hd _]; apply andb_prop in Hd; destruct Hd as [_ Hd]; exact Hd].
       cbn [negb] in Ew. destruct (tbl_row wf_table (wstatus (c_ws c1))) eqn:Er; [|exact (F_wf_row_held _ Hheld Er)].
       destruct (aget String.eqb _ l); [|discriminate Ew]. match type of Ew with (if ?b then _ else _) = _ => destruct b end; discriminate Ew. }
  destruct (wf_workflow_event_eff _ _ _ _ E2) as [n [-> Hn]].
  set (c2 := set_ws c1 (ws_set_status (c_ws c1) n)) in *.
  destruct (log_unreachable_run unr c2) as [c3 [E3 W3]].
  unfold bind at 1 in X2. rewrite E3 in X2. unfold bind at 1 in X2. unfold getws at 1 in X2. rewrite W3 in X2.
  change (wstatus (c_ws c2)) with n in X2.
  assert (Act : has_active_tasks (c_ws c1) = true -> HA c3).
  { intro Ha. apply has_active_HA in Ha. destruct Ha as [i [r [A [B C]]]]. exists i, r. rewrite W3. unfold c2. simpl. auto. }
  assert (Sweep : In n HELD2 -> has_active_tasks (c_ws c1) = true \/
                  (n = wstatus (c_ws c) /\ st <> wstatus (c_ws c) /\ ~ (st = S_PAUSED /\ wstatus (c_ws c) = S_PAUSING) /\
                   ~ (st = S_CANCELED /\ wstatus (c_ws c) = S_CANCELING))).
  { intro Hin. destruct Hn as [->|Hn]; [simpl in Hin; intuition discriminate|].
    rewrite wf_workflow_event_name_eq, W1 in Hn. rewrite Hn in Hin |- *.
    refine (F_held_needs_active_request _ _ _ _ Hst _ Hin).
    intro Hd. apply andb_prop in Hd. destruct Hd as [Hd _]. apply andb_prop in Hd. destruct Hd as [Hd _]. apply andb_prop in Hd. destruct Hd as [Hd _].
    apply andb_prop in Hd. destruct Hd as [Hd _]. apply status_eqb_eq in Hd. exact Hd. }
  assert (Hin3 : c' = c3 -> In n HELD2) by (intros ->; rewrite W3 in Hheld; exact Hheld).
  destruct (status_eqb st S_PAUSED && status_eqb (wstatus (c_ws c)) S_PAUSING && status_eqb n S_PAUSING) eqn:EA1.
  { inversion X2; subst c'. destruct (Sweep (Hin3 eq_refl)) as [Ha|[_ [_ [Hx _]]]]; [exact (Act Ha)|]. exfalso. apply Hx.
    apply andb_prop in EA1. destruct EA1 as [EA1 _]. apply andb_prop in EA1. destruct EA1 as [A B].
    apply status_eqb_eq in A. apply status_eqb_eq in B. auto. }
  destruct (status_eqb st S_CANCELED && status_eqb (wstatus (c_ws c)) S_CANCELING && status_eqb n S_CANCELING) eqn:EA2.
  { inversion X2; subst c'. destruct (Sweep (Hin3 eq_refl)) as [Ha|[_ [_ [_ Hx]]]]; [exact (Act Ha)|]. exfalso. apply Hx.
    apply andb_prop in EA2. destruct EA2 as [EA2 _]. apply andb_prop in EA2. destruct EA2 as [A B].
    apply status_eqb_eq in A. apply status_eqb_eq in B. auto. }
  destruct (negb (status_eqb st (wstatus (c_ws c))) && status_eqb (wstatus (c_ws c)) n) eqn:EA3.
  - (* rejected: the records of the snapshot get their statuses back *)
    apply andb_prop in EA3. destruct EA3 as [_ EA3]. apply status_eqb_eq in EA3.
    destruct (rq_restore active c3 (tasks_by_status_NoDup _ _)) as [c4 [E4 [W4 [T4 Hrec]]]].
    unfold bind at 1 in X2. rewrite E4 in X2. unfold raise in X2. inversion X2; subst c'.
    assert (Hs : In (wstatus (c_ws c)) HELD2).
    { rewrite W4, W3 in Hheld. change (wstatus (c_ws c2)) with n in Hheld. rewrite <- EA3 in Hheld. exact Hheld. }
    destruct (P Hs) as [i [r [A [B C]]]].
    assert (Hinl : In (i, r) active).
    { unfold active, ws_tasks_by_status. apply filter_In. split; [unfold enumerate; exact (In_enumerate_from_nth _ _ 0 i r A)|rewrite B, C; reflexivity]. }
    assert (Hlt : i < length (sequence (c_ws c3))).
    { rewrite W3. unfold c2. simpl. rewrite L1. apply nth_error_Some. rewrite A. discriminate. }
    destruct (Hrec i r Hinl Hlt) as [r' [A' B']]. exists i, r'. split; [exact A'|]. split; [rewrite B'; exact B|].
    unfold ws_pointed in *. rewrite T4, W3. unfold c2. simpl. rewrite T1. exact C.
  - inversion X2; subst c'. destruct (Sweep (Hin3 eq_refl)) as [Ha|[Hx [Hy _]]]; [exact (Act Ha)|]. exfalso.
    assert (X : negb (status_eqb st (wstatus (c_ws c))) && status_eqb (wstatus (c_ws c)) n = true).
    { rewrite Hx, status_eqb_refl, andb_true_r. apply negb_true_iff. destruct (status_eqb st (wstatus (c_ws c))) eqn:E; [|reflexivity].
      apply status_eqb_eq in E. contradiction. }
    congruence.
Qed.

End PsiRequests.

Section PsiSystem.
Variable ev : string -> dict -> evalres.

(* what the folds carry: the state is initialised, pointers are well-formed, statuses are the used ones, and Psi *)
Definition pfull (c : cstate) : Prop := c_init c = true /\ P_ok c /\ NB c /\ Psi c.

Lemma NB_OwnOk : forall c t r, NB c -> OwnOk c t r.
Proof. intros c t r N idx0 r0 _ Hr. exact (N idx0 r0 Hr). Qed.

Lemma pfull_event : forall s t r e, ibad (isys_event ev s t r e) = false -> nbad e -> pfull (si_c s) -> pfull (si_c (isys_event ev s t r e)).
Proof.
  intros s t r e Hb Hn [Ia [Pa [N P]]]. pose proof (ievent_val ev s t r e Hb) as H.
  destruct (prot_ok ev _ _ _ _ _ H Ia Pa) as [Ib Pb]. split; [exact Ib|]. split; [exact Pb|].
  split; [exact (nb_event ev s t r e Hn Hb N)|].
  unfold update_task_state in H. exact (psi_fuel ev _ t r e _ _ H Ia Pa Hn (or_intror (NB_OwnOk _ _ _ N))).
Qed.

Lemma pfull_poll : forall s, pfull (si_c s) -> ibad (isys_poll ev s) = false -> pfull (si_c (isys_poll ev s)).
Proof.
  intros s [Ia [Pa [N P]]] Hb. unfold isys_poll in *. destruct (get_next_tasks ev (si_c s)) as [c1 [offers|x]] eqn:Hg; [|discriminate Hb].
  destruct (gn_items_eff ev _ _ _ Ia Hg) as [(_ & _ & Hin & Hseq & Htk & Hw & _) _].
  apply (acks_keep ev pfull nbad); try reflexivity; [intros s0 t r e He Hb0; exact (pfull_event s0 t r e Hb0 He)|exact Hb|].
  simpl. split; [congruence|]. split; [|split].
  - intros t r i E. unfold ws_task_idx in *. rewrite Htk in E. rewrite Hseq. exact (Pa t r i E).
  - intros i rec E. rewrite Hseq in E. exact (N i rec E).
  - intros X. destruct Hw as [Hw|Hw]; [|rewrite Hw in X; simpl in X; intuition discriminate]. rewrite Hw in X.
    destruct (P X) as [i [r [A [B C]]]]. exists i, r. rewrite Hseq. unfold ws_pointed in *. rewrite Htk. auto.
Qed.

Definition pfull_inv (s : isys) : Prop := ibad s = false -> unborn (si_c s) \/ pfull (si_c s).

Lemma born_pfull : forall c c1, unborn c -> ensure_ws ev c = (c1, Val tt) -> pfull c1.
Proof.
  intros c c1 Hu En. destruct (born_rec ev _ _ Hu En) as [A [B _]]. split; [exact A|]. split; [exact B|].
  destruct Hu as [Hi Hw]. destruct (ensure_fresh ev c c1 Hi Hw En) as [_ [_ [_ [Hs [_ Hst]]]]]. split.
  - intros i rec E. rewrite Hs in E. destruct i; discriminate E.
  - intros X. exfalso. destruct Hst as [[W _]|[W _]]; rewrite W in X; simpl in X; intuition discriminate.
Qed.

Lemma pfull_live : forall s op, pfull (si_c s) -> ibad (isys_step ev s op) = false -> pfull (si_c (isys_step ev s op)).
Proof.
  intros s op F Hb. pose proof F as [Ia [Pa [N P]]].
  assert (Rq : forall st, pfull (si_c (isys_request ev s st))).
  { intro st. destruct (irequest_val ev s st Ia) as [->|[c' [x [Hst [R [Rw ->]]]]]]; [exact F|]. simpl.
    destruct (request_records ev st _ c' x Ia Rw) as [Hs [Ht [Hin Hrec]]]. split; [congruence|]. split; [|split].
    - intros t r i Ep. unfold ws_task_idx in *. rewrite Ht in Ep. destruct (Pa t r i Ep) as [rec [A B]].
      destruct (Hrec i rec A) as [rec' [A' [B' _]]]. exists rec'. split; [exact A'|congruence].
    - exact (nb_request_status_core st _ _ _ R N).
    - exact (psi_request_status_core st _ _ _ R Hst N P). }
  assert (Cl : forall o, o = OpRender \/ o = OpPersist -> ibad (isys_call ev s o) = false -> pfull (si_c (isys_call ev s o))).
  { intros o Ho Hb'. destruct (icall_val ev s o Ia Ho Hb') as [L _]. pose proof L as [Hs [Ht [_ [_ [_ [_ [_ [_ Hin]]]]]]]].
    split; [congruence|]. split; [|split].
    - intros t r i Ep. unfold ws_task_idx in *. rewrite Ht in Ep. rewrite Hs. exact (Pa t r i Ep).
    - intros i rec Er. rewrite Hs in Er. exact (N i rec Er).
    - exact (psi_fr _ _ (Rlt_Rfr _ _ L) P). }
  destruct op; cbn [isys_step] in *; auto.
  - apply pfull_poll; assumption.
  - unfold isys_report in *. destruct (ikey_in _ _ && _) eqn:En; [|exact F]. apply andb_true_iff in En. destruct En as [_ Hst].
    destruct item; apply pfull_event; try assumption; simpl; destruct st; try discriminate Hst; reflexivity.
Qed.

Lemma pfull_step : forall s op, isys_inv2 s -> pfull_inv s -> pfull_inv (isys_step ev s op).
Proof.
  intros s op H2 H3 Hb. pose proof (not_bad_before (fun x => isys_step ev x op) s (fun X => ibad_step_mono ev _ _ X) Hb) as Hb0.
  destruct (H3 Hb0) as [Hu|F]; [|right; apply pfull_live; assumption].
  destruct (inv2_link s H2 Hb0) as [[_ HF]|[Hi _]]; [|destruct Hu; congruence].
  destruct (isys_step_unborn ev s op HF Hb) as [E|[c0 [En E]]]; rewrite E in *; [left; exact Hu|right].
  apply pfull_live; [exact (born_pfull _ _ Hu En)|exact Hb].
Qed.

Lemma pfull_run : forall ops s, isys_inv2 s -> pfull_inv s -> pfull_inv (isys_run ev ops s).
Proof.
  induction ops as [|op ops IH]; intros s H2 H3; [exact H3|]. cbn [isys_run fold_left].
  apply IH; [apply isys_step_inv2; exact H2|apply pfull_step; assumption].
Qed.

End PsiSystem.

Section BusyReachable.
Variable ev : string -> dict -> evalres.
Variables (sp : wf_spec) (g : graph) (inputs parent : dict).

(* when the workflow reports pausing or canceling the conductor counts an active task execution *)
Theorem held_has_active_task : forall ops, let s := ireach ev sp g inputs parent ops in
  si_fault s = false -> si_wiped s = false ->
  In (wstatus (c_ws (si_c s))) [S_PAUSING; S_CANCELING] -> has_active_tasks (c_ws (si_c s)) = true.
Proof.
  intros ops s Hf Hw Hin.
  assert (F : pfull_inv s).
  { apply (pfull_run ev ops _ (isys_init_inv2 sp g inputs parent)). intros _. left. split; reflexivity. }
  destruct (F (ibad_false _ Hf Hw)) as [[_ Hws]|[_ [_ [_ P]]]].
  - exfalso. rewrite Hws in Hin. simpl in Hin. intuition discriminate.
  - apply has_active_HA. exact (P Hin).
Qed.

(* no task record ever has a status the protocol does not use *)
Theorem records_use_item_statuses : forall ops, let s := ireach ev sp g inputs parent ops in
  si_fault s = false -> si_wiped s = false ->
  forall i rec, nth_error (sequence (c_ws (si_c s))) i = Some rec -> ostatus_in (r_status rec) UNUSED_STATUSES = false /\ r_status rec <> Some S_UNSET.
Proof.
  intros ops s Hf Hw.
  assert (F : pfull_inv s).
  { apply (pfull_run ev ops _ (isys_init_inv2 sp g inputs parent)). intros _. left. split; reflexivity. }
  destruct (F (ibad_false _ Hf Hw)) as [[_ Hws]|[_ [_ [N _]]]].
  - intros i rec E. rewrite Hws in E. destruct i; discriminate E.
  - exact N.
Qed.

End BusyReachable.
