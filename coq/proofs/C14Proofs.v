(* C14Proofs.v -- the composed graph is exactly the definition's tasks and transitions.
   Invariants of the worklist of model/Composer.v:
     Core    node ids unique; every edge is a (task, transition index, target) triple between nodes;
             keys of parallel edges are 0,1,.. in insertion order and no two edges share
             (source, destination, criteria, ref); every node and every name with recorded splits is
             dequeued or still queued; everything touched is reachable from a start task;
     DoneOk  every dequeued task has all its edges and its final barrier / retry attributes; nodes not
             yet dequeued carry no attributes.
   All theorems are conditional on compose returning Val (the fuel sufficed). *)
From Coq Require Import String List Bool ZArith Arith Lia Permutation Sorted OrderedTypeEx.
From Orq Require Import GenSpecMeta Base State Composer ListFacts.
Import ListNotations.
Open Scope string_scope.

Lemma criteria_eqb_eq : forall a b, criteria_eqb a b = true <-> a = b.
Proof.
  intros a b; unfold criteria_eqb; split; intro H.
  - apply json_eqb_true in H. injection H; auto.
  - subst. apply json_eqb_refl.
Qed.


Definition ids (ns : list gnode) : list string := map n_id ns.
Definition id_preserving (f : gnode -> gnode) : Prop := forall n, n_id (f n) = n_id n.

Lemma has_node_in : forall t ns, has_node t ns = true <-> In t (ids ns).
Proof.
  intros t ns; unfold has_node, ids. rewrite existsb_exists, in_map_iff. split.
  - intros [n [Hn He]]. apply String.eqb_eq in He. exists n; auto.
  - intros [n [He Hn]]. exists n; split; [exact Hn|]. apply String.eqb_eq; exact He.
Qed.

Lemma has_node_false : forall t ns, has_node t ns = false <-> ~ In t (ids ns).
Proof.
  intros t ns. rewrite <- has_node_in. destruct (has_node t ns); split; intro H; try discriminate; auto.
  exfalso; apply H; reflexivity.
Qed.

Lemma ids_upd_node : forall t f ns, id_preserving f -> ids (upd_node t f ns) = ids ns.
Proof.
  intros t f ns Hf; unfold ids, upd_node. rewrite map_map. apply map_ext.
  intro n. destruct (String.eqb (n_id n) t); [apply Hf|reflexivity].
Qed.

Lemma ids_add_node : forall t ns,
  ids (add_node t ns) = if has_node t ns then ids ns else app (ids ns) [t].
Proof.
  intros t ns; unfold add_node. destruct (has_node t ns); [reflexivity|].
  unfold ids. rewrite map_app. reflexivity.
Qed.

Lemma in_ids_add_node : forall x t ns, In x (ids (add_node t ns)) <-> x = t \/ In x (ids ns).
Proof.
  intros x t ns. rewrite ids_add_node. destruct (has_node t ns) eqn:E.
  - apply has_node_in in E. split; [auto|]. intros [H|H]; subst; auto.
  - rewrite in_app_iff; simpl. intuition.
Qed.

Lemma nodup_add_node : forall t ns, NoDup (ids ns) -> NoDup (ids (add_node t ns)).
Proof.
  intros t ns H. rewrite ids_add_node. destruct (has_node t ns) eqn:E; [exact H|].
  apply has_node_false in E. apply NoDup_snoc; assumption.
Qed.

Lemma in_upd_node : forall n t f ns, In n (upd_node t f ns) ->
  (In n ns /\ n_id n <> t) \/ (exists m, In m ns /\ n_id m = t /\ n = f m).
Proof.
  intros n t f ns H. unfold upd_node in H. apply in_map_iff in H. destruct H as [m [He Hm]].
  destruct (String.eqb (n_id m) t) eqn:E.
  - right. apply String.eqb_eq in E. exists m. auto.
  - left. subst. split; [exact Hm|]. intro C. rewrite C, String.eqb_refl in E. discriminate.
Qed.

Lemma in_add_node : forall n d ns, In n (add_node d ns) -> In n ns \/ (n = mk_node d /\ ~ In d (ids ns)).
Proof.
  intros n d ns H. unfold add_node in H. destruct (has_node d ns) eqn:E; [auto|].
  apply in_app_or in H. destruct H as [H|[H|[]]]; [auto|]. right. split; [auto|]. apply has_node_false; exact E.
Qed.

Lemma id_pres_barrier : forall b, id_preserving (n_set_barrier b). Proof. intros b n; reflexivity. Qed.
Lemma id_pres_splits : forall s, id_preserving (n_set_splits s). Proof. intros s n; reflexivity. Qed.
Lemma id_pres_retry : forall r, id_preserving (n_set_retry r). Proof. intros r n; reflexivity. Qed.

Definition ident1 (e : gedge) := (e_src e, e_dst e, e_criteria e, e_ref e).

Definition keyed (es : list gedge) : Prop :=
  (forall s d, map e_key (filter (edge_between s d) es) = seq 0 (length (filter (edge_between s d) es)))
  /\ NoDup (map ident1 es).

Lemma edge_between_iff : forall s d e, edge_between s d e = true <-> e_src e = s /\ e_dst e = d.
Proof.
  intros s d e; unfold edge_between. rewrite andb_true_iff, !String.eqb_eq. tauto.
Qed.

Lemma edge_matches_iff : forall s d c r e,
  edge_matches s d c r e = true <-> e_src e = s /\ e_dst e = d /\ e_criteria e = c /\ e_ref e = r.
Proof.
  intros s d c r e; unfold edge_matches.
  rewrite !andb_true_iff, edge_between_iff, criteria_eqb_eq, Nat.eqb_eq. tauto.
Qed.

Lemma keyed_nil : keyed [].
Proof. split; [intros; reflexivity|constructor]. Qed.

Lemma keyed_snoc : forall es s d c r,
  keyed es -> filter (edge_matches s d c r) es = [] ->
  keyed (app es [{| e_src := s; e_dst := d; e_key := length (filter (edge_between s d) es);
                    e_ref := r; e_criteria := c |}]).
Proof.
  intros es s d c r [K U] Hnone. split.
  - intros s' d'. rewrite filter_app, map_app, app_length. simpl.
    destruct (edge_between s' d' _) eqn:E.
    + apply edge_between_iff in E. simpl in E. destruct E as [E1 E2]. subst s' d'.
      simpl. rewrite K. rewrite Nat.add_1_r. rewrite seq_S. reflexivity.
    + simpl. rewrite app_nil_r, Nat.add_0_r. apply K.
  - rewrite map_app. simpl. apply NoDup_snoc; [exact U|].
    intro Hin. apply in_map_iff in Hin. destruct Hin as [e [He Hin]].
    unfold ident1 in He; simpl in He. injection He as E1 E2 E3 E4.
    assert (M : edge_matches s d c r e = true) by (apply edge_matches_iff; auto).
    assert (In e (filter (edge_matches s d c r) es)) as F by (apply filter_In; auto).
    rewrite Hnone in F. exact F.
Qed.

Lemma enqueue_spec : forall w d splits,
  let w' := enqueue w d splits in
  w_nodes w' = w_nodes w /\ w_edges w' = w_edges w /\ w_done w' = w_done w /\
  ((w_queue w' = w_queue w /\ w_track w' = w_track w /\
    exists s, aget String.eqb d (w_track w) = Some s /\ s <> [])
   \/ (w_queue w' = app (w_queue w) [(d, splits)] /\
       exists v, w_track w' = aset String.eqb d v (w_track w))).
Proof.
  intros w d splits. unfold enqueue.
  destruct (aget String.eqb d (w_track w)) as [s|] eqn:E.
  - destruct s as [|x s].
    + simpl. repeat split. right. split; [reflexivity|eauto].
    + destruct (set_subset splits (x :: s)).
      * repeat split. left. repeat split. exists (x :: s). split; [reflexivity|discriminate].
      * simpl. repeat split. right. split; [reflexivity|eauto].
  - simpl. repeat split. right. split; [reflexivity|eauto].
Qed.

Lemma add_transition_spec : forall w s d c r,
  let w' := add_transition w s d c r in
  w_track w' = w_track w /\ w_queue w' = w_queue w /\ w_done w' = w_done w /\
  ((w_nodes w' = w_nodes w /\ w_edges w' = w_edges w /\
    exists e, In e (w_edges w) /\ edge_matches s d c r e = true)
   \/ (w_nodes w' = add_node d (add_node s (w_nodes w)) /\
       filter (edge_matches s d c r) (w_edges w) = [] /\
       w_edges w' = app (w_edges w)
                        [{| e_src := s; e_dst := d; e_key := length (filter (edge_between s d) (w_edges w));
                            e_ref := r; e_criteria := c |}])).
Proof.
  intros w s d c r. unfold add_transition.
  destruct (filter (edge_matches s d c r) (w_edges w)) as [|e l] eqn:E.
  - simpl. repeat split. right. repeat split.
  - repeat split. left. repeat split. exists e.
    assert (In e (filter (edge_matches s d c r) (w_edges w))) as F by (rewrite E; left; reflexivity).
    apply filter_In in F. exact F.
Qed.


Definition triple_ok (sp : wf_spec) (e : gedge) : Prop :=
  exists w, In (e_dst e, w, e_ref e) (spec_next_tasks sp (e_src e))
            /\ e_dst e <> "retry" /\ e_criteria e = crta_of w.

Inductive reach (sp : wf_spec) : string -> Prop :=
  | reach_start : forall t, In t (spec_start_tasks sp) -> reach sp t
  | reach_step : forall t d w i, reach sp t -> In (d, w, i) (spec_next_tasks sp t) -> d <> "retry" ->
                 reach sp d.

Definition qnames (w : cwork) : list string := map fst (w_queue w).

Definition seen (w : cwork) (x : string) : Prop := In x (w_done w) \/ In x (qnames w).

Record Core (sp : wf_spec) (w : cwork) : Prop := {
  co_nodup : NoDup (ids (w_nodes w));
  co_sound : forall e, In e (w_edges w) ->
             triple_ok sp e /\ In (e_src e) (ids (w_nodes w)) /\ In (e_dst e) (ids (w_nodes w));
  co_keyed : keyed (w_edges w);
  co_nodes : forall x, In x (ids (w_nodes w)) -> seen w x;
  co_track : forall d s, aget String.eqb d (w_track w) = Some s -> s <> [] -> seen w d;
  co_reach : forall x, seen w x -> reach sp x;
  co_start : forall s, In s (spec_start_tasks sp) -> seen w s;
  co_done : forall t, In t (w_done w) -> In t (ids (w_nodes w)) }.

Lemma seen_same : forall w w' x, w_done w' = w_done w -> w_queue w' = w_queue w -> seen w' x <-> seen w x.
Proof. intros w w' x Ed Eq. unfold seen, qnames. now rewrite Ed, Eq. Qed.

Lemma seen_queued : forall w w' d s x, w_done w' = w_done w -> w_queue w' = app (w_queue w) [(d, s)] ->
  seen w' x <-> seen w x \/ x = d.
Proof.
  intros w w' d s x Ed Eq. unfold seen, qnames. rewrite Ed, Eq, map_app, in_app_iff. simpl. intuition.
Qed.

Lemma seen_empty : forall w x, w_queue w = [] -> seen w x -> In x (w_done w).
Proof. intros w x Hq [H|H]; [exact H|]. unfold qnames in H. rewrite Hq in H. contradiction. Qed.

Lemma core_same : forall sp w w', w_nodes w' = w_nodes w -> w_edges w' = w_edges w ->
  w_track w' = w_track w -> w_done w' = w_done w -> (forall x, seen w' x <-> seen w x) ->
  Core sp w -> Core sp w'.
Proof.
  intros sp w w' En Ee Et Ed S [c1 c2 c3 c4 c5 c6 c7 c8].
  constructor; rewrite ?En, ?Ee, ?Et, ?Ed; try assumption.
  - intros x Hx. apply S, c4, Hx.
  - intros d s H1 H2. apply S. exact (c5 d s H1 H2).
  - intros x Hx. apply c6, S, Hx.
  - intros s Hs. apply S, c7, Hs.
Qed.

Lemma head_reach : forall sp w t s q', Core sp w -> w_queue w = (t, s) :: q' -> reach sp t.
Proof.
  intros sp w t s q' C Eq. apply (co_reach sp w C). right. unfold qnames. rewrite Eq. left. reflexivity.
Qed.

Lemma in_next_sorted : forall sp t nx, In nx (spec_next_sorted sp t) <-> In nx (spec_next_tasks sp t).
Proof. intros. apply in_sort_by. Qed.

Lemma enqueue_core : forall sp w d splits, Core sp w -> reach sp d ->
  Core sp (enqueue w d splits) /\ seen (enqueue w d splits) d.
Proof.
  intros sp w d splits C Hd.
  destruct (enqueue_spec w d splits) as [En [Ee [Ed Hq]]].
  destruct Hq as [[Eq [Et [s [H1 H2]]]]|[Eq [v Et]]].
  - pose proof (fun x => seen_same w _ x Ed Eq) as S.
    split; [exact (core_same sp w _ En Ee Et Ed S C) | apply S; exact (co_track sp w C d s H1 H2)].
  - destruct C as [c1 c2 c3 c4 c5 c6 c7 c8]. pose proof (fun x => seen_queued w _ d splits x Ed Eq) as S.
    split; [|apply S; right; reflexivity].
    constructor; rewrite ?En, ?Ee, ?Ed; try assumption.
    + intros x Hx. apply S. left. exact (c4 x Hx).
    + intros d' s. rewrite Et, (aget_aset String.eqb String.eqb_eq). destruct (String.eqb d' d) eqn:E.
      * apply String.eqb_eq in E. subst d'. intros _ _. apply S. right. reflexivity.
      * intros H1 H2. apply S. left. exact (c5 d' s H1 H2).
    + intros x Hx. apply S in Hx. destruct Hx as [Hx | ->]; [exact (c6 x Hx) | exact Hd].
    + intros s Hs. apply S. left. exact (c7 s Hs).
Qed.

Lemma add_transition_core : forall sp w s d cond r,
  Core sp w -> In s (ids (w_nodes w)) -> reach sp d -> seen w d ->
  In (d, cond, r) (spec_next_tasks sp s) -> d <> "retry" ->
  Core sp (add_transition w s d (crta_of cond) r).
Proof.
  intros sp w s d cond r C Hs Hd Hdq Htr Hnr.
  destruct (add_transition_spec w s d (crta_of cond) r) as [Et [Eq [Ed Hc]]].
  pose proof (fun x => seen_same w _ x Ed Eq) as S.
  destruct Hc as [[En [Ee _]]|[En [Hnone Ee]]]; [exact (core_same sp w _ En Ee Et Ed S C)|].
  destruct C as [c1 c2 c3 c4 c5 c6 c7 c8].
  assert (Hin : forall x, In x (ids (w_nodes (add_transition w s d (crta_of cond) r))) <->
                            x = d \/ In x (ids (w_nodes w))).
  { intro x. rewrite En, !in_ids_add_node. split; [|tauto].
    intros [H|[H|H]]; [auto| |auto]. subst x. auto. }
  constructor; rewrite ?Ed, ?Et.
  - rewrite En. apply nodup_add_node, nodup_add_node. exact c1.
  - intros e He. rewrite Ee in He. apply in_app_or in He. rewrite !Hin.
    destruct He as [He|[He|[]]].
    + destruct (c2 e He) as [H1 [H2 H3]]. auto.
    + subst e; simpl. split; [|auto]. exists cond. simpl. auto.
  - rewrite Ee. apply keyed_snoc; assumption.
  - intros x Hx. apply S. apply Hin in Hx. destruct Hx as [-> | Hx]; [exact Hdq | exact (c4 x Hx)].
  - intros d' s' H1 H2. apply S. exact (c5 d' s' H1 H2).
  - intros x Hx. apply c6, S, Hx.
  - intros s' Hs'. apply S. exact (c7 s' Hs').
  - intros t Ht. apply Hin. right. apply c8. exact Ht.
Qed.

Lemma set_nodes_core : forall sp w t f, id_preserving f -> Core sp w ->
  Core sp (w_set_nodes w (upd_node t f (w_nodes w))).
Proof.
  intros sp w t f Hf [c1 c2 c3 c4 c5 c6 c7 c8].
  constructor; simpl; rewrite ?(ids_upd_node t f _ Hf); assumption.
Qed.

Lemma fold_step_exc : forall sp t splits l e, fold_left (step_next sp t splits) l (Exc e) = Exc e.
Proof. intros sp t splits l e; induction l as [|x l IH]; simpl; [reflexivity|exact IH]. Qed.

Lemma step_next_cases : forall sp t splits w nx w',
  step_next sp t splits (Val w) nx = Val w' ->
  (nt_name nx = "retry" /\
   w' = w_set_nodes w (upd_node t (n_set_retry (retry_cmd (snd (fst nx)))) (w_nodes w)))
  \/ (nt_name nx <> "retry" /\ exists skip : bool,
        (skip = true -> has_node (nt_name nx) (w_nodes w) = true) /\
        (if has_node (nt_name nx) (w_nodes w) then in_cycle_r sp (nt_name nx) else Val false) = Val skip /\
        w' = add_transition (if skip then w else enqueue w (nt_name nx) splits) t (nt_name nx)
                            (crta_of (snd (fst nx))) (snd nx)).
Proof.
  intros sp t splits w nx w' H. unfold step_next in H.
  destruct (String.eqb (nt_name nx) "retry") eqn:Er.
  - left. apply String.eqb_eq in Er. injection H as H. auto.
  - right. apply String.eqb_neq in Er. split; [exact Er|].
    destruct (if has_node _ _ then _ else _) as [skip|e] eqn:Es; [|discriminate].
    injection H as H. exists skip. split; [|auto].
    intros ->. destruct (has_node (nt_name nx) (w_nodes w)); [reflexivity | discriminate].
Qed.

Lemma target_frame : forall w d splits (skip : bool),
  let w1 := if skip then w else enqueue w d splits in
  w_nodes w1 = w_nodes w /\ w_done w1 = w_done w /\ w_edges w1 = w_edges w.
Proof.
  intros w d splits [|]; [auto|]. destruct (enqueue_spec w d splits) as [A [B [D _]]]. auto.
Qed.

Lemma target_core : forall sp w d splits (skip : bool), Core sp w -> reach sp d ->
  (skip = true -> has_node d (w_nodes w) = true) ->
  let w1 := if skip then w else enqueue w d splits in Core sp w1 /\ seen w1 d.
Proof.
  intros sp w d splits [|] C Hd Hs; cbv zeta; [|now apply enqueue_core].
  split; [exact C|]. apply (co_nodes sp w C), has_node_in, Hs. reflexivity.
Qed.

Lemma step_next_core : forall sp t splits w nx w',
  Core sp w -> In t (ids (w_nodes w)) -> reach sp t -> In nx (spec_next_tasks sp t) ->
  step_next sp t splits (Val w) nx = Val w' ->
  Core sp w' /\ w_done w' = w_done w /\ (forall x, In x (ids (w_nodes w)) -> In x (ids (w_nodes w'))).
Proof.
  intros sp t splits w nx w' C Ht Hr Hnx H.
  destruct (step_next_cases _ _ _ _ _ _ H) as [[_ ->] | [Hnr [skip [Hs [_ ->]]]]].
  - split; [apply set_nodes_core; [apply id_pres_retry|exact C]|].
    split; [reflexivity|]. intros x Hx. simpl. rewrite ids_upd_node; [exact Hx|apply id_pres_retry].
  - destruct nx as [[d cond] idx]. unfold nt_name in *. cbn [fst snd] in *.
    assert (Hd : reach sp d) by (eapply reach_step; eauto).
    destruct (target_frame w d splits skip) as [N1 [D1 _]].
    destruct (target_core sp w d splits skip C Hd Hs) as [C1 M1].
    set (w1 := if skip then w else enqueue w d splits) in *.
    split; [apply add_transition_core; try assumption; rewrite N1; exact Ht|].
    destruct (add_transition_spec w1 t d (crta_of cond) idx) as [_ [_ [Ed Hc]]].
    split; [rewrite Ed; exact D1|].
    intros x Hx. destruct Hc as [[En _]|[En _]]; rewrite En, ?N1; [exact Hx|].
    apply in_ids_add_node. right. apply in_ids_add_node. right. exact Hx.
Qed.

(* [pre] is the part of the list already processed *)
Lemma fold_step_inv : forall sp t splits (P : list (string * json * nat) -> cwork -> Prop) l w w',
  Core sp w -> In t (ids (w_nodes w)) -> reach sp t -> (forall nx, In nx l -> In nx (spec_next_tasks sp t)) ->
  P [] w ->
  (forall pre nx w1 w2, In nx l -> Core sp w1 -> In t (ids (w_nodes w1)) -> w_done w1 = w_done w ->
     P pre w1 -> step_next sp t splits (Val w1) nx = Val w2 -> P (app pre [nx]) w2) ->
  fold_left (step_next sp t splits) l (Val w) = Val w' ->
  Core sp w' /\ w_done w' = w_done w /\ (forall x, In x (ids (w_nodes w)) -> In x (ids (w_nodes w'))) /\ P l w'.
Proof.
  intros sp t splits P l w w' C Ht Hr Hl P0 Hstep H.
  enough (G : forall pre w1, Core sp w1 -> In t (ids (w_nodes w1)) -> w_done w1 = w_done w ->
              (forall x, In x (ids (w_nodes w)) -> In x (ids (w_nodes w1))) -> P pre w1 ->
              forall rest, (forall nx, In nx rest -> In nx l) ->
              fold_left (step_next sp t splits) rest (Val w1) = Val w' ->
              Core sp w' /\ w_done w' = w_done w /\
              (forall x, In x (ids (w_nodes w)) -> In x (ids (w_nodes w'))) /\ P (app pre rest) w').
  { apply (G [] w C Ht eq_refl (fun x Hx => Hx) P0 l (fun nx Hnx => Hnx) H). }
  intros pre w1 C1 Ht1 D1 S1 P1 rest. revert pre w1 C1 Ht1 D1 S1 P1.
  induction rest as [|nx rest IH]; intros pre w1 C1 Ht1 D1 S1 P1 Hsub H1; cbn [fold_left] in H1.
  - injection H1 as <-. rewrite app_nil_r. auto.
  - destruct (step_next sp t splits (Val w1) nx) as [w2|e] eqn:E; [|rewrite fold_step_exc in H1; discriminate].
    pose proof (Hsub nx (or_introl eq_refl)) as Hnx.
    destruct (step_next_core sp t splits w1 nx w2 C1 Ht1 Hr (Hl nx Hnx) E) as [C2 [D2 S2]].
    replace (app pre (nx :: rest)) with (app (app pre [nx]) rest) by (now rewrite <- app_assoc).
    apply (IH (app pre [nx]) w2 C2 (S2 t Ht1)); [congruence | auto | eauto | |exact H1].
    intros y Hy. apply Hsub. right. exact Hy.
Qed.

Definition complete_for (sp : wf_spec) (es : list gedge) (t : string) : Prop :=
  forall d w i, In (d, w, i) (spec_next_tasks sp t) -> d <> "retry" ->
    exists e, In e es /\ e_src e = t /\ e_dst e = d /\ e_ref e = i /\ e_criteria e = crta_of w.

Definition retry_upd (acc : json) (nx : string * json * nat) : json :=
  if String.eqb (nt_name nx) "retry" then retry_cmd (snd (fst nx)) else acc.

(* the declared retry spec, overridden by the last retry command among the (name-sorted) transitions *)
Definition exp_retry (sp : wf_spec) (rt : list (string * json)) (t : string) : json :=
  fold_left retry_upd (spec_next_sorted sp t)
            (match aget String.eqb t rt with Some r => r | None => JNull end).

Definition exp_barrier (sp : wf_spec) (t : string) : json :=
  match spec_get_task sp t with
  | Some ts => if is_jnull (ts_join ts) then JNull else barrier_of ts
  | None => JNull
  end.

Definition attrs_ok (sp : wf_spec) (rt : list (string * json)) (n : gnode) : Prop :=
  n_barrier n = exp_barrier sp (n_id n) /\ n_retry n = exp_retry sp rt (n_id n).

(* X: the task being processed (its edges and attributes are not final yet) *)
Record DoneOk (sp : wf_spec) (rt : list (string * json)) (X : list string) (w : cwork) : Prop := {
  do_complete : forall t, In t (w_done w) -> ~ In t X -> complete_for sp (w_edges w) t;
  do_attrs : forall n, In n (w_nodes w) -> In (n_id n) (w_done w) -> ~ In (n_id n) X -> attrs_ok sp rt n;
  do_fresh : forall n, In n (w_nodes w) -> ~ In (n_id n) (w_done w) -> n = mk_node (n_id n) }.

Lemma complete_for_mono : forall sp es es' t,
  (forall e, In e es -> In e es') -> complete_for sp es t -> complete_for sp es' t.
Proof.
  intros sp es es' t Hsub H d w i Hin Hnr. destruct (H d w i Hin Hnr) as [e [He Hp]]. exists e. auto.
Qed.

Definition edge_for (t : string) (es : list gedge) (nx : string * json * nat) : Prop :=
  exists e, In e es /\ e_src e = t /\ e_dst e = nt_name nx /\ e_ref e = snd nx
            /\ e_criteria e = crta_of (snd (fst nx)).

Lemma step_next_shape : forall sp t splits w nx w',
  step_next sp t splits (Val w) nx = Val w' ->
  w_done w' = w_done w /\ (forall e, In e (w_edges w) -> In e (w_edges w')) /\
  ((nt_name nx = "retry" /\ w_nodes w' = upd_node t (n_set_retry (retry_cmd (snd (fst nx)))) (w_nodes w))
   \/ (nt_name nx <> "retry" /\
       (w_nodes w' = w_nodes w \/ w_nodes w' = add_node (nt_name nx) (add_node t (w_nodes w))) /\
       edge_for t (w_edges w') nx)).
Proof.
  intros sp t splits w nx w' H.
  destruct (step_next_cases _ _ _ _ _ _ H) as [[Er ->] | [Hnr [skip [_ [_ ->]]]]].
  - simpl. auto.
  - destruct (target_frame w (nt_name nx) splits skip) as [N1 [D1 E1]].
    set (w1 := if skip then w else enqueue w (nt_name nx) splits) in *.
    destruct (add_transition_spec w1 t (nt_name nx) (crta_of (snd (fst nx))) (snd nx)) as [_ [_ [Ed Hc]]].
    split; [rewrite Ed; exact D1|].
    destruct Hc as [[En [Ee [e [He Hm]]]]|[En [_ Ee]]]; rewrite Ee, En, ?N1, E1.
    + split; [auto|]. right. split; [exact Hnr|]. split; [left; reflexivity|].
      exists e. rewrite <- E1. apply edge_matches_iff in Hm. destruct Hm as [M1 [M2 [M3 M4]]]. auto.
    + split; [intros e0 H0; apply in_or_app; left; exact H0|]. right. split; [exact Hnr|].
      split; [right; reflexivity|].
      eexists. split; [apply in_or_app; right; left; reflexivity|]. simpl. auto.
Qed.

Lemma step_next_doneok : forall sp rt t splits w nx w',
  Core sp w -> In t (w_done w) -> DoneOk sp rt [t] w ->
  step_next sp t splits (Val w) nx = Val w' -> DoneOk sp rt [t] w'.
Proof.
  intros sp rt t splits w nx w' C Ht [d1 d2 d3] H.
  destruct (step_next_shape sp t splits w nx w' H) as [Ed [Hmono Hc]].
  constructor; rewrite ?Ed.
  - intros t' H1 H2. eapply complete_for_mono; [exact Hmono|]. apply d1; assumption.
  - intros n Hn H1 H2. assert (Hne : n_id n <> t) by (intro E; apply H2; left; auto).
    destruct Hc as [[_ En]|[_ [[En|En] _]]]; rewrite En in Hn.
    + apply in_upd_node in Hn. destruct Hn as [[Hn _]|[m [_ [Hid ->]]]]; [now apply d2 | contradiction].
    + now apply d2.
    + apply in_add_node in Hn. destruct Hn as [Hn|[-> Hd]].
      * apply in_add_node in Hn. destruct Hn as [Hn|[-> Hd]]; [now apply d2|].
        exfalso. apply Hd, (co_done sp w C). exact H1.
      * exfalso. apply Hd, in_ids_add_node. right. apply (co_done sp w C). exact H1.
  - intros n Hn Hnd. destruct Hc as [[_ En]|[_ [[En|En] _]]]; rewrite En in Hn.
    + apply in_upd_node in Hn. destruct Hn as [[Hn _]|[m [Hm [Hid Hf]]]]; [apply d3; assumption|].
      exfalso. apply Hnd. subst n. simpl. rewrite Hid. exact Ht.
    + apply d3; assumption.
    + apply in_add_node in Hn. destruct Hn as [Hn|[Hn _]]; [|subst n; reflexivity].
      apply in_add_node in Hn. destruct Hn as [Hn|[Hn _]]; [apply d3; assumption|subst n; reflexivity].
Qed.

(* S holds of the node of t when the loop starts *)
Definition inner_inv (sp : wf_spec) (rt : list (string * json)) (t : string) (S : gnode -> Prop)
           (pre : list (string * json * nat)) (w : cwork) : Prop :=
  In t (w_done w) /\ DoneOk sp rt [t] w
  /\ (forall nx, In nx pre -> nt_name nx <> "retry" -> edge_for t (w_edges w) nx)
  /\ forall n', In n' (w_nodes w) -> n_id n' = t ->
       exists n, S n /\ n_retry n' = fold_left retry_upd pre (n_retry n) /\ n_barrier n' = n_barrier n.

Lemma step_next_inner : forall sp rt t splits S pre nx w1 w2,
  Core sp w1 -> In t (ids (w_nodes w1)) -> inner_inv sp rt t S pre w1 ->
  step_next sp t splits (Val w1) nx = Val w2 -> inner_inv sp rt t S (app pre [nx]) w2.
Proof.
  intros sp rt t splits S pre nx w1 w2 C Hi [Ht [D [He Hnode]]] H.
  destruct (step_next_shape sp t splits w1 nx w2 H) as [Ed [Hmono Hc]].
  split; [rewrite Ed; exact Ht|]. split; [exact (step_next_doneok sp rt t splits w1 nx w2 C Ht D H)|]. split.
  - intros nx' Hin Hnr. apply in_app_or in Hin. destruct Hin as [Hin|[<-|[]]].
    + destruct (He nx' Hin Hnr) as [e [Hi' Hp]]. exists e. auto.
    + destruct Hc as [[Hr _]|[_ [_ Hedge]]]; [contradiction | exact Hedge].
  - assert (Hf : forall x, fold_left retry_upd (app pre [nx]) x = retry_upd (fold_left retry_upd pre x) nx)
      by (intro x; now rewrite fold_left_app).
    intros n' Hn' Hid. destruct Hc as [[Hr En]|[Hnr [[En|En] _]]]; rewrite En in Hn'.
    + apply in_upd_node in Hn'. destruct Hn' as [[_ Hne]|[m [Hm [Hmt ->]]]]; [contradiction|].
      destruct (Hnode m Hm Hmt) as [n [S0 [_ B0]]]. exists n. rewrite Hf. unfold retry_upd at 1.
      rewrite Hr. simpl. auto.
    + destruct (Hnode n' Hn' Hid) as [n [S0 [R0 B0]]]. exists n. rewrite Hf. unfold retry_upd at 1.
      apply String.eqb_neq in Hnr. rewrite Hnr. auto.
    + assert (Hold : In n' (w_nodes w1)).
      { apply in_add_node in Hn'. destruct Hn' as [Hn'|[-> Hd]].
        - apply in_add_node in Hn'. destruct Hn' as [Hn'|[-> Hd]]; [exact Hn'|]. contradiction.
        - exfalso. apply Hd, in_ids_add_node. right. simpl in Hid. rewrite Hid. exact Hi. }
      destruct (Hnode n' Hold Hid) as [n [S0 [R0 B0]]]. exists n. rewrite Hf. unfold retry_upd at 1.
      apply String.eqb_neq in Hnr. rewrite Hnr. auto.
Qed.

Lemma retry_fold_absorb : forall l,
  (forall x, fold_left retry_upd l x = x) \/ (forall x y, fold_left retry_upd l x = fold_left retry_upd l y).
Proof.
  induction l as [|nx l IH]; [left; reflexivity|]. simpl. unfold retry_upd at 2 4 6.
  destruct (String.eqb (nt_name nx) "retry"); [right; reflexivity|exact IH].
Qed.

Lemma retry_fold_idem : forall l x, x = JNull \/ x = fold_left retry_upd l JNull ->
  fold_left retry_upd l x = fold_left retry_upd l JNull.
Proof.
  intros l x [H|H]; [subst; reflexivity|]. destruct (retry_fold_absorb l) as [A|A]; [|apply A].
  rewrite !A. rewrite H. apply A.
Qed.

Lemma upd_node_id : forall t ns, upd_node t (fun n => n) ns = ns.
Proof.
  intros t ns; unfold upd_node. rewrite <- (map_id ns) at 2. apply map_ext.
  intro n; destruct (String.eqb (n_id n) t); reflexivity.
Qed.

Lemma upd_node_comp : forall t f g ns, id_preserving g ->
  upd_node t f (upd_node t g ns) = upd_node t (fun n => f (g n)) ns.
Proof.
  intros t f g ns Hg; unfold upd_node. rewrite map_map. apply map_ext. intro n.
  destruct (String.eqb (n_id n) t) eqn:E; [rewrite Hg, E; reflexivity|rewrite E; reflexivity].
Qed.

Definition popped (w : cwork) (q' : list qitem) : cwork :=
  {| w_nodes := w_nodes w; w_edges := w_edges w; w_track := w_track w; w_queue := q'; w_done := w_done w |}.

Definition started (w : cwork) (t : string) (F : gnode -> gnode) : cwork :=
  {| w_nodes := upd_node t F (add_node t (w_nodes w)); w_edges := w_edges w; w_track := w_track w;
     w_queue := w_queue w; w_done := t :: w_done w |}.

Lemma process_shape : forall sp rt w t splits w',
  process sp rt w t splits = Val w' ->
  exists ts F splits', spec_get_task sp t = Some ts /\ id_preserving F /\
    (forall n, n_barrier (F n) = if spec_is_join_task sp t then barrier_of ts else n_barrier n) /\
    (forall n, n_retry (F n) = match aget String.eqb t rt with Some r => r | None => n_retry n end) /\
    fold_left (step_next sp t splits') (spec_next_sorted sp t) (Val (started w t F)) = Val w'.
Proof.
  intros sp rt w t splits w' H. unfold process in H.
  destruct (spec_get_task sp t) as [ts|] eqn:Ets; [|discriminate].
  destruct (if spec_is_split_task sp t then in_cycle_r sp t else Val true) as [cyc|e]; [|discriminate].
  set (splits' := if cyc then splits else app splits [t]) in *.
  set (f2 := if spec_is_join_task sp t then n_set_barrier (barrier_of ts) else fun n => n).
  set (f3 := match splits' with [] => fun n => n | _ => n_set_splits splits' end).
  set (f4 := match aget String.eqb t rt with Some r => n_set_retry r | None => fun n : gnode => n end).
  assert (I2 : id_preserving f2) by (unfold f2; destruct (spec_is_join_task sp t); intro n; reflexivity).
  assert (I3 : id_preserving f3) by (unfold f3; destruct splits'; intro n; reflexivity).
  assert (I4 : id_preserving f4) by (unfold f4; destruct (aget String.eqb t rt); intro n; reflexivity).
  exists ts, (fun n => f4 (f3 (f2 n))), splits'.
  split; [reflexivity|]. split; [intro n; rewrite I4, I3, I2; reflexivity|].
  split; [intro n; unfold f4, f3, f2; destruct (aget String.eqb t rt); destruct splits';
          destruct (spec_is_join_task sp t); reflexivity|].
  split; [intro n; unfold f4, f3, f2; destruct (aget String.eqb t rt); destruct splits';
          destruct (spec_is_join_task sp t); reflexivity|].
  match type of H with
  | match fold_left _ _ (Val {| w_nodes := ?ns; w_edges := _; w_track := _; w_queue := _; w_done := _ |}) with _ => _ end = _ =>
      assert (Hns : ns = upd_node t (fun n => f4 (f3 (f2 n))) (add_node t (w_nodes w)))
  end.
  { rewrite <- (upd_node_comp t f4 (fun n => f3 (f2 n))); [|intro n; rewrite I3, I2; reflexivity].
    rewrite <- (upd_node_comp t f3 f2); [|exact I2].
    unfold f4, f3, f2. destruct (aget String.eqb t rt); destruct splits'; destruct (spec_is_join_task sp t);
      rewrite ?upd_node_id; reflexivity. }
  rewrite Hns in H. unfold started.
  destruct (fold_left _ _ _) as [w2|e]; [|discriminate]. exact H.
Qed.

Lemma seen_pop : forall w t s q' F x, w_queue w = (t, s) :: q' ->
  seen (started (popped w q') t F) x <-> seen w x.
Proof. intros w t s q' F x Hq. unfold seen, qnames. simpl. rewrite Hq. simpl. intuition. Qed.

Lemma pop_core : forall sp w t splits q' F,
  Core sp w -> w_queue w = (t, splits) :: q' -> id_preserving F -> Core sp (started (popped w q') t F).
Proof.
  intros sp w t splits q' F [c1 c2 c3 c4 c5 c6 c7 c8] Hq HF.
  pose proof (fun x => seen_pop w t splits q' F x Hq) as S.
  assert (Hin : forall x, In x (ids (w_nodes (started (popped w q') t F))) <-> x = t \/ In x (ids (w_nodes w))).
  { intro x. simpl. rewrite ids_upd_node by exact HF. apply in_ids_add_node. }
  constructor.
  - simpl. rewrite ids_upd_node by exact HF. apply nodup_add_node. exact c1.
  - intros e He. destruct (c2 e He) as [H1 [H2 H3]]. split; [exact H1|]. rewrite !Hin. auto.
  - exact c3.
  - intros x Hx. apply S. apply Hin in Hx. destruct Hx as [-> | Hx]; [|exact (c4 x Hx)].
    right. unfold qnames. rewrite Hq. left. reflexivity.
  - intros d s H1 H2. apply S. exact (c5 d s H1 H2).
  - intros x Hx. apply c6, S, Hx.
  - intros s Hs. apply S, c7, Hs.
  - intros x [Hx|Hx]; apply Hin; [left; auto | right; apply c8; exact Hx].
Qed.

Lemma pop_doneok : forall sp rt w t q' F,
  Core sp w -> DoneOk sp rt [] w -> id_preserving F -> DoneOk sp rt [t] (started (popped w q') t F).
Proof.
  intros sp rt w t q' F C [d1 d2 d3] HF. constructor; simpl.
  - intros t' [H1|H1] H2; [exfalso; apply H2; left; exact H1|]. apply d1; [exact H1|intros []].
  - intros n Hn [H1|H1] H2; [exfalso; apply H2; left; exact H1|].
    apply in_upd_node in Hn. destruct Hn as [[Hn _]|[m [_ [Hid ->]]]].
    + apply in_add_node in Hn. destruct Hn as [Hn|[-> Hd]]; [apply d2; [exact Hn|exact H1|intros []]|].
      exfalso. apply Hd, (co_done sp w C). exact H1.
    + exfalso. apply H2. left. rewrite HF. symmetry. exact Hid.
  - intros n Hn Hnd. apply in_upd_node in Hn. destruct Hn as [[Hn Hid]|[m [Hm [Hid Hf]]]].
    + apply in_add_node in Hn. destruct Hn as [Hn|[Hn _]]; [|subst n; reflexivity].
      apply d3; [exact Hn|]. intro Hd. apply Hnd. right. exact Hd.
    + exfalso. apply Hnd. left. subst n. rewrite HF. auto.
Qed.

Lemma spec_join_barrier : forall sp t ts, spec_get_task sp t = Some ts ->
  exp_barrier sp t = if spec_is_join_task sp t then barrier_of ts else JNull.
Proof.
  intros sp t ts H. unfold exp_barrier, spec_is_join_task. rewrite H.
  destruct (is_jnull (ts_join ts)); reflexivity.
Qed.

Lemma process_inv : forall sp rt w t splits q' w',
  Core sp w -> DoneOk sp rt [] w -> w_queue w = (t, splits) :: q' ->
  process sp rt (popped w q') t splits = Val w' -> Core sp w' /\ DoneOk sp rt [] w'.
Proof.
  intros sp rt w t splits q' w' C D Hq H.
  destruct (process_shape sp rt (popped w q') t splits w' H) as [ts [F [splits' [Ets [HF [HB [HR Hfold]]]]]]].
  set (w1 := started (popped w q') t F) in *.
  assert (C1 : Core sp w1) by (eapply pop_core; eauto).
  assert (Hi : In t (ids (w_nodes w1))).
  { simpl. rewrite ids_upd_node by exact HF. apply in_ids_add_node. auto. }
  pose proof (head_reach sp w t splits q' C Hq) as Hr.
  pose proof (fun nx => proj1 (in_next_sorted sp t nx)) as Hl.
  (* the node of t when its processing starts is new, or carries what an earlier round left *)
  set (start_ok := fun m : gnode => (n_barrier m = JNull \/ n_barrier m = exp_barrier sp t) /\
                                    (n_retry m = JNull \/ n_retry m = exp_retry sp rt t)).
  set (S := fun n : gnode => exists m, n = F m /\ start_ok m).
  assert (P0 : inner_inv sp rt t S [] w1).
  { split; [left; reflexivity|]. split; [apply pop_doneok; assumption|]. split; [intros nx []|].
    intros n' Hn' Hid. simpl in Hn'. apply in_upd_node in Hn'.
    destruct Hn' as [[_ Hne]|[m [Hm [Hmt ->]]]]; [contradiction|].
    exists (F m). split; [|auto]. exists m. split; [reflexivity|]. unfold start_ok.
    apply in_add_node in Hm. destruct Hm as [Hm|[-> _]]; [|simpl; auto].
    destruct (in_dec string_dec t (w_done w)) as [Hd|Hd]; rewrite <- Hmt in Hd.
    - destruct (do_attrs sp rt [] w D m Hm Hd (fun x => x)) as [A1 A2]. rewrite Hmt in A1, A2. auto.
    - rewrite (do_fresh sp rt [] w D m Hm Hd). simpl. auto. }
  destruct (fold_step_inv sp t splits' (inner_inv sp rt t S) _ w1 w' C1 Hi Hr Hl P0) as [C' [_ [_ P']]];
    [|exact Hfold|].
  { intros pre nx wa wb _ Ca Ha _ Pa Hs. exact (step_next_inner sp rt t splits' S pre nx wa wb Ca Ha Pa Hs). }
  split; [exact C'|].
  destruct P' as [_ [[e1 e2 e3] [Hcomp Hnode]]].
  constructor.
  - intros t' H1 _. destruct (string_dec t' t) as [E|E].
    + subst t'. intros d wn i Hin Hnr.
      destruct (Hcomp (d, wn, i) (proj2 (in_next_sorted sp t _) Hin) Hnr) as [e [He Hp]]. exists e. auto.
    + apply e1; [exact H1|]. intros [X|[]]. apply E. auto.
  - intros n Hn H1 _. destruct (string_dec (n_id n) t) as [E|E].
    + destruct (Hnode n Hn E) as [n0 [[m [-> [B0 R0]]] [R' B']]]. unfold attrs_ok. rewrite E. split.
      * rewrite B', HB. rewrite (spec_join_barrier sp t ts Ets).
        destruct (spec_is_join_task sp t) eqn:Ej; [reflexivity|].
        destruct B0 as [B0|B0]; rewrite B0; [reflexivity|].
        rewrite (spec_join_barrier sp t ts Ets), Ej. reflexivity.
      * rewrite R', HR. unfold exp_retry. destruct (aget String.eqb t rt) as [r|] eqn:Er; [reflexivity|].
        apply retry_fold_idem. unfold exp_retry in R0. rewrite Er in R0. exact R0.
    + apply e2; [exact Hn|exact H1|]. intros [X|[]]. apply E. auto.
  - exact e3.
Qed.

Lemma compose_loop_inv : forall sp rt fuel w w',
  Core sp w -> DoneOk sp rt [] w -> compose_loop sp rt fuel w = Val w' ->
  Core sp w' /\ DoneOk sp rt [] w' /\ w_queue w' = [].
Proof.
  intros sp rt fuel; induction fuel as [|f IH]; intros w w' C D H; simpl in H.
  - destruct (w_queue w) as [|[t s] q'] eqn:Eq; [injection H as H; subst; auto|discriminate].
  - destruct (w_queue w) as [|[t s] q'] eqn:Eq; [injection H as H; subst; auto|].
    destruct (process sp rt _ t s) as [w1|e] eqn:Ep; [|discriminate].
    destruct (process_inv sp rt w t s q' w1 C D Eq Ep) as [C1 D1].
    apply (IH w1 w' C1 D1 H).
Qed.

Lemma init_core : forall sp, Core sp (compose_init sp).
Proof.
  intro sp.
  assert (Hq : qnames (compose_init sp) = spec_start_tasks sp).
  { unfold qnames, compose_init; simpl. rewrite map_map. simpl. apply map_id. }
  constructor; unfold seen; rewrite ?Hq; simpl.
  - constructor.
  - intros e [].
  - apply keyed_nil.
  - intros x [].
  - intros d s H; discriminate.
  - intros x [[]|Hx]. apply reach_start. exact Hx.
  - auto.
  - intros t [].
Qed.

Lemma init_doneok : forall sp rt, DoneOk sp rt [] (compose_init sp).
Proof. intros sp rt. constructor; simpl; intros; contradiction. Qed.

Theorem compose_work_inv : forall sp rt fuel w,
  compose_work sp rt fuel = Val w -> Core sp w /\ DoneOk sp rt [] w /\ w_queue w = [].
Proof.
  intros sp rt fuel w H. unfold compose_work in H.
  apply (compose_loop_inv sp rt fuel _ w (init_core sp) (init_doneok sp rt) H).
Qed.

Lemma in_nx_edges : forall e ns es, In e (nx_edges ns es) <-> In e es /\ In (e_src e) (ids ns).
Proof.
  intros e ns es. unfold nx_edges, ids. rewrite in_flat_map. split.
  - intros [n [Hn He]]. apply filter_In in He. destruct He as [He Hs]. apply String.eqb_eq in Hs.
    split; [exact He|]. apply in_map_iff. exists n. auto.
  - intros [He Hs]. apply in_map_iff in Hs. destruct Hs as [n [Hid Hn]]. exists n. split; [exact Hn|].
    apply filter_In. split; [exact He|]. apply String.eqb_eq. auto.
Qed.

Lemma filter_between_src : forall s d t es,
  filter (edge_between s d) (filter (fun e => String.eqb (e_src e) t) es) =
  if String.eqb t s then filter (edge_between s d) es else [].
Proof.
  intros s d t es. induction es as [|e es IH]; simpl; [destruct (String.eqb t s); reflexivity|].
  destruct (String.eqb (e_src e) t) eqn:E1; simpl; rewrite IH; unfold edge_between.
  - apply String.eqb_eq in E1. rewrite E1. rewrite (String.eqb_sym t s).
    destruct (String.eqb s t); simpl; reflexivity.
  - destruct (String.eqb t s) eqn:E2; [|reflexivity]. apply String.eqb_eq in E2. subst t.
    rewrite E1. reflexivity.
Qed.

Lemma filter_between_nx : forall s d ns es, NoDup (ids ns) ->
  filter (edge_between s d) (nx_edges ns es) =
  if has_node s ns then filter (edge_between s d) es else [].
Proof.
  intros s d ns es. induction ns as [|n ns IH]; intro H; [reflexivity|].
  simpl in H. inversion H as [|x l Hx Hl]; subst.
  unfold nx_edges in *. simpl. rewrite filter_app, filter_between_src, IH by exact Hl.
  destruct (String.eqb (n_id n) s) eqn:E; simpl.
  - apply String.eqb_eq in E. subst s.
    destruct (has_node (n_id n) ns) eqn:Eh; [apply has_node_in in Eh; contradiction|]. apply app_nil_r.
  - reflexivity.
Qed.


Lemma nodup_nx_edges : forall ns es, NoDup (ids ns) -> NoDup (map ident1 es) ->
  NoDup (map ident1 (nx_edges ns es)).
Proof.
  intros ns es Hn He. induction ns as [|n ns IH]; [constructor|].
  simpl in Hn. inversion Hn as [|x l Hx Hl]; subst.
  unfold nx_edges in *. simpl. rewrite map_app. apply nodup_app_intro.
  - apply nodup_map_filter. exact He.
  - apply IH. exact Hl.
  - intros x H1 H2. apply in_map_iff in H1. destruct H1 as [e1 [E1 H1]]. apply filter_In in H1.
    destruct H1 as [_ H1]. apply String.eqb_eq in H1.
    apply in_map_iff in H2. destruct H2 as [e2 [E2 H2]].
    apply (in_nx_edges e2 ns es) in H2. destruct H2 as [_ H2].
    apply Hx. subst x. unfold ident1 in E2. injection E2 as S2 _ _ _. rewrite <- H1, <- S2. exact H2.
Qed.

Definition ident2 (e : gedge) := (e_src e, e_dst e, e_key e).

Lemma keys_nodup_ident2 : forall es,
  (forall s d, NoDup (map e_key (filter (edge_between s d) es))) -> NoDup (map ident2 es).
Proof.
  induction es as [|e es IH]; intro H; simpl; [constructor|].
  constructor.
  - intro Hin. apply in_map_iff in Hin. destruct Hin as [e' [E Hin]].
    unfold ident2 in E. injection E as E1 E2 E3.
    pose proof (H (e_src e) (e_dst e)) as K. simpl in K.
    assert (B : edge_between (e_src e) (e_dst e) e = true) by (apply edge_between_iff; auto).
    rewrite B in K. simpl in K. inversion K as [|x l Kx Kl]; subst. apply Kx.
    apply in_map_iff. exists e'. split; [exact E3|]. apply filter_In. split; [exact Hin|].
    apply edge_between_iff. auto.
  - apply IH. intros s d. pose proof (H s d) as K. simpl in K.
    destruct (edge_between s d e); [simpl in K; inversion K; assumption|exact K].
Qed.

Lemma in_start_tasks : forall sp t,
  In t (spec_start_tasks sp) <-> In t (map fst (wf_tasks sp)) /\ spec_prev_count sp t = 0.
Proof.
  intros sp t. unfold spec_start_tasks. rewrite in_sort_by, filter_In, Nat.eqb_eq. tauto.
Qed.


Lemma next_tasks_declared : forall sp s x, In x (spec_next_tasks sp s) -> In s (map fst (wf_tasks sp)).
Proof.
  intros sp s x H. unfold spec_next_tasks, spec_get_task in H.
  destruct (string_in s RESERVED_TASK_NAMES); [simpl in H; contradiction|].
  destruct (aget String.eqb s (wf_tasks sp)) as [ts|] eqn:E; [|contradiction].
  apply (aget_in String.eqb String.eqb_eq) in E. apply in_map_iff. exists (s, ts). auto.
Qed.

Lemma prev_count_pos : forall sp s t w i, In (t, w, i) (spec_next_tasks sp s) -> spec_prev_count sp t <> 0.
Proof.
  intros sp s t w i H. pose proof (next_tasks_declared sp s _ H) as Hs.
  apply in_map_iff in Hs. destruct Hs as [[s' ts] [E Hs]]. simpl in E. subst s'.
  unfold spec_prev_count. intro Hz. apply length_zero_iff_nil in Hz.
  assert (X : In (t, w, i) (flat_map (fun '(n, _) => filter (fun '(d, _, _) => String.eqb d t) (spec_next_tasks sp n))
                                     (wf_tasks sp))).
  { apply in_flat_map. exists (s, ts). split; [exact Hs|]. apply filter_In. split; [exact H|apply String.eqb_refl]. }
  rewrite Hz in X. exact X.
Qed.

Section Composed.
  Variable sp : wf_spec.
  Variable rt : list (string * json).
  Variable fuel : nat.
  Variable g : graph.
  Hypothesis Hg : compose sp rt fuel = Val g.

  Lemma composed_work : exists w, g = graph_of_work w /\ Core sp w /\ DoneOk sp rt [] w /\ w_queue w = [].
  Proof.
    unfold compose in Hg. destruct (compose_work sp rt fuel) as [w|e] eqn:E; [|discriminate].
    injection Hg as Hg'. exists w. split; [auto|]. apply (compose_work_inv sp rt fuel w E).
  Qed.

  Lemma all_done : forall w, Core sp w -> w_queue w = [] -> forall t, In t (ids (w_nodes w)) -> In t (w_done w).
  Proof.
    intros w C Hq t Ht. exact (seen_empty w t Hq (co_nodes sp w C t Ht)).
  Qed.

  Theorem edges_sound : forall e, In e (g_edges g) ->
    triple_ok sp e /\ In (e_src e) (map n_id (g_nodes g)) /\ In (e_dst e) (map n_id (g_nodes g)).
  Proof.
    destruct composed_work as [w [Eg [C [D Hq]]]]. subst g. simpl. intros e He.
    apply in_nx_edges in He. destruct He as [He _]. apply (co_sound sp w C e He).
  Qed.

  Theorem edges_complete : forall t d w i,
    In t (map n_id (g_nodes g)) -> In (d, w, i) (spec_next_tasks sp t) -> d <> "retry" ->
    exists e, In e (g_edges g) /\ e_src e = t /\ e_dst e = d /\ e_ref e = i /\ e_criteria e = crta_of w.
  Proof.
    destruct composed_work as [w0 [Eg [C [D Hq]]]]. subst g. simpl. intros t d w i Ht Hin Hnr.
    pose proof (all_done w0 C Hq t Ht) as Hd.
    destruct (do_complete sp rt [] w0 D t Hd (fun x => x) d w i Hin Hnr) as [e [He [E1 Hp]]].
    exists e. split; [|auto]. apply in_nx_edges. split; [exact He|]. rewrite E1. exact Ht.
  Qed.

  Theorem edges_unique :
    NoDup (map (fun e => (e_src e, e_dst e, e_criteria e, e_ref e)) (g_edges g)) /\
    NoDup (map (fun e => (e_src e, e_dst e, e_key e)) (g_edges g)).
  Proof.
    destruct composed_work as [w [Eg [C [D Hq]]]]. subst g. simpl.
    destruct (co_keyed sp w C) as [K U]. split.
    - apply (nodup_nx_edges _ _ (co_nodup sp w C) U).
    - apply keys_nodup_ident2. intros s d. rewrite filter_between_nx by apply (co_nodup sp w C).
      destruct (has_node s (w_nodes w)); [|constructor]. rewrite K. apply seq_NoDup.
  Qed.

  Theorem edge_keys_dense : forall s d,
    map e_key (filter (edge_between s d) (g_edges g)) = seq 0 (length (filter (edge_between s d) (g_edges g))).
  Proof.
    destruct composed_work as [w [Eg [C [D Hq]]]]. subst g. simpl. intros s d.
    rewrite filter_between_nx by apply (co_nodup sp w C).
    destruct (has_node s (w_nodes w)); [|reflexivity]. apply (co_keyed sp w C).
  Qed.

  Theorem nodes_exact :
    NoDup (map n_id (g_nodes g)) /\ forall t, In t (map n_id (g_nodes g)) <-> reach sp t.
  Proof.
    destruct composed_work as [w [Eg [C [D Hq]]]]. subst g. simpl.
    split; [apply (co_nodup sp w C)|]. intro t. split.
    - intro Ht. apply (co_reach sp w C), (co_nodes sp w C). exact Ht.
    - intro Hr. induction Hr as [t Hs|t d wn i Hr IH Hin Hnr].
      + apply (co_done sp w C). exact (seen_empty w t Hq (co_start sp w C t Hs)).
      + pose proof (all_done w C Hq t IH) as Hd.
        destruct (do_complete sp rt [] w D t Hd (fun x => x) d wn i Hin Hnr) as [e [He [E1 [E2 _]]]].
        destruct (co_sound sp w C e He) as [_ [_ H3]]. rewrite E2 in H3. exact H3.
  Qed.

  Theorem roots_exact : forall t, In t (g_roots g) <-> In t (spec_start_tasks sp).
  Proof.
    intro t. unfold g_roots. rewrite in_sort_by, in_map_iff. split.
    - intros [n [Hid Hn]]. apply filter_In in Hn. destruct Hn as [Hn Hne].
      assert (Hnode : In t (map n_id (g_nodes g))) by (apply in_map_iff; eauto).
      apply (proj2 nodes_exact) in Hnode. destruct Hnode as [t Hs|t0 d wn i Hr Hin Hnr]; [exact Hs|].
      exfalso. apply (proj2 nodes_exact) in Hr.
      destruct (edges_complete t0 d wn i Hr Hin Hnr) as [e [He [_ [E2 _]]]].
      assert (X : existsb (fun e => String.eqb (e_dst e) (n_id n)) (g_edges g) = true).
      { apply existsb_exists. exists e. split; [exact He|]. apply String.eqb_eq. rewrite E2, Hid. reflexivity. }
      rewrite X in Hne. discriminate.
    - intro Hs. assert (Hnode : In t (map n_id (g_nodes g))) by (apply (proj2 nodes_exact), reach_start, Hs).
      apply in_map_iff in Hnode. destruct Hnode as [n [Hid Hn]]. exists n. split; [exact Hid|].
      apply filter_In. split; [exact Hn|]. apply negb_true_iff.
      destruct (existsb _ (g_edges g)) eqn:E; [|reflexivity]. exfalso.
      apply existsb_exists in E. destruct E as [e [He Hd]]. apply String.eqb_eq in Hd.
      destruct (edges_sound e He) as [[wn [Hin _]] _].
      apply in_start_tasks in Hs. destruct Hs as [_ Hz].
      apply (prev_count_pos sp (e_src e) t wn (e_ref e)); [|exact Hz]. rewrite <- Hid, <- Hd. exact Hin.
  Qed.

  Theorem attributes_exact : forall n, In n (g_nodes g) -> attrs_ok sp rt n.
  Proof.
    destruct composed_work as [w [Eg [C [D Hq]]]]. subst g. simpl. intros n Hn.
    assert (Hid : In (n_id n) (ids (w_nodes w))) by (apply in_map; exact Hn).
    exact (do_attrs sp rt [] w D n Hn (all_done w C Hq _ Hid) (fun x => x)).
  Qed.
End Composed.


Lemma edge_adj_eta : forall e, edge_of_adj (e_src e) (adj_of_edge e) = e.
Proof. intros [s d k r c]; reflexivity. Qed.

Theorem persist_edges : forall g,
  g_nodes (g_deserialize (g_serialize g)) = g_nodes g /\
  forall e, In e (g_edges (g_deserialize (g_serialize g))) <->
            In e (g_edges g) /\ In (e_src e) (map n_id (g_nodes g)).
Proof.
  intro g. split; [reflexivity|]. intro e. unfold g_deserialize, g_serialize; simpl.
  rewrite combine_map_self, flat_map_concat_map, map_map, <- flat_map_concat_map, in_flat_map. split.
  - intros [n [Hn He]]. apply in_map_iff in He. destruct He as [a [Ea Ha]].
    apply in_sort_by in Ha. apply in_map_iff in Ha. destruct Ha as [e0 [E0 H0]].
    unfold g_out_edges in H0. apply filter_In in H0. destruct H0 as [H0 Hs]. apply String.eqb_eq in Hs.
    subst a e. rewrite <- Hs, edge_adj_eta. split; [exact H0|]. rewrite Hs. apply in_map. exact Hn.
  - intros [He Hs]. apply in_map_iff in Hs. destruct Hs as [n [Hid Hn]]. exists n. split; [exact Hn|].
    apply in_map_iff. exists (adj_of_edge e). split; [rewrite Hid; apply edge_adj_eta|].
    apply in_sort_by. apply in_map. unfold g_out_edges. apply filter_In. split; [exact He|].
    apply String.eqb_eq. auto.
Qed.


Lemma adj_leb_total : forall a b, adj_leb a b = true \/ adj_leb b a = true.
Proof. intros a b. unfold adj_leb. apply String.leb_total. Qed.
Lemma adj_leb_trans : forall a b c, adj_leb a b = true -> adj_leb b c = true -> adj_leb a c = true.
Proof. intros a b c. unfold adj_leb. apply string_leb_trans. Qed.

Lemma adj_edge_eta : forall t a, adj_of_edge (edge_of_adj t a) = a.
Proof. intros t [i k r c]; reflexivity. Qed.

Lemma filter_src_block : forall t s (l : list sadj),
  filter (fun e => String.eqb (e_src e) t) (map (edge_of_adj s) l) =
  if String.eqb s t then map (edge_of_adj s) l else [].
Proof.
  intros t s l. induction l as [|a l IH]; simpl; [destruct (String.eqb s t); reflexivity|].
  rewrite IH. destruct (String.eqb s t); reflexivity.
Qed.

Lemma out_edges_restored : forall (A : gnode -> list sadj) ns n,
  NoDup (map n_id ns) -> In n ns -> (forall m, n_id m = n_id n -> A m = A n) ->
  filter (fun e => String.eqb (e_src e) (n_id n))
         (flat_map (fun m => map (edge_of_adj (n_id m)) (A m)) ns) = map (edge_of_adj (n_id n)) (A n).
Proof.
  intros A ns n. induction ns as [|m ns IH]; intros Hnd Hin HA; [contradiction|].
  simpl in Hnd. inversion Hnd as [|x l Hx Hl]; subst. simpl. rewrite filter_app, filter_src_block.
  destruct (String.eqb (n_id m) (n_id n)) eqn:E.
  - apply String.eqb_eq in E. rewrite (HA m E), E.
    assert (Z : filter (fun e => String.eqb (e_src e) (n_id n))
                       (flat_map (fun m => map (edge_of_adj (n_id m)) (A m)) ns) = []).
    { clear IH Hin Hnd. induction ns as [|k ns IHk]; [reflexivity|]. simpl.
      rewrite filter_app, filter_src_block.
      destruct (String.eqb (n_id k) (n_id n)) eqn:Ek.
      - exfalso. apply Hx. apply String.eqb_eq in Ek. rewrite E, <- Ek. left. reflexivity.
      - simpl. apply IHk; [intro H; apply Hx; right; exact H|]. inversion Hl; assumption. }
    rewrite Z. apply app_nil_r.
  - destruct Hin as [Hin|Hin]; [subst m; rewrite String.eqb_refl in E; discriminate|].
    simpl. apply IH; assumption.
Qed.

Lemma out_edges_deserialized : forall g n, NoDup (map n_id (g_nodes g)) -> In n (g_nodes g) ->
  g_out_edges (g_deserialize (g_serialize g)) (n_id n) =
  map (edge_of_adj (n_id n)) (sort_by adj_leb (map adj_of_edge (g_out_edges g (n_id n)))).
Proof.
  intros g n Hnd Hn. unfold g_out_edges at 1. unfold g_deserialize, g_serialize. simpl.
  rewrite combine_map_self, flat_map_concat_map, map_map, <- flat_map_concat_map.
  apply (out_edges_restored (fun m => sort_by adj_leb (map adj_of_edge (g_out_edges g (n_id m)))) _ n Hnd Hn).
  intros m Hm. rewrite Hm. reflexivity.
Qed.

Theorem serialize_roundtrip : forall g, NoDup (map n_id (g_nodes g)) ->
  g_serialize (g_deserialize (g_serialize g)) = g_serialize g.
Proof.
  intros g Hnd.
  assert (H : sg_adj (g_serialize (g_deserialize (g_serialize g))) = sg_adj (g_serialize g)).
  { simpl. apply map_ext_in. intros n Hn. rewrite (out_edges_deserialized g n Hnd Hn).
    rewrite map_map. rewrite (map_ext _ (fun a => a)) by (intro a; apply adj_edge_eta). rewrite map_id.
    apply sort_by_idem; [apply adj_leb_total|apply adj_leb_trans]. }
  destruct (g_serialize (g_deserialize (g_serialize g))) as [ns adj] eqn:E.
  assert (Hns : ns = g_nodes g) by (apply (f_equal sg_nodes) in E; simpl in E; symmetry; exact E).
  simpl in H. subst ns adj. reflexivity.
Qed.





(* what the composer reads from a definition *)
Record spec_equiv (sp1 sp2 : wf_spec) : Prop := {
  se_task : forall t, spec_get_task sp1 t = spec_get_task sp2 t;
  se_prev : forall t, spec_prev_count sp1 t = spec_prev_count sp2 t;
  se_start : spec_start_tasks sp1 = spec_start_tasks sp2;
  se_size : spec_size sp1 = spec_size sp2 }.

Lemma se_next : forall sp1 sp2, spec_equiv sp1 sp2 -> forall t, spec_next_tasks sp1 t = spec_next_tasks sp2 t.
Proof. intros sp1 sp2 E t. unfold spec_next_tasks. rewrite (se_task _ _ E). reflexivity. Qed.

Lemma perm_spec_equiv : forall sp1 sp2,
  Permutation (wf_tasks sp1) (wf_tasks sp2) -> NoDup (map fst (wf_tasks sp1)) -> spec_equiv sp1 sp2.
Proof.
  intros sp1 sp2 P Hnd.
  assert (T : forall t, spec_get_task sp1 t = spec_get_task sp2 t).
  { intro t. unfold spec_get_task. destruct (string_in t RESERVED_TASK_NAMES); [reflexivity|].
    apply (aget_perm String.eqb String.eqb_eq); assumption. }
  assert (N : forall t, spec_next_tasks sp1 t = spec_next_tasks sp2 t).
  { intro t. unfold spec_next_tasks. rewrite T. reflexivity. }
  assert (Pc : forall t, spec_prev_count sp1 t = spec_prev_count sp2 t).
  { intro t. unfold spec_prev_count.
    rewrite (flat_map_ext _ (fun '(n, _) => filter (fun '(d, _, _) => String.eqb d t) (spec_next_tasks sp2 n)))
      by (intros [n ts]; rewrite N; reflexivity).
    apply Permutation_length. apply Permutation_flat_map. exact P. }
  constructor.
  - exact T.
  - exact Pc.
  - unfold spec_start_tasks.
    rewrite (filter_ext _ (fun t => Nat.eqb (spec_prev_count sp2 t) 0)) by (intro t; rewrite Pc; reflexivity).
    apply sort_by_perm; [apply String.leb_total|apply string_leb_trans|apply String.leb_antisym|].
    apply perm_filter. apply Permutation_map. exact P.
  - unfold spec_size.
    rewrite (flat_map_ext _ (fun '(n, _) => spec_next_tasks sp2 n)) by (intros [n ts]; apply N).
    apply Permutation_length. apply Permutation_flat_map. exact P.
Qed.

Section Equiv.
  Variables sp1 sp2 : wf_spec.
  Hypothesis E : spec_equiv sp1 sp2.

  Lemma eq_next_sorted : forall t, spec_next_sorted sp1 t = spec_next_sorted sp2 t.
  Proof. intro t. unfold spec_next_sorted. rewrite (se_next _ _ E). reflexivity. Qed.

  Lemma eq_join : forall t, spec_is_join_task sp1 t = spec_is_join_task sp2 t.
  Proof. intro t. unfold spec_is_join_task. rewrite (se_task _ _ E). reflexivity. Qed.

  Lemma eq_split : forall t, spec_is_split_task sp1 t = spec_is_split_task sp2 t.
  Proof. intro t. unfold spec_is_split_task. rewrite eq_join, (se_prev _ _ E). reflexivity. Qed.

  Lemma eq_in_cycle_loop : forall t fuel q trav, in_cycle_loop sp1 t fuel q trav = in_cycle_loop sp2 t fuel q trav.
  Proof.
    intros t fuel. induction fuel as [|f IH]; intros q trav; destruct q as [|n q]; simpl; try reflexivity.
    rewrite eq_next_sorted, !IH. reflexivity.
  Qed.

  Lemma eq_in_cycle_r : forall t, in_cycle_r sp1 t = in_cycle_r sp2 t.
  Proof.
    intro t. unfold in_cycle_r, spec_in_cycle. rewrite (se_size _ _ E), eq_next_sorted, eq_in_cycle_loop. reflexivity.
  Qed.

  Lemma eq_step_next : forall t splits acc nx, step_next sp1 t splits acc nx = step_next sp2 t splits acc nx.
  Proof. intros t splits acc nx. unfold step_next. rewrite eq_in_cycle_r. reflexivity. Qed.

  Lemma eq_process : forall rt w t splits, process sp1 rt w t splits = process sp2 rt w t splits.
  Proof.
    intros rt w t splits. unfold process. rewrite (se_task _ _ E), eq_join, eq_split, eq_in_cycle_r, eq_next_sorted.
    destruct (spec_get_task sp2 t); [|reflexivity].
    destruct (if spec_is_split_task sp2 t then in_cycle_r sp2 t else Val true); [|reflexivity].
    rewrite (fold_left_ext_all _ _ _ (step_next sp2 t (if a then splits else app splits [t]))) by (intros; apply eq_step_next).
    reflexivity.
  Qed.

  Lemma eq_compose_loop : forall rt fuel w, compose_loop sp1 rt fuel w = compose_loop sp2 rt fuel w.
  Proof.
    intros rt fuel. induction fuel as [|f IH]; intro w; simpl; [reflexivity|].
    destruct (w_queue w) as [|[t s] q]; [reflexivity|]. rewrite eq_process.
    destruct (process sp2 rt _ t s); [apply IH|reflexivity].
  Qed.

  Lemma eq_compose : forall rt fuel, compose sp1 rt fuel = compose sp2 rt fuel.
  Proof.
    intros rt fuel. unfold compose, compose_work, compose_init. rewrite (se_start _ _ E), eq_compose_loop. reflexivity.
  Qed.
End Equiv.

Theorem declaration_order : forall sp1 sp2 rt fuel,
  Permutation (wf_tasks sp1) (wf_tasks sp2) -> NoDup (map fst (wf_tasks sp1)) ->
  compose sp1 rt fuel = compose sp2 rt fuel.
Proof. intros sp1 sp2 rt fuel P Hnd. apply eq_compose. apply perm_spec_equiv; assumption. Qed.

Lemma nt_leb_total : forall a b, nt_leb a b = true \/ nt_leb b a = true.
Proof. intros a b. unfold nt_leb. apply String.leb_total. Qed.
Lemma nt_leb_trans : forall a b c, nt_leb a b = true -> nt_leb b c = true -> nt_leb a c = true.
Proof. intros a b c. unfold nt_leb. apply string_leb_trans. Qed.

Definition named (k : string) (x : string * json * nat) : bool := String.eqb (nt_name x) k.

Lemma filter_named_insert : forall k x l, lesorted nt_leb l ->
  filter (named k) (insert_sorted nt_leb x l) =
  if named k x then app (filter (named k) l) [x] else filter (named k) l.
Proof.
  intros k x l H. induction H as [|y l Hl IH Hy]; simpl.
  - destruct (named k x); reflexivity.
  - destruct (nt_leb y x) eqn:E; simpl.
    + rewrite IH. destruct (named k y); destruct (named k x); reflexivity.
    + destruct (named k x) eqn:Px; [|reflexivity].
      unfold named in Px. apply String.eqb_eq in Px.
      assert (Py : named k y = false).
      { unfold named. destruct (String.eqb (nt_name y) k) eqn:Ey; [|reflexivity].
        apply String.eqb_eq in Ey. unfold nt_leb in E. rewrite Ey, Px, string_leb_refl in E. discriminate. }
      assert (Pl : filter (named k) l = []).
      { rewrite Forall_forall in Hy. clear IH Hl. induction l as [|z l IHl]; [reflexivity|]. simpl.
        assert (Pz : named k z = false).
        { unfold named. destruct (String.eqb (nt_name z) k) eqn:Ez; [|reflexivity].
          apply String.eqb_eq in Ez. pose proof (Hy z (or_introl eq_refl)) as Hyz.
          unfold nt_leb in *. rewrite Ez in Hyz. rewrite Px in E. congruence. }
        rewrite Pz. apply IHl. intros w Hw. apply Hy. right. exact Hw. }
      rewrite Py, Pl. reflexivity.
Qed.

Lemma filter_named_sort : forall k l, filter (named k) (sort_by nt_leb l) = filter (named k) l.
Proof.
  intros k l. unfold sort_by.
  assert (H : forall acc, lesorted nt_leb acc ->
              filter (named k) (fold_left (fun acc x => insert_sorted nt_leb x acc) l acc) =
              app (filter (named k) acc) (filter (named k) l)).
  { induction l as [|x l IH]; intros acc Ha; simpl; [symmetry; apply app_nil_r|].
    rewrite IH by (apply insert_sorted_lesorted; [apply nt_leb_total|apply nt_leb_trans|exact Ha]).
    rewrite filter_named_insert by exact Ha. destruct (named k x); [rewrite <- app_assoc|]; reflexivity. }
  apply (H []). constructor.
Qed.

Lemma retry_fold_filter : forall l b, fold_left retry_upd l b = fold_left retry_upd (filter (named "retry") l) b.
Proof.
  induction l as [|x l IH]; intro b; simpl; [reflexivity|]. unfold named at 1.
  destruct (String.eqb (nt_name x) "retry") eqn:E; simpl.
  - apply IH.
  - rewrite <- IH. unfold retry_upd at 2. rewrite E. reflexivity.
Qed.

Theorem exp_retry_unsorted : forall sp rt t,
  exp_retry sp rt t =
  fold_left retry_upd (spec_next_tasks sp t) (match aget String.eqb t rt with Some r => r | None => JNull end).
Proof.
  intros sp rt t. unfold exp_retry, spec_next_sorted.
  rewrite retry_fold_filter, filter_named_sort, <- retry_fold_filter. reflexivity.
Qed.

Definition wsum (sp : wf_spec) (ex : string -> bool) (l : list (string * task_spec)) : nat :=
  list_sum (map (fun '(n, _) => if ex n then 0 else length (spec_next_tasks sp n)) l).

Lemma wsum_ext : forall sp ex1 ex2 l, (forall k, ex1 k = ex2 k) -> wsum sp ex1 l = wsum sp ex2 l.
Proof.
  intros sp ex1 ex2 l H. unfold wsum. f_equal. apply map_ext. intros [n ts]. rewrite H. reflexivity.
Qed.

Lemma wsum_cons : forall sp ex k ts l,
  wsum sp ex ((k, ts) :: l) = (if ex k then 0 else length (spec_next_tasks sp k)) + wsum sp ex l.
Proof. reflexivity. Qed.

Lemma wsum_mono : forall sp ex n l, wsum sp (fun k => String.eqb k n || ex k) l <= wsum sp ex l.
Proof.
  intros sp ex n l. induction l as [|[k ts] l IH]; [unfold wsum; simpl; lia|].
  rewrite !wsum_cons. destruct (String.eqb k n); simpl; [lia|]. destruct (ex k); lia.
Qed.

Lemma wsum_step : forall sp ex n l, ex n = false -> NoDup (map fst l) ->
  wsum sp (fun k => String.eqb k n || ex k) l + (if in_dec string_dec n (map fst l) then length (spec_next_tasks sp n) else 0)
  <= wsum sp ex l.
Proof.
  intros sp ex n l Hex. induction l as [|[k ts] l IH]; intro Hnd; [unfold wsum; simpl; lia|].
  simpl in Hnd. inversion Hnd as [|x m Hx Hm]; subst. specialize (IH Hm).
  rewrite !wsum_cons. simpl map.
  destruct (String.eqb k n) eqn:E.
  - apply String.eqb_eq in E. subst k. rewrite Hex. simpl orb. cbv iota.
    destruct (in_dec string_dec n (n :: map fst l)) as [C0|C]; [|exfalso; apply C; left; reflexivity].
    destruct (in_dec string_dec n (map fst l)) as [C|C1]; [contradiction|].
    pose proof (wsum_mono sp ex n l) as M. lia.
  - simpl orb. destruct (in_dec string_dec n (k :: map fst l)) as [I|I];
      destruct (in_dec string_dec n (map fst l)) as [J|J]; try lia.
    exfalso. destruct I as [I|I]; [subst k; rewrite String.eqb_refl in E; discriminate|contradiction].
Qed.

Lemma next_len_declared : forall sp n,
  length (spec_next_tasks sp n) <= (if in_dec string_dec n (map fst (wf_tasks sp)) then length (spec_next_tasks sp n) else 0).
Proof.
  intros sp n. destruct (in_dec string_dec n (map fst (wf_tasks sp))) as [I|I]; [lia|].
  destruct (spec_next_tasks sp n) as [|x l] eqn:E; [simpl; lia|]. exfalso. apply I.
  apply (next_tasks_declared sp n x). rewrite E. left. reflexivity.
Qed.


Lemma in_cycle_loop_fuel : forall sp t, NoDup (map fst (wf_tasks sp)) -> forall fuel q trav,
  length q + wsum sp (fun k => String.eqb k t || string_in k trav) (wf_tasks sp) <= fuel ->
  in_cycle_loop sp t fuel q trav <> None.
Proof.
  intros sp t Hnd fuel. induction fuel as [|f IH]; intros q trav H; destruct q as [|n q]; simpl; try discriminate.
  - simpl in H. lia.
  - destruct (String.eqb n t) eqn:Et; [discriminate|].
    destruct (string_in n trav) eqn:Es.
    + apply IH. simpl in H. lia.
    + apply IH. rewrite app_length, map_length. unfold spec_next_sorted. rewrite length_sort_by.
      pose proof (wsum_step sp (fun k => String.eqb k t || string_in k trav) n (wf_tasks sp)) as S.
      simpl in S. rewrite Et, Es in S. specialize (S eq_refl Hnd).
      pose proof (next_len_declared sp n) as L.
      rewrite (wsum_ext sp (fun k => String.eqb k t || string_in k (n :: trav))
                        (fun k => String.eqb k n || (String.eqb k t || string_in k trav))).
      * simpl in H. lia.
      * intro k. unfold string_in. simpl. destruct (String.eqb k t); destruct (String.eqb k n); reflexivity.
Qed.

Theorem spec_in_cycle_total : forall sp t, NoDup (map fst (wf_tasks sp)) -> spec_in_cycle sp t <> None.
Proof.
  intros sp t Hnd. unfold spec_in_cycle. apply in_cycle_loop_fuel; [exact Hnd|].
  rewrite map_length. unfold spec_next_sorted. rewrite length_sort_by.
  pose proof (wsum_step sp (fun _ => false) t (wf_tasks sp) eq_refl Hnd) as S.
  pose proof (next_len_declared sp t) as L.
  assert (Z : wsum sp (fun _ => false) (wf_tasks sp) = spec_size sp).
  { unfold wsum, spec_size. clear. induction (wf_tasks sp) as [|[n ts] l IH]; simpl; [reflexivity|].
    rewrite app_length, IH. reflexivity. }
  rewrite (wsum_ext sp (fun k => String.eqb k t || string_in k []) (fun k => String.eqb k t || false))
    by (intro k; reflexivity).
  lia.
Qed.

(* every transition target is an engine command or a declared task (inspect() rejects the rest) *)
Definition targets_defined (sp : wf_spec) : Prop :=
  forall t d w i, In (d, w, i) (spec_next_tasks sp t) ->
    string_in d RESERVED_TASK_NAMES = true \/ In d (map fst (wf_tasks sp)).


Lemma reach_defined : forall sp t, targets_defined sp -> reach sp t -> spec_get_task sp t <> None.
Proof.
  intros sp t Hw Hr.
  assert (H : string_in t RESERVED_TASK_NAMES = true \/ In t (map fst (wf_tasks sp))).
  { destruct Hr as [t Hs|t0 d w i _ Hin _]; [right; apply in_start_tasks in Hs; tauto|eapply Hw; eauto]. }
  unfold spec_get_task. destruct (string_in t RESERVED_TASK_NAMES); [discriminate|].
  destruct H as [H|H]; [discriminate|apply (aget_of_in String.eqb String.eqb_eq); exact H].
Qed.

Section Total.
  Variable sp : wf_spec.
  Hypothesis Hnd : NoDup (map fst (wf_tasks sp)).

  Lemma in_cycle_r_val : forall t, exists b, in_cycle_r sp t = Val b.
  Proof.
    intro t. unfold in_cycle_r. pose proof (spec_in_cycle_total sp t Hnd) as H.
    destruct (spec_in_cycle sp t) as [b|]; [eauto|contradiction].
  Qed.

  Lemma step_next_val : forall t splits w nx, exists w', step_next sp t splits (Val w) nx = Val w'.
  Proof.
    intros t splits w nx. unfold step_next. destruct (String.eqb (nt_name nx) "retry"); [eauto|].
    destruct (has_node (nt_name nx) (w_nodes w)); [|eauto].
    destruct (in_cycle_r_val (nt_name nx)) as [b Hb]. rewrite Hb. eauto.
  Qed.

  Lemma fold_step_val : forall t splits l w, exists w', fold_left (step_next sp t splits) l (Val w) = Val w'.
  Proof.
    intros t splits l. induction l as [|nx l IH]; intro w; cbn [fold_left]; [eauto|].
    destruct (step_next_val t splits w nx) as [w1 H1]. rewrite H1. apply IH.
  Qed.

  Lemma process_val : forall rt w t splits, spec_get_task sp t <> None -> exists w', process sp rt w t splits = Val w'.
  Proof.
    intros rt w t splits Ht. unfold process. destruct (spec_get_task sp t) as [ts|]; [|contradiction].
    assert (C : exists b, (if spec_is_split_task sp t then in_cycle_r sp t else Val true) = Val b).
    { destruct (spec_is_split_task sp t); [apply in_cycle_r_val|eauto]. }
    destruct C as [b Hb]. rewrite Hb.
    match goal with |- context [fold_left ?f ?l (Val ?w0)] => destruct (fold_step_val t (if b then splits else app splits [t]) l w0) as [w' Hw'] end.
    rewrite Hw'. eauto.
  Qed.

  Hypothesis Hdef : forall t, reach sp t -> spec_get_task sp t <> None.

  Lemma compose_loop_exc : forall rt fuel w e, Core sp w -> DoneOk sp rt [] w ->
    compose_loop sp rt fuel w = Exc e -> e = x_out_of_fuel.
  Proof.
    intros rt fuel. induction fuel as [|f IH]; intros w e C D H; simpl in H.
    - destruct (w_queue w) as [|[t s] q']; [discriminate|]. injection H as H. auto.
    - destruct (w_queue w) as [|[t s] q'] eqn:Eq; [discriminate|].
      destruct (process_val rt (popped w q') t s (Hdef t (head_reach sp w t s q' C Eq))) as [w1 H1].
      unfold popped in H1. rewrite H1 in H.
      destruct (process_inv sp rt w t s q' w1 C D Eq H1) as [C1 D1].
      apply (IH w1 e C1 D1 H).
  Qed.

  Theorem compose_exc_fuel : forall rt fuel e, compose sp rt fuel = Exc e -> e = x_out_of_fuel.
  Proof.
    intros rt fuel e H. unfold compose in H. destruct (compose_work sp rt fuel) as [w|e'] eqn:E; [discriminate|].
    injection H as H. subst e'. unfold compose_work in E.
    apply (compose_loop_exc rt fuel _ e (init_core sp) (init_doneok sp rt) E).
  Qed.
End Total.

Theorem compose_only_fuel_error : forall sp, NoDup (map fst (wf_tasks sp)) -> targets_defined sp ->
  forall rt fuel e, compose sp rt fuel = Exc e -> e = x_out_of_fuel.
Proof. intros sp Hnd Hw. apply compose_exc_fuel; [exact Hnd|]. intros t Hr. now apply reach_defined. Qed.

Lemma compose_loop_more_fuel : forall sp rt f w w', compose_loop sp rt f w = Val w' ->
  forall k, compose_loop sp rt (f + k) w = Val w'.
Proof.
  intros sp rt f. induction f as [|f IH]; intros w w' H k; simpl in H.
  - destruct (w_queue w) as [|[t s] q'] eqn:Eq; [|discriminate].
    destruct k; simpl; rewrite Eq; exact H.
  - simpl. destruct (w_queue w) as [|[t s] q']; [exact H|].
    destruct (process sp rt _ t s) as [w1|e]; [|discriminate]. apply IH. exact H.
Qed.

Theorem compose_fuel_irrelevant : forall sp rt f1 f2 g1 g2,
  compose sp rt f1 = Val g1 -> compose sp rt f2 = Val g2 -> g1 = g2.
Proof.
  intros sp rt f1 f2 g1 g2 H1 H2. unfold compose, compose_work in *.
  destruct (compose_loop sp rt f1 (compose_init sp)) as [w1|] eqn:E1; [|discriminate].
  destruct (compose_loop sp rt f2 (compose_init sp)) as [w2|] eqn:E2; [|discriminate].
  injection H1 as H1. injection H2 as H2. subst.
  pose proof (compose_loop_more_fuel sp rt f1 _ w1 E1 f2) as A.
  pose proof (compose_loop_more_fuel sp rt f2 _ w2 E2 f1) as B.
  rewrite Nat.add_comm in B. rewrite A in B. injection B as B. subst. reflexivity.
Qed.

Definition ex_tr (w : json) (d : list string) : transition_spec :=
  {| tr_when := w; tr_publish := []; tr_do := d |}.
Definition ex_task (j : json) (nx : list transition_spec) : task_spec :=
  {| ts_action := JStr "core.noop"; ts_input := JNull; ts_with := None; ts_delay := JNull;
     ts_join := j; ts_next := nx |}.

(* fan-out s -> a, b; fan-in on the join j with two parallel transitions a -> j; the cycle
   a -> j -> c -> a; the commands noop and retry on c; a declared retry on b; u is not reachable
   from the start task s (it sits on a cycle of its own with v); declaration order is not name order *)
Definition ex_spec : wf_spec :=
  {| wf_input := []; wf_vars := []; wf_output := [];
     wf_tasks :=
       [("j", ex_task (JStr "all") [ex_tr JNull ["c"]]);
        ("c", ex_task JNull [ex_tr (JStr "<% failed() %>") ["a"; "retry"]; ex_tr JNull ["noop"];
                             ex_tr (JStr "<% ctx().x %>") ["retry"; "noop"]]);
        ("s", ex_task JNull [ex_tr JNull ["b"; "a"]]);
        ("b", ex_task JNull [ex_tr JNull ["j"]]);
        ("u", ex_task JNull [ex_tr JNull ["v"]]);
        ("v", ex_task JNull [ex_tr JNull ["u"; "a"]]);
        ("a", ex_task JNull [ex_tr (JStr "<% succeeded() %>") ["j"]; ex_tr (JStr "<% failed() %>") ["j"; "j"]])] |}.

Definition ex_rt : list (string * json) :=
  [("b", JDict [("when", JNull); ("count", JInt 2); ("delay", JNull)])].

Definition ex_node i b s r := {| n_id := i; n_barrier := b; n_splits := s; n_retry := r |}.
Definition ex_edge s d k r c := {| e_src := s; e_dst := d; e_key := k; e_ref := r; e_criteria := c |}.

Definition ex_graph : graph :=
  {| g_nodes :=
       [ex_node "s" JNull None JNull;
        ex_node "a" JNull None JNull;
        ex_node "b" JNull None (JDict [("when", JNull); ("count", JInt 2); ("delay", JNull)]);
        ex_node "j" (JStr "*") None JNull;
        ex_node "c" JNull None (JDict [("when", JStr "<% ctx().x %>"); ("count", JInt 3)]);
        ex_node "noop" JNull (Some ["noop"]) JNull];
     g_edges :=
       [ex_edge "s" "a" 0 0 []; ex_edge "s" "b" 0 0 [];
        ex_edge "a" "j" 0 0 [JStr "<% succeeded() %>"]; ex_edge "a" "j" 1 1 [JStr "<% failed() %>"];
        ex_edge "b" "j" 0 0 [];
        ex_edge "j" "c" 0 0 [];
        ex_edge "c" "a" 0 0 [JStr "<% failed() %>"]; ex_edge "c" "noop" 0 1 [];
        ex_edge "c" "noop" 1 2 [JStr "<% ctx().x %>"]] |}.

Lemma ex_compose : compose ex_spec ex_rt 20 = Val ex_graph.
Proof. vm_compute. reflexivity. Qed.

Definition ex_spec_sorted : wf_spec :=
  {| wf_input := []; wf_vars := []; wf_output := [];
     wf_tasks := sort_by (fun a b => String.leb (fst a) (fst b)) (wf_tasks ex_spec) |}.

Lemma ex_targets_defined : targets_defined ex_spec.
Proof.
  intros t d w i H. pose proof (next_tasks_declared ex_spec t _ H) as Hk. simpl in Hk.
  repeat (destruct Hk as [Hk|Hk]; [subst t; vm_compute in H;
    repeat (destruct H as [H|H]; [injection H as H1 H2 H3; subst d; vm_compute; tauto|]); contradiction|]).
  contradiction.
Qed.

Lemma ex_nodup : NoDup (map fst (wf_tasks ex_spec)).
Proof.
  simpl. repeat (constructor; [simpl; intro H; repeat (destruct H as [H|H]; [discriminate|]); exact H|]). constructor.
Qed.
