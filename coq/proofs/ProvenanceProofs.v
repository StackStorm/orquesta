(* ProvenanceProofs.v -- C06, the provenance clause: every context index in the list a task is
   rendered with (s_in of its staged entry, r_in of its record) is 0 -- the initial context: inputs
   and vars -- or was created by a transition INTO that task, or is inherited from the list of a
   record of the same task (retry, rerun, the record made from the staged entry) or of a task
   with an edge into it.  Following the inheritance down (it goes to strictly earlier records) ends
   at the creating transition: so the task is reachable, along edges of the graph, from the
   target of the transition that published the delta ([delta_reaches_only_downstream]).

   The engine keeps no record of which transition created which snapshot (r_out holds the last one
   only), so the invariant is stated with a ghost list [G], one entry per context snapshot, naming the
   (record, edge) that created it: for every history there IS such a list ([reachable_provenance]).
   No hypothesis on events, orders or the graph is needed (every evaluator, late and duplicate and
   malformed events, reruns, persists, calls that raise).

   Also: the exact recurrence of the lists ([in_list_recurrence]: arrival order, each arriving
   branch contributes its whole list minus its first 0, nothing is deduplicated -- the statement
   known finding D11 is a consequence of), and which snapshots the workflow output folds
   ([terminal_context_reads]). *)
From Coq Require Import String List Bool ZArith Arith Lia.
From Orq Require Import GenStatuses GenEvents GenTables GenSpecMeta Base State Machines Codec Conductor Decode Api.
From Orq Require Import F_tables ListFacts StateFacts Hoare Frame ValuePost C05Proofs C18Proofs RetryProofs FrozenProofs JustifiedProofs.
Import ListNotations.
Open Scope string_scope.
Open Scope monad_scope.

(* who created a context snapshot: nobody we track (the initial context), or transition e of record j *)
Definition creator : Type := option (nat * gedge).

Section Prov.
Variable g : graph.

(* control can pass from a record of task a to an entry of task b: same task (the entry is a retry,
   a rerun or the record itself) or an edge of the graph *)
Definition task_step (a b : string) : Prop :=
  a = b \/ exists e, In e (g_edges g) /\ e_src e = a /\ e_dst e = b.

Definition src_ok (G : list creator) (sq : list trec) (bound : nat) (dst : string) (i : nat) : Prop :=
  exists j r', nth_error sq j = Some r' /\ j < bound /\
    ((In i (r_in r') /\ task_step (r_id r') dst) \/
     (exists e, nth_error G i = Some (Some (j, e)) /\ In e (g_edges g) /\ e_src e = r_id r' /\ e_dst e = dst)).

Definition in_ok (G : list creator) (sq : list trec) (bound : nat) (dst : string) (L : list nat) : Prop :=
  forall i, In i L -> i = 0 \/ src_ok G sq bound dst i.

Definition Provenance (G : list creator) (c : cstate) : Prop :=
  c_graph c = g /\ length G = length (contexts (c_ws c)) /\ ptr_ok (c_ws c) /\
  (forall s, In s (staged (c_ws c)) ->
     in_ok G (sequence (c_ws c)) (length (sequence (c_ws c))) (s_id s) (s_in s)) /\
  (forall n r, nth_error (sequence (c_ws c)) n = Some r -> in_ok G (sequence (c_ws c)) n (r_id r) (r_in r)).

Definition seq_in_keeps (sq sq' : list trec) : Prop :=
  forall j r, nth_error sq j = Some r -> exists r', nth_error sq' j = Some r' /\ r_id r' = r_id r /\ r_in r' = r_in r.

Lemma sik_refl : forall sq, seq_in_keeps sq sq.
Proof. intros sq j r H; exists r; repeat split; exact H. Qed.
Lemma sik_trans : forall a b c, seq_in_keeps a b -> seq_in_keeps b c -> seq_in_keeps a c.
Proof.
  intros a b c H1 H2 j r H. destruct (H1 j r H) as [r1 [A [B C]]]. destruct (H2 j r1 A) as [r2 [A2 [B2 C2]]].
  exists r2; repeat split; congruence.
Qed.
Lemma sik_length : forall a b, seq_in_keeps a b -> length a <= length b.
Proof.
  intros a b H. destruct (Nat.le_gt_cases (length a) (length b)) as [L|L]; [exact L|exfalso].
  destruct (nth_error a (length b)) as [r|] eqn:E; [|apply nth_error_None in E; lia].
  destruct (H _ _ E) as [r' [E' _]]. assert (nth_error b (length b) = None) by (apply nth_error_None; lia). congruence.
Qed.

Lemma prefix_nth : forall A (l l' : list A) i x, prefix l l' -> nth_error l i = Some x -> nth_error l' i = Some x.
Proof.
  intros A l l' i x [t ->] H. rewrite nth_error_app1; [exact H|]. apply nth_error_Some; congruence.
Qed.

Lemma src_ok_mono : forall G G' sq sq' b b' dst i, prefix G G' -> seq_in_keeps sq sq' -> b <= b' ->
  src_ok G sq b dst i -> src_ok G' sq' b' dst i.
Proof.
  intros G G' sq sq' b b' dst i Hp Hk Hb [j [r [Hn [Hj H]]]].
  destruct (Hk _ _ Hn) as [r' [Hn' [Hi Hin]]]. exists j, r'. split; [exact Hn'|]. split; [lia|].
  destruct H as [[H1 H2]|[e [H1 [H2 [H3 H4]]]]].
  - left. rewrite Hin, Hi. split; assumption.
  - right. exists e. split; [eapply prefix_nth; eassumption|]. split; [exact H2|]. split; [congruence|exact H4].
Qed.

Lemma in_ok_mono : forall G G' sq sq' b b' dst L, prefix G G' -> seq_in_keeps sq sq' -> b <= b' ->
  in_ok G sq b dst L -> in_ok G' sq' b' dst L.
Proof.
  intros G G' sq sq' b b' dst L Hp Hk Hb H i Hi. destruct (H i Hi) as [E|S]; [left; exact E|right].
  eapply src_ok_mono; eassumption.
Qed.

Lemma Prov_shape : forall G G' c c', Provenance G c -> prefix G G' -> c_graph c' = g ->
  length G' = length (contexts (c_ws c')) -> ptr_ok (c_ws c') ->
  seq_in_keeps (sequence (c_ws c)) (sequence (c_ws c')) ->
  (forall s', In s' (staged (c_ws c')) ->
     (exists s, In s (staged (c_ws c)) /\ s_id s' = s_id s /\ s_in s' = s_in s) \/
     in_ok G' (sequence (c_ws c')) (length (sequence (c_ws c'))) (s_id s') (s_in s')) ->
  (forall n r', nth_error (sequence (c_ws c')) n = Some r' ->
     (exists r, nth_error (sequence (c_ws c)) n = Some r /\ r_id r' = r_id r /\ r_in r' = r_in r) \/
     in_ok G' (sequence (c_ws c')) n (r_id r') (r_in r')) ->
  Provenance G' c'.
Proof.
  intros G G' c c' [Hg [Hl [Hp [Hs Hr]]]] Hpre Hg' Hl' Hp' Hk Hs' Hr'.
  pose proof (sik_length _ _ Hk) as Hlen.
  split; [exact Hg'|]. split; [exact Hl'|]. split; [exact Hp'|]. split.
  - intros s' Hin. destruct (Hs' s' Hin) as [[s [Hi [E1 E2]]]|H]; [|exact H].
    rewrite E1, E2. eapply in_ok_mono; [exact Hpre|exact Hk|exact Hlen|apply Hs; exact Hi].
  - intros n r' Hn. destruct (Hr' n r' Hn) as [[r [Hi [E1 E2]]]|H]; [|exact H].
    rewrite E1, E2. eapply in_ok_mono; [exact Hpre|exact Hk|apply Nat.le_refl|eapply Hr; exact Hi].
Qed.

Lemma Prov_eq : forall G c c', Provenance G c -> c_graph c' = c_graph c ->
  contexts (c_ws c') = contexts (c_ws c) -> sequence (c_ws c') = sequence (c_ws c) ->
  staged (c_ws c') = staged (c_ws c) -> tasks (c_ws c') = tasks (c_ws c) -> Provenance G c'.
Proof.
  intros G c c' [Hg [Hl [Hp [Hs Hr]]]] E1 E2 E3 E4 E5. unfold Provenance.
  split; [congruence|]. split; [congruence|]. split; [|split].
  - intros t route j Hj. unfold ws_task_idx in Hj. rewrite E5 in Hj. rewrite E3. exact (Hp t route j Hj).
  - rewrite E3, E4. exact Hs.
  - rewrite E3. exact Hr.
Qed.

Lemma Prov_staged : forall G c l, Provenance G c ->
  (forall s', In s' l -> exists s, In s (staged (c_ws c)) /\ s_id s' = s_id s /\ s_in s' = s_in s) ->
  Provenance G (set_ws c (ws_set_staged (c_ws c) l)).
Proof.
  intros G c l H Hl. pose proof H as [Hg [Hlen [Hp _]]].
  apply (Prov_shape G G c); [exact H|apply prefix_refl|exact Hg|exact Hlen|exact Hp|apply sik_refl| |].
  - intros s' Hin. left. apply Hl; exact Hin.
  - intros n r' Hn. left. exists r'; repeat split; exact Hn.
Qed.

Lemma Prov_staged_update : forall G c f t r, Provenance G c ->
  (forall s, s_id (f s) = s_id s /\ s_in (f s) = s_in s) ->
  Provenance G (set_ws c (ws_set_staged (c_ws c) (staged_update f t r (staged (c_ws c))))).
Proof.
  intros G c f t r H Hf. apply Prov_staged; [exact H|]. intros s' Hin.
  apply In_staged_update in Hin. destruct Hin as [Hin|[s [Hin [_ ->]]]].
  - exists s'; repeat split; exact Hin.
  - exists s; split; [exact Hin|apply Hf].
Qed.

Lemma Prov_remove_staged : forall G c t r, Provenance G c ->
  Provenance G (set_ws c (ws_remove_staged_task (c_ws c) t r)).
Proof.
  intros G c t r H. unfold ws_remove_staged_task.
  destruct (get_staged_task (c_ws c) t r) as [s|]; [|eapply Prov_eq; [exact H|reflexivity..]].
  destruct (items_any_active s); [eapply Prov_eq; [exact H|reflexivity..]|].
  apply Prov_staged; [exact H|]. intros s' Hin. apply In_staged_remove_first in Hin.
  exists s'; repeat split; exact Hin.
Qed.

Lemma sik_update : forall w j f, (forall r, r_id (f r) = r_id r /\ r_in (f r) = r_in r) ->
  seq_in_keeps (sequence w) (sequence (ws_update_rec w j f)).
Proof.
  intros w j f Hf k r Hn. destruct (Nat.eq_dec j k) as [<-|Hne].
  - exists (f r). split; [apply nth_update_rec_same; exact Hn|apply Hf].
  - exists r. split; [rewrite nth_update_rec_other by exact Hne; exact Hn|split; reflexivity].
Qed.

Lemma Prov_update : forall G c j f, Provenance G c ->
  (forall r, r_id (f r) = r_id r /\ r_in (f r) = r_in r) ->
  Provenance G (set_ws c (ws_update_rec (c_ws c) j f)).
Proof.
  intros G c j f H Hf. pose proof H as [Hg [Hlen [Hp _]]].
  pose proof (sik_update (c_ws c) j f Hf) as Hk.
  apply (Prov_shape G G c); [exact H|apply prefix_refl|exact Hg| | |exact Hk| |]; cbn [c_ws set_ws].
  - unfold ws_update_rec. destruct (nth_error (sequence (c_ws c)) j); exact Hlen.
  - apply ptr_ok_update; [intro r; apply Hf|exact Hp].
  - intros s' Hin. left. exists s'. split; [|split; reflexivity].
    unfold ws_update_rec in Hin. destruct (nth_error (sequence (c_ws c)) j); exact Hin.
  - intros n r' Hn. left. destruct (Nat.eq_dec j n) as [<-|Hne].
    + destruct (nth_error (sequence (c_ws c)) j) as [rj|] eqn:Ej.
      * rewrite (nth_update_rec_same _ _ _ _ Ej) in Hn; inversion Hn; subst r'. exists rj. split; [reflexivity|apply Hf].
      * unfold ws_update_rec in Hn. rewrite Ej in Hn. congruence.
    + rewrite nth_update_rec_other in Hn by exact Hne. exists r'; repeat split; exact Hn.
Qed.

Lemma sik_append : forall sq r, seq_in_keeps sq (app sq [r]).
Proof. intros sq r k rk Hn. exists rk. split; [apply nth_snoc_old; exact Hn|split; reflexivity]. Qed.

Lemma Prov_append : forall G c r, Provenance G c ->
  in_ok G (sequence (c_ws c)) (length (sequence (c_ws c))) (r_id r) (r_in r) -> Provenance G (append_rec c r).
Proof.
  intros G c r H Hj. pose proof H as [Hg [Hlen [Hp _]]]. pose proof (sik_append (sequence (c_ws c)) r) as Hk.
  apply (Prov_shape G G c); [exact H|apply prefix_refl|exact Hg|exact Hlen|apply ptr_ok_append; exact Hp|exact Hk| |].
  - intros s' Hin. left. exists s'; repeat split; exact Hin.
  - intros k rk Hn. destruct (nth_snoc_inv _ _ _ _ _ Hn) as [Hn'|[-> ->]]; [left; exists rk; repeat split; exact Hn'|right].
    eapply in_ok_mono; [apply prefix_refl|exact Hk|apply Nat.le_refl|exact Hj].
Qed.

Lemma Prov_add_staged : forall G c s, Provenance G c ->
  in_ok G (sequence (c_ws c)) (length (sequence (c_ws c))) (s_id s) (s_in s) ->
  Provenance G (set_ws c (ws_add_staged (c_ws c) s)).
Proof.
  intros G c s H Hj. pose proof H as [Hg [Hlen [Hp _]]].
  apply (Prov_shape G G c); [exact H|apply prefix_refl|exact Hg|exact Hlen|exact Hp|apply sik_refl| |];
    cbn [c_ws set_ws sequence staged ws_add_staged ws_set_staged].
  - intros s' Hin. apply in_app_or in Hin. destruct Hin as [Hin|[<-|[]]].
    + left. exists s'; repeat split; exact Hin.
    + right. exact Hj.
  - intros k rk Hn. left. exists rk; repeat split; exact Hn.
Qed.

Lemma Prov_staged_gain : forall G c f t r extra, Provenance G c ->
  (forall s, s_id (f s) = s_id s /\ s_in (f s) = app (s_in s) extra) ->
  in_ok G (sequence (c_ws c)) (length (sequence (c_ws c))) t extra ->
  Provenance G (set_ws c (ws_set_staged (c_ws c) (staged_update f t r (staged (c_ws c))))).
Proof.
  intros G c f t r extra H Hf Hx. pose proof H as [Hg [Hlen [Hp [Hs _]]]].
  apply (Prov_shape G G c); [exact H|apply prefix_refl|exact Hg|exact Hlen|exact Hp|apply sik_refl| |];
    cbn [c_ws set_ws sequence staged ws_set_staged].
  - intros s' Hin. apply In_staged_update in Hin. destruct Hin as [Hin|[s [Hin [Hm ->]]]].
    + left. exists s'; repeat split; exact Hin.
    + right. destruct (Hf s) as [F1 F2]. rewrite F1, F2. apply stg_matches_id in Hm. destruct Hm as [Hid _].
      intros i Hi. apply in_app_or in Hi. destruct Hi as [Hi|Hi]; [apply (Hs s Hin); exact Hi|].
      rewrite Hid. apply Hx; exact Hi.
  - intros k rk Hn. left. exists rk; repeat split; exact Hn.
Qed.

Lemma Prov_new_context : forall G c d x, Provenance G c ->
  Provenance (app G [x]) (set_ws c (ws_set_contexts (c_ws c) (app (contexts (c_ws c)) [d]))).
Proof.
  intros G c d x H. pose proof H as [Hg [Hlen [Hp _]]].
  apply (Prov_shape G (app G [x]) c); [exact H|apply prefix_of_app|exact Hg| |exact Hp|apply sik_refl| |];
    cbn [c_ws set_ws contexts sequence staged ws_set_contexts].
  - rewrite !app_length, Hlen. reflexivity.
  - intros s' Hin. left. exists s'; repeat split; exact Hin.
  - intros k rk Hn. left. exists rk; repeat split; exact Hn.
Qed.

(* records keep task and list, and every ghost list of the state before extends to one of the state after: the
   ghost list only grows *)
Definition R2 (c c' : cstate) : Prop :=
  seq_in_keeps (sequence (c_ws c)) (sequence (c_ws c')) /\
  forall G, Provenance G c -> exists G', prefix G G' /\ Provenance G' c'.

Lemma R2_refl : forall c, R2 c c.
Proof. intro c; split; [apply sik_refl|intros G H; exists G; split; [apply prefix_refl|exact H]]. Qed.
Lemma R2_trans : forall a b c, R2 a b -> R2 b c -> R2 a c.
Proof.
  intros a b c [K1 P1] [K2 P2]. split; [eapply sik_trans; eassumption|].
  intros G H. destruct (P1 G H) as [G1 [E1 H1]]. destruct (P2 G1 H1) as [G2 [E2 H2]].
  exists G2. split; [eapply prefix_trans; eassumption|exact H2].
Qed.

Lemma R2_same_ghost : forall c c', seq_in_keeps (sequence (c_ws c)) (sequence (c_ws c')) ->
  (forall G, Provenance G c -> Provenance G c') -> R2 c c'.
Proof. intros c c' K H. split; [exact K|intros G HG; exists G; split; [apply prefix_refl|apply H; exact HG]]. Qed.

Lemma sik_eq : forall c c', sequence (c_ws c') = sequence (c_ws c) ->
  seq_in_keeps (sequence (c_ws c)) (sequence (c_ws c')).
Proof. intros c c' E; rewrite E; apply sik_refl. Qed.

Lemma R2_eq : forall c c', c_graph c' = c_graph c -> contexts (c_ws c') = contexts (c_ws c) ->
  sequence (c_ws c') = sequence (c_ws c) -> staged (c_ws c') = staged (c_ws c) ->
  tasks (c_ws c') = tasks (c_ws c) -> R2 c c'.
Proof. intros c c' E1 E2 E3 E4 E5. apply R2_same_ghost; [apply sik_eq; exact E3|intros G H; eapply Prov_eq; eassumption]. Qed.

Lemma R2_remove_staged : forall c t r, R2 c (set_ws c (ws_remove_staged_task (c_ws c) t r)).
Proof.
  intros c t r. apply R2_same_ghost; [apply sik_eq; cbn [c_ws set_ws]; apply seq_remove_staged|].
  intros G H; apply Prov_remove_staged; exact H.
Qed.

Lemma R2_staged_update : forall c f t r, (forall s, s_id (f s) = s_id s /\ s_in (f s) = s_in s) ->
  R2 c (set_ws c (ws_set_staged (c_ws c) (staged_update f t r (staged (c_ws c))))).
Proof.
  intros c f t r Hf. apply R2_same_ghost; [apply sik_eq; reflexivity|].
  intros G H; apply Prov_staged_update; assumption.
Qed.

Lemma R2_update : forall c j f, (forall r, r_id (f r) = r_id r /\ r_in (f r) = r_in r) ->
  R2 c (set_ws c (ws_update_rec (c_ws c) j f)).
Proof.
  intros c j f Hf. apply R2_same_ghost; [cbn [c_ws set_ws]; apply sik_update; exact Hf|].
  intros G H; apply Prov_update; assumption.
Qed.

Lemma R2_init_context : forall c d,
  R2 c (set_ws c (ws_set_routes (ws_set_contexts (c_ws c) (app (contexts (c_ws c)) [d])) (app (routes (c_ws c)) [[]]))).
Proof.
  intros c d. split; [apply sik_eq; reflexivity|]. intros G H. exists (app G [None]). split; [apply prefix_of_app|].
  eapply Prov_eq; [apply (Prov_new_context G c d None H)|reflexivity..].
Qed.

Lemma R2_add_root : forall c t, R2 c (set_ws c (ws_add_staged (c_ws c) (mk_staged t 0 [0] [] true None))).
Proof.
  intros c t. apply R2_same_ghost; [apply sik_eq; reflexivity|]. intros G H. apply Prov_add_staged; [exact H|].
  cbn [mk_staged s_id s_in]. intros i [<-|[]]. left; reflexivity.
Qed.

Section WithEval.
Variable ev : string -> dict -> evalres.

Lemma p2_modws : forall f, (forall w, contexts (f w) = contexts w) -> (forall w, sequence (f w) = sequence w) ->
  (forall w, staged (f w) = staged w) -> (forall w, tasks (f w) = tasks w) -> preserves R2 (modws f).
Proof. intros f E1 E2 E3 E4; apply (preserves_modws R2); intro c; apply R2_eq; [reflexivity|apply E1|apply E2|apply E3|apply E4]. Qed.
Lemma p2_modify : forall f, (forall c, c_graph (f c) = c_graph c) -> (forall c, c_ws (f c) = c_ws c) -> preserves R2 (modify f).
Proof. intros f E1 E2; apply (preserves_modify R2); intro c; apply R2_eq; [apply E1|rewrite E2; reflexivity..]. Qed.
Lemma p2_remove_staged : forall t route, preserves R2 (modws (fun w => ws_remove_staged_task w t route)).
Proof. intros; apply (preserves_modws R2); intro; apply R2_remove_staged. Qed.
Lemma p2_restage : forall f t route, (forall s, s_id (f s) = s_id s) -> (forall s, s_in (f s) = s_in s) ->
  preserves R2 (modws (fun w => ws_set_staged w (staged_update f t route (staged w)))).
Proof. intros f t route E1 E2; apply (preserves_modws R2); intro; apply R2_staged_update; intro; split; [apply E1|apply E2]. Qed.
Lemma p2_upd_rec : forall j f, (forall r, r_id (f r) = r_id r) -> (forall r, r_in (f r) = r_in r) -> preserves R2 (upd_rec j f).
Proof. intros j f E1 E2; apply (preserves_modws R2); intro; apply R2_update; intro; split; [apply E1|apply E2]. Qed.
Lemma p2_set_rec_status : forall j s, preserves R2 (set_rec_status j s).
Proof. intros; apply p2_upd_rec; reflexivity. Qed.
Lemma p2_root_ctx : forall d,
  preserves R2 (modws (fun w => ws_set_routes (ws_set_contexts w (app (contexts w) [d])) (app (routes w) [[]]))).
Proof. intros; apply (preserves_modws R2); intro; apply R2_init_context. Qed.
Lemma p2_stage_root : forall t, preserves R2 (modws (fun w => ws_add_staged w (mk_staged t 0 [0] [] true None))).
Proof. intros; apply (preserves_modws R2); intro; apply R2_add_root. Qed.
Lemma p2_log_entry_error : forall m t r tr res, preserves R2 (log_entry_error m t r tr res).
Proof. intros; apply p2_modify; intro c; cbv zeta; destruct (existsb _ _); reflexivity. Qed.
Lemma R2_status : forall c s, R2 c (set_ws c (ws_set_status (c_ws c) s)).
Proof. intros; apply R2_eq; reflexivity. Qed.
Lemma p2_wf_workflow_event : forall st, preserves R2 (wf_workflow_event_M st).
Proof. exact (preserves_wf_workflow_event R2 R2_refl R2_status). Qed.
Lemma p2_wf_task_event : forall t route st, preserves R2 (wf_task_event_M t route st).
Proof. exact (preserves_wf_task_event R2 R2_refl R2_status). Qed.

Create HintDb pres2p.
Hint Resolve p2_modws p2_modify p2_remove_staged p2_restage p2_upd_rec p2_set_rec_status p2_root_ctx p2_stage_root
  p2_log_entry_error p2_wf_workflow_event p2_wf_task_event : pres2p.
Ltac walk2 := pw R2_refl R2_trans ltac:(auto with pres2p).

Lemma p2_log_error : forall e t r tr, preserves R2 (log_error e t r tr).
Proof. intros; unfold log_error; apply p2_log_entry_error. Qed.
Lemma p2_log_errors : forall es t r tr, preserves R2 (log_errors es t r tr).
Proof. intros; apply (frame_log_errors R2 R2_refl R2_trans), p2_log_entry_error. Qed.
Lemma p2_log_unreachable : forall l, preserves R2 (log_unreachable l).
Proof. intros; apply (frame_log_unreachable R2 R2_refl R2_trans), p2_log_entry_error. Qed.
Lemma p2_request_status_core : forall st, preserves R2 (request_status_core st).
Proof. intros; apply (frame_request_status_core R2 R2_refl R2_trans); auto with pres2p. Qed.
Lemma p2_render_input : forall specs rt rolling errs, preserves R2 (render_input ev specs rt rolling errs).
Proof. intros; apply (frame_render_input ev R2 R2_refl R2_trans). Qed.
Lemma p2_render_vars : forall specs rolling rendered errs, preserves R2 (render_vars ev specs rolling rendered errs).
Proof. intros; apply (frame_render_vars ev R2 R2_refl R2_trans). Qed.
Lemma p2_get_task_context : forall idxs, preserves R2 (get_task_context idxs).
Proof. intros; apply (frame_get_task_context R2 R2_refl R2_trans). Qed.
Lemma p2_render_task : forall ts ctx, preserves R2 (render_task ev ts ctx).
Proof. intros; apply (frame_render_task ev R2 R2_refl R2_trans). Qed.
Lemma p2_setup_retry : forall t idxs, preserves R2 (setup_retry ev t idxs).
Proof. intros; apply (frame_setup_retry ev R2 R2_refl R2_trans). Qed.
Lemma p2_evaluate_route : forall e r, preserves R2 (evaluate_route e r).
Proof. intros; apply (frame_evaluate_route R2 R2_refl R2_trans); auto with pres2p. Qed.
Lemma p2_evaluate_task_retry : forall r ctx, preserves R2 (evaluate_task_retry ev r ctx).
Proof. intros; apply (frame_evaluate_task_retry ev R2 R2_refl R2_trans). Qed.
Lemma p2_finalize_context : forall ts e ctx, preserves R2 (finalize_context ev ts e ctx).
Proof. intros; apply (frame_finalize_context ev R2 R2_refl R2_trans). Qed.
Lemma p2_get_rec : forall j, preserves R2 (get_rec j).
Proof. intros; apply (frame_get_rec R2 R2_refl R2_trans). Qed.
Lemma p2_merge_term_contexts : forall l acc, preserves R2 (merge_term_contexts l acc).
Proof. intros; apply (frame_merge_term_contexts R2 R2_refl R2_trans). Qed.
Hint Resolve p2_log_error p2_log_errors p2_log_unreachable p2_request_status_core p2_render_input p2_render_vars
  p2_get_task_context p2_render_task p2_setup_retry p2_evaluate_route p2_evaluate_task_retry p2_finalize_context
  p2_get_rec p2_merge_term_contexts : pres2p.

Lemma p2_ensure_ws : preserves R2 (ensure_ws ev).
Proof. apply (rframe_ensure_ws ev R2 R2_refl R2_trans); auto with pres2p. Qed.
Hint Resolve p2_ensure_ws : pres2p.
Lemma p2_next_task_for : forall s, preserves R2 (next_task_for ev s).
Proof. intros; apply (sframe_next_task_for ev R2 R2_refl R2_trans); auto with pres2p. Qed.
Hint Resolve p2_next_task_for : pres2p.
Lemma p2_request_workflow_status : forall st, preserves R2 (request_workflow_status ev st).
Proof. intros; apply (rframe_request_workflow_status ev R2 R2_refl R2_trans); auto with pres2p. Qed.
Lemma p2_get_next_tasks : preserves R2 (get_next_tasks ev).
Proof. apply (rframe_get_next_tasks ev R2 R2_refl R2_trans); auto with pres2p. Qed.
Lemma p2_render_workflow_output : preserves R2 (render_workflow_output ev).
Proof. apply (rframe_render_workflow_output ev R2 R2_refl R2_trans); auto with pres2p. Qed.
Lemma p2_before : forall t route evt s0, preserves R2 (uts_before t route evt s0).
Proof. intros; unfold uts_before; walk2. Qed.
Lemma p2_setst : forall idx ns, preserves R2 (uts_setst idx ns).
Proof. intros; apply (frame_setst R2 R2_refl), p2_set_rec_status. Qed.
Lemma p2_completion : forall t route evt ts idx new o0, preserves R2 (uts_completion ev t route evt ts idx new o0).
Proof. intros; unfold uts_completion; walk2. Qed.
Lemma p2_step1 : forall t route idx ctx e, preserves R2 (pt_step1 ev t route idx ctx e).
Proof. intros; unfold pt_step1; walk2. Qed.
Lemma p2_ats_retry : forall gr t route ins, preserves R2 (ats_retry ev gr t route ins).
Proof. intros; unfold ats_retry; walk2. Qed.

Lemma R18_sik : forall c c', R18 c c' -> seq_in_keeps (sequence (c_ws c)) (sequence (c_ws c')).
Proof.
  intros c c' [_ [_ H]] j r Hn. destruct (H j r Hn) as [r' [Hn' [I1 [_ [I3 _]]]]]. exists r'; repeat split; assumption.
Qed.

(* R2 at one ghost list G of the state before; PostK: and a returned pre_out names a record of task t *)
Definition Post (G : list creator) (c c' : cstate) : Prop :=
  seq_in_keeps (sequence (c_ws c)) (sequence (c_ws c')) /\ exists G', prefix G G' /\ Provenance G' c'.

Lemma Post_refl : forall G c, Provenance G c -> Post G c c.
Proof. intros G c H; split; [apply sik_refl|exists G; split; [apply prefix_refl|exact H]]. Qed.

Lemma Post_trans : forall G G1 c c1 c', prefix G G1 -> seq_in_keeps (sequence (c_ws c)) (sequence (c_ws c1)) ->
  Post G1 c1 c' -> Post G c c'.
Proof.
  intros G G1 c c1 c' Hp Hk [K [G' [Hp' H]]]. split; [eapply sik_trans; eassumption|].
  exists G'; split; [eapply prefix_trans; eassumption|exact H].
Qed.

Lemma Post_pres : forall A (m : M A) G c, preserves R2 m -> Provenance G c -> run m c (fun c' _ => Post G c c').
Proof. intros A m G c Hm HP c' r E. destruct (Hm c c' r E) as [K P]. split; [exact K|apply P; exact HP]. Qed.

Lemma Post_bind : forall A B (m : M A) (f : A -> M B) G c,
  run m c (fun c1 _ => Post G c c1) ->
  (forall c1 a G1, m c = (c1, Val a) -> prefix G G1 -> seq_in_keeps (sequence (c_ws c)) (sequence (c_ws c1)) ->
     Provenance G1 c1 -> run (f a) c1 (fun c' _ => Post G1 c1 c')) ->
  run (bind m f) c (fun c' _ => Post G c c').
Proof.
  intros A B m f G c Hm Hk. eapply run_bind; [apply run_eq; exact Hm|intros c1 e [_ S]; exact S|].
  intros c1 a [E [K1 [G1 [Hp1 HP1]]]]. eapply run_conseq; [exact (Hk c1 a G1 E Hp1 K1 HP1)|].
  intros c' r. apply Post_trans; assumption.
Qed.

Definition rec_of_task (c : cstate) (idx : nat) (t : string) : Prop :=
  exists r, nth_error (sequence (c_ws c)) idx = Some r /\ r_id r = t.

Lemma rec_of_task_keeps : forall c c' idx t, seq_in_keeps (sequence (c_ws c)) (sequence (c_ws c')) -> rec_of_task c idx t -> rec_of_task c' idx t.
Proof. intros c c' idx t K [r [Hn Hi]]. destruct (K _ _ Hn) as [r' [Hn' [Hi' _]]]. exists r'; split; [exact Hn'|congruence]. Qed.

Lemma add_task_state_P : forall G t rt ins prev c, Provenance G c ->
  in_ok G (sequence (c_ws c)) (length (sequence (c_ws c))) t ins ->
  run (add_task_state ev t rt ins prev) c (fun c' res => Post G c c' /\ forall idx, res = Val idx -> rec_of_task c' idx t).
Proof.
  intros G t rt ins prev c HP Hin c' res H. rewrite add_task_state_run in H.
  destruct (negb (g_has_task (c_graph c) t)); [inversion H; subst; split; [apply Post_refl; exact HP|discriminate]|].
  cbv zeta in H. destruct (ats_retry ev (c_graph c) t rt _ c) as [c1 [retry|e]] eqn:E;
    destruct (Post_pres _ _ G c (p2_ats_retry _ _ _ _) HP _ _ E) as [K1 [G1 [Hp1 HP1]]]; inversion H; subst c' res; clear H.
  2: { split; [split; [exact K1|exists G1; split; assumption]|discriminate]. }
  split; [|intros idx Ei; inversion Ei; subst idx; eexists; split; [apply nth_append_rec|reflexivity]].
  eapply Post_trans; [exact Hp1|exact K1|]. split; [apply sik_append|]. exists G1. split; [apply prefix_refl|].
  apply Prov_append; [exact HP1|]. cbn [new_trec r_id r_in].
  assert (Hin1 : in_ok G1 (sequence (c_ws c1)) (length (sequence (c_ws c1))) t ins)
    by (eapply in_ok_mono; [exact Hp1|exact K1|apply sik_length; exact K1|exact Hin]).
  destruct ins as [|x xs]; [intros i [<-|[]]; left; reflexivity|exact Hin1].
Qed.

Lemma add_from_staged_P : forall G t s0 c, Provenance G c ->
  (forall s, s0 = Some s -> in_ok G (sequence (c_ws c)) (length (sequence (c_ws c))) t (s_in s)) ->
  run (add_from_staged ev t s0) c (fun c' res => Post G c c' /\ forall idx, res = Val idx -> rec_of_task c' idx t).
Proof.
  intros G t s0 c HP Hs c' res H. rewrite add_from_staged_run in H. destruct s0 as [s|].
  - exact (add_task_state_P _ _ _ _ _ _ HP (Hs s eq_refl) _ _ H).
  - inversion H; subst. split; [apply Post_refl; exact HP|discriminate].
Qed.

Lemma in_ok_self : forall G sq n r t b, nth_error sq n = Some r -> r_id r = t -> n < b ->
  in_ok G sq b t (match r_in r with [] => [0] | _ => r_in r end).
Proof.
  intros G sq n r t b Hn Hi Hb i Hin. destruct (r_in r) as [|x xs] eqn:E.
  - destruct Hin as [<-|[]]. left; reflexivity.
  - right. exists n, r. split; [exact Hn|]. split; [exact Hb|]. left. split; [rewrite E; exact Hin|left; exact Hi].
Qed.

Lemma retrying_P : forall G t route idx r ns c, Provenance G c ->
  nth_error (sequence (c_ws c)) idx = Some r -> r_id r = t ->
  run (uts_retrying t route idx r ns) c (fun c' _ => Post G c c').
Proof.
  intros G t route idx r ns c HP Hn Hid c' res H. rewrite uts_retrying_run in H.
  destruct (status_eqb ns S_RETRYING); [|inversion H; subst; apply Post_refl; exact HP].
  destruct (r_retry r) as [rr|]; inversion H; subst c' res; clear H; [|apply Post_refl; exact HP].
  set (f := fun r0 => r_set_retry r0 (Some (rr_bump rr))).
  remember (ws_remove_staged_task (ws_update_rec (c_ws c) idx f) t route) as w2 eqn:Ew.
  assert (Hs2 : sequence w2 = sequence (ws_update_rec (c_ws c) idx f)) by (subst w2; apply seq_remove_staged).
  assert (HP2 : Provenance G (set_ws c w2)).
  { subst w2. apply (Prov_remove_staged G (set_ws c _)), Prov_update; [exact HP|intro; split; reflexivity]. }
  pose proof (nth_update_rec_same (c_ws c) idx f r Hn) as Hn2. rewrite <- Hs2 in Hn2.
  split; [cbn [c_ws set_ws sequence ws_add_staged ws_set_staged]; rewrite Hs2; apply sik_update; intro; split; reflexivity|].
  exists G. split; [apply prefix_refl|]. apply (Prov_add_staged G (set_ws c w2)); [exact HP2|]. cbn [mk_staged s_id s_in].
  apply (in_ok_self G _ idx (f r)); [exact Hn2|exact Hid|]. apply nth_error_Some. cbn [c_ws set_ws]. congruence.
Qed.

Lemma pre_machine_P : forall G t route evt ts idx c c' res,
  pre_machine ev t route evt ts idx c = (c', res) -> Provenance G c -> rec_of_task c idx t -> Post G c c'.
Proof.
  intros G t route evt ts idx c c' res H HP [r [Hn Hid]]. rewrite (pre_machine_steps ev), Hn in H.
  destruct (task_process_event (c_ws c) r evt) as [ns|x]; [|inversion H; subst; apply Post_refl; exact HP].
  destruct (Post_pres _ _ G c (p2_setst idx ns) HP _ _ (uts_setst_run idx ns c)) as [K1 [G1 [Hp1 HP1]]].
  apply (Post_trans _ _ _ _ _ Hp1 K1). revert c' res H.
  apply Post_bind; [apply (retrying_P _ _ _ _ _ _ _ HP1 (nth_setst_state c idx ns r Hn)); destruct ns; exact Hid|].
  intros c2 u2 G2 _ Hp2 K2 HP2. apply Post_bind; [apply Post_pres; [apply p2_completion|exact HP2]|].
  intros c3 compl G3 _ _ _ HP3 c' res H; inversion H; subst. apply Post_refl; exact HP3.
Qed.

Definition PostK (G : list creator) (t : string) (c c' : cstate) (res : result pre_out) : Prop :=
  Post G c c' /\ forall p, res = Val p -> rec_of_task c' (po_idx p) t.

Lemma PostK_exc : forall G t c c' e, Post G c c' -> PostK G t c c' (Exc e).
Proof. intros G t c c' e H; split; [exact H|intros p E; discriminate]. Qed.

Lemma select_P : forall G t route evt s0 e0 c, Provenance G c ->
  (forall s, s0 = Some s -> in_ok G (sequence (c_ws c)) (length (sequence (c_ws c))) t (s_in s)) ->
  e0 = ws_task_idx (c_ws c) t route ->
  run (uts_select ev t evt s0 e0) c (fun c' res => Post G c c' /\ forall idx, res = Val idx -> rec_of_task c' idx t).
Proof.
  intros G t route evt s0 e0 c HP Hs He0 c' res H.
  destruct (select_run ev _ _ _ _ _ _ _ H) as [[i [Ee [_ [-> Hn]]]]|[Ea _]]; [|exact (add_from_staged_P _ _ _ _ HP Hs _ _ Ea)].
  split; [apply Post_refl; exact HP|]. intros idx Er. destruct HP as [_ [_ [Hpt _]]]. rewrite He0 in Ee.
  destruct (Hpt _ _ _ Ee) as [r [Hr Hi]]. rewrite Hr in Hn. destruct Hn as [_ ->]. inversion Er; subst idx. exists r; split; assumption.
Qed.

Lemma pre_main_P : forall G t route evt ts s0 e0 c c' res,
  pre_main ev t route evt ts s0 e0 c = (c', res) -> Provenance G c ->
  (forall s, s0 = Some s -> in_ok G (sequence (c_ws c)) (length (sequence (c_ws c))) t (s_in s)) ->
  e0 = ws_task_idx (c_ws c) t route ->
  PostK G t c c' res.
Proof.
  intros G t route evt ts s0 e0 c c' res H HP Hs He0. rewrite pre_main_eq in H. apply bind_inv in H.
  destruct H as [[c2 [idx [E H]]]|[x [E ->]]]; destruct (select_P _ _ _ _ _ _ _ HP Hs He0 _ _ E) as [S Hk];
    [|apply PostK_exc; exact S].
  specialize (Hk idx eq_refl). destruct S as [K2 [G2 [Hp2 HP2]]].
  assert (T : forall c4, Post G2 c2 c4 -> Post G c c4) by (intro c4; apply Post_trans; assumption).
  apply bind_inv in H. destruct H as [[c3 [u [Eb H]]]|[x [Eb ->]]];
    pose proof (Post_pres _ _ G2 c2 (p2_before _ _ _ _) HP2 _ _ Eb) as S3; [|apply PostK_exc, T, S3].
  destruct S3 as [K3 [G3 [Hp3 HP3]]]. pose proof (rec_of_task_keeps _ _ _ _ K3 Hk) as Hk3.
  pose proof (pre_machine_P _ _ _ _ _ _ _ _ _ H HP3 Hk3) as HPo.
  split; [apply T; eapply Post_trans; eassumption|].
  intros p Ep; subst res. destruct (pre_machine_inv _ _ _ _ _ _ _ _ _ H) as [ra [nsa [ca [cb Hx]]]].
  decompose [and] Hx. destruct HPo as [K7 _].
  match goal with Hi : po_idx p = idx |- _ => rewrite Hi end. eapply rec_of_task_keeps; [exact K7|exact Hk3].
Qed.

Lemma prefix_P : forall G t route evt c c' res,
  uts_prefix ev t route evt c = (c', res) -> Provenance G c -> PostK G t c c' res.
Proof.
  intros G t route evt c c' res H HP. destruct (prefix_run ev _ _ _ _ _ _ H) as [c1 [r1 [E1 Hcase]]].
  pose proof (Post_pres _ _ G c p2_ensure_ws HP _ _ E1) as S1.
  destruct Hcase as [[e [_ [-> ->]]]|[[_ [-> Hres]]|[_ [ts [_ [_ [_ Hm]]]]]]].
  - apply PostK_exc; exact S1.
  - destruct Hres as [[_ ->]|[[_ [_ ->]]|[_ [_ [_ [_ ->]]]]]]; apply PostK_exc; exact S1.
  - destruct S1 as [K1 [G1 [Hp1 HP1]]].
    destruct (pre_main_P _ _ _ _ _ _ _ _ _ _ Hm HP1) as [A B]; [|reflexivity|split; [eapply Post_trans; eassumption|exact B]].
    intros s Es. pose proof (get_staged_matches _ _ _ _ Es) as [Hid _].
    unfold get_staged_task in Es. apply find_some in Es. destruct Es as [Hin _].
    destruct HP1 as [_ [_ [_ [Hst _]]]]. rewrite <- Hid. apply Hst; exact Hin.
Qed.

Section Acting.
Variable t : string.
Variables route idx : nat.
Variable e : gedge.
Hypothesis Hedge : In e (g_edges g).
Hypothesis Hsrc : e_src e = t.

(* a list handed to the target of e by record idx (a record of task t): what the record had, and what e published *)
Definition handed (G : list creator) (c : cstate) (out : list nat) : Prop :=
  exists r, nth_error (sequence (c_ws c)) idx = Some r /\ r_id r = t /\
    forall i, In i out -> In i (r_in r) \/ nth_error G i = Some (Some (idx, e)).

Lemma handed_ok : forall G c out, handed G c out ->
  in_ok G (sequence (c_ws c)) (length (sequence (c_ws c))) (e_dst e) out.
Proof.
  intros G c out [r [Hr [Hid Hmem]]] i Hi. destruct (Nat.eq_dec i 0) as [->|Hnz]; [left; reflexivity|right].
  exists idx, r. split; [exact Hr|]. split; [apply nth_error_Some; congruence|].
  destruct (Hmem i Hi) as [Hm|Hm]; [left|right; exists e]; repeat split; try assumption; try congruence.
  right. exists e. repeat split; [exact Hedge|congruence].
Qed.

Lemma handed_mono : forall G G1 c c1 out, prefix G G1 -> seq_in_keeps (sequence (c_ws c)) (sequence (c_ws c1)) ->
  handed G c out -> handed G1 c1 out.
Proof.
  intros G G1 c c1 out Hp K [r [Hr [Hid Hmem]]]. destruct (K _ _ Hr) as [r1 [Hr1 [Hi1 Hin1]]].
  exists r1. split; [exact Hr1|]. split; [congruence|]. intros i Hi.
  destruct (Hmem i Hi) as [Hm|Hm]; [left; rewrite Hin1; exact Hm|right; eapply prefix_nth; eassumption].
Qed.

(* the snapshot published on e gets e (of record idx) as its creator *)
Lemma published_P : forall G r new_ctx c, Provenance G c -> nth_error (sequence (c_ws c)) idx = Some r -> r_id r = t ->
  exists G', prefix G G' /\ Provenance G' (published idx e new_ctx c) /\
    seq_in_keeps (sequence (c_ws c)) (sequence (c_ws (published idx e new_ctx c))) /\
    handed G' (published idx e new_ctx c) (handed_over r new_ctx c).
Proof.
  intros G r new_ctx c HP Hr Hid. destruct new_ctx as [|kv d]; cbn [published handed_over].
  - exists G. split; [apply prefix_refl|]. split; [exact HP|]. split; [apply sik_refl|].
    exists r. split; [exact Hr|]. split; [exact Hid|]. intros i Hi; left; exact Hi.
  - set (f := fun r0 => r_set_out r0 (Some ((e_dst e, e_key e), length (contexts (c_ws c))))).
    exists (app G [Some (idx, e)]). split; [apply prefix_of_app|]. split; [|split].
    + exact (Prov_update _ _ idx f (Prov_new_context G c (kv :: d) (Some (idx, e)) HP) (fun r0 => conj eq_refl eq_refl)).
    + exact (sik_update (ws_set_contexts (c_ws c) (app (contexts (c_ws c)) [kv :: d])) idx f (fun r0 => conj eq_refl eq_refl)).
    + exists (f r). split; [exact (nth_update_rec_same (ws_set_contexts (c_ws c) _) idx f r Hr)|]. split; [exact Hid|].
      intros i Hi. apply in_app_or in Hi. destruct Hi as [Hi|[<-|[]]]; [left; exact Hi|right].
      destruct HP as [_ [Hlen _]]. rewrite <- Hlen. rewrite nth_error_app2 by apply Nat.le_refl.
      rewrite Nat.sub_diag. reflexivity.
Qed.

Lemma arrived_P : forall G nr out c c', Provenance G c -> handed G c out -> arrived t idx e nr out c = Some c' -> Post G c c'.
Proof.
  intros G nr out c c' HP Hh E. pose proof (handed_ok _ _ _ Hh) as Hok. unfold arrived in E.
  split; [apply sik_eq; destruct (get_staged_task (c_ws c) (e_dst e) nr); [destruct (nat_remove_first 0 out); [|discriminate]|];
          inversion E; reflexivity|].
  exists G. split; [apply prefix_refl|]. destruct (get_staged_task (c_ws c) (e_dst e) nr).
  - destruct (nat_remove_first 0 out) as [out'|] eqn:Er; [|discriminate]. inversion E; subst c'.
    eapply Prov_staged_gain; [exact HP|intro s1; split; reflexivity|].
    intros i Hi. apply Hok. eapply nat_remove_first_In; eassumption.
  - inversion E; subst c'. apply Prov_add_staged; [exact HP|]. cbn [mk_staged s_id s_in].
    destruct out as [|o os]; [intros i [<-|[]]; left; reflexivity|exact Hok].
Qed.

Lemma pt_cont_P : forall G ts ctx ok c c' res,
  pt_cont ev t route idx ts ctx e ok c = (c', res) -> Provenance G c -> rec_of_task c idx t -> Post G c c'.
Proof.
  intros G ts ctx ok c c' res H HP Hk.
  destruct ok as [[|]|]; try (unfold pt_cont in H; inversion H; subst; apply Post_refl; exact HP).
  unfold pt_cont in H. cbv zeta in H. revert c' res H.
  apply Post_bind; [apply Post_pres; [apply p2_finalize_context|exact HP]|]. intros c1 [new_ctx errors] G1 _ Hp1 K1 HP1.
  destruct errors as [|x errs]; [|apply Post_pres; [walk2|exact HP1]].
  destruct (rec_of_task_keeps _ _ _ _ K1 Hk) as [r [Hr Hid]].
  intros c' res H. rewrite (bind_step _ _ _ _ _ _ _ (get_rec_run _ _ _ Hr)) in H.
  rewrite (bind_step _ _ _ _ _ _ _ (eq_refl : getws c1 = (c1, Val (c_ws c1)))) in H.
  rewrite (bind_step _ _ _ _ _ _ _ (pt_publish_run idx e r new_ctx c1)) in H.
  destruct (published_P _ _ new_ctx _ HP1 Hr Hid) as [G2 [Hp2 [HP2 [K2 Hh2]]]].
  apply (Post_trans _ _ _ _ _ Hp2 K2). revert c' res H.
  apply Post_bind; [apply Post_pres; [apply p2_evaluate_route|exact HP2]|]. intros c3 nr G3 _ Hp3 K3 HP3.
  pose proof (handed_mono _ _ _ _ _ Hp3 K3 Hh2) as Hh3. intros c' res H.
  rewrite (bind_step _ _ _ _ _ _ _ (eq_refl : getws c3 = (c3, Val (c_ws c3)))) in H. unfold bind at 1 in H.
  rewrite (pt_stage_run t idx) in H.
  destruct (arrived t idx e nr (handed_over r new_ctx c1) c3) as [c4|] eqn:Ea; [|inversion H; subst; apply Post_refl; exact HP3].
  destruct (arrived_P _ _ _ _ _ HP3 Hh3 Ea) as [K4 [G4 [Hp4 HP4]]].
  apply (Post_trans _ _ _ _ _ Hp4 K4). revert H. apply Post_pres; [walk2|exact HP4].
Qed.

Lemma process_transition_P : forall G ts ctx c c' res,
  process_transition ev t route idx ts ctx e c = (c', res) -> Provenance G c -> rec_of_task c idx t -> Post G c c'.
Proof.
  intros G ts ctx c c' res H HP Hk. rewrite pt_eq in H. revert c' res H.
  apply Post_bind; [apply Post_pres; [apply p2_step1|exact HP]|]. intros c1 ok G1 _ Hp1 K1 HP1 c' res H.
  eapply pt_cont_P; [exact H|exact HP1|eapply rec_of_task_keeps; eassumption].
Qed.
End Acting.

Lemma transitions_P : forall t route idx ts ctx l G c c' res,
  (forall e, In e l -> In e (g_edges g) /\ e_src e = t) ->
  mapM (process_transition ev t route idx ts ctx) l c = (c', res) -> Provenance G c -> rec_of_task c idx t -> Post G c c'.
Proof.
  intros t route idx ts ctx l G c c' res Hl H HP Hk. revert c' res H.
  apply (run_mapM _ _ _ (fun l c1 => (forall e, In e l -> In e (g_edges g) /\ e_src e = t) /\ Post G c c1 /\ rec_of_task c1 idx t)
                        (fun c1 => Post G c c1)); [tauto| |split; [exact Hl|split; [apply Post_refl; exact HP|exact Hk]]].
  intros e l0 c1 [Hl0 [[K1 [G1 [Hp1 HP1]]] Hk1]] c2 y E. destruct (Hl0 e (or_introl eq_refl)) as [Hedge Hsrc].
  pose proof (process_transition_P _ _ _ _ Hedge Hsrc _ _ _ _ _ _ E HP1 Hk1) as S.
  split; [intros e' He'; apply Hl0; right; exact He'|].
  split; [eapply Post_trans; eassumption|eapply rec_of_task_keeps; [exact (proj1 S)|exact Hk1]].
Qed.

Lemma queue_P : forall G t route idx ts old new compl c c' res,
  uts_queue ev t route idx ts old new compl c = (c', res) -> Provenance G c -> rec_of_task c idx t -> Post G c c'.
Proof.
  intros G t route idx ts old new compl c c' res H HP Hk. unfold uts_queue in H.
  destruct compl as [[cctx b]|]; [|inversion H; subst; apply Post_refl; exact HP].
  destruct (negb (status_eqb new old)); [|inversion H; subst; apply Post_refl; exact HP].
  unfold bind at 1, get in H. cbv beta iota zeta in H.
  assert (Hg : c_graph c = g) by (destruct HP; assumption). rewrite Hg in H. revert c' res H.
  apply Post_bind; [apply Post_pres; [walk2|exact HP]|]. intros c1 u1 G1 _ Hp1 K1 HP1.
  apply Post_bind; [|intros c2 rs G2 _ _ _ HP2; apply Post_pres; [walk2|exact HP2]].
  intros c2 rs E. eapply transitions_P; [apply In_next_transitions|exact E|exact HP1|eapply rec_of_task_keeps; eassumption].
Qed.

Lemma tail_P : forall rec, (forall t route evt, preserves R2 (rec t route evt)) ->
  forall G t route p c c' res, tail_of ev rec t route p c = (c', res) -> Provenance G c -> rec_of_task c (po_idx p) t ->
  Post G c c'.
Proof.
  intros rec IH G t route p c c' res H HP Hk. unfold tail_of in H. rewrite uts_tail_eq in H.
  assert (Hrest : forall compl, run (uts_rest ev rec t route (po_ts p) (po_idx p) (po_old p) (po_new p) compl) c
                                    (fun c' _ => Post G c c')).
  { intro compl. apply Post_bind; [intros c1 q E; eapply queue_P; eassumption|]. intros c1 q G1 _ Hp1 K1 HP1.
    apply Post_pres; [|exact HP1].
    apply (uts_after_pres R2 R2_refl R2_trans p2_log_entry_error p2_wf_task_event);
      [intros; apply p2_upd_rec; reflexivity|intros; apply IH]. }
  destruct (po_compl p) as [[cctx [|]]|]; [exact (Post_pres _ _ _ _ (IH _ _ _) HP _ _ H)|exact (Hrest _ _ _ H)..].
Qed.

Lemma uts_P : forall fuel t route evt, preserves R2 (update_task_state_fuel ev fuel t route evt).
Proof.
  induction fuel as [|fuel IH]; intros t route evt; [simpl; apply (preserves_raise _ R2_refl)|].
  intros c c' res H. split; [apply R18_sik; eapply (p18_update_task_state_fuel ev); exact H|].
  intros G HP. rewrite uts_unfold, body_eq in H. apply bind_inv in H.
  destruct H as [[c1 [p [E H]]]|[e [E _]]]; destruct (prefix_P _ _ _ _ _ _ _ E HP) as [[K1 [G1 [Hp1 HP1]]] Hk].
  - destruct (tail_P _ IH _ _ _ _ _ _ _ H HP1 (Hk p eq_refl)) as [_ [G2 [Hp2 HP2]]].
    exists G2. split; [eapply prefix_trans; eassumption|exact HP2].
  - exists G1; split; assumption.
Qed.

Lemma rerun_branch_P : forall G ts t route b r idx c, Provenance G c ->
  (exists r1, nth_error (sequence (c_ws c)) idx = Some r1 /\ r_id r1 = t /\ r_in r1 = r_in r) ->
  run (rerun_branch ev ts t route b r) c (fun c' _ => Post G c c').
Proof.
  intros G ts t route b r idx c HP [r1 [Hn1 [Hi1 Hin1]]] c' res H.
  unfold rerun_branch, bind at 1, getws in H. cbv beta iota in H. revert c' res H.
  destruct (task_has_items ts && _); [apply Post_pres; [apply p2_restage; reflexivity|exact HP]|].
  assert (Hself : in_ok G (sequence (c_ws c)) (length (sequence (c_ws c))) t (r_in r)).
  { intros i Hi. right. exists idx, r1. split; [exact Hn1|]. split; [apply nth_error_Some; congruence|].
    left. split; [rewrite Hin1; exact Hi|left; exact Hi1]. }
  apply Post_bind; [intros c1 i E; exact (proj1 (add_task_state_P _ _ _ _ _ _ HP Hself _ _ E))|].
  intros c1 i G1 _ Hp1 K1 HP1 c' res H. unfold modws in H. inversion H; subst c' res.
  split; [apply sik_eq; reflexivity|]. exists G1. split; [apply prefix_refl|].
  apply Prov_add_staged; [exact HP1|]. cbn [mk_staged s_id s_in].
  destruct (K1 _ _ Hn1) as [r2 [Hn2 [Hi2 Hin2]]]. rewrite <- Hin1, <- Hin2.
  eapply in_ok_self; [exact Hn2|congruence|apply nth_error_Some; congruence].
Qed.

Lemma request_task_rerun_P : forall t route b, preserves R2 (request_task_rerun ev t route b).
Proof.
  intros t route b c c' res H. split; [apply R18_sik; eapply (p18_request_task_rerun ev); exact H|].
  intros G HP. assert (S : Post G c c'); [|exact (proj2 S)]. rewrite request_task_rerun_run in H.
  destruct (ws_task_idx (c_ws c) t route) as [idx|] eqn:Ep; [|inversion H; subst; apply Post_refl; exact HP].
  destruct (nth_error (sequence (c_ws c)) idx) as [r|] eqn:Hn; [|inversion H; subst; apply Post_refl; exact HP].
  destruct (spec_get_task (c_spec c) t) as [ts|]; [|inversion H; subst; apply Post_refl; exact HP].
  assert (Hid : r_id r = t).
  { destruct HP as [_ [_ [Hpt _]]]. destruct (Hpt _ _ _ Ep) as [r' [Hn' Hi']]. congruence. }
  revert c' res H. apply Post_bind; [apply Post_pres; [unfold rerun_prep; walk2|exact HP]|]. intros c1 u1 G1 _ Hp1 K1 HP1.
  destruct (K1 _ _ Hn) as [r1 [Hn1 [Hi1 Hin1]]].
  apply Post_bind; [apply (rerun_branch_P _ _ _ _ _ _ idx _ HP1); exists r1; repeat split; congruence|].
  intros c2 u2 G2 _ Hp2 K2 HP2. apply Post_pres; [unfold rerun_clear; walk2|exact HP2].
Qed.
Hint Resolve request_task_rerun_P : pres2p.

Lemma p2_request_workflow_rerun : forall reqs, preserves R2 (request_workflow_rerun ev reqs).
Proof. intros; unfold request_workflow_rerun; walk2. Qed.

Theorem api_provenance : forall op, preserves R2 (api_exec ev op).
Proof.
  intros op. apply (preserves_api_exec ev R2 R2_refl R2_trans p2_ensure_ws). destruct op.
  - exact I.
  - apply p2_request_workflow_status.
  - apply p2_get_next_tasks.
  - apply uts_P.
  - apply p2_render_workflow_output.
  - apply p2_request_workflow_rerun.
  - intro; apply R2_eq; reflexivity.
Qed.

Theorem history_provenance : forall ops c G, Provenance G c ->
  exists G', prefix G G' /\ Provenance G' (run_ops ev ops c).
Proof.
  intros ops c G. apply (preserves_run_ops ev R2 (fun _ => true) R2_refl R2_trans (fun op _ => api_provenance op)).
  clear; induction ops; [reflexivity|assumption].
Qed.
End WithEval.
End Prov.

Lemma fresh_provenance : forall sp g inputs parent, Provenance g [] (fresh_state sp g inputs parent).
Proof.
  intros. split; [reflexivity|]. split; [reflexivity|]. split; [intros t route j H; discriminate|].
  split; [intros s []|intros n r H; destruct n; discriminate].
Qed.

Theorem reachable_provenance : forall ev sp g inputs parent ops,
  exists G, Provenance g G (run_ops ev ops (fresh_state sp g inputs parent)).
Proof.
  intros. destruct (history_provenance g ev ops _ [] (fresh_provenance sp g inputs parent)) as [G [_ H]].
  exists G; exact H.
Qed.

Inductive reach (g : graph) : string -> string -> Prop :=
  | reach_refl : forall a, reach g a a
  | reach_step : forall a b c, reach g a b -> task_step g b c -> reach g a c.

(* a delta (snapshot i, created by edge e of record j) occurs only in the lists of tasks reachable
   from the target of e: it is visible only downstream of the transition that published it *)
Theorem delta_reaches_only_downstream : forall g G c i j e, Provenance g G c -> i <> 0 ->
  nth_error G i = Some (Some (j, e)) ->
  (forall n r, nth_error (sequence (c_ws c)) n = Some r -> In i (r_in r) -> reach g (e_dst e) (r_id r)) /\
  (forall s, In s (staged (c_ws c)) -> In i (s_in s) -> reach g (e_dst e) (s_id s)).
Proof.
  intros g G c i j e [_ [_ [_ [Hs Hr]]]] Hnz HG.
  assert (Hrec : forall n r, nth_error (sequence (c_ws c)) n = Some r -> In i (r_in r) -> reach g (e_dst e) (r_id r)).
  { induction n as [n IH] using lt_wf_ind. intros r Hn Hi.
    destruct (Hr n r Hn i Hi) as [E|[j' [r' [Hn' [Hlt H]]]]]; [congruence|].
    destruct H as [[Hin Hstep]|[e' [HG' [_ [_ Hd]]]]].
    - eapply reach_step; [eapply IH; eassumption|exact Hstep].
    - rewrite HG in HG'. inversion HG'; subst. rewrite Hd. apply reach_refl. }
  split; [exact Hrec|]. intros s Hin Hi.
  destruct (Hs s Hin i Hi) as [E|[j' [r' [Hn' [_ H]]]]]; [congruence|].
  destruct H as [[Hin' Hstep]|[e' [HG' [_ [_ Hd]]]]].
  - eapply reach_step; [eapply Hrec; eassumption|exact Hstep].
  - rewrite HG in HG'. inversion HG'; subst. rewrite Hd. apply reach_refl.
Qed.

Corollary delta_invisible_off_path : forall g G c i j e y, Provenance g G c -> i <> 0 ->
  nth_error G i = Some (Some (j, e)) -> ~ reach g (e_dst e) y ->
  (forall n r, nth_error (sequence (c_ws c)) n = Some r -> r_id r = y -> ~ In i (r_in r)) /\
  (forall s, In s (staged (c_ws c)) -> s_id s = y -> ~ In i (s_in s)).
Proof.
  intros g G c i j e y HP Hnz HG Hnr. destruct (delta_reaches_only_downstream g G c i j e HP Hnz HG) as [A B].
  split; [intros n r Hn Hy Hi; apply Hnr; rewrite <- Hy; eapply A; eassumption|].
  intros s Hin Hy Hi; apply Hnr; rewrite <- Hy; eapply B; eassumption.
Qed.

(* every index other than 0 in any list has a creator: some transition published it *)
Theorem every_delta_has_a_creator : forall g G c i, Provenance g G c -> i <> 0 ->
  ((exists n r, nth_error (sequence (c_ws c)) n = Some r /\ In i (r_in r)) \/
   (exists s, In s (staged (c_ws c)) /\ In i (s_in s))) ->
  exists j e, nth_error G i = Some (Some (j, e)) /\ In e (g_edges g).
Proof.
  intros g G c i [_ [_ [_ [Hs Hr]]]] Hnz.
  assert (Hrec : forall n r, nth_error (sequence (c_ws c)) n = Some r -> In i (r_in r) ->
                   exists j e, nth_error G i = Some (Some (j, e)) /\ In e (g_edges g)).
  { induction n as [n IH] using lt_wf_ind. intros r Hn Hi.
    destruct (Hr n r Hn i Hi) as [E|[j' [r' [Hn' [Hlt H]]]]]; [congruence|].
    destruct H as [[Hin _]|[e' [HG' [He' _]]]]; [eapply IH; eassumption|exists j', e'; split; assumption]. }
  intros [[n [r [Hn Hi]]]|[s [Hin Hi]]]; [eapply Hrec; eassumption|].
  destruct (Hs s Hin i Hi) as [E|[j' [r' [Hn' [_ H]]]]]; [congruence|].
  destruct H as [[Hin' _]|[e' [HG' [He' _]]]]; [eapply Hrec; eassumption|exists j', e'; split; assumption].
Qed.

Fixpoint term_fold (ctxs : list dict) (l : list (nat * trec)) (acc : dict) : result dict :=
  match l with
  | [] => Val acc
  | (_, r) :: l' =>
      match nat_remove_first 0 (r_in r) with
      | None => Exc (mkexn "ValueError" "list.remove(x): x not in list")
      | Some idxs =>
          match get_task_context_from ctxs idxs [] with
          | Val d => term_fold ctxs l' (merge_dicts acc d)
          | Exc e => Exc e
          end
      end
  end.

Lemma get_task_context_run : forall idxs c,
  get_task_context idxs c = (c, get_task_context_from (contexts (c_ws c)) idxs []).
Proof.
  intros idxs c. unfold get_task_context, bind, getws, lift_res.
  destruct (get_task_context_from (contexts (c_ws c)) idxs []); reflexivity.
Qed.

Lemma merge_term_contexts_run : forall l acc c,
  merge_term_contexts l acc c = (c, term_fold (contexts (c_ws c)) l acc).
Proof.
  induction l as [|[j r] l IH]; intros acc c; simpl; [reflexivity|].
  destruct (nat_remove_first 0 (r_in r)) as [idxs|]; [|reflexivity].
  unfold bind. rewrite get_task_context_run.
  destruct (get_task_context_from (contexts (c_ws c)) idxs []) as [d|e]; [apply IH|reflexivity].
Qed.

(* the context the output is rendered on reads the snapshots listed in the r_in of the records
   flagged terminal, in sequence order: the first record's whole list, each further record's list
   minus its first 0; the state is not changed *)
Theorem terminal_context_reads : forall c,
  get_workflow_terminal_context c =
  (c, match get_terminal_tasks (c_ws c) with
      | [] => Val []
      | (_, first) :: others =>
          match get_task_context_from (contexts (c_ws c)) (r_in first) [] with
          | Val c0 => term_fold (contexts (c_ws c)) others c0
          | Exc e => Exc e
          end
      end).
Proof.
  intro c. unfold get_workflow_terminal_context, bind at 1, getws. cbv beta iota.
  destruct (get_terminal_tasks (c_ws c)) as [|[j first] others]; [reflexivity|].
  unfold bind. rewrite get_task_context_run.
  destruct (get_task_context_from (contexts (c_ws c)) (r_in first) []) as [c0|e]; [apply merge_term_contexts_run|reflexivity].
Qed.

Lemma terminal_tasks_are_records : forall w j r, In (j, r) (get_terminal_tasks w) ->
  nth_error (sequence w) j = Some r /\ r_term r = true.
Proof.
  intros w j r H. unfold get_terminal_tasks in H. apply filter_In in H. destruct H as [Hin Ht].
  split; [apply InertProofs.In_enumerate; exact Hin|exact Ht].
Qed.

(* what a satisfied transition does to the list of its target's staged entry.  [out] is the list
   of the completed record followed by the index of the snapshot just published (if anything was
   published).  No entry yet: the new entry gets [out].  An entry already there (a later arrival,
   typically at a join): its list is extended by [out] minus its first 0 -- the whole list of the
   arriving branch, inherited snapshots included, nothing is deduplicated.  Hence the order inside a
   list is arrival order, and a snapshot inherited by a late branch is merged again AFTER newer ones
   (known finding D11). *)
Theorem in_list_recurrence : forall ev t route idx ts ctx e c c' res,
  pt_cont ev t route idx ts ctx e (Some true) c = (c', Val res) ->
  (exists cf new_ctx x errs, finalize_context ev ts e ctx c = (cf, Val (new_ctx, x :: errs))) \/
  (exists cf new_ctx r c3 nr,
     finalize_context ev ts e ctx c = (cf, Val (new_ctx, [])) /\ nth_error (sequence (c_ws cf)) idx = Some r /\
     let out := app (r_in r) (match new_ctx with [] => [] | _ => [length (contexts (c_ws cf))] end) in
     match get_staged_task (c_ws c3) (e_dst e) nr with
     | None => exists s', get_staged_task (c_ws c') (e_dst e) nr = Some s' /\
                          s_in s' = match out with [] => [0] | _ => out end
     | Some s => exists out' s', nat_remove_first 0 out = Some out' /\
                                 get_staged_task (c_ws c') (e_dst e) nr = Some s' /\ s_in s' = app (s_in s) out'
     end).
Proof.
  intros ev t route idx ts ctx e c c' res H.
  destruct (pt_cont_true_inv ev _ _ _ _ _ _ _ _ _ H) as [cf [new_ctx [errors [E1 Hx]]]].
  destruct errors as [|x errs]; [right|left; exists cf, new_ctx, x, errs; exact E1].
  destruct Hx as [r [c3 [nr [c4 [Hr [_ [Ea [-> _]]]]]]]]. exists cf, new_ctx, r, c3, nr. split; [exact E1|]. split; [exact Hr|].
  cbv zeta.
  replace (app (r_in r) (match new_ctx with [] => [] | _ => [length (contexts (c_ws cf))] end)) with (handed_over r new_ctx cf)
    by (destruct new_ctx; [symmetry; apply app_nil_r|reflexivity]).
  unfold arrived in Ea. unfold get_staged_task in *. unfold flagged. cbn [c_ws set_ws staged ws_set_staged].
  rewrite find_staged_update_same by (intro s; reflexivity).
  destruct (find (stg_matches (e_dst e) nr) (staged (c_ws c3))) as [s|] eqn:Ef.
  - destruct (nat_remove_first 0 (handed_over r new_ctx cf)) as [out'|]; [|discriminate].
    inversion Ea; subst c4. cbn [c_ws set_ws staged ws_set_staged].
    rewrite find_staged_update_same by (intro s0; reflexivity). rewrite Ef. cbn [option_map].
    exists out'. eexists. split; [reflexivity|]. split; reflexivity.
  - inversion Ea; subst c4. cbn [c_ws set_ws staged ws_set_staged ws_add_staged].
    rewrite (find_app_last _ _ _ _ Ef).
    2: { unfold stg_matches, mk_staged; cbn [s_id s_route]. rewrite String.eqb_refl, Nat.eqb_refl. reflexivity. }
    cbn [option_map]. eexists. split; reflexivity.
Qed.

(* s --(x := old)--> t0 ; t0 --(y)--> a ; t0 --> b ; a --(x := new)--> c ; b --> c ; c joins all *)
Definition pv_ev (s : string) (ctx : dict) : evalres :=
  if String.eqb s "old" then EvOk (JInt 1) else if String.eqb s "new" then EvOk (JInt 2)
  else if String.eqb s "why" then EvOk (JStr "y") else EvOk (JBool true).
Definition pv_tr (pub : list (string * json)) (d : string) : transition_spec :=
  {| tr_when := JStr "ok"; tr_publish := pub; tr_do := [d] |}.
Definition pv_task (nx : list transition_spec) (j : json) : task_spec :=
  {| ts_action := JNull; ts_input := JNull; ts_with := None; ts_delay := JNull; ts_join := j; ts_next := nx |}.
Definition pv_spec : wf_spec :=
  {| wf_input := []; wf_vars := []; wf_output := [];
     wf_tasks := [("s", pv_task [pv_tr [("x", JStr "old")] "t0"] JNull);
                  ("t0", pv_task [pv_tr [("y", JStr "why")] "a"; pv_tr [] "b"] JNull);
                  ("a", pv_task [pv_tr [("x", JStr "new")] "c"] JNull);
                  ("b", pv_task [pv_tr [] "c"] JNull);
                  ("c", pv_task [] (JStr "all"))] |}.
Definition pv_node (n : string) (b : json) : gnode := {| n_id := n; n_barrier := b; n_splits := None; n_retry := JNull |}.
Definition pv_edge (a b : string) (rf : nat) : gedge :=
  {| e_src := a; e_dst := b; e_key := 0; e_ref := rf; e_criteria := [JStr "ok"] |}.
Definition pv_graph : graph :=
  {| g_nodes := [pv_node "s" JNull; pv_node "t0" JNull; pv_node "a" JNull; pv_node "b" JNull; pv_node "c" (JStr "*")];
     g_edges := [pv_edge "s" "t0" 0; pv_edge "t0" "a" 0; pv_edge "t0" "b" 1; pv_edge "a" "c" 0; pv_edge "b" "c" 0] |}.
Definition pv_run (t : string) : list api_op :=
  [OpEvent t 0 (EvAction S_RUNNING JNull); OpEvent t 0 (EvAction S_SUCCEEDED JNull)].
Definition pv_fork_ops : list api_op := [OpRequest S_RUNNING; OpGetNext] ++ pv_run "s" ++ pv_run "t0".
Definition pv_ops : list api_op := pv_fork_ops ++ pv_run "a" ++ pv_run "b".
Definition pv_obs (c : cstate) :=
  (map (fun r => (r_id r, r_in r)) (sequence (c_ws c)), map (fun s => (s_id s, s_in s)) (staged (c_ws c)),
   contexts (c_ws c)).

(* the fork: snapshot 2 (y, published on t0 -> a) is in a's list and not in its sibling b's *)
Example pv_fork :
  pv_obs (run_ops pv_ev pv_fork_ops (fresh_state pv_spec pv_graph [] []))
  = ([("s", [0]); ("t0", [0; 1])], [("a", [0; 1; 2]); ("b", [0; 1])],
     [[]; [("x", JInt 1)]; [("y", JStr "y")]]).
Proof. vm_compute. reflexivity. Qed.

(* the join receives both branches, in arrival order and without deduplication: a arrives with
   [0;1;2;3] (3 = x := new), then b contributes its list minus the first 0, i.e. [1] again *)
Example pv_join :
  pv_obs (run_ops pv_ev pv_ops (fresh_state pv_spec pv_graph [] []))
  = ([("s", [0]); ("t0", [0; 1]); ("a", [0; 1; 2]); ("b", [0; 1])], [("c", [0; 1; 2; 3; 1])],
     [[]; [("x", JInt 1)]; [("y", JStr "y")]; [("x", JInt 2)]]).
Proof. vm_compute. reflexivity. Qed.

(* known finding D11 as a consequence of that order: c is offered x = 1, the older value that
   branch b merely inherited, although a published x = 2 later *)
Example pv_join_D11 :
  match get_next_tasks pv_ev (run_ops pv_ev pv_ops (fresh_state pv_spec pv_graph [] [])) with
  | (_, Val l) => map (fun o => (o_id o, dget "x" (o_ctx o), dget "y" (o_ctx o))) l
  | _ => []
  end = [("c", Some (JInt 1), Some (JStr "y"))].
Proof. vm_compute. reflexivity. Qed.

(* the hypothesis of [delta_invisible_off_path] is satisfiable: nothing is downstream of c, so
   the snapshot published on a -> c can never reach b (nor a, t0, s) *)
Example pv_nothing_downstream_of_c : forall y, reach pv_graph "c" y -> y = "c".
Proof.
  assert (G : forall x y, reach pv_graph x y -> x = "c" -> y = "c").
  { intros x y H. induction H as [a|a b c0 H IH Hs]; intro Ex; [exact Ex|].
    specialize (IH Ex). destruct Hs as [<-|[e [Hin [Hsrc _]]]]; [exact IH|].
    exfalso. simpl in Hin. rewrite IH in Hsrc.
    destruct Hin as [<-|[<-|[<-|[<-|[<-|[]]]]]]; discriminate. }
  intros y H. exact (G _ _ H eq_refl).
Qed.

Lemma provenance_unfold : forall g G c,
  Provenance g G c <->
  (c_graph c = g /\ length G = length (contexts (c_ws c)) /\ ptr_ok (c_ws c) /\
   (forall s, In s (staged (c_ws c)) ->
      in_ok g G (sequence (c_ws c)) (length (sequence (c_ws c))) (s_id s) (s_in s)) /\
   (forall n r, nth_error (sequence (c_ws c)) n = Some r -> in_ok g G (sequence (c_ws c)) n (r_id r) (r_in r))).
Proof. intros; split; intro H; exact H. Qed.

Lemma in_ok_unfold : forall g G sq bound dst L,
  in_ok g G sq bound dst L <->
  (forall i, In i L -> i = 0 \/
     exists j r', nth_error sq j = Some r' /\ j < bound /\
       ((In i (r_in r') /\ task_step g (r_id r') dst) \/
        (exists e, nth_error G i = Some (Some (j, e)) /\ In e (g_edges g) /\ e_src e = r_id r' /\ e_dst e = dst))).
Proof. intros; split; intro H; exact H. Qed.

Lemma task_step_unfold : forall g a b,
  task_step g a b <-> (a = b \/ exists e, In e (g_edges g) /\ e_src e = a /\ e_dst e = b).
Proof. intros; split; intro H; exact H. Qed.

Lemma R2_unfold : forall g c c',
  R2 g c c' <->
  (seq_in_keeps (sequence (c_ws c)) (sequence (c_ws c')) /\
   forall G, Provenance g G c -> exists G', prefix G G' /\ Provenance g G' c').
Proof. intros; split; intro H; exact H. Qed.
