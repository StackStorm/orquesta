(* C02, last sentence, the fail command, composed (C02f): a whole provider call whose satisfied transitions queue `fail`
   leaves the workflow failed -- or in the cancel class. *)
From Coq Require Import String List Bool ZArith Arith Lia.
From Orq Require Import GenStatuses GenEvents GenTables Base State Machines Conductor Api.
From Orq Require Import F_tables F_names Hoare ValuePost StatusReach C02C03Proofs C04Proofs InertProofs RetryProofs
  FrozenProofs JustifiedProofs NoInternalProofs SysProofs RecordedProofs LateProofs FailProofs Late2Proofs ListFacts StateFacts.
Import ListNotations.
Open Scope string_scope.
Open Scope monad_scope.

Definition Rtrue (idx : nat) (tid : trid) (c c' : cstate) : Prop :=
  (exists r, nth_error (sequence (c_ws c)) idx = Some r /\ aget trid_eqb tid (r_next r) = Some true) ->
  (exists r', nth_error (sequence (c_ws c')) idx = Some r' /\ aget trid_eqb tid (r_next r') = Some true).
Lemma Rtrue_refl : forall idx tid c, Rtrue idx tid c c.
Proof. intros idx tid c H; exact H. Qed.
Lemma Rtrue_trans : forall idx tid a b c, Rtrue idx tid a b -> Rtrue idx tid b c -> Rtrue idx tid a c.
Proof. unfold Rtrue; intros; auto. Qed.
Lemma Rnx_Rtrue : forall idx tid c c', Rnx c c' -> Rtrue idx tid c c'.
Proof. intros idx tid c c' H [r [Hr Ha]]. destruct (H idx r Hr) as [r' [Hr' [N _]]]. exists r'. split; [exact Hr'|rewrite N; exact Ha]. Qed.

Lemma Rtrue_set_next : forall idx tid c j tid' b, tid' <> tid ->
  Rtrue idx tid c (set_ws c (ws_update_rec (c_ws c) j (fun r => r_set_next r (aset trid_eqb tid' b (r_next r))))).
Proof.
  intros idx tid c j tid' b Hne [r [Hr Ha]]. cbn [c_ws set_ws]. destruct (Nat.eq_dec j idx) as [->|Hn].
  - eexists. split; [apply (nth_update_rec_same (c_ws c) idx _ r Hr)|]. cbn [r_next r_set_next]. rewrite (aget_aset trid_eqb trid_eqb_eq).
    destruct (trid_eqb tid tid') eqn:E; [apply trid_eqb_eq in E; subst; contradiction|exact Ha].
  - exists r. split; [rewrite nth_update_rec_other by exact Hn; exact Hr|exact Ha].
Qed.

Lemma Rtrue_update : forall idx tid c j f, (forall r, r_next (f r) = r_next r) ->
  Rtrue idx tid c (set_ws c (ws_update_rec (c_ws c) j f)).
Proof.
  intros idx tid c j f Hf [r [Hr Ha]]. cbn [c_ws set_ws]. destruct (Nat.eq_dec j idx) as [->|Hn].
  - exists (f r). split; [apply nth_update_rec_same; exact Hr|rewrite Hf; exact Ha].
  - exists r. split; [rewrite nth_update_rec_other by exact Hn; exact Hr|exact Ha].
Qed.

Section WithEval.
Variable ev : string -> dict -> evalres.

Section Kept.
Variable idx : nat.
Variable tid : trid.

Ltac nleaf :=
  first
    [ apply (preserves_modws (Rtrue idx tid)); intro; apply Rnx_Rtrue; apply Rnx_same_seq; simpl; first [reflexivity|apply seq_remove_staged]
    | apply (preserves_modws (Rtrue idx tid)); intro; apply Rtrue_update; intro; reflexivity
    | apply (preserves_modify (Rtrue idx tid)); intro; apply Rnx_Rtrue; apply Rnx_same_seq; cbv zeta;
      try match goal with |- context [if ?b then _ else _] => destruct b end; reflexivity
    | assumption ].

(* what follows the decision in one transition writes no decision *)
Lemma ptr_cont : forall t route i ts ctx e ok, preserves (Rtrue idx tid) (JustifiedProofs.pt_cont ev t route i ts ctx e ok).
Proof.
  intros. unfold JustifiedProofs.pt_cont, finalize_context, get_rec, upd_rec, evaluate_route. cbv zeta.
  pw (Rtrue_refl idx tid) (Rtrue_trans idx tid)
     ltac:(first [apply (preserves_sub _ _ (Rnx_Rtrue idx tid)); apply pnx_request_status_core|apply (preserves_sub _ _ (Rnx_Rtrue idx tid)); apply pnx_log_errors|apply (preserves_sub _ _ (Rnx_Rtrue idx tid)); apply pnx_render_vars|nleaf]).
Qed.
Lemma ptr_transition : forall t route i ts ctx e, trid_of e <> tid -> preserves (Rtrue idx tid) (process_transition ev t route i ts ctx e).
Proof.
  intros t route i ts ctx e Hne. rewrite JustifiedProofs.pt_eq.
  apply (preserves_bind _ (Rtrue_trans idx tid)); [|intro; apply ptr_cont].
  unfold JustifiedProofs.pt_step1, upd_rec.
  pw (Rtrue_refl idx tid) (Rtrue_trans idx tid)
     ltac:(first [apply (preserves_sub _ _ (Rnx_Rtrue idx tid)); apply pnx_request_status_core|apply (preserves_sub _ _ (Rnx_Rtrue idx tid)); apply pnx_log_error
                 |apply (preserves_modws (Rtrue idx tid)); intro; apply Rtrue_set_next; exact Hne|nleaf]).
Qed.
End Kept.

Lemma pt_records_true : forall t route idx ts ctx e c c1 v r,
  process_transition ev t route idx ts ctx e c = (c1, Val v) -> (fst v <> None \/ snd v <> None) ->
  nth_error (sequence (c_ws c)) idx = Some r ->
  exists r1, nth_error (sequence (c_ws c1)) idx = Some r1 /\ aget trid_eqb (trid_of e) (r_next r1) = Some true.
Proof.
  intros t route idx ts ctx e c c1 v r H Hv Hr. rewrite JustifiedProofs.pt_eq in H.
  apply bind_val_inv' in H. destruct H as [ca [ok [E1 E2]]].
  assert (Hok : ok = Some true).
  { destruct ok as [[|]|]; [reflexivity| |];
      rewrite (JustifiedProofs.no_reference_unless_true ev t route idx ts ctx e) in E2 by discriminate;
      inversion E2; subst v; simpl in Hv; destruct Hv as [Hv|Hv]; exfalso; apply Hv; reflexivity. }
  subst ok.
  destruct (JustifiedProofs.decision_recorded_is_criteria ev _ _ _ _ _ _ _ _ E1) as [vs [_ [_ Hrec]]].
  specialize (Hrec r Hr).
  apply (ptr_cont idx (trid_of e) _ _ _ _ _ _ _ _ _ _ E2).
  eexists. split; [exact Hrec|]. cbn [r_next r_set_next]. unfold trid_of. rewrite (aget_aset trid_eqb trid_eqb_eq), trid_eqb_refl. reflexivity.
Qed.

Lemma mapM_records_true : forall t route idx ts ctx l c c' rs,
  mapM (process_transition ev t route idx ts ctx) l c = (c', Val rs) -> NoDup (map trid_of l) ->
  (exists r, nth_error (sequence (c_ws c)) idx = Some r) ->
  forall p, In p (cmds_of rs) ->
    exists e r', In e l /\ e_dst e = fst p /\ nth_error (sequence (c_ws c')) idx = Some r' /\
                 aget trid_eqb (trid_of e) (r_next r') = Some true.
Proof.
  intros t route idx ts ctx l; induction l as [|e l IH]; intros c c' rs H Hnd [r Hr] p Hp.
  - inversion H; subst. destruct Hp.
  - simpl in H. apply bind_val_inv' in H. destruct H as [c1 [v [E1 H]]].
    apply bind_val_inv' in H. destruct H as [c2 [vs [E2 H]]]. inversion H; subst c' rs; clear H.
    simpl in Hnd. apply NoDup_cons_iff in Hnd. destruct Hnd as [Hn1 Hn2].
    assert (Hr1 : exists r1, nth_error (sequence (c_ws c1)) idx = Some r1).
    { destruct (nth_error (sequence (c_ws c1)) idx) as [r1|] eqn:E; [eauto|exfalso].
      pose proof (vfr_process_transition ev _ _ _ _ _ _ _ _ _ E1) as [_ [F2 _]].
      apply nth_error_None in E. assert (L : length (map sig (sequence (c_ws c1))) = length (map sig (sequence (c_ws c)))) by (rewrite F2; reflexivity).
      rewrite !map_length in L. assert (idx < length (sequence (c_ws c))) by (apply nth_error_Some; rewrite Hr; discriminate). lia. }
    unfold cmds_of in Hp. simpl in Hp. destruct v as [q0 q1]. apply in_app_or in Hp. destruct Hp as [Hp|Hp].
    + destruct q0 as [x|]; [|destruct Hp]. destruct Hp as [<-|[]].
      assert (Hv : fst (Some x, q1) <> None \/ snd (Some x, q1) <> None) by (left; discriminate).
      destruct (pt_records_true _ _ _ _ _ _ _ _ _ _ E1 Hv Hr) as [r1 [Hr1' Ha]].
      destruct (pt_cmd_dst ev _ _ _ _ _ _ _ _ _ E1 x eq_refl) as [Hde _].
      (* the later transitions have other ids *)
      assert (Keep : Rtrue idx (trid_of e) c1 c2).
      { clear -E2 Hn1. revert c1 c2 vs E2. induction l as [|e' l IHl]; intros c1 c2 vs E2.
        - inversion E2; subst. apply Rtrue_refl.
        - simpl in E2. apply bind_val_inv' in E2. destruct E2 as [ca [va [Ea E2]]].
          apply bind_val_inv' in E2. destruct E2 as [cb [vb [Eb E2]]]. inversion E2; subst c2 vs; clear E2.
          eapply Rtrue_trans.
          + eapply ptr_transition; [|exact Ea]. intro X. apply Hn1. simpl. left. exact X.
          + eapply IHl; [|exact Eb]. intro X. apply Hn1. simpl. right. exact X. }
      destruct (Keep (ex_intro _ r1 (conj Hr1' Ha))) as [r2 [Hr2 Ha2]].
      exists e, r2. split; [left; reflexivity|]. split; [symmetry; exact Hde|]. split; [exact Hr2|exact Ha2].
    + destruct (IH c1 c2 vs E2 Hn2 Hr1 p Hp) as [e' [r' [He' Hx]]]. exists e', r'. split; [right; exact He'|exact Hx].
Qed.

Lemma queue_records_true : forall t route idx ts o n compl c c' q,
  uts_queue ev t route idx ts o n compl c = (c', Val q) -> NoDup (map trid_of (g_next_transitions (c_graph c) t)) ->
  (exists r, nth_error (sequence (c_ws c)) idx = Some r) ->
  forall p, In p q ->
    exists e r', In e (g_next_transitions (c_graph c) t) /\ e_dst e = fst p /\ nth_error (sequence (c_ws c')) idx = Some r' /\
                 aget trid_eqb (trid_of e) (r_next r') = Some true.
Proof.
  intros t route idx ts o n compl c c' q H Hnd [r Hr] p Hp.
  destruct (uts_queue_inv ev _ _ _ _ _ _ _ _ _ _ H) as [[_ [-> _]]|[ctx [b [c1 [c2 [rs [c3 [r4 [_ [E1 [E2 [E3 [_ [E5 ->]]]]]]]]]]]]]]; [destruct Hp|].
  assert (Hr1 : exists r1, nth_error (sequence (c_ws c1)) idx = Some r1).
  { clear -E1 Hr. destruct (g_next_transitions (c_graph c) t); [|inversion E1; subst; eauto].
    unfold upd_rec, modws in E1. inversion E1; subst. cbn [c_ws set_ws]. eexists. apply (nth_update_rec_same _ _ _ _ Hr). }
  destruct (mapM_records_true _ _ _ _ _ _ _ _ _ E2 Hnd Hr1 p Hp) as [e [r2 [He [Hde [Hr2 Ha]]]]].
  exists e. 
  assert (K3 : sequence (c_ws c3) = sequence (c_ws c2)).
  { clear -E3. destruct (existsb _ _); [|inversion E3; reflexivity].
    destruct (flag_loop _ [] _ _ _ E3) as [_ [_ [S _]]]; [intros k []|exact S]. }
  assert (Hr3 : nth_error (sequence (c_ws c3)) idx = Some r2) by (rewrite K3; exact Hr2).
  assert (K5 : Rtrue idx (trid_of e) c3 c').
  { clear -E5. destruct (g_next_transitions (c_graph c) t); [inversion E5; subst; apply Rtrue_refl|].
    destruct (existsb _ (r_next r4)); [inversion E5; subst; apply Rtrue_refl|].
    unfold upd_rec, modws in E5. inversion E5; subst. apply Rtrue_update. intro; reflexivity. }
  destruct (K5 (ex_intro _ r2 (conj Hr3 Ha))) as [r5 [Hr5 Ha5]].
  exists r5. split; [exact He|]. split; [exact Hde|]. split; [exact Hr5|exact Ha5].
Qed.

Lemma F_in_progress_step : forall s e t, in_progress s -> tbl_step wf_table s e = Some t -> t <> S_SUCCEEDED ->
  (in_progress t \/ t = S_FAILED) \/ In t [S_CANCELING; S_CANCELED].
Proof.
  intros s e t Hs H Hns.
  assert (T : table_forall wf_table
                (fun s _ t => negb (status_in s [S_RUNNING; S_PAUSING; S_PAUSED; S_RESUMING])
                              || status_in t [S_RUNNING; S_PAUSING; S_PAUSED; S_RESUMING; S_CANCELING; S_CANCELED; S_SUCCEEDED; S_FAILED]) = true)
    by (vm_compute; reflexivity).
  pose proof (table_forall_step _ _ T _ _ _ H) as P; cbv beta in P.
  apply status_in_In in Hs. rewrite Hs in P; cbn [andb negb orb] in P. apply status_in_In in P.
  clear -P Hns. unfold in_progress. simpl in P |- *. intuition congruence.
Qed.

Lemma fail_class_closed : forall s u, In s [S_FAILED; S_CANCELING; S_CANCELED] -> wf_reach s u ->
  In u [S_FAILED; S_CANCELING; S_CANCELED].
Proof.
  intros s u Hs R. assert (Hs' : In s [S_CANCELING; S_CANCELED; S_FAILED]) by (simpl in Hs |- *; tauto).
  pose proof (reach_cancel_closed _ _ Hs' R) as X. simpl in X |- *. tauto.
Qed.

Hypothesis Hev : eval_no_internal ev.

Lemma queued_fail_is_next : forall t route idx ts o n compl c1 c2 q rt r1 r2,
  uts_queue ev t route idx ts o n compl c1 = (c2, Val (("fail", rt) :: q)) ->
  NoDup (map trid_of (g_next_transitions (c_graph c1) t)) -> g_has_barrier (c_graph c1) "fail" = false ->
  ws_task_idx (c_ws c1) t route = Some idx -> nth_error (sequence (c_ws c1)) idx = Some r1 ->
  nth_error (sequence (c_ws c2)) idx = Some r2 -> ostatus_in (r_status r2) COMPLETED_STATUSES = true ->
  has_next_tasks (c_graph c2) (c_ws c2) t route = true.
Proof.
  intros t route idx ts o n compl c1 c2 q rt r1 r2 Hqueue Htids Hnb Hp1 Hr1 Hr2 Hc.
  pose proof (vfr_queue ev _ _ _ _ _ _ _ _ _ _ Hqueue) as [F1 [_ [_ [F4 _]]]].
  destruct (queue_records_true _ _ _ _ _ _ _ _ _ _ Hqueue Htids (ex_intro _ r1 Hr1) ("fail", rt) (or_introl eq_refl))
    as [e [r2' [He [Hde [Hr2' Ha]]]]].
  rewrite Hr2 in Hr2'. inversion Hr2'; subst r2'. clear Hr2'. simpl in Hde.
  unfold has_next_tasks, has_next, ws_task_entry, ws_task_idx. rewrite F1. fold (ws_task_idx (c_ws c1) t route). rewrite Hp1, Hr2, Hc.
  cbn [negb]. apply existsb_exists. exists e. split; [rewrite F4; exact He|].
  rewrite Hde. change (String.eqb "fail" "continue") with false. cbv iota.
  unfold trid_of in Ha. rewrite Hde in Ha. rewrite Ha. rewrite F4, Hnb. reflexivity.
Qed.

Lemma task_event_with_next : forall t route st c c3 unr,
  in_progress (wstatus (c_ws c)) \/ wstatus (c_ws c) = S_FAILED ->
  has_next_tasks (c_graph c) (c_ws c) t route = true ->
  wf_task_event_M t route st c = (c3, Val unr) ->
  (in_progress (wstatus (c_ws c3)) \/ wstatus (c_ws c3) = S_FAILED) \/ In (wstatus (c_ws c3)) [S_CANCELING; S_CANCELED].
Proof.
  intros t route st c c3 unr St2 Hnext E3.
  assert (Hns : wstatus (c_ws c3) <> S_SUCCEEDED).
  { intro E. assert (Hn2 : wstatus (c_ws c) <> S_SUCCEEDED) by (destruct St2 as [[X|[X|[X|[X|[]]]]]|X]; [rewrite <- X|rewrite <- X|rewrite <- X|rewrite <- X|rewrite X]; discriminate).
    destruct (succeeded_only_when_all_done _ _ _ _ _ _ Hn2 E3 E) as [_ [_ [_ [_ [_ [_ [X _]]]]]]]. rewrite Hnext in X. discriminate. }
  destruct (wf_task_event_M_spec _ _ _ _ _ _ E3) as [[x [Hx _]]|[u [_ Hspec]]]; [discriminate|]. cbv zeta in Hspec.
  destruct St2 as [Hip2|Hf2].
  - destruct (tbl_step wf_table (wstatus (c_ws c)) _) as [n|] eqn:En.
    + destruct Hspec as [E|[E _]]; [|left; right; exact E]. rewrite E. rewrite E in Hns.
      exact (F_in_progress_step _ _ _ Hip2 En Hns).
    + left; left. rewrite Hspec. exact Hip2.
  - left; right. exact (task_event_failed_stays _ _ _ _ _ _ Hf2 E3).
Qed.

(* C02f: a provider's completion report whose transitions queue `fail` first *)
Theorem queued_fail_fails_call : forall t route st res ts idx r s c c' c1 p c2 q rt,
  WF c -> static_ok (c_spec c) (c_graph c) -> in_progress (wstatus (c_ws c)) ->
  NoDup (map trid_of (g_next_transitions (c_graph c) t)) -> g_has_barrier (c_graph c) "fail" = false ->
  cmds_unvisited c t route ->
  is_engine_command t = false -> g_has_task (c_graph c) t = true ->
  spec_get_task (c_spec c) t = Some ts -> task_has_items ts = false ->
  ws_task_idx (c_ws c) t route = Some idx -> nth_error (sequence (c_ws c)) idx = Some r ->
  r_status r = Some s -> In s [S_RUNNING; S_PAUSING; S_CANCELING] ->
  status_in st COMPLETED_STATUSES = true -> no_retry_left r ->
  update_task_state ev t route (EvAction st res) c = (c', Val tt) ->
  uts_prefix ev t route (EvAction st res) c = (c1, Val p) ->
  uts_queue ev t route (po_idx p) (po_ts p) (po_old p) (po_new p) (po_compl p) c1 = (c2, Val (("fail", rt) :: q)) ->
  In (wstatus (c_ws c')) [S_FAILED; S_CANCELING; S_CANCELED].
Proof.
  intros t route st res ts idx r s c c' c1 p c2 q rt Wc Hso Hip Htids Hnb Hunv Hcmd Hg Hts Hit Hp Hr Hs Hin Hst Hnr H Hpre Hqueue.
  destruct (F_reported_completed st) as [Hrc _].
  unfold update_task_state in H. rewrite uts_unfold in H.
  pose proof (rec_ok_fuel ev 2) as Hrec.
  assert (Hfail : forall rt0 ca cb, update_task_state_fuel ev 2 "fail" rt0 fail_event ca = (cb, Val tt) ->
                    graph_commands_inert (c_graph ca) -> c_init ca = true -> ws_task_idx (c_ws ca) "fail" rt0 = None ->
                    (in_progress (wstatus (c_ws ca)) \/ wstatus (c_ws ca) = S_FAILED) -> wstatus (c_ws cb) = S_FAILED)
    by (intros rt0 ca cb E A B C D; exact (fail_command_call_fails ev 1 rt0 ca cb A B C D E)).
  set (rec := update_task_state_fuel ev 2) in *. clearbody rec.
  destruct (late_call_split ev rec t route st res ts idx r s c c' Wc Hnr Hcmd Hg Hts Hit Hp Hr Hs Hin Hst H)
    as [c1' [ctx [c2' [q' [r2 [c3 [unr [c4 [c5 [E1 [K [Hr1 [W1 [E2 [Hr2 [Hs2 [E3 [E4 [E5 Hend]]]]]]]]]]]]]]]]]]]. clear H.
  rewrite E1 in Hpre. inversion Hpre; subst c1' p. clear Hpre. cbn [po_ts po_idx po_old po_new po_compl] in Hqueue.
  rewrite Hqueue in E2. inversion E2; subst c2' q'. clear E2.
  pose proof (kept_cmd_edges c c1 t route K) as Ke.
  destruct K as [K1 [K2 [K3 [K4 [K5 [K6 [K7 K8]]]]]]].
  pose proof (vfr_queue ev _ _ _ _ _ _ _ _ _ _ Hqueue) as [F1 [F2 [F3 [F4 [F5 F6]]]]].
  (* the workflow machine's step for the task does not make the workflow succeeded: `fail` is a next task *)
  assert (Hp1 : ws_task_idx (c_ws c1) t route = Some idx) by (unfold ws_task_idx in *; rewrite K1; exact Hp).
  destruct (wf_ptr _ W1 _ _ Hp1) as [Hidx1 Hroute1]. simpl in Hroute1.
  assert (Hnext : has_next_tasks (c_graph c2) (c_ws c2) t route = true).
  { eapply queued_fail_is_next; [exact Hqueue|rewrite K5; exact Htids|rewrite K5; exact Hnb|exact Hp1|exact Hr1|exact Hr2|].
    unfold ostatus_in. rewrite Hs2. exact Hrc. }
  assert (St2 : in_progress (wstatus (c_ws c2)) \/ wstatus (c_ws c2) = S_FAILED).
  { destruct F3 as [F3|F3]; [left; rewrite F3, K4; exact Hip|right; exact F3]. }
  pose proof (task_event_with_next _ _ _ _ _ _ St2 Hnext E3) as St3.
  (* the command is delivered first *)
  cbn [forM_] in E5. apply bind_val_inv' in E5. destruct E5 as [ca [[] [Ea E5]]].
  unfold uts_call in Ea. change (engine_event "fail") with (Some fail_event) in Ea.
  destruct (log_unreachable_run unr c3) as [c4' [E4' W4]]. rewrite E4 in E4'. inversion E4'; subst c4'. clear E4'.
  assert (G4 : c_graph c4 = c_graph c).
  { pose proof (pg_wf_task_event _ _ _ _ _ _ E3) as A. pose proof (pg_log_unreachable _ _ _ _ E4) as B. unfold Rg in *. congruence. }
  assert (Sa : In (wstatus (c_ws ca)) [S_FAILED; S_CANCELING; S_CANCELED]).
  { rewrite <- W4 in St3. destruct St3 as [St3|St3].
    - left. symmetry. eapply Hfail; [exact Ea| | | |exact St3].
      + rewrite G4. apply (so_inert _ _ Hso).
      + pose proof (pw_wf_task_event _ _ _ _ _ _ E3) as [A _]. pose proof (pw_log_unreachable _ _ _ _ E4) as [B _].
        apply B, A. rewrite F6. apply (wf_init _ W1).
      + unfold ws_task_idx. rewrite W4.
        destruct (pw_wf_task_event _ _ _ _ _ _ E3) as [_ [T3 _]].
        rewrite T3, F1.
        apply (queued_unvisited ev Hev _ _ _ _ _ _ _ _ _ _ Hqueue W1) with (p := ("fail", rt));
          [rewrite K5, K6; exact Hso|rewrite K6; exact Hts|exact Hroute1|exact Hidx1| |left; reflexivity].
        unfold ws_task_idx. rewrite Ke, K1. exact Hunv.
    - destruct Hrec as [_ Hreach]. apply (fail_class_closed (wstatus (c_ws c4))); [right; exact St3|exact (Hreach _ _ _ _ _ _ Ea)]. }
  assert (R5 : wf_reach (wstatus (c_ws ca)) (wstatus (c_ws c'))) by (eapply reach_end; [eapply loop_reach; [exact Hrec|exact E5]|exact Hend]).
  exact (fail_class_closed _ _ Sa R5).
Qed.

End WithEval.
