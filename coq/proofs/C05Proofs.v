(* C05Proofs.v -- serialisation round trip: decoding the persisted form of a conductor gives the
   conductor back (for every state whatsoever: the codec needs no side condition beyond "the lazy
   workflow state has been created"), hence the persist round trip is the identity on initialised
   conductors, equals serialize() on every conductor, and inserting it at any points of a history
   changes neither the states reached nor anything a provider observes.
   Also the rules that rest on the round trip or on the API as a whole: [persist_eq], [preserves_persist],
   [ro_persist], and the liftings of a frame to one API call and to a history ([preserves_api_exec],
   [preserves_run_ops]). *)
From Coq Require Import String Ascii List Bool ZArith Arith Lia DecimalString DecimalZ DecimalPos.
From Orq Require Import GenStatuses GenEvents GenTables GenSpecMeta Base State Machines Codec Conductor Decode Api.
From Orq Require Import ListFacts StateFacts Hoare Frame.
Import ListNotations.
Open Scope string_scope.

Definition US : ascii := "_"%char.

Fixpoint no_us (s : string) : Prop :=
  match s with EmptyString => True | String c s' => c <> US /\ no_us s' end.

Lemma prefix_sep_head : forall x c s, String.prefix (String US (String US (String x ""))) (String c s) = true -> c = US.
Proof.
  intros x c s H. cbn [String.prefix] in H. destruct (ascii_dec US c) as [E|E]; [symmetry; exact E|discriminate H].
Qed.

Lemma rsplit_no_us : forall x s, no_us s -> rsplit (String US (String US (String x ""))) s = None.
Proof.
  intros x s; induction s as [|c s IH]; intro H; [reflexivity|].
  destruct H as [Hc Hs]. cbn [rsplit]. rewrite (IH Hs).
  destruct (String.prefix _ (String c s)) eqn:E; [|reflexivity].
  apply prefix_sep_head in E. contradiction.
Qed.

Lemma substring_all : forall s, substring 0 (String.length s) s = s.
Proof. induction s as [|c s IH]; [reflexivity|]. simpl. rewrite IH. reflexivity. Qed.

Lemma rsplit_sep_digits : forall x d, x <> US -> no_us d ->
  rsplit (String US (String US (String x ""))) (String US (String US (String x d))) = Some ("", d).
Proof.
  intros x d Hx Hd.
  set (sep := String US (String US (String x ""))).
  assert (R0 : rsplit sep d = None) by (apply rsplit_no_us; exact Hd).
  assert (R1 : rsplit sep (String x d) = None).
  { cbn [rsplit]. rewrite R0. destruct (String.prefix sep (String x d)) eqn:E; [|reflexivity].
    apply prefix_sep_head in E. contradiction. }
  assert (R2 : rsplit sep (String US (String x d)) = None).
  { cbn [rsplit] in *. rewrite R1.
    destruct (String.prefix sep (String US (String x d))) eqn:E; [|reflexivity].
    unfold sep in E. cbn [String.prefix] in E. destruct (ascii_dec US US); [|discriminate E].
    destruct (ascii_dec US x) as [E2|E2]; [symmetry in E2; contradiction|discriminate E]. }
  change (rsplit sep (String US (String US (String x d)))) with
    (match rsplit sep (String US (String x d)) with
     | Some (b, a) => Some (String US b, a)
     | None => if String.prefix sep (String US (String US (String x d)))
               then Some ("", substring (String.length sep)
                               (String.length (String US (String US (String x d))) - String.length sep)
                               (String US (String US (String x d))))
               else None
     end).
  rewrite R2.
  change (String US (String US (String x d))) with (sep ++ d).
  rewrite prefix_app.
  unfold sep. cbn [String.length append Nat.sub substring]. rewrite Nat.sub_0_r, substring_all. reflexivity.
Qed.

Lemma rsplit_app : forall x t d, x <> US -> no_us d ->
  rsplit (String US (String US (String x ""))) (t ++ String US (String US (String x "")) ++ d) = Some (t, d).
Proof.
  intros x t d Hx Hd; induction t as [|c t IH].
  - cbn [append]. apply rsplit_sep_digits; assumption.
  - change (String c t ++ String US (String US (String x "")) ++ d)
      with (String c (t ++ String US (String US (String x "")) ++ d)).
    cbn [rsplit]. rewrite IH. reflexivity.
Qed.

Lemma no_us_uint : forall d, no_us (NilEmpty.string_of_uint d).
Proof. induction d; simpl; (try exact I); (split; [discriminate|assumption]). Qed.

Lemma no_us_nat : forall n, no_us (nat_to_string n).
Proof.
  intro n. unfold nat_to_string, Z_to_string.
  destruct (Z.of_nat n) eqn:E; cbn [Z.to_int NilZero.string_of_int].
  - simpl. split; [discriminate|exact I].
  - unfold NilZero.string_of_uint. destruct (Pos.to_uint p) eqn:Ep; try (rewrite <- Ep; apply no_us_uint).
    simpl; split; [discriminate|exact I].
  - pose proof (Nat2Z.is_nonneg n). lia.
Qed.

Lemma Z_string_roundtrip : forall z, NilZero.int_of_string (Z_to_string z) = Some (Z.to_int z).
Proof.
  intro z. unfold Z_to_string. apply NilZero.isi; destruct z; cbn [Z.to_int]; try discriminate;
    intro H; inversion H as [H1]; exact (Unsigned.to_uint_nonnil _ H1).
Qed.

Lemma Z_to_string_nonempty : forall z, Z_to_string z <> "".
Proof.
  intros z H. pose proof (Z_string_roundtrip z) as R. rewrite H in R. discriminate.
Qed.

Lemma nat_string_roundtrip : forall n, nat_of_string (nat_to_string n) = Some n.
Proof.
  intro n. unfold nat_of_string, nat_to_string.
  destruct (Z_to_string (Z.of_nat n)) eqn:E; [exfalso; exact (Z_to_string_nonempty _ E)|].
  rewrite <- E. rewrite Z_string_roundtrip. cbv zeta. rewrite DecimalZ.of_to.
  rewrite String.eqb_refl.
  destruct (Z.leb_spec 0 (Z.of_nat n)) as [_|L]; [|pose proof (Nat2Z.is_nonneg n); lia].
  cbn [andb]. rewrite Nat2Z.id. reflexivity.
Qed.

Lemma dec_trid_roundtrip : forall t, dec_trid (trid_str t) = Some t.
Proof.
  intros [t k]. unfold dec_trid, trid_str. cbn [fst snd].
  change TRANSITION_SEP with (String US (String US (String "t"%char ""))).
  rewrite rsplit_app; [|discriminate|apply no_us_nat].
  cbn [obind fst snd]. rewrite nat_string_roundtrip. reflexivity.
Qed.

Lemma dec_tkey_roundtrip : forall t, dec_tkey (tkey_str t) = Some t.
Proof.
  intros [t k]. unfold dec_tkey, tkey_str. cbn [fst snd].
  change ROUTE_SEP with (String US (String US (String "r"%char ""))).
  rewrite rsplit_app; [|discriminate|apply no_us_nat].
  cbn [obind fst snd]. rewrite nat_string_roundtrip. reflexivity.
Qed.

Lemma mapO_map : forall A B (f : B -> option A) (g : A -> B) l,
  (forall x, f (g x) = Some x) -> mapO f (map g l) = Some l.
Proof.
  intros A B f g l H; induction l as [|x l IH]; [reflexivity|].
  cbn [map mapO]. rewrite H. cbn [obind]. rewrite IH. reflexivity.
Qed.

Lemma as_nat_enc : forall n, as_nat (enc_nat n) = Some n.
Proof.
  intro n. unfold as_nat, enc_nat.
  destruct (Z.leb_spec 0 (Z.of_nat n)) as [_|L]; [|pose proof (Nat2Z.is_nonneg n); lia].
  rewrite Nat2Z.id. reflexivity.
Qed.

Lemma status_name_roundtrip : forall s, status_of_name (status_name s) = Some s.
Proof. intro s; destruct s; vm_compute; reflexivity. Qed.

Lemma as_status_enc : forall s, as_status (enc_status s) = Some s.
Proof. intro s. unfold as_status, enc_status. cbn [as_str obind]. apply status_name_roundtrip. Qed.

Lemma dec_prev_enc : forall p, dec_prev (enc_prev p) = Some p.
Proof.
  intro p. unfold dec_prev, enc_prev. cbn [as_dict obind]. apply mapO_map.
  intros [t i]. rewrite dec_trid_roundtrip. cbn [obind]. rewrite as_nat_enc. reflexivity.
Qed.


Lemma dec_retry_enc : forall r, dec_retry (enc_retry r) = Some r.
Proof.
  intros [w c d t]. unfold dec_retry, enc_retry. cbn [rr_when rr_count rr_delay rr_tally].
  destruct d as [d|]; cbn [jfield jfield_or_null dget aget String.eqb Ascii.eqb Bool.eqb andb app opt_field obind];
    rewrite as_nat_enc; reflexivity.
Qed.

Lemma dec_opt_enc : forall A (f : json -> option A) (g : A -> json) o,
  (forall a, f (g a) = Some a) -> dec_opt f (option_map g o) = Some o.
Proof. intros A f g [a|] H; cbn; [rewrite H|]; reflexivity. Qed.

Lemma mapO_as_nat : forall l, mapO as_nat (map enc_nat l) = Some l.
Proof. intro l; apply mapO_map; exact as_nat_enc. Qed.

Lemma mapO_next : forall nx,
  mapO (fun '(k, v) => t <-? dec_trid k;; b <-? as_bool v;; Some (t, b))
    (map (fun '(t, b) => (trid_str t, JBool b)) nx) = Some nx.
Proof. intro nx; apply mapO_map. intros [t b]. rewrite dec_trid_roundtrip. reflexivity. Qed.

Lemma mapO_items : forall l,
  mapO (fun e => as_status (jfield_or_null "status" e)) (map (fun st => JDict [("status", enc_status st)]) l) = Some l.
Proof. intro l; apply mapO_map. intro s. cbn [jfield_or_null jfield dget aget String.eqb Ascii.eqb Bool.eqb andb]. apply as_status_enc. Qed.

(* looking a key up behind an optional field or a flag, whatever the option or the flag is *)
Lemma aget_opt_field : forall A k k' (f : A -> json) o rest,
  aget String.eqb k (opt_field k' f o ++ rest) =
  if String.eqb k k' then match option_map f o with Some v => Some v | None => aget String.eqb k rest end
  else aget String.eqb k rest.
Proof. intros A k k' f [a|] rest; simpl; destruct (String.eqb k k'); reflexivity. Qed.

Lemma aget_flag_field : forall k k' b rest,
  aget String.eqb k (flag_field k' b ++ rest) =
  if String.eqb k k' && b then Some (JBool true) else aget String.eqb k rest.
Proof. intros k k' [|] rest; simpl; destruct (String.eqb k k'); reflexivity. Qed.

Lemma aget_opt_field_end : forall A k k' (f : A -> json) o,
  aget String.eqb k (opt_field k' f o) = if String.eqb k k' then option_map f o else None.
Proof. intros A k k' f [a|]; simpl; destruct (String.eqb k k'); reflexivity. Qed.

Lemma aget_flag_field_end : forall k k' b,
  aget String.eqb k (flag_field k' b) = if String.eqb k k' && b then Some (JBool true) else None.
Proof. intros k k' [|]; simpl; destruct (String.eqb k k'); reflexivity. Qed.

Lemma opt_eta : forall A (o : option A), match o with Some v => Some v | None => None end = o.
Proof. intros A [a|]; reflexivity. Qed.

Lemma option_map_id : forall A (o : option A), option_map (fun x => x) o = o.
Proof. intros A [a|]; reflexivity. Qed.

Lemma dec_flag_enc : forall b : bool,
  match (if b then Some (JBool true) else None) with
  | None => Some false | Some (JBool true) => Some true | _ => None end = Some b.
Proof. intros [|]; reflexivity. Qed.

Ltac red1 := cbn [jfield jfield_or_null dget aget String.eqb Ascii.eqb Bool.eqb andb app opt_field flag_field
                  obind as_str as_list as_dict as_bool].
Ltac rw1 := first [ rewrite as_nat_enc | rewrite mapO_as_nat | rewrite dec_prev_enc | rewrite mapO_next
                  | rewrite as_status_enc | rewrite dec_retry_enc | rewrite dec_trid_roundtrip
                  | rewrite aget_opt_field | rewrite aget_flag_field | rewrite aget_opt_field_end | rewrite aget_flag_field_end
                  | rewrite opt_eta | rewrite option_map_id | rewrite dec_flag_enc
                  | rewrite dec_opt_enc
                      by (intro; cbn [as_str as_list obind];
                          auto using as_nat_enc, as_status_enc, dec_retry_enc, dec_trid_roundtrip, mapO_items) ].
Ltac crunch := repeat (first [progress red1 | rw1]); try reflexivity.

Lemma dec_rec_enc : forall r, dec_rec (enc_rec r) = Some r.
Proof.
  intros [i rt cin cout pv nx st tm ry]. unfold dec_rec, enc_rec, dec_flag.
  cbn [r_id r_route r_in r_out r_prev r_next r_status r_term r_retry].
  crunch. destruct cout as [[ot oi]|]; cbn [option_map]; crunch.
Qed.

Lemma dec_stg_enc : forall s, dec_stg (enc_stg s) = Some s.
Proof.
  intros [i rt cin pv rd ry its cp rf]. unfold dec_stg, enc_stg, dec_flag.
  cbn [s_id s_route s_in s_prev s_ready s_retry s_items s_completed s_run_on_fail].
  crunch.
Qed.

Lemma mapO_routes : forall l,
  mapO (fun r => l' <-? as_list r ;; mapO (fun x => s <-? as_str x ;; dec_trid s) l')
       (map (fun r => JList (map (fun t => JStr (trid_str t)) r)) l) = Some l.
Proof.
  intro l; apply mapO_map. intro r. cbn [as_list obind]. apply mapO_map.
  intro t. cbn [as_str obind]. apply dec_trid_roundtrip.
Qed.

Lemma mapO_tasks : forall l,
  mapO (fun '(k, v) => t <-? dec_tkey k ;; n <-? as_nat v ;; Some (t, n))
       (map (fun '(k, i) => (tkey_str k, enc_nat i)) l) = Some l.
Proof.
  intro l; apply mapO_map. intros [k i]. rewrite dec_tkey_roundtrip. cbn [obind]. rewrite as_nat_enc. reflexivity.
Qed.

Lemma mapO_reruns : forall l,
  mapO (fun r => l' <-? as_list r ;; mapO as_nat l') (map (fun r => JList (map enc_nat r)) l) = Some l.
Proof. intro l; apply mapO_map. intro r. cbn [as_list obind]. apply mapO_as_nat. Qed.

Lemma mapO_contexts : forall l, mapO as_dict (map JDict l) = Some l.
Proof. intro l; apply mapO_map. reflexivity. Qed.

Lemma mapO_recs : forall l, mapO dec_rec (map enc_rec l) = Some l.
Proof. intro l; apply mapO_map; exact dec_rec_enc. Qed.
Lemma mapO_stgs : forall l, mapO dec_stg (map enc_stg l) = Some l.
Proof. intro l; apply mapO_map; exact dec_stg_enc. Qed.

Ltac rw2 := first [ rewrite mapO_contexts | rewrite mapO_routes | rewrite mapO_recs | rewrite mapO_stgs
                  | rewrite mapO_tasks | rewrite mapO_reruns | rewrite as_status_enc ].

Lemma dec_wstate_enc : forall w, dec_wstate (enc_wstate w) = Some w.
Proof.
  intros [cx rts sq sg st tk rr]. unfold dec_wstate, enc_wstate.
  cbn [contexts routes sequence staged wstatus tasks reruns].
  destruct rr as [|r rr]; repeat (first [progress red1 | rw2]); try reflexivity.
Qed.

Lemma dec_errent_enc : forall e, dec_errent (enc_errent e) = Some e.
Proof.
  intros [ty m tk rt tr rs]. unfold dec_errent, enc_errent.
  cbn [er_type er_message er_task er_route er_trans er_result].
  crunch.
Qed.

Lemma mapO_errents : forall l, mapO dec_errent (map enc_errent l) = Some l.
Proof. intro l; apply mapO_map; exact dec_errent_enc. Qed.

Theorem dec_cstate_enc_total : forall c,
  dec_cstate (c_spec c) (c_graph c) (enc_cstate c) = Some (set_init c true).
Proof.
  intros [sp g inp par ini w ers lg out]. unfold dec_cstate, enc_cstate, set_init.
  cbn [c_spec c_graph c_inputs c_parent c_init c_ws c_errors c_log c_output].
  red1. rewrite dec_wstate_enc. red1. rewrite !mapO_errents. red1.
  destruct out as [o|]; reflexivity.
Qed.

Theorem dec_cstate_enc : forall c, c_init c = true ->
  dec_cstate (c_spec c) (c_graph c) (enc_cstate c) = Some c.
Proof.
  intros c H. rewrite dec_cstate_enc_total. destruct c; cbn in *; subst; reflexivity.
Qed.

Lemma set_init_id : forall c, c_init c = true -> set_init c true = c.
Proof. intros c H; destruct c; cbn in *; subst; reflexivity. Qed.

Lemma enc_cstate_set_init : forall c b, enc_cstate (set_init c b) = enc_cstate c.
Proof. intros; reflexivity. Qed.

Definition is_persist (op : api_op) : bool := match op with OpPersist => true | _ => false end.

(* l' is l with OpPersist operations inserted at arbitrary points (any number at each point) *)
Inductive ins_persist : list api_op -> list api_op -> Prop :=
  | ip_nil : ins_persist [] []
  | ip_keep : forall op l l', ins_persist l l' -> ins_persist (op :: l) (op :: l')
  | ip_ins : forall l l', ins_persist l l' -> ins_persist l (OpPersist :: l').

(* one OpPersist before the i-th call when the i-th bit of the mask is set (and one after the
   last call when the bit after the last call is set): every subset of the points between calls *)
Fixpoint weave (mask : list bool) (ops : list api_op) : list api_op :=
  match ops with
  | [] => match mask with true :: _ => [OpPersist] | _ => [] end
  | op :: ops' =>
      match mask with
      | true :: m => OpPersist :: op :: weave m ops'
      | false :: m => op :: weave m ops'
      | [] => op :: ops'
      end
  end.

Lemma ins_persist_refl : forall l, ins_persist l l.
Proof. induction l; constructor; assumption. Qed.

Lemma weave_ins : forall ops mask, ins_persist ops (weave mask ops).
Proof.
  induction ops as [|op ops IH]; intros [|[|] m]; cbn [weave]; repeat constructor; try apply IH.
  apply ins_persist_refl.
Qed.

Open Scope monad_scope.

Definition Rinit (c c' : cstate) : Prop := c_init c = true -> c_init c' = true.
Lemma Rinit_refl : forall c, Rinit c c.
Proof. intros c H; exact H. Qed.
Lemma Rinit_trans : forall a b c, Rinit a b -> Rinit b c -> Rinit a c.
Proof. unfold Rinit; intros; auto. Qed.

Create HintDb presi.

Section WithEval.
Variable ev : string -> dict -> evalres.

Lemma persist_eq : forall c,
  persist ev c = match ensure_ws ev c with
                 | (c1, Val _) => (set_init c1 true, Val tt)
                 | (c1, Exc e) => (c1, Exc e)
                 end.
Proof.
  intro c. unfold persist, bind. destruct (ensure_ws ev c) as [c1 [u|e]]; [rewrite dec_cstate_enc_total|]; reflexivity.
Qed.

Lemma preserves_persist : forall R : cstate -> cstate -> Prop, (forall a b c, R a b -> R b c -> R a c) ->
  preserves R (ensure_ws ev) -> (forall c, R c (set_init c true)) -> preserves R (persist ev).
Proof.
  intros R Rt He Hi c c' r H. rewrite persist_eq in H.
  destruct (ensure_ws ev c) as [c1 [u|e]] eqn:E; inversion H; subst; [eapply Rt; [eapply He; exact E|apply Hi]|eapply He; exact E].
Qed.

Lemma ro_persist : forall P : exn -> Prop, raises_only P (ensure_ws ev) -> raises_only P (persist ev).
Proof.
  intros P He c c' x H. rewrite persist_eq in H.
  destruct (ensure_ws ev c) as [c1 [u|e]] eqn:E; inversion H; subst. eapply He; exact E.
Qed.

Lemma preserves_api_exec : forall R : cstate -> cstate -> Prop, (forall c, R c c) -> (forall a b c, R a b -> R b c -> R a c) ->
  preserves R (ensure_ws ev) ->
  forall op,
  match op with
  | OpSerialize => True
  | OpRequest st => preserves R (request_workflow_status ev st)
  | OpGetNext => preserves R (get_next_tasks ev)
  | OpEvent t r e => preserves R (update_task_state ev t r e)
  | OpRender => preserves R (render_workflow_output ev)
  | OpRerun reqs => preserves R (request_workflow_rerun ev reqs)
  | OpPersist => forall c, R c (set_init c true)
  end -> preserves R (api_exec ev op).
Proof.
  intros R Rr Rt He op H; destruct op; cbn [api_exec];
    (apply (preserves_bind _ Rt); [|intro; apply (preserves_ret _ Rr)]); try assumption.
  apply preserves_persist; assumption.
Qed.

Lemma preserves_run_ops : forall (R : cstate -> cstate -> Prop) (ok : api_op -> bool),
  (forall c, R c c) -> (forall a b c, R a b -> R b c -> R a c) ->
  (forall op, ok op = true -> preserves R (api_exec ev op)) ->
  forall ops c, forallb ok ops = true -> R c (run_ops ev ops c).
Proof.
  intros R ok Rr Rt H; induction ops as [|op ops IH]; intros c Hok; [apply Rr|].
  cbn [forallb] in Hok; apply andb_prop in Hok; destruct Hok as [Hop Hops].
  unfold run_ops; cbn [fold_left]. apply Rt with (fst (api_exec ev op c)); [|apply IH; exact Hops].
  destruct (api_exec ev op c) as [c1 r] eqn:E. exact (H op Hop _ _ _ E).
Qed.

Lemma presi_modws : forall f, preserves Rinit (modws f).
Proof. intros f c c' r H Hi; inversion H; subst; exact Hi. Qed.
Lemma presi_modify : forall f, (forall c, c_init c = true -> c_init (f c) = true) -> preserves Rinit (modify f).
Proof. intros f Hf; exact (preserves_modify Rinit f Hf). Qed.

Lemma presi_wf_workflow_event : forall st, preserves Rinit (wf_workflow_event_M st).
Proof. apply (preserves_wf_workflow_event Rinit Rinit_refl (fun c s Hi => Hi)). Qed.
Lemma presi_wf_task_event : forall t route st, preserves Rinit (wf_task_event_M t route st).
Proof. apply (preserves_wf_task_event Rinit Rinit_refl (fun c s Hi => Hi)). Qed.
Lemma presi_log_entry_error : forall m t r tr res, preserves Rinit (log_entry_error m t r tr res).
Proof. intros; apply presi_modify; intros c Hi; cbv zeta; destruct (existsb _ _); exact Hi. Qed.
Lemma presi_upd_rec : forall i f, preserves Rinit (upd_rec i f).
Proof. intros; apply presi_modws. Qed.
Lemma presi_set_rec_status : forall i s, preserves Rinit (set_rec_status i s).
Proof. intros; apply presi_modws. Qed.
Hint Resolve presi_modws presi_modify presi_wf_workflow_event presi_wf_task_event presi_log_entry_error
  presi_upd_rec presi_set_rec_status : presi.

Lemma presi_log_error : forall e t r tr, preserves Rinit (log_error e t r tr).
Proof. intros; unfold log_error; apply presi_log_entry_error. Qed.
Lemma presi_log_errors : forall es t r tr, preserves Rinit (log_errors es t r tr).
Proof. intros; apply (frame_log_errors Rinit Rinit_refl Rinit_trans); auto with presi. Qed.
Lemma presi_log_unreachable : forall l, preserves Rinit (log_unreachable l).
Proof. intros; apply (frame_log_unreachable Rinit Rinit_refl Rinit_trans); auto with presi. Qed.
Lemma presi_request_status_core : forall st, preserves Rinit (request_status_core st).
Proof. intros; apply (frame_request_status_core Rinit Rinit_refl Rinit_trans); auto with presi. Qed.
Lemma presi_render_input : forall specs rt rolling errs, preserves Rinit (render_input ev specs rt rolling errs).
Proof. intros; apply (frame_render_input ev Rinit Rinit_refl Rinit_trans). Qed.
Lemma presi_render_vars : forall specs rolling rendered errs, preserves Rinit (render_vars ev specs rolling rendered errs).
Proof. intros; apply (frame_render_vars ev Rinit Rinit_refl Rinit_trans). Qed.
Theorem presi_request_workflow_status : forall st, preserves Rinit (request_workflow_status ev st).
Proof. intros; apply (frame_request_workflow_status ev Rinit Rinit_refl Rinit_trans); auto with presi. Qed.
Lemma presi_get_task_context : forall idxs, preserves Rinit (get_task_context idxs).
Proof. intros; apply (frame_get_task_context Rinit Rinit_refl Rinit_trans). Qed.
Lemma presi_render_task : forall ts ctx, preserves Rinit (render_task ev ts ctx).
Proof. intros; apply (frame_render_task ev Rinit Rinit_refl Rinit_trans). Qed.
Lemma presi_next_task_for : forall s, preserves Rinit (next_task_for ev s).
Proof. intros; apply (frame_next_task_for ev Rinit Rinit_refl Rinit_trans); auto with presi. Qed.
Lemma presi_setup_retry : forall t idxs, preserves Rinit (setup_retry ev t idxs).
Proof. intros; apply (frame_setup_retry ev Rinit Rinit_refl Rinit_trans). Qed.
Lemma presi_add_task_state : forall t r i p, preserves Rinit (add_task_state ev t r i p).
Proof. intros; apply (frame_add_task_state ev Rinit Rinit_refl Rinit_trans); auto with presi. Qed.
Lemma presi_evaluate_route : forall e r, preserves Rinit (evaluate_route e r).
Proof. intros; apply (frame_evaluate_route Rinit Rinit_refl Rinit_trans); auto with presi. Qed.
Lemma presi_evaluate_task_retry : forall r ctx, preserves Rinit (evaluate_task_retry ev r ctx).
Proof. intros; apply (frame_evaluate_task_retry ev Rinit Rinit_refl Rinit_trans). Qed.
Lemma presi_finalize_context : forall ts e ctx, preserves Rinit (finalize_context ev ts e ctx).
Proof. intros; apply (frame_finalize_context ev Rinit Rinit_refl Rinit_trans). Qed.
Lemma presi_get_rec : forall i, preserves Rinit (get_rec i).
Proof. intros; apply (frame_get_rec Rinit Rinit_refl Rinit_trans). Qed.
Lemma presi_process_transition : forall t route idx ts ctx e, preserves Rinit (process_transition ev t route idx ts ctx e).
Proof. intros; apply (frame_process_transition ev Rinit Rinit_refl Rinit_trans); auto with presi. Qed.
Lemma presi_update_task_state_fuel : forall fuel t route evt, preserves Rinit (update_task_state_fuel ev fuel t route evt).
Proof. intros; apply (frame_update_task_state_fuel ev Rinit Rinit_refl Rinit_trans); auto with presi. Qed.
Lemma presi_merge_term_contexts : forall l acc, preserves Rinit (merge_term_contexts l acc).
Proof. intros; apply (frame_merge_term_contexts Rinit Rinit_refl Rinit_trans). Qed.
Lemma presi_request_task_rerun : forall t r b, preserves Rinit (request_task_rerun ev t r b).
Proof. intros; apply (frame_request_task_rerun ev Rinit Rinit_refl Rinit_trans); auto with presi. Qed.

Lemma api_exec_presi : forall op, preserves Rinit (api_exec ev op).
Proof.
  intro op; apply (preserves_api_exec Rinit Rinit_refl Rinit_trans);
    [apply (frame_ensure_ws ev Rinit Rinit_refl Rinit_trans); auto with presi|].
  destruct op; [exact I|apply presi_request_workflow_status| | | | |intros c _; reflexivity].
  - apply (frame_get_next_tasks ev Rinit Rinit_refl Rinit_trans); auto with presi.
  - apply (frame_update_task_state ev Rinit Rinit_refl Rinit_trans); auto with presi.
  - apply (frame_render_workflow_output ev Rinit Rinit_refl Rinit_trans); auto with presi.
  - apply (frame_request_workflow_rerun ev Rinit Rinit_refl Rinit_trans); auto with presi.
Qed.

(* what a provider sees: the outcome of every call other than the persist round trips *)
Fixpoint run_obs (ops : list api_op) (c : cstate) : list (result api_result) :=
  match ops with
  | [] => []
  | op :: ops' =>
      let cr := api_exec ev op c in
      app (if is_persist op then [] else [snd cr]) (run_obs ops' (fst cr))
  end.

Lemma ensure_ws_init_after : forall c c' r, ensure_ws ev c = (c', r) -> c_init c' = true.
Proof.
  intros c c' r H. destruct (c_init c) eqn:Hi.
  - rewrite (ensure_ws_inited ev c Hi) in H. inversion H; subst; exact Hi.
  - unfold ensure_ws in H. unfold bind at 1 in H. unfold get in H. cbv beta iota in H. rewrite Hi in H.
    (* the flag is set first; what follows keeps it *)
    match type of H with
    | bind (modify ?f) ?k c = _ =>
        assert (P : preserves Rinit (k tt))
          by (pw Rinit_refl Rinit_trans
                ltac:(auto using presi_render_input, presi_render_vars, presi_log_errors, presi_request_status_core with presi))
    end.
    unfold bind at 1 in H. unfold modify at 1 in H. cbv beta iota in H.
    exact (P _ _ _ H eq_refl).
Qed.

Theorem persist_identity : forall c, c_init c = true -> persist ev c = (c, Val tt).
Proof. intros c H. rewrite persist_eq, (ensure_ws_inited ev c H), (set_init_id c H). reflexivity. Qed.

(* on every state, initialised or not, the persist round trip is the same as serialize() *)
Theorem persist_is_serialize : forall c, api_exec ev OpPersist c = api_exec ev OpSerialize c.
Proof.
  intro c. cbn [api_exec]. unfold bind. rewrite persist_eq.
  destruct (ensure_ws ev c) as [c1 [[]|e]] eqn:E; [|reflexivity].
  rewrite (set_init_id c1 (ensure_ws_init_after _ _ _ E)). reflexivity.
Qed.

Theorem persist_reproduces_form : forall c c2,
  dec_cstate (c_spec c) (c_graph c) (enc_cstate c) = Some c2 -> enc_cstate c2 = enc_cstate c.
Proof.
  intros c c2 H. rewrite dec_cstate_enc_total in H. inversion H; subst. apply enc_cstate_set_init.
Qed.

Lemma api_exec_keeps_init : forall op c, c_init c = true -> c_init (fst (api_exec ev op c)) = true.
Proof.
  intros op c H. destruct (api_exec ev op c) as [c1 r] eqn:E. exact (api_exec_presi op _ _ _ E H).
Qed.

Lemma run_ops_keeps_init : forall ops c, c_init c = true -> c_init (run_ops ev ops c) = true.
Proof.
  intros ops c. apply (preserves_run_ops Rinit (fun _ => true) Rinit_refl Rinit_trans (fun op _ => api_exec_presi op)).
  apply forallb_forall; reflexivity.
Qed.

Theorem persist_unobservable_rel : forall ops ops', ins_persist ops ops' -> forall c, c_init c = true ->
  run_ops ev ops' c = run_ops ev ops c /\ run_obs ops' c = run_obs ops c.
Proof.
  intros ops ops' I; induction I as [|op l l' I IH|l l' I IH]; intros c H.
  - split; reflexivity.
  - specialize (IH (fst (api_exec ev op c)) (api_exec_keeps_init op c H)). destruct IH as [IH1 IH2].
    split.
    + unfold run_ops in *. cbn [fold_left]. exact IH1.
    + cbn [run_obs]. rewrite IH2. reflexivity.
  - destruct (IH c H) as [IH1 IH2].
    assert (E : api_exec ev OpPersist c = (c, Val RUnit)).
    { cbn [api_exec]. unfold bind. rewrite (persist_identity c H). reflexivity. }
    split.
    + unfold run_ops in *. cbn [fold_left]. rewrite E. exact IH1.
    + cbn [run_obs]. rewrite E. cbn [is_persist fst app]. exact IH2.
Qed.

Theorem persist_unobservable : forall mask ops c, c_init c = true ->
  run_ops ev (weave mask ops) c = run_ops ev ops c /\ run_obs (weave mask ops) c = run_obs ops c.
Proof. intros mask ops c H. apply persist_unobservable_rel; [apply weave_ins|exact H]. Qed.

(* ensure_ws does nothing the second time: a computation that starts with it and keeps the flag ends initialised *)
Lemma inits_after_ensure : forall A (m : M A) (k : unit -> M A), (forall c, m c = bind (ensure_ws ev) k c) ->
  preserves Rinit m -> forall c, c_init (fst (m c)) = true.
Proof.
  intros A m k Hm Pm c. rewrite Hm. unfold bind.
  destruct (ensure_ws ev c) as [c1 [[]|e]] eqn:E; [|exact (ensure_ws_init_after _ _ _ E)].
  pose proof (ensure_ws_init_after _ _ _ E) as Hi.
  assert (Em : m c1 = k tt c1) by (rewrite Hm; unfold bind; rewrite (ensure_ws_inited ev c1 Hi); reflexivity).
  rewrite <- Em. destruct (m c1) as [c2 r] eqn:E2. exact (Pm _ _ _ E2 Hi).
Qed.

Theorem api_exec_inits : forall op c, c_init (fst (api_exec ev op c)) = true.
Proof.
  intros op c. destruct op as [|st| |t route e| |reqs|].
  4: { (* update_task_state: one unfolding of the fuelled function, whatever fuel is left below it *)
    cbn [api_exec]. unfold update_task_state. change 3 with (S 2). generalize 2; intro fuel.
    eapply inits_after_ensure; [intro c0; cbn [update_task_state_fuel]; apply bind_assoc_pt|].
    apply (preserves_bind _ Rinit_trans); [apply presi_update_task_state_fuel|intro; apply (preserves_ret _ Rinit_refl)]. }
  all: (eapply inits_after_ensure; [|apply api_exec_presi]); intro c0; cbn [api_exec]; first [reflexivity|apply bind_assoc_pt].
Qed.

(* a fresh (or any) conductor: persist round trips anywhere after the first call are unobservable *)
Theorem persist_unobservable_after_first_call : forall mask op ops c,
  run_ops ev (op :: weave mask ops) c = run_ops ev (op :: ops) c /\
  run_obs (op :: weave mask ops) c = run_obs (op :: ops) c.
Proof.
  intros mask op ops c.
  destruct (persist_unobservable mask ops (fst (api_exec ev op c)) (api_exec_inits op c)) as [H1 H2].
  split; [exact H1|]. cbn [run_obs]. rewrite H2. reflexivity.
Qed.

End WithEval.

(* ---------- concrete witnesses used by the Examples in props/C05.v ---------- *)
Open Scope string_scope.

Definition ex_ev (s : string) (ctx : dict) : evalres :=
  if String.eqb s "<% ctx(xs) %>" then EvOk (JList [JInt 1; JInt 2]) else
  if String.eqb s "<% boom %>" then EvErr {| x_cls := "YaqlEvaluationException"; x_msg := "boom"; x_expr := true |}
  else EvOk (JStr s).

Definition tr (w : json) (pub : list (string*json)) (d : list string) := {| tr_when := w; tr_publish := pub; tr_do := d |}.
Definition ex_spec : wf_spec :=
  {| wf_input := [("xs", JNull)]; wf_vars := [("v", JStr "<% 1 %>")]; wf_output := [("o", JStr "<% ctx(y) %>")];
     wf_tasks := [("a", {| ts_action := JStr "core.noop"; ts_input := JDict []; ts_with := None; ts_delay := JNull;
                           ts_join := JNull; ts_next := [tr JNull [("y", JStr "<% result() %>")] ["b"; "c"]] |});
                  ("b", {| ts_action := JStr "core.echo"; ts_input := JDict [];
                           ts_with := Some {| it_expr := "<% ctx(xs) %>"; it_keys := None; it_concurrency := JNull |};
                           ts_delay := JNull; ts_join := JNull; ts_next := [tr JNull [] ["d"]] |});
                  ("c", {| ts_action := JStr "core.noop"; ts_input := JDict []; ts_with := None; ts_delay := JNull;
                           ts_join := JNull; ts_next := [tr JNull [] ["d"]] |});
                  ("d", {| ts_action := JStr "core.noop"; ts_input := JDict []; ts_with := None; ts_delay := JNull;
                           ts_join := JStr "all"; ts_next := [] |})] |}.
Definition nd i b := {| n_id := i; n_barrier := b; n_splits := None; n_retry := JNull |}.
Definition ed s d k := {| e_src := s; e_dst := d; e_key := k; e_ref := 0; e_criteria := [] |}.
Definition ex_graph : graph :=
  {| g_nodes := [nd "a" JNull; nd "b" JNull; nd "c" JNull; nd "d" (JStr "*")];
     g_edges := [ed "a" "b" 0; ed "a" "c" 0; ed "b" "d" 0; ed "c" "d" 0] |}.
Definition ex_c0 : cstate :=
  {| c_spec := ex_spec; c_graph := ex_graph; c_inputs := [("xs", JList [JInt 1; JInt 2])]; c_parent := [];
     c_init := false; c_ws := empty_ws; c_errors := []; c_log := []; c_output := None |}.
Definition ex_ops : list api_op :=
  [OpSerialize; OpRequest S_RUNNING; OpGetNext; OpEvent "a" 0 (EvAction S_RUNNING JNull);
   OpEvent "a" 0 (EvAction S_SUCCEEDED (JStr "r")); OpGetNext;
   OpEvent "b" 0 (EvItem 0 S_RUNNING JNull JNull); OpEvent "c" 0 (EvAction S_RUNNING JNull);
   OpEvent "b" 0 (EvItem 0 S_SUCCEEDED (JStr "x") JNull);  OpGetNext].

Definition ex_mask : list bool := [false; true; true; false; true; true; true; false; true; true; true].

(* a hand-made persisted state exercising every optional field of the layout *)
Definition ex_retry : retry_rec :=
  {| rr_when := JStr "<% failed() %>"; rr_count := JInt 3; rr_delay := Some (JInt 1); rr_tally := 2 |}.
Definition ex_state : cstate :=
  {| c_spec := ex_spec; c_graph := ex_graph; c_inputs := [("xs", JList [JInt 1; JInt 2])];
     c_parent := [("parent", JDict [("id", JStr "p")])]; c_init := true;
     c_ws := {| contexts := [[("xs", JList [JInt 1; JInt 2])]; [("y", JStr "r")]];
                routes := [[]; [("a__t", 0); ("b", 12)]];
                sequence :=
                  [{| r_id := "a"; r_route := 0; r_in := [0]; r_out := Some (("c", 0), 1); r_prev := [];
                      r_next := [(("b", 0), true); (("c", 0), false)]; r_status := Some S_SUCCEEDED;
                      r_term := false; r_retry := None |};
                   {| r_id := "b__t7"; r_route := 1; r_in := [0; 1]; r_out := None;
                      r_prev := [(("a", 0), 0); (("a__t", 10), 0)]; r_next := [];
                      r_status := Some S_RETRYING; r_term := true; r_retry := Some ex_retry |};
                   {| r_id := "c"; r_route := 0; r_in := [0]; r_out := None; r_prev := [(("a", 0), 0)];
                      r_next := []; r_status := None; r_term := false; r_retry := None |}];
                staged :=
                  [{| s_id := "b__t7"; s_route := 1; s_in := [0; 1]; s_prev := [(("a", 0), 0)]; s_ready := true;
                      s_retry := Some ex_retry; s_items := Some [S_SUCCEEDED; S_RUNNING; S_UNSET];
                      s_completed := false; s_run_on_fail := true |};
                   {| s_id := "d"; s_route := 0; s_in := [0]; s_prev := []; s_ready := false; s_retry := None;
                      s_items := None; s_completed := true; s_run_on_fail := false |}];
                wstatus := S_RUNNING;
                tasks := [(("a", 0), 0); (("b__t7", 1), 1); (("c__r", 100), 2)];
                reruns := [[0; 2]; []] |};
     c_errors := [{| er_type := "error"; er_message := "YaqlEvaluationException: boom"; er_task := Some "b__t7";
                     er_route := Some 1; er_trans := Some ("b__t7", 3); er_result := Some (JDict [("k", JNull)]) |};
                  {| er_type := "error"; er_message := "m"; er_task := None; er_route := None; er_trans := None;
                     er_result := Some JNull |}];
     c_log := [{| er_type := "info"; er_message := "l"; er_task := Some "a"; er_route := None; er_trans := None;
                  er_result := None |}];
     c_output := Some [("o", JStr "r")] |}.
