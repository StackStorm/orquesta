(* C06Proofs.v -- contexts: a publish creates a new snapshot and hands it only to the target of its
   transition; what other staged tasks will see is untouched; earlier snapshots never change. *)
From Coq Require Import String List Bool ZArith Arith Lia.
From Orq Require Import GenStatuses GenEvents GenTables GenSpecMeta Base State Machines Codec Conductor Decode Api.
From Orq Require Import F_tables StateFacts Hoare Frame C18Proofs.
Import ListNotations.
Open Scope string_scope.
Open Scope monad_scope.

(* every staged entry of a task other than nt is still there, unchanged *)
Definition Rstg (nt : string) (c c' : cstate) : Prop :=
  forall s, In s (staged (c_ws c)) -> s_id s <> nt -> In s (staged (c_ws c')).

Lemma Rstg_refl : forall nt c, Rstg nt c c.
Proof. intros nt c s H _; exact H. Qed.
Lemma Rstg_trans : forall nt a b c, Rstg nt a b -> Rstg nt b c -> Rstg nt a c.
Proof. intros nt a b c H1 H2 s Hs Hn; apply H2; [apply H1; assumption|assumption]. Qed.

Section WithEval.
Variable ev : string -> dict -> evalres.
Variable nt : string.

Lemma p6_modws : forall f, (forall w s, In s (staged w) -> s_id s <> nt -> In s (staged (f w))) ->
  preserves (Rstg nt) (modws f).
Proof. intros f Hf; apply (preserves_modws (Rstg nt)); intros c s Hs Hn; exact (Hf (c_ws c) s Hs Hn). Qed.
Lemma p6_modify : forall f, (forall c, c_ws (f c) = c_ws c) -> preserves (Rstg nt) (modify f).
Proof. intros f Hf; apply (preserves_modify (Rstg nt)); intros c s Hs Hn; rewrite Hf; exact Hs. Qed.

Lemma p6_wf_workflow_event : forall st, preserves (Rstg nt) (wf_workflow_event_M st).
Proof. apply (preserves_wf_workflow_event (Rstg nt) (Rstg_refl nt) (fun c s => Rstg_refl nt c)). Qed.
Lemma p6_log_entry_error : forall m t r tr res, preserves (Rstg nt) (log_entry_error m t r tr res).
Proof. intros; apply p6_modify; intro c; cbv zeta; destruct (existsb _ _); reflexivity. Qed.
Lemma p6_log_error : forall e t r tr, preserves (Rstg nt) (log_error e t r tr).
Proof. intros; unfold log_error; apply p6_log_entry_error. Qed.
Lemma p6_upd_rec : forall i f, preserves (Rstg nt) (upd_rec i f).
Proof.
  intros; apply p6_modws; intros w s Hs _. unfold ws_update_rec; destruct (nth_error _ _); exact Hs.
Qed.
Lemma p6_set_rec_status : forall i s, preserves (Rstg nt) (set_rec_status i s).
Proof. intros; apply p6_upd_rec. Qed.
Lemma p6_log_errors : forall es t r tr, preserves (Rstg nt) (log_errors es t r tr).
Proof. intros; apply (frame_log_errors (Rstg nt) (Rstg_refl nt) (Rstg_trans nt)); exact p6_log_entry_error. Qed.
Lemma p6_log_unreachable : forall l, preserves (Rstg nt) (log_unreachable l).
Proof. intros; apply (frame_log_unreachable (Rstg nt) (Rstg_refl nt) (Rstg_trans nt)); exact p6_log_entry_error. Qed.
Lemma p6_request_status_core : forall st, preserves (Rstg nt) (request_status_core st).
Proof.
  intros; apply (frame_request_status_core (Rstg nt) (Rstg_refl nt) (Rstg_trans nt));
    [exact p6_log_entry_error|exact p6_set_rec_status|exact p6_wf_workflow_event].
Qed.
Lemma p6_render_vars : forall specs rolling rendered errs, preserves (Rstg nt) (render_vars ev specs rolling rendered errs).
Proof. intros; apply (frame_render_vars ev (Rstg nt) (Rstg_refl nt) (Rstg_trans nt)). Qed.
Lemma p6_finalize_context : forall ts e ctx, preserves (Rstg nt) (finalize_context ev ts e ctx).
Proof. intros; apply (frame_finalize_context ev (Rstg nt) (Rstg_refl nt) (Rstg_trans nt)). Qed.
Lemma p6_get_rec : forall i, preserves (Rstg nt) (get_rec i).
Proof. intros; apply (frame_get_rec (Rstg nt) (Rstg_refl nt) (Rstg_trans nt)). Qed.
Lemma p6_evaluate_route : forall e r, preserves (Rstg nt) (evaluate_route e r).
Proof.
  intros; apply (frame_evaluate_route (Rstg nt) (Rstg_refl nt) (Rstg_trans nt)).
  intro l; apply p6_modws; intros w s Hs _; exact Hs.
Qed.

(* processing the transition e (criteria, publish, staging of its target) leaves every staged entry of
   every task other than the target of e exactly as it was: the published snapshot goes to the target only *)
Theorem transition_touches_only_its_target : forall t route idx ts ctx e,
  e_dst e = nt -> preserves (Rstg nt) (process_transition ev t route idx ts ctx e).
Proof.
  intros t route idx ts ctx e He; unfold process_transition; rewrite He.
  pw (Rstg_refl nt) (Rstg_trans nt)
     ltac:(first [ apply p6_upd_rec | apply p6_log_error | apply p6_log_errors | apply p6_request_status_core
                 | apply p6_finalize_context | apply p6_get_rec | apply p6_evaluate_route
                 | apply p6_modws; intros ? ? HHs HHn; simpl;
                   first [ exact HHs | apply staged_update_other; assumption | apply in_or_app; left; exact HHs ] ]).
Qed.

End WithEval.

(* a context snapshot, once published, is never changed by any later API call (C18's relation) *)
Theorem snapshots_never_change : forall ev ops c i d,
  forallb (fun op => negb (is_persist op)) ops = true ->
  nth_error (contexts (c_ws c)) i = Some d -> nth_error (contexts (c_ws (run_ops ev ops c))) i = Some d.
Proof.
  intros ev ops c i d H Hn. destruct (history_append_only ev ops c H) as [[t Ht] _].
  rewrite Ht. rewrite nth_error_app1; [exact Hn|]. apply nth_error_Some; congruence.
Qed.
