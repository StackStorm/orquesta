(* SysItemsProofs.v -- the provider protocol with WITH-ITEMS tasks (model/ProviderSysItems.v): the bookkeeping of
   item statuses in staged entries against the provider's in-flight item actions, over protocol histories.

   A state that is not flagged ([ibad]: a conductor call raised, or the anomaly monitor [si_wiped] fired) is either the
   conductor before its first call with nothing in flight, or satisfies [ilink2] -- this is [isys_inv2]:
     - [fo]: only the first staged entry of a (task, route) carries an item table, so [items_of] reads every table;
     - [J1e]: every item action in flight is "running" in the table of its task; [J2e]: every active status in a table
       is "running" and its action is in flight;
     - [Tall shaped]: every table is statuses that were set, then the items not offered yet.
   Order: the three walks over update_task_state as instances of SysProofs.stg_walk ([Rbk], [Rin], [first_only]);
   rendering and get_next_tasks ([ntf_eff], [gn_items_eff]); the link read through [items_of] and the staging a task
   event is expected to leave ([expect_item], [event_from_expected]); tables ([Tall], [Tback], [shaped], [tle]/[tdn]/[tup]);
   one event, the acknowledgements of a poll, a poll, a report; the step on the conductor before its first call
   ([isys_step_unborn]) and the induction over histories ([ginv_run]); ONCE / ORDER / WINDOW for histories; the theorems
   about reachable states that props/C12b.v restates. *)
From Coq Require Import String List Bool ZArith Arith Lia.
From Orq Require Import GenStatuses GenEvents GenTables GenSpecMeta Base State Machines Codec Conductor Decode Api Driver ProviderSys ProviderSysItems.
From Orq Require Import ListFacts StateFacts F_tables F_names F_sys F_sysitems Hoare ValuePost StatusReach C04Proofs C05Proofs C02C03Proofs C09C10Proofs OffersProofs InertProofs RetryProofs SysProofs SysNextProofs.
Import ListNotations.
Open Scope string_scope.
Open Scope monad_scope.

Lemma matches_keeps : forall f t r s, keeps_key f -> stg_matches t r (f s) = stg_matches t r s.
Proof. intros f t r s H. unfold stg_matches. destruct (H s) as [A B]. rewrite A, B. reflexivity. Qed.

Lemma find_staged_update : forall f t r nt nr l s', keeps_key f ->
  find (stg_matches t r) (staged_update f nt nr l) = Some s' ->
  exists s, find (stg_matches t r) l = Some s /\ (s' = s \/ (s' = f s /\ stg_matches nt nr s = true)).
Proof.
  intros f t r nt nr l s' Hk. induction l as [|a l IH]; simpl; intro H; [discriminate|].
  destruct (stg_matches nt nr a) eqn:En; simpl in H.
  - rewrite (matches_keeps f t r a Hk) in H. destruct (stg_matches t r a).
    + inversion H; subst. exists a. split; [reflexivity|right; auto].
    + exists s'. split; [exact H|left; reflexivity].
  - destruct (stg_matches t r a); [inversion H as [E]; exists s'; split; [reflexivity|left; reflexivity]|apply IH; exact H].
Qed.

Lemma matches_two : forall t r t' r' s, stg_matches t r s = true -> stg_matches t' r' s = true -> (t', r') = (t, r).
Proof. intros t r t' r' s A B. apply stg_matches_id in A. apply stg_matches_id in B. destruct A, B. congruence. Qed.

(* every item table in staging after the call was there, for the same key, before -- except for the key the call
   addresses and the keys of engine commands *)
Definition Rbk (k : string * nat) (c c' : cstate) : Prop :=
  forall t r l, (t, r) <> k -> is_engine_command t = false -> items_of c' t r = Some l -> items_of c t r = Some l.

(* the same on the staging lists *)
Definition items_in (l : list stg) (t : string) (r : nat) : option (list status) :=
  match find (stg_matches t r) l with Some s => s_items s | None => None end.
Definition Qbk (k : string * nat) (l l' : list stg) : Prop :=
  forall t r tb, (t, r) <> k -> is_engine_command t = false -> items_in l' t r = Some tb -> items_in l t r = Some tb.

Lemma Qbk_update : forall k f nt nr l, keeps_key f ->
  (forall s, s_items (f s) = s_items s \/ s_items (f s) = None) \/ k = (nt, nr) -> Qbk k l (staged_update f nt nr l).
Proof.
  intros k f nt nr l Hk Hf t r tb Hne _ H. unfold items_in in *.
  destruct (find (stg_matches t r) (staged_update f nt nr l)) as [s'|] eqn:E; [|discriminate].
  destruct (find_staged_update _ _ _ _ _ _ _ Hk E) as [s [Hs [->|[-> Hm]]]]; rewrite Hs; [exact H|].
  destruct Hf as [Hf| ->]; [destruct (Hf s) as [X|X]; rewrite X in H; [exact H|discriminate]|].
  exfalso. apply find_some in Hs. destruct Hs as [_ Hs]. apply Hne. exact (matches_two _ _ _ _ _ Hm Hs).
Qed.

Lemma Qbk_add : forall k x l, s_items x = None -> Qbk k l (app l [x]).
Proof.
  intros k x l Hx t r tb _ _ H. unfold items_in in *.
  destruct (find (stg_matches t r) (app l [x])) as [s'|] eqn:E; [|discriminate].
  destruct (find_app_snoc _ _ _ _ _ E) as [A|[_ ->]]; [rewrite A; exact H|rewrite Hx in H; discriminate].
Qed.

Lemma Qbk_remove : forall t0 r0 l, Qbk (t0, r0) l (staged_remove_first t0 r0 l).
Proof. intros t0 r0 l t r tb Hne _ H. unfold items_in in *. rewrite (find_remove_first_other t0 r0 t r l Hne) in H. exact H. Qed.

Section BackFrame.
Variable ev : string -> dict -> evalres.

Theorem bk_update_task_state : forall t route evt, vpres (Rbk (t, route)) (update_task_state ev t route evt).
Proof.
  intros t route evt. unfold update_task_state. refine (stg_walk ev Qbk _ _ Qbk_remove _ _ _ _ _ _ _ t route evt).
  - (* Q_refl *) intros k l t0 r tb _ _ H. exact H.
  - (* Q_trans *) intros k a b c H1 H2 t0 r tb Hk Hc H. exact (H1 t0 r tb Hk Hc (H2 t0 r tb Hk Hc H)).
  - (* Q_item *) intros t0 r i st l. apply Qbk_update; [intro; split; reflexivity|right; reflexivity].
  - (* Q_done *) intros t0 r l. apply Qbk_update; [intro; split; reflexivity|right; reflexivity].
  - (* Q_again *) intros t0 r x l _. apply Qbk_add.
  - (* Q_fade *) intros k f nt nr l [Hk Hf]. apply Qbk_update; [exact Hk|left; exact Hf].
  - (* Q_add *) intros k x l. apply Qbk_add.
  - (* Q_cmd *) intros k n rt l l' Hn H t0 r tb _ Hc X. apply (H t0 r tb); [intro E; inversion E; subst; congruence|exact Hc|exact X].
Qed.

End BackFrame.

(* every staged entry with an item table after the call has a counterpart (same key, same table) before, except for
   entries of the key X *)
Definition Rin (X : string * nat -> Prop) (c c' : cstate) : Prop :=
  forall s' l, In s' (staged (c_ws c')) -> s_items s' = Some l -> ~ X (s_id s', s_route s') ->
  exists s, In s (staged (c_ws c)) /\ s_id s = s_id s' /\ s_route s = s_route s' /\ s_items s = Some l.

Definition nokey : string * nat -> Prop := fun _ => False.
Definition onekey (k : string * nat) : string * nat -> Prop := fun x => x = k.

Lemma Rin_refl : forall X c, Rin X c c.
Proof. intros X c s' l H1 H2 _. exists s'; auto. Qed.

(* the same on the staging lists *)
Definition Qin (X : string * nat -> Prop) (l l' : list stg) : Prop :=
  forall s' tb, In s' l' -> s_items s' = Some tb -> ~ X (s_id s', s_route s') ->
  exists s, In s l /\ s_id s = s_id s' /\ s_route s = s_route s' /\ s_items s = Some tb.

Lemma Qin_refl : forall X l, Qin X l l.
Proof. intros X l s' tb H1 H2 _. exists s'; auto. Qed.
Lemma Qin_trans : forall X a b c, Qin X a b -> Qin X b c -> Qin X a c.
Proof.
  intros X a b c H1 H2 s' l Hin Hi Hx. destruct (H2 _ _ Hin Hi Hx) as [s1 [A [B [C D]]]].
  assert (Hx1 : ~ X (s_id s1, s_route s1)) by (rewrite B, C; exact Hx).
  destruct (H1 _ _ A D Hx1) as [s0 [A0 [B0 [C0 D0]]]]. exists s0. repeat split; try assumption; congruence.
Qed.
Lemma Qin_update : forall X f nt nr l, items_fade f -> Qin X l (staged_update f nt nr l).
Proof.
  intros X f nt nr l [Hk Hf] s' tb Hin Hi _.
  destruct (StateFacts.In_staged_update _ _ _ _ _ Hin) as [A|[s0 [A [_ ->]]]]; [exists s'; auto|].
  exists s0. destruct (Hk s0) as [K1 K2]. split; [exact A|]. split; [auto|]. split; [auto|].
  destruct (Hf s0) as [E|E]; rewrite E in Hi; [exact Hi|discriminate].
Qed.
Lemma Qin_update_own : forall t0 r0 f l, keeps_key f -> Qin (onekey (t0, r0)) l (staged_update f t0 r0 l).
Proof.
  intros t0 r0 f l Hk s' tb Hin Hi Hx. destruct (StateFacts.In_staged_update _ _ _ _ _ Hin) as [A|[s0 [A [B ->]]]]; [exists s'; auto|].
  exfalso. apply Hx. destruct (Hk s0) as [K1 K2]. rewrite K1, K2. apply stg_matches_id in B. destruct B; subst. reflexivity.
Qed.
Lemma Qin_done : forall X (t : string) (r : nat) l, Qin X l (staged_update (fun s => s_set_completed s true) t r l).
Proof. intros. apply Qin_update. split; [intro; split; reflexivity|intro; left; reflexivity]. Qed.
Lemma Qin_remove : forall X t r l, Qin X l (staged_remove_first t r l).
Proof. intros X t r l s' tb Hin Hi _. exists s'. split; [eapply StateFacts.In_staged_remove_first; exact Hin|auto]. Qed.
Lemma Qin_add : forall X x l, s_items x = None -> Qin X l (app l [x]).
Proof.
  intros X x l Hx s' tb Hin Hi _. apply in_app_or in Hin. destruct Hin as [A|[A|[]]]; [exists s'; auto|].
  subst s'. rewrite Hx in Hi. discriminate.
Qed.
Lemma Qin_again : forall X (t : string) (r : nat) x l, stg_matches t r x = true -> s_items x = None -> Qin X l (app l [x]).
Proof. intros X t r x l _. apply Qin_add. Qed.

(* the staging walk at [Qin X]: the exempt keys do not depend on the key of the call, so the calls on engine commands
   need nothing; the item step is left to the caller *)
Section InFrame.
Variable ev : string -> dict -> evalres.
Variable X : string * nat -> Prop.

Lemma in_fuel_not_item : forall fuel t route evt, not_item evt -> vpres (Rin X) (update_task_state_fuel ev fuel t route evt).
Proof.
  exact (stg_walk_not_item ev (fun _ => Qin X) (fun _ => Qin_refl X) (fun _ => Qin_trans X) (Qin_remove X) (Qin_done X) (Qin_again X)
           (fun _ => Qin_update X) (fun _ => Qin_add X) (fun _ _ _ _ _ _ H => H)).
Qed.

Lemma in_body : forall fuel t route evt, (forall s0, vpres (Rin X) (uts_item t route evt s0)) ->
  vpres (Rin X) (uts_body ev (update_task_state_fuel ev fuel) t route evt).
Proof.
  intro fuel. exact (sq_body ev (fun _ => Qin X) (fun _ => Qin_refl X) (fun _ => Qin_trans X) (Qin_remove X) (Qin_done X) (Qin_again X)
                       (fun _ => Qin_update X) (fun _ => Qin_add X) (fun _ _ _ _ _ _ H => H) _ (in_fuel_not_item fuel)).
Qed.

Lemma in_machine_on : forall fuel t route evt ts idx p c3 cp c', pre_machine ev t route evt ts idx c3 = (cp, Val p) ->
  tail_of ev (update_task_state_fuel ev fuel) t route p cp = (c', Val tt) -> Rin X c3 c'.
Proof.
  intros fuel t route evt ts idx p c3 cp c' H1 H2. apply (Qin_trans X _ (staged (c_ws cp))).
  - exact (sq_pre_machine ev (fun _ => Qin X) (fun _ => Qin_refl X) (fun _ => Qin_trans X) (Qin_remove X) (Qin_done X) (Qin_again X)
             t route evt ts idx _ _ _ H1).
  - exact (sq_tail ev (fun _ => Qin X) (fun _ => Qin_refl X) (fun _ => Qin_trans X) (fun _ => Qin_update X) (fun _ => Qin_add X)
             (fun _ _ _ _ _ _ H => H) _ (in_fuel_not_item fuel) t route p _ _ _ H2).
Qed.

End InFrame.

Section InBody.
Variable ev : string -> dict -> evalres.

Lemma in_item_own : forall t route evt s0, vpres (Rin (onekey (t, route))) (uts_item t route evt s0).
Proof.
  intros t route evt s0. unfold uts_item. destruct s0 as [s|]; [|apply (vp_ret _ (Rin_refl _))].
  destruct evt; try apply (vp_ret _ (Rin_refl _)). destruct (s_items s); [|apply (vp_ret _ (Rin_refl _))].
  destruct (Nat.ltb item (length l)); [|apply vp_raise].
  apply vp_modws. intro c. apply (Qin_update_own t route). intro; split; reflexivity.
Qed.

(* no item event: no item table changes at all; an item event: only the table of its own key *)
Theorem in_update_task_state : forall t route evt,
  vpres (Rin (onekey (t, route))) (update_task_state ev t route evt).
Proof.
  intros t route evt. unfold update_task_state. rewrite uts_unfold. apply in_body. intro s0. apply in_item_own.
Qed.

Theorem in_update_task_state_not_item : forall t route evt, not_item evt ->
  vpres (Rin nokey) (update_task_state ev t route evt).
Proof. intros. unfold update_task_state. apply in_fuel_not_item. assumption. Qed.

End InBody.

Definition skey (s : stg) : string * nat := (s_id s, s_route s).

(* only the first entry of a key may carry an item table *)
Fixpoint first_only (l : list stg) : Prop :=
  match l with
  | [] => True
  | s :: l' => (forall s2, In s2 l' -> skey s2 = skey s -> s_items s2 = None) /\ first_only l'
  end.

Lemma matches_skey : forall t r s, stg_matches t r s = true <-> skey s = (t, r).
Proof.
  intros t r s. unfold skey. split; [intro H; apply stg_matches_id in H; destruct H; congruence|].
  intro H; inversion H; subst. apply stg_matches_refl.
Qed.

Lemma first_only_find : forall l s, first_only l -> In s l -> s_items s <> None ->
  find (stg_matches (s_id s) (s_route s)) l = Some s.
Proof.
  induction l as [|a l IH]; intros s H Hin Hi; [destruct Hin|]. destruct H as [Ha Hl]. simpl.
  destruct (stg_matches (s_id s) (s_route s) a) eqn:E.
  - destruct Hin as [->|Hin]; [reflexivity|]. exfalso. apply Hi. apply (Ha s Hin). apply matches_skey in E. symmetry; exact E.
  - destruct Hin as [->|Hin]; [rewrite stg_matches_refl in E; discriminate|]. apply IH; assumption.
Qed.

Lemma first_only_remove : forall t r l, first_only l -> first_only (staged_remove_first t r l).
Proof.
  induction l as [|a l IH]; simpl; intros H; [exact I|]. destruct H as [Ha Hl]. destruct (stg_matches t r a); [exact Hl|].
  split; [|apply IH; exact Hl]. intros s2 Hin. apply Ha. eapply In_staged_remove_first; exact Hin.
Qed.

Lemma first_only_add : forall l x, s_items x = None -> first_only l -> first_only (app l [x]).
Proof.
  induction l as [|a l IH]; simpl; intros x Hx H; [split; [intros s2 []|exact I]|]. destruct H as [Ha Hl].
  split; [|apply IH; assumption]. intros s2 Hin Hk. apply in_app_or in Hin. destruct Hin as [Hin|[<-|[]]]; [apply Ha; assumption|exact Hx].
Qed.

Lemma first_only_update : forall f t r l, keeps_key f -> first_only l -> first_only (staged_update f t r l).
Proof.
  intros f t r l Hk. induction l as [|a l IH]; simpl; intros H; [exact I|]. destruct H as [Ha Hl].
  destruct (stg_matches t r a) eqn:E.
  - split; [|exact Hl]. intros s2 Hin Hs. apply Ha; [exact Hin|]. unfold skey in *. destruct (Hk a) as [K1 K2]. congruence.
  - split; [|apply IH; exact Hl]. intros s2 Hin Hs.
    destruct (StateFacts.In_staged_update _ _ _ _ _ Hin) as [A|[s0 [A [M ->]]]]; [apply Ha; assumption|].
    exfalso. apply matches_skey in M. unfold skey in *. destruct (Hk s0) as [K1 K2].
    assert (X : stg_matches t r a = true) by (apply matches_skey; unfold skey; congruence). congruence.
Qed.

Definition fo (c : cstate) : Prop := first_only (staged (c_ws c)).
Definition Rfo (c c' : cstate) : Prop := fo c -> fo c'.
Lemma Rfo_refl : forall c, Rfo c c. Proof. intros c H; exact H. Qed.
Lemma Rfo_trans : forall a b c, Rfo a b -> Rfo b c -> Rfo a c. Proof. unfold Rfo; auto. Qed.

Lemma fo_same : forall c c', staged (c_ws c') = staged (c_ws c) -> Rfo c c'.
Proof. intros c c' H X. unfold fo in *. rewrite H. exact X. Qed.
Lemma fo_update : forall c f t r, keeps_key f -> Rfo c (set_ws c (ws_set_staged (c_ws c) (staged_update f t r (staged (c_ws c))))).
Proof. intros c f t r Hk X. unfold fo in *. simpl. apply first_only_update; assumption. Qed.

Section FirstOnly.
Variable ev : string -> dict -> evalres.

Lemma fo_of_lt : forall A (m : M A), vpres Rlt m -> vpres Rfo m.
Proof. intros A m. apply vpres_sub. intros c c' H. apply fo_same. apply Rlt_Rstg. exact H. Qed.

Lemma fo_ensure_ws : vpres Rfo (ensure_ws ev).
Proof.
  refine (sq_ensure_ws ev (fun _ l l' => first_only l -> first_only l') (fun _ l H => H) (fun _ a b c H1 H2 X => H2 (H1 X)) _ ("", 0)).
  intros _ x l Hx H. apply first_only_add; assumption.
Qed.

Theorem fo_update_task_state : forall t route evt, vpres Rfo (update_task_state ev t route evt).
Proof.
  intros t route evt. unfold update_task_state.
  refine (stg_walk ev (fun _ l l' => first_only l -> first_only l') (fun _ l H => H) (fun _ a b c H1 H2 X => H2 (H1 X))
            _ _ _ _ _ _ (fun _ _ _ _ _ _ H => H) _ t route evt).
  - (* Q_rm *) intros t0 r l. apply first_only_remove.
  - (* Q_item *) intros t0 r i st l. apply first_only_update. intro; split; reflexivity.
  - (* Q_done *) intros t0 r l. apply first_only_update. intro; split; reflexivity.
  - (* Q_again *) intros t0 r x l _ Hx H. apply first_only_add; assumption.
  - (* Q_fade *) intros _ f nt nr l [Hk _]. apply first_only_update. exact Hk.
  - (* Q_add *) intros _ x l Hx H. apply first_only_add; assumption.
Qed.

End FirstOnly.

Section Render.
Variable ev : string -> dict -> evalres.

Lemma map_fst_enumerate : forall A (l : list A), map fst (enumerate l) = seq 0 (length l).
Proof. intros. unfold enumerate. apply map_fst_enumerate_from. Qed.

Lemma render_task_items : forall ts ctx, vpost (fun acts =>
    match ts_with ts with
    | Some _ => map a_item acts = map Some (seq 0 (length acts))
    | None => forall a, In a acts -> a_item a = None
    end) (render_task ev ts ctx).
Proof.
  intros ts ctx. unfold render_task. destruct (ts_with ts) as [its|].
  - apply vpost_bind; intro items. destruct items; try apply vpost_raise.
    eapply vpost_weaken; [|apply (vpost_mapM _ _ (fun (p : nat * json) (a : action_spec) => a_item a = Some (fst p)))].
    + intros acts H.
      assert (G : map a_item acts = map Some (map fst (enumerate l))).
      { induction H as [|p a ps az Hp Hr IH]; [reflexivity|]. simpl. rewrite Hp, IH. reflexivity. }
      rewrite G, map_fst_enumerate. f_equal. f_equal.
      assert (L : length acts = length (enumerate l)).
      { clear G. induction H as [|p a ps az Hp Hr IH]; [reflexivity|simpl; rewrite IH; reflexivity]. }
      rewrite L. unfold enumerate. rewrite <- (map_length fst), map_fst_enumerate_from, seq_length. reflexivity.
    + intros [idx item]. apply vpost_bind; intro x1. apply vpost_bind; intro x2. apply vpost_ret. reflexivity.
  - apply vpost_bind; intro x1. apply vpost_bind; intro x2. apply vpost_ret. intros a0 [<-|[]]. reflexivity.
Qed.

End Render.

Lemma find_staged_update_keeps : forall f t r l, keeps_key f ->
  find (stg_matches t r) (staged_update f t r l) = option_map f (find (stg_matches t r) l).
Proof. intros f t r l Hk. apply StateFacts.find_staged_update_same. intro s. apply matches_keeps. exact Hk. Qed.

(* the only thing rendering an offer writes: a fresh item table for the entry of its own key, when there was none *)
Definition init_of (t : string) (r : nat) (c c' : cstate) : Prop :=
  c' = c \/
  exists s n, get_staged_task (c_ws c) t r = Some s /\ (s_items s = None \/ s_items s = Some []) /\
    c' = set_ws c (ws_set_staged (c_ws c)
                     (staged_update (fun e => s_set_items e (Some (repeat S_UNSET n))) t r (staged (c_ws c)))).

Definition offer_post (s : stg) (c' : cstate) (o : offer) : Prop :=
  o_id o = s_id s /\ o_route o = s_route s /\
  match o_items_count o with
  | None => forall a, In a (o_actions o) -> a_item a = None
  | Some n => exists l conc conc' actions,
      items_of c' (s_id s) (s_route s) = Some l /\ length actions = n /\
      map a_item actions = map Some (seq 0 n) /\
      choose_items conc (combine actions l) = Val (o_actions o, conc') /\ o_concurrency o = Some conc' /\
      (n <> 0 -> o_actions o <> [])
  end.

Section NextTask.
Variable ev : string -> dict -> evalres.

Lemma ntf_eff : forall s c c' r, next_task_for ev s c = (c', r) ->
  init_of (s_id s) (s_route s) c c' /\ forall o, r = Val (Some o) -> offer_post s c' o.
Proof.
  intros s c c' r H. unfold next_task_for in H. unfold bind at 1 in H. unfold get at 1 in H.
  apply bind_pure_inv in H.
  2: { destruct (get_staged_task (c_ws c) (s_id s) (s_route s)); [apply state_pure_get_task_context|].
       destruct (ws_task_entry (c_ws c) (s_id s) (s_route s)); [apply state_pure_get_task_context|].
       destruct (nth_error (contexts (c_ws c)) 0); [apply state_pure_ret|apply state_pure_raise]. }
  destruct H as [[ctx0 [_ H]]|[e [_ [-> ->]]]]; [|split; [left; reflexivity|discriminate]].
  cbv zeta in H.
  destruct (spec_get_task (c_spec c) (s_id s)) as [ts|] eqn:Ets; [|inversion H; subst; split; [left; reflexivity|discriminate]].
  unfold bind at 1 in H. unfold ret at 1 in H.
  apply bind_pure_inv in H; [|apply render_task_pure].
  destruct H as [[acts [Ea H]]|[e [_ [-> ->]]]]; [|split; [left; reflexivity|discriminate]].
  pose proof (render_task_items ev ts _ _ _ _ Ea) as Hacts.
  apply bind_pure_inv in H.
  2: { destruct (truthy (ts_delay ts)); [|apply state_pure_ret].
       apply state_pure_bind; [destruct (ts_delay ts); first [apply evaluate_pure|apply state_pure_ret]|intro d].
       destruct (py_is_int d); [apply state_pure_ret|apply state_pure_raise]. }
  destruct H as [[dl [_ H]]|[e [_ [-> ->]]]]; [|split; [left; reflexivity|discriminate]].
  destruct (ts_with ts) as [its|] eqn:Ew.
  2: { inversion H; subst. split; [left; reflexivity|]. intros o Ho. inversion Ho as [Ho'].
       destruct acts as [|a0 acts']; [discriminate|]. inversion Ho'; subst o. simpl. repeat split; try reflexivity. exact Hacts. }
  apply bind_pure_inv in H; [|apply evaluate_pure].
  destruct H as [[conc [_ H]]|[e [_ [-> ->]]]]; [|split; [left; reflexivity|discriminate]].
  unfold bind at 1 in H. unfold getws at 1 in H.
  destruct (get_staged_task (c_ws c) (s_id s) (s_route s)) as [s'|] eqn:Eg;
    [|unfold bind, raise in H; inversion H; subst; split; [left; reflexivity|discriminate]].
  match type of H with bind _ ?k c = _ => set (K := k) in H end.
  assert (T : exists c1 l, init_of (s_id s) (s_route s) c c1 /\ items_of c1 (s_id s) (s_route s) = Some l /\ K l c1 = (c', r)).
  { destruct (s_items s') as [[|x xs]|] eqn:Ei;
      [|unfold bind at 1 in H; unfold ret at 1 in H; exists c, (x :: xs); split; [left; reflexivity|];
        split; [unfold items_of; rewrite Eg; exact Ei|exact H]|];
      (* no table yet: a fresh one is written *)
      (unfold bind at 1 in H; unfold bind at 1 in H; unfold modws at 1 in H; unfold ret at 1 in H;
       eexists; exists (repeat S_UNSET (length acts));
       split; [right; exists s', (length acts); split; [exact Eg|split; [auto|reflexivity]]|]; split; [|exact H];
       unfold items_of, get_staged_task; simpl; rewrite find_staged_update_keeps by (intro; split; reflexivity);
       unfold get_staged_task in Eg; rewrite Eg; reflexivity). }
  destruct T as [c1 [l [Hinit [Hl H']]]]. clear H. unfold K in H'. clear K.
  unfold bind in H'. destruct (choose_items conc (combine acts l)) as [[acts0 conc']|e] eqn:Ec; simpl in H'.
  - inversion H'; subst c' r. split; [exact Hinit|]. intros o Ho. inversion Ho as [Ho'].
    assert (Hne : length acts <> 0 -> acts0 <> []).
    { intros Hn E0. subst acts0. destruct (length acts); [apply Hn; reflexivity|discriminate Ho']. }
    assert (Ho'' : o_id o = s_id s /\ o_route o = s_route s /\ o_actions o = acts0 /\
                   o_items_count o = Some (length acts) /\ o_concurrency o = Some conc').
    { destruct acts0; [destruct (length acts); [|discriminate Ho']|]; inversion Ho'; simpl; auto 6. }
    destruct Ho'' as (A & B & C & D & E). split; [exact A|]. split; [exact B|]. rewrite D, C, E.
    exists l, conc, conc', acts. repeat split; try assumption; reflexivity.
  - inversion H'; subst. split; [exact Hinit|discriminate].
Qed.

End NextTask.

(* an entry, or the same entry with a fresh item table where it had none *)
Definition rho (s s' : stg) : Prop :=
  s' = s \/ ((s_items s = None \/ s_items s = Some []) /\ exists n, s' = s_set_items s (Some (repeat S_UNSET n))).

Definition Rgn (c c' : cstate) : Prop :=
  c_graph c' = c_graph c /\ c_spec c' = c_spec c /\ c_init c' = c_init c /\
  sequence (c_ws c') = sequence (c_ws c) /\ tasks (c_ws c') = tasks (c_ws c) /\
  (wstatus (c_ws c') = wstatus (c_ws c) \/ wstatus (c_ws c') = S_FAILED) /\
  Forall2 rho (staged (c_ws c)) (staged (c_ws c')).

Lemma rho_refl : forall s, rho s s. Proof. intro; left; reflexivity. Qed.
Lemma rho_trans : forall a b c, rho a b -> rho b c -> rho a c.
Proof.
  intros a b c [->|[Ha [n ->]]] H; [exact H|]. destruct H as [->|[Hb [m ->]]]; [right; split; [exact Ha|exists n; reflexivity]|].
  right. split; [exact Ha|]. exists m. destruct a; reflexivity.
Qed.
Lemma Forall2_rho_refl : forall l, Forall2 rho l l.
Proof. induction l; constructor; [apply rho_refl|assumption]. Qed.
Lemma Forall2_rho_trans : forall a b c, Forall2 rho a b -> Forall2 rho b c -> Forall2 rho a c.
Proof.
  intros a b c H; revert c; induction H as [|x y l l' Hxy Hl IH]; intros c Hc; inversion Hc; subst; constructor;
    [eapply rho_trans; eassumption|apply IH; assumption].
Qed.

Lemma Rgn_refl : forall c, Rgn c c.
Proof. intro c. repeat split; auto. apply Forall2_rho_refl. Qed.
Lemma Rgn_trans : forall a b c, Rgn a b -> Rgn b c -> Rgn a c.
Proof.
  intros a b c (A1 & A2 & A3 & A4 & A5 & A6 & A7) (B1 & B2 & B3 & B4 & B5 & B6 & B7).
  repeat split; try congruence; [|eapply Forall2_rho_trans; eassumption].
  destruct B6 as [B6|B6]; [|right; exact B6]. destruct A6 as [A6|A6]; [left|right]; congruence.
Qed.
Lemma Rlt_Rgn : forall c c', Rlt c c' -> Rgn c c'.
Proof.
  intros c c' (A1 & A2 & A3 & A4 & A5 & A6 & A7 & A8 & A9). repeat split; auto. rewrite A3. apply Forall2_rho_refl.
Qed.
Lemma only_errors_Rgn : forall c c', only_errors c c' -> Rgn c c'.
Proof. intros c c' (A1 & A2 & A3 & A4). unfold Rgn. rewrite A1. repeat split; auto. apply Forall2_rho_refl. Qed.

Lemma Forall2_rho_update : forall t r n l,
  (forall s, find (stg_matches t r) l = Some s -> s_items s = None \/ s_items s = Some []) ->
  Forall2 rho l (staged_update (fun e => s_set_items e (Some (repeat S_UNSET n))) t r l).
Proof.
  intros t r n. induction l as [|a l IH]; intro H; [constructor|]. simpl in *. destruct (stg_matches t r a).
  - constructor; [right; split; [apply H; reflexivity|exists n; reflexivity]|apply Forall2_rho_refl].
  - constructor; [apply rho_refl|apply IH; exact H].
Qed.

Lemma init_of_Rgn : forall t r c c', init_of t r c c' -> Rgn c c'.
Proof.
  intros t r c c' [->|[s [n [Hg [Hi ->]]]]]; [apply Rgn_refl|]. repeat split; auto. simpl.
  apply Forall2_rho_update. intros s0 Hs0. unfold get_staged_task in Hg. rewrite Hg in Hs0. inversion Hs0; subst. exact Hi.
Qed.

Lemma rho_key : forall s s', rho s s' -> stg_matches (s_id s) (s_route s) s' = true /\ forall t r, stg_matches t r s' = stg_matches t r s.
Proof. intros s s' [->|[_ [n ->]]]; split; try apply stg_matches_refl; try reflexivity. exact (stg_matches_refl s). Qed.

Lemma Rgn_items_stable : forall c c' t r x xs, Rgn c c' -> items_of c t r = Some (x :: xs) -> items_of c' t r = Some (x :: xs).
Proof.
  intros c c' t r x xs (_ & _ & _ & _ & _ & _ & F) H. unfold items_of, get_staged_task in *.
  induction F as [|s s' l l' Hr Hl IH]; [discriminate|]. simpl in *. destruct (rho_key _ _ Hr) as [_ K]. rewrite K.
  destruct (stg_matches t r s); [|apply IH; exact H].
  destruct Hr as [->|[[Hn|Hn] _]]; [exact H|rewrite Hn in H; discriminate|rewrite Hn in H; discriminate].
Qed.

Section PollEffect.
Variable ev : string -> dict -> evalres.

Lemma offer_try_items : forall s c c' r, offer_try ev s c = (c', Val r) ->
  Rgn c c' /\ forall o, fst r = Some o -> offer_post s c' o.
Proof.
  intros s c c' r H. unfold offer_try, try_catch in H.
  destruct ((o <- next_task_for ev s ;; ret (o, false)) c) as [c2 [x|e]] eqn:E.
  - inversion H; subst c2 x; clear H. apply bind_val_inv' in E. destruct E as [c3 [o [E1 E2]]]. inversion E2; subst c3 r; clear E2.
    destruct (ntf_eff ev _ _ _ _ E1) as [Hi Ho]. split; [eapply init_of_Rgn; exact Hi|]. intros o' Ho'. simpl in Ho'. subst o. apply Ho; reflexivity.
  - unfold bind in E. destruct (next_task_for ev s c) as [c3 [o|e']] eqn:E1; [inversion E|]. inversion E; subst c3 e'; clear E.
    destruct (ntf_eff ev _ _ _ _ E1) as [Hi _].
    apply bind_val_inv' in H. destruct H as [c4 [u [E4 H]]]. inversion H; subst c4 r; clear H.
    split; [|intros o Ho; discriminate Ho].
    eapply Rgn_trans; [eapply init_of_Rgn; exact Hi|]. apply Rlt_Rgn. exact (vlt_log_error _ _ _ _ _ _ _ E4).
Qed.

Lemma offer_post_stable : forall s c c' o m, Rgn c c' -> o_items_count o = Some (S m) -> offer_post s c o -> offer_post s c' o.
Proof.
  intros s c c' o m R Hm [H1 [H2 H3]]. split; [exact H1|]. split; [exact H2|]. rewrite Hm in *.
  destruct H3 as [l [conc [conc' [acts [Hl [Hlen [Hmap [Hch [Hco Hne]]]]]]]]]. exists l, conc, conc', acts.
  split; [|auto]. destruct l as [|x xs]; [|eapply Rgn_items_stable; eassumption].
  (* an empty table offers nothing: there would be no offer *)
  exfalso. apply Hne; [discriminate|]. rewrite combine_nil in Hch. unfold choose_items in Hch. simpl in Hch.
  destruct conc; inversion Hch; try reflexivity; destruct (Z.ltb _ _); try reflexivity; rewrite firstn_nil; reflexivity.
Qed.

(* what an offer says, read against the state the poll leaves *)
Definition offer_ok (c1 : cstate) (s : stg) (o : offer) : Prop :=
  o_id o = s_id s /\ o_route o = s_route s /\
  match o_items_count o with
  | None => forall a, In a (o_actions o) -> a_item a = None
  | Some O => True
  | Some (S m) => exists l conc conc' actions,
      items_of c1 (s_id s) (s_route s) = Some l /\ length actions = S m /\
      map a_item actions = map Some (seq 0 (S m)) /\
      choose_items conc (combine actions l) = Val (o_actions o, conc') /\ o_concurrency o = Some conc' /\ o_actions o <> []
  end.

Lemma offer_post_ok : forall s c c1 o, Rgn c c1 -> offer_post s c o -> offer_ok c1 s o.
Proof.
  intros s c c1 o R H. destruct (o_items_count o) as [[|m]|] eqn:E.
  - destruct H as [H1 [H2 _]]. unfold offer_ok. rewrite E. auto.
  - pose proof (offer_post_stable s c c1 o m R E H) as [H1 [H2 H3]]. unfold offer_ok. rewrite E in *.
    destruct H3 as [l [conc [conc' [acts [A [B [C [D [F G]]]]]]]]]. split; [exact H1|]. split; [exact H2|].
    exists l, conc, conc', acts. repeat split; try assumption. apply G. discriminate.
  - destruct H as [H1 [H2 H3]]. unfold offer_ok. rewrite E in *. auto.
Qed.

Lemma offers_mapM_items : forall l c c2 rs, mapM (offer_try ev) l c = (c2, Val rs) ->
  Rgn c c2 /\ forall o b, In (Some o, b) rs -> exists s, In s l /\ offer_ok c2 s o.
Proof.
  induction l as [|s l IH]; intros c c2 rs H; simpl in H.
  - inversion H; subst. split; [apply Rgn_refl|intros o b []].
  - apply bind_val_inv' in H. destruct H as [c1 [r [E1 H]]].
    apply bind_val_inv' in H. destruct H as [c3 [rs' [E2 H]]]. inversion H; subst c3 rs; clear H.
    destruct (offer_try_items _ _ _ _ E1) as [R1 P1]. destruct (IH _ _ _ E2) as [R2 P2].
    split; [eapply Rgn_trans; eassumption|]. intros o b [Hin|Hin].
    + exists s. split; [left; reflexivity|]. apply (offer_post_ok s c1 c2 o R2). apply P1. rewrite Hin. reflexivity.
    + destruct (P2 _ _ Hin) as [s' [A B]]. exists s'. split; [right; exact A|exact B].
Qed.

Lemma gn_items_eff : forall c c1 offers, c_init c = true -> get_next_tasks ev c = (c1, Val offers) ->
  Rgn c c1 /\
  forall o, In o offers -> exists s, In s (staged (c_ws c)) /\ s_ready s = true /\ s_completed s = false /\ offer_ok c1 s o.
Proof.
  intros c c1 offers Hi H. unfold get_next_tasks in H.
  unfold bind at 1 in H. rewrite (ensure_ws_inited ev c Hi) in H.
  unfold bind at 1 in H. unfold getws at 1 in H. cbv zeta in H.
  set (w := c_ws c) in *. set (stasks := staged_filtered w) in *.
  set (rem := if status_eqb (wstatus w) S_FAILED then filter s_run_on_fail stasks else []) in *.
  destruct (negb (status_in (wstatus w) RUNNING_STATUSES) && match rem with [] => true | _ => false end).
  { inversion H; subst. split; [apply Rgn_refl|intros o []]. }
  set (todo := match rem with [] => stasks | _ => rem end) in *.
  assert (Htodo : forall s, In s todo -> In s (staged w) /\ s_ready s = true /\ s_completed s = false).
  { intros s Hs. assert (Hsf : In s stasks).
    { unfold todo in Hs. destruct rem as [|r0 rem0] eqn:Er; [exact Hs|].
      unfold rem in Er. destruct (status_eqb (wstatus w) S_FAILED); [|discriminate].
      rewrite <- Er in Hs. apply filter_In in Hs; tauto. }
    unfold stasks, staged_filtered in Hsf. apply filter_In in Hsf. destruct Hsf as [Hin Hb].
    apply andb_prop in Hb; destruct Hb as [Hr Hc]. apply negb_true_iff in Hc. tauto. }
  apply bind_val_inv' in H. destruct H as [c2 [rs [E2 H]]].
  change (mapM (offer_try ev) todo c = (c2, Val rs)) in E2.
  destruct (offers_mapM_items _ _ _ _ E2) as [R2 P2].
  destruct (existsb snd rs).
  - apply bind_val_inv' in H. destruct H as [c3 [u [E3 H]]]. inversion H; subst c3 offers; clear H. destruct u.
    split; [|intros o []]. eapply Rgn_trans; [exact R2|]. apply Rlt_Rgn. exact (vlt_request_failed _ _ _ E3).
  - inversion H; subst c2 offers; clear H. split; [exact R2|]. intros o Ho. apply in_sort_by in Ho.
    apply in_flat_map in Ho. destruct Ho as [[o' b] [Hin Ho]]. destruct o' as [o'|]; [|destruct Ho]. destruct Ho as [<-|[]].
    destruct (P2 _ _ Hin) as [s [A B]]. exists s. destruct (Htodo _ A) as [X [Y Z]]. auto.
Qed.

End PollEffect.

(* every active item status in staging is "running" and its action is in flight *)
Definition J2e (c : cstate) (F : list ikey) : Prop :=
  forall s l j st, In s (staged (c_ws c)) -> s_items s = Some l -> nth_error l j = Some st ->
  status_in st ACTIVE_STATUSES = true -> st = S_RUNNING /\ In (s_id s, s_route s, Some j) F.

(* every item action in flight is "running" in the item table of its task's staged entry *)
Definition J1e (c : cstate) (F : list ikey) : Prop :=
  forall t r j, In (t, r, Some j) F -> exists l, items_of c t r = Some l /\ nth_error l j = Some S_RUNNING.

Lemma any_active_nth : forall l j st, nth_error l j = Some st -> status_in st ACTIVE_STATUSES = true -> any_active l = true.
Proof. intros l j st H Ha. unfold any_active. apply existsb_exists. exists st. split; [eapply nth_error_In; exact H|exact Ha]. Qed.

Lemma items_of_entry : forall c t r l, items_of c t r = Some l ->
  exists s, In s (staged (c_ws c)) /\ s_id s = t /\ s_route s = r /\ s_items s = Some l /\ get_staged_task (c_ws c) t r = Some s.
Proof.
  intros c t r l H. unfold items_of in H. destruct (get_staged_task (c_ws c) t r) as [s|] eqn:E; [|discriminate].
  exists s. pose proof E as E'. unfold get_staged_task in E. apply find_some in E. destruct E as [A B]. apply stg_matches_id in B. destruct B. auto.
Qed.

Lemma items_of_In : forall c s l, fo c -> In s (staged (c_ws c)) -> s_items s = Some l ->
  items_of c (s_id s) (s_route s) = Some l.
Proof.
  intros c s l Hfo Hin Hl. unfold items_of, get_staged_task.
  rewrite (first_only_find _ s Hfo Hin); [exact Hl|rewrite Hl; discriminate].
Qed.

Lemma items_back : forall cE c' t r l, fo cE -> Rin nokey cE c' -> items_of c' t r = Some l -> items_of cE t r = Some l.
Proof.
  intros cE c' t r l Hfo R H. destruct (items_of_entry _ _ _ _ H) as [s' [Hs' [<- [<- [Hit _]]]]].
  destruct (R s' l Hs' Hit (fun x => x)) as [sA [HsA [<- [<- HitA]]]]. exact (items_of_In _ _ _ Hfo HsA HitA).
Qed.

Lemma J2e_items : forall c F, fo c ->
  (J2e c F <-> forall t r l j st, items_of c t r = Some l -> nth_error l j = Some st ->
                 status_in st ACTIVE_STATUSES = true -> st = S_RUNNING /\ In (t, r, Some j) F).
Proof.
  intros c F Hfo. split.
  - intros H t r l j st Hl. destruct (items_of_entry _ _ _ _ Hl) as [s [Hs [<- [<- [Hit _]]]]]. exact (H s l j st Hs Hit).
  - intros H s l j st Hs Hit. exact (H _ _ l j st (items_of_In _ _ _ Hfo Hs Hit)).
Qed.

Lemma tkey_dec : forall a b : tkey, a = b \/ a <> b.
Proof.
  intros [t r] [t' r']. destruct (string_dec t t') as [->|H]; [|right; congruence].
  destruct (Nat.eq_dec r r') as [->|H]; [left; reflexivity|right; congruence].
Qed.

Section KeySet.
Variables (A : Type) (eqb : A -> A -> bool).
Hypothesis eqb_eq : forall a b, eqb a b = true <-> a = b.

Lemma set_in_iff : forall k l, existsb (eqb k) l = true <-> In k l.
Proof.
  intros k l; rewrite existsb_exists; split.
  - intros [x [Hin He]]. apply eqb_eq in He; subst; exact Hin.
  - intro H; exists k; split; [exact H|apply eqb_eq; reflexivity].
Qed.
Lemma In_set_add : forall k k0 l, In k (if existsb (eqb k0) l then l else app l [k0]) <-> k = k0 \/ In k l.
Proof.
  intros k k0 l. destruct (existsb (eqb k0) l) eqn:E.
  - apply set_in_iff in E. split; [auto|intros [->|H]; assumption].
  - rewrite in_app_iff. simpl. split; [intros [H|[H|[]]]; auto|intros [->|H]; auto].
Qed.
Lemma In_set_remove : forall k k0 l, In k (filter (fun x => negb (eqb k0 x)) l) <-> In k l /\ k <> k0.
Proof.
  intros k k0 l. rewrite filter_In, negb_true_iff. split; intros [H1 H2]; (split; [exact H1|]).
  - intros ->. rewrite (proj2 (eqb_eq k0 k0) eq_refl) in H2. discriminate.
  - destruct (eqb k0 k) eqn:E; [apply eqb_eq in E; congruence|reflexivity].
Qed.
End KeySet.

Lemma ikey_eqb_eq : forall a b : ikey, ikey_eqb a b = true <-> a = b.
Proof.
  intros [[t1 r1] i1] [[t2 r2] i2]. unfold ikey_eqb. simpl. split.
  - intro H. apply andb_prop in H. destruct H as [H H3]. apply andb_prop in H. destruct H as [H1 H2].
    apply String.eqb_eq in H1. apply Nat.eqb_eq in H2. subst.
    destruct i1, i2; simpl in H3; try discriminate; [apply Nat.eqb_eq in H3; subst|]; reflexivity.
  - intro H. inversion H; subst. rewrite String.eqb_refl, Nat.eqb_refl. destruct i2; simpl; [apply Nat.eqb_refl|reflexivity].
Qed.
Lemma ikey_in_iff : forall k l, ikey_in k l = true <-> In k l.
Proof. exact (set_in_iff _ _ ikey_eqb_eq). Qed.
Lemma In_ikey_add : forall k k0 l, In k (ikey_add k0 l) <-> k = k0 \/ In k l.
Proof. exact (In_set_add _ _ ikey_eqb_eq). Qed.
Lemma In_ikey_remove : forall k k0 l, In k (ikey_remove k0 l) <-> In k l /\ k <> k0.
Proof. exact (In_set_remove _ _ ikey_eqb_eq). Qed.

Lemma record_item_keeps : forall i st, keeps_key (record_item i st).
Proof. intros i st s; split; reflexivity. Qed.

Lemma items_of_update_other : forall c f t r t' r', keeps_key f -> (t', r') <> (t, r) ->
  items_of (set_ws c (ws_set_staged (c_ws c) (staged_update f t r (staged (c_ws c))))) t' r' = items_of c t' r'.
Proof.
  intros c f t r t' r' Hk Hne. unfold items_of, get_staged_task. simpl.
  destruct (find (stg_matches t' r') (staged_update f t r (staged (c_ws c)))) as [s'|] eqn:E.
  - destruct (find_staged_update _ _ _ _ _ _ _ Hk E) as [s [Hs [->|[-> Hm]]]]; rewrite Hs; [reflexivity|].
    exfalso. apply find_some in Hs. destruct Hs as [_ Hs]. apply Hne. exact (matches_two _ _ _ _ _ Hm Hs).
  - destruct (find (stg_matches t' r') (staged (c_ws c))) as [s|] eqn:E2; [|reflexivity]. exfalso.
    assert (G : forall l, find (stg_matches t' r') l = Some s -> find (stg_matches t' r') (staged_update f t r l) <> None).
    { induction l as [|a l IH]; simpl; [discriminate|]. destruct (stg_matches t r a) eqn:Ea; simpl.
      - rewrite (matches_keeps f t' r' a Hk). destruct (stg_matches t' r' a); [discriminate|]. intros X Y. congruence.
      - destruct (stg_matches t' r' a); [discriminate|exact IH]. }
    exact (G _ E2 E).
Qed.

Lemma nth_set_nth_lt : forall A (l : list A) i x, i < length l -> nth_error (list_set_nth i x l) i = Some x.
Proof.
  intros A l i x H. destruct (nth_error l i) as [y|] eqn:E; [eapply nth_error_set_nth_same; exact E|].
  apply nth_error_None in E. lia.
Qed.

Lemma expect_not_item : forall c t r e, not_item e -> expect_item c t r e = c.
Proof. intros c t r e H. destruct e; try reflexivity. destruct H. Qed.

Lemma expect_item_eq : forall c t r i st res acc l, items_of c t r = Some l -> i < length l ->
  expect_item c t r (EvItem i st res acc) =
  set_ws c (ws_set_staged (c_ws c) (staged_update (record_item i st) t r (staged (c_ws c)))).
Proof.
  intros c t r i st res acc l Hl Hil. unfold expect_item. destruct (items_of_entry _ _ _ _ Hl) as [s0 [_ [_ [_ [Hit Hg]]]]].
  rewrite Hg, Hit. apply Nat.ltb_lt in Hil. rewrite Hil. reflexivity.
Qed.

Lemma expect_item_cases : forall c t r e, expect_item c t r e = c \/
  exists i st res acc l, e = EvItem i st res acc /\ items_of c t r = Some l /\ i < length l.
Proof.
  intros c t r e. destruct e as [| |i st res acc|]; auto. unfold expect_item, items_of.
  destruct (get_staged_task (c_ws c) t r) as [s|]; auto. destruct (s_items s) as [l|]; auto.
  destruct (Nat.ltb i (length l)) eqn:E; auto. right. exists i, st, res, acc, l. apply Nat.ltb_lt in E. auto.
Qed.

Lemma fo_expect : forall c t r e, fo c -> fo (expect_item c t r e).
Proof.
  intros c t r e H. destruct (expect_item_cases c t r e) as [->|(i & st & res & acc & l & -> & Hl & Hi)]; [exact H|].
  rewrite (expect_item_eq _ _ _ _ _ _ _ _ Hl Hi). apply first_only_update; [apply record_item_keeps|exact H].
Qed.

Lemma items_of_expect_other : forall c t r e t' r', (t', r') <> (t, r) -> items_of (expect_item c t r e) t' r' = items_of c t' r'.
Proof.
  intros c t r e t' r' Hne. destruct (expect_item_cases c t r e) as [->|(i & st & res & acc & l & -> & Hl & Hi)]; [reflexivity|].
  rewrite (expect_item_eq _ _ _ _ _ _ _ _ Hl Hi). apply items_of_update_other; [apply record_item_keeps|exact Hne].
Qed.

Lemma items_of_expect_own : forall c t r i st res acc l, items_of c t r = Some l -> i < length l ->
  items_of (expect_item c t r (EvItem i st res acc)) t r = Some (list_set_nth i st l).
Proof.
  intros c t r i st res acc l Hl Hil. rewrite (expect_item_eq _ _ _ _ _ _ _ _ Hl Hil).
  destruct (items_of_entry _ _ _ _ Hl) as [s0 [_ [_ [_ [Hit Hg]]]]].
  unfold items_of, get_staged_task in *. simpl. rewrite find_staged_update_keeps by apply record_item_keeps.
  rewrite Hg. simpl. rewrite Hit. reflexivity.
Qed.

Lemma expect_back : forall c t r e t' r' l', items_of (expect_item c t r e) t' r' = Some l' ->
  items_of c t' r' = Some l' \/
  exists i st res acc l, e = EvItem i st res acc /\ (t', r') = (t, r) /\ items_of c t r = Some l /\ l' = list_set_nth i st l.
Proof.
  intros c t r e t' r' l' H. destruct (expect_item_cases c t r e) as [X|(i & st & res & acc & l & -> & Hl & Hi)]; [rewrite X in H; auto|].
  destruct (tkey_dec (t', r') (t, r)) as [E|E]; [|rewrite (items_of_expect_other _ _ _ _ _ _ E) in H; auto].
  right. exists i, st, res, acc, l. inversion E; subst t' r'. rewrite (items_of_expect_own _ _ _ _ _ res acc _ Hl Hi) in H.
  inversion H. auto.
Qed.

Lemma expect_link : forall c F t r i st res acc l, fo c -> J1e c F -> J2e c F ->
  items_of c t r = Some l -> i < length l ->
  let cE := expect_item c t r (EvItem i st res acc) in
  fo cE /\ items_of cE t r = Some (list_set_nth i st l) /\
  (st = S_RUNNING -> J1e cE (ikey_add (t, r, Some i) F) /\ J2e cE (ikey_add (t, r, Some i) F)) /\
  (status_in st ACTIVE_STATUSES = false -> J1e cE (ikey_remove (t, r, Some i) F) /\ J2e cE (ikey_remove (t, r, Some i) F)).
Proof.
  intros c F t r i st res acc l Hfo H1 H2 Hl Hi. cbv zeta. set (cE := expect_item c t r (EvItem i st res acc)).
  assert (HfE : fo cE) by (apply fo_expect; exact Hfo).
  assert (Hown : items_of cE t r = Some (list_set_nth i st l)) by (apply items_of_expect_own; assumption).
  assert (Hoth : forall t' r', (t', r') <> (t, r) -> items_of cE t' r' = items_of c t' r') by (intros; apply items_of_expect_other; assumption).
  pose proof (proj1 (J2e_items _ _ Hfo) H2) as H2i.
  assert (Hnth : forall j, j <> i -> nth_error (list_set_nth i st l) j = nth_error l j)
    by (intros j Hj; apply nth_error_set_nth_other; congruence).
  pose proof (nth_set_nth_lt _ l i st Hi) as Hnti.
  assert (Hent : forall t' r' l', items_of cE t' r' = Some l' ->
            ((t', r') <> (t, r) /\ items_of c t' r' = Some l') \/ ((t', r') = (t, r) /\ l' = list_set_nth i st l)).
  { intros t' r' l' H. destruct (tkey_dec (t', r') (t, r)) as [E|E]; [right|left; rewrite <- (Hoth _ _ E); auto].
    split; [exact E|]. inversion E; subst. rewrite Hown in H. inversion H; reflexivity. }
  split; [exact HfE|]. split; [exact Hown|]. split.
  - intros ->. split.
    + intros t' r' j Hin. apply In_ikey_add in Hin. destruct (tkey_dec (t', r') (t, r)) as [E|E].
      * inversion E; subst t' r'. exists (list_set_nth i S_RUNNING l). split; [exact Hown|].
        destruct (Nat.eq_dec j i) as [->|Hji]; [exact Hnti|]. rewrite (Hnth _ Hji).
        destruct Hin as [Hin|Hin]; [congruence|]. destruct (H1 _ _ _ Hin) as [l' [Hl' Hj]]. congruence.
      * destruct Hin as [Hin|Hin]; [congruence|]. rewrite (Hoth _ _ E). exact (H1 _ _ _ Hin).
    + apply (J2e_items _ _ HfE). intros t' r' l' j st' Hl' Hj Ha. destruct (Hent _ _ _ Hl') as [[E Hc]|[E ->]].
      * destruct (H2i _ _ _ _ _ Hc Hj Ha) as [X Y]. split; [exact X|apply In_ikey_add; right; exact Y].
      * inversion E; subst t' r'. destruct (Nat.eq_dec j i) as [->|Hji].
        -- rewrite Hnti in Hj. inversion Hj; subst st'. split; [reflexivity|apply In_ikey_add; left; reflexivity].
        -- rewrite (Hnth _ Hji) in Hj. destruct (H2i _ _ _ _ _ Hl Hj Ha) as [X Y]. split; [exact X|apply In_ikey_add; right; exact Y].
  - intros Hna. split.
    + intros t' r' j Hin. apply In_ikey_remove in Hin. destruct Hin as [Hin Hne]. destruct (H1 _ _ _ Hin) as [l' [Hl' Hj]].
      destruct (tkey_dec (t', r') (t, r)) as [E|E]; [|exists l'; rewrite (Hoth _ _ E); auto].
      inversion E; subst t' r'. exists (list_set_nth i st l). split; [exact Hown|]. rewrite Hnth by congruence. congruence.
    + apply (J2e_items _ _ HfE). intros t' r' l' j st' Hl' Hj Ha. destruct (Hent _ _ _ Hl') as [[E Hc]|[E ->]].
      * destruct (H2i _ _ _ _ _ Hc Hj Ha) as [X Y]. split; [exact X|]. apply In_ikey_remove. split; [exact Y|congruence].
      * inversion E; subst t' r'. destruct (Nat.eq_dec j i) as [->|Hji]; [rewrite Hnti in Hj; congruence|].
        rewrite (Hnth _ Hji) in Hj. destruct (H2i _ _ _ _ _ Hl Hj Ha) as [X Y]. split; [exact X|].
        apply In_ikey_remove. split; [exact Y|congruence].
Qed.

Section EventSplit.
Variable ev : string -> dict -> evalres.

(* after a returning task event every item table in staging is the table the expected staging has for its key *)
Theorem event_from_expected : forall t route evt c c', c_init c = true -> fo c ->
  update_task_state ev t route evt c = (c', Val tt) ->
  forall t' r' l, items_of c' t' r' = Some l -> items_of (expect_item c t route evt) t' r' = Some l.
Proof.
  intros t route evt c c' Hi Hfo H t' r' l. apply items_back; [apply fo_expect; exact Hfo|]. clear t' r' l.
  destruct evt as [st0|st0 res0|i st res acc|nm st0];
    try (cbn [expect_item]; refine (in_update_task_state_not_item ev t route _ _ _ _ _ H); exact I).
  unfold update_task_state in H. rewrite uts_unfold in H.
  destruct (body_open ev _ _ _ _ _ _ Hi H) as (ts & cp & p & _ & _ & Hm & Htl).
  destruct (pre_main_open ev _ _ _ _ _ _ _ _ _ Hm) as (c1 & idx1 & r1 & c2 & idx & ca & cb & c3 & E1 & _ & E2 & E3 & E4 & E5 & E6).
  assert (S2 : staged (c_ws c2) = staged (c_ws c)).
  { pose proof (vs_sel1 ev _ _ _ _ _ _ E1) as A. pose proof (vs_sel2 ev _ _ _ _ _ _ _ _ E2) as B. unfold Rstg in *. congruence. }
  assert (S3 : ca = c2).
  { unfold uts_unstage in E3. destruct (get_staged_task (c_ws c) t route) as [s|]; [|inversion E3; reflexivity].
    destruct (s_items s); inversion E3; reflexivity. }
  subst ca.
  assert (S4 : staged (c_ws cb) = staged (c_ws (expect_item c t route (EvItem i st res acc)))).
  { unfold uts_item in E4. unfold expect_item. destruct (get_staged_task (c_ws c) t route) as [s|]; [|inversion E4; subst; exact S2].
    destruct (s_items s) as [l|]; [|inversion E4; subst; exact S2].
    destruct (Nat.ltb i (length l)); [|inversion E4].
    unfold modws in E4. inversion E4; subst cb. simpl. rewrite S2. reflexivity. }
  pose proof (vs_logfail _ _ _ _ _ E5) as S5. unfold Rstg in S5.
  intros s' l. rewrite <- S4, <- S5. exact (in_machine_on ev nokey _ _ _ _ _ _ _ _ _ _ E6 Htl s' l).
Qed.

End EventSplit.

Definition nk (k : string * nat) (s : stg) : bool := negb (stg_matches (fst k) (snd k) s).

(* the staged entries of the other keys, in order, are the same *)
Definition Rflt (k : string * nat) (c c' : cstate) : Prop :=
  filter (nk k) (staged (c_ws c')) = filter (nk k) (staged (c_ws c)).
Lemma Rflt_trans : forall k a b c, Rflt k a b -> Rflt k b c -> Rflt k a c. Proof. unfold Rflt; intros; congruence. Qed.
Lemma Rflt_same : forall k c c', staged (c_ws c') = staged (c_ws c) -> Rflt k c c'.
Proof. intros k c c' H. unfold Rflt. rewrite H. reflexivity. Qed.

Lemma filter_remove_first_own : forall t r l, filter (nk (t, r)) (staged_remove_first t r l) = filter (nk (t, r)) l.
Proof.
  induction l as [|a l IH]; [reflexivity|]. simpl. destruct (stg_matches t r a) eqn:E.
  - unfold nk. simpl. rewrite E. reflexivity.
  - simpl. rewrite IH. reflexivity.
Qed.
Lemma filter_update_own : forall f t r l, keeps_key f -> filter (nk (t, r)) (staged_update f t r l) = filter (nk (t, r)) l.
Proof.
  intros f t r l Hk. induction l as [|a l IH]; [reflexivity|]. simpl. destruct (stg_matches t r a) eqn:E.
  - simpl. unfold nk. simpl. rewrite (matches_keeps f t r a Hk), E. reflexivity.
  - simpl. rewrite IH. reflexivity.
Qed.

Lemma filter_add_own : forall t r x l, stg_matches t r x = true -> filter (nk (t, r)) (app l [x]) = filter (nk (t, r)) l.
Proof. intros t r x l Hx. rewrite filter_app. simpl. unfold nk at 2. simpl. rewrite Hx. apply app_nil_r. Qed.

Lemma find_filter_nk : forall k t r l, (t, r) <> k -> find (stg_matches t r) (filter (nk k) l) = find (stg_matches t r) l.
Proof.
  intros [t0 r0] t r l Hne. induction l as [|a l IH]; [reflexivity|]. simpl. unfold nk at 1. simpl.
  destruct (stg_matches t0 r0 a) eqn:E0; simpl.
  - destruct (stg_matches t r a) eqn:E; [exfalso; apply Hne; exact (matches_two _ _ _ _ _ E0 E)|exact IH].
  - destruct (stg_matches t r a); [reflexivity|exact IH].
Qed.

Lemma Rflt_items_of : forall k c c' t r, Rflt k c c' -> (t, r) <> k -> items_of c' t r = items_of c t r.
Proof.
  intros k c c' t r H Hne. unfold items_of, get_staged_task.
  rewrite <- (find_filter_nk k t r (staged (c_ws c')) Hne), <- (find_filter_nk k t r (staged (c_ws c)) Hne), H. reflexivity.
Qed.

Section OwnOnly.
Variable ev : string -> dict -> evalres.

Lemma flt_prefix : forall t route evt c cp p, c_init c = true -> uts_prefix ev t route evt c = (cp, Val p) -> Rflt (t, route) c cp.
Proof.
  intros t route evt c cp p Hi H. destruct (prefix_open ev _ _ _ _ _ _ Hi H) as [ts [_ [_ Hm]]].
  assert (Own : forall f t0 r l, keeps_key f -> filter (nk (t0, r)) (staged_update f t0 r l) = filter (nk (t0, r)) l)
    by (intros; apply filter_update_own; assumption).
  refine (sq_pre_main ev (fun k l l' => filter (nk k) l' = filter (nk k) l) (fun _ _ => eq_refl) (fun _ a b c H1 H2 => eq_trans H2 H1)
            filter_remove_first_own (fun t0 r l => Own (fun s => s_set_completed s true) t0 r l (fun s => conj eq_refl eq_refl)) (fun t0 r x l Hx _ => filter_add_own t0 r x l Hx)
            t route evt ts _ _ _ _ _ _ Hm).
  apply (sq_item (fun k l l' => filter (nk k) l' = filter (nk k) l) (fun _ _ => eq_refl)).
  intros t0 r i st l. apply Own. intro; split; reflexivity.
Qed.

Lemma flt_tail_noqueue : forall rec t route ts idx old new compl cp c',
  uts_tail ev rec t route ts idx old new compl cp = (c', Val tt) -> (forall ctx, compl <> Some (ctx, true)) ->
  (compl = None \/ new = old \/ g_next_transitions (c_graph cp) t = []) -> staged (c_ws c') = staged (c_ws cp).
Proof.
  intros rec t route ts idx old new compl cp c' H Hc Hq.
  destruct (tail_inv ev _ _ _ _ _ _ _ _ _ _ H Hc) as [queue [cq [r [st [unr [cw [cl [cn [Eq [Hr [Hst [Ew [El [Wl [En Hfl]]]]]]]]]]]]]]].
  assert (Q : queue = [] /\ staged (c_ws cq) = staged (c_ws cp)).
  { destruct Hq as [->|[->|Ht]].
    - unfold uts_queue in Eq. inversion Eq; auto.
    - unfold uts_queue in Eq. destruct compl as [[ctx b]|]; [|inversion Eq; auto].
      rewrite status_eqb_refl in Eq. simpl in Eq. inversion Eq; auto.
    - destruct (queue_nil_flag ev _ _ _ _ _ _ _ _ _ _ Eq Ht) as [A [_ [B _]]]. auto. }
  destruct Q as [-> Sq]. simpl in En. inversion En; subst cn.
  destruct (wf_task_event_eff _ _ _ _ _ _ Ew) as [nw [-> _]].
  destruct Hfl as [_ [Sfl _]]. rewrite Sfl, Wl. simpl. exact Sq.
Qed.

Lemma flt_retry_call : forall rec t route c c', c_init c = true ->
  uts_body ev rec t route retry_event c = (c', Val tt) -> Rflt (t, route) c c'.
Proof.
  intros rec t route c c' Hi H. rewrite body_eq in H. apply bind_val_inv' in H. destruct H as [cp [p [Ep Htl]]].
  eapply Rflt_trans; [eapply flt_prefix; eassumption|]. apply Rflt_same. unfold tail_of in Htl.
  pose proof (prefix_retry_event ev _ _ _ _ _ Ep) as Hn.
  apply (flt_tail_noqueue _ _ _ _ _ _ _ _ _ _ Htl).
  - intros ctx E. destruct Hn as [Hn|[ctx' [Hn _]]]; rewrite Hn in E; discriminate.
  - destruct Hn as [Hn|[ctx' [_ [Hn|Hn]]]]; auto.
Qed.

(* an acknowledgement (an action or item event with status running) that returns leaves the entries of all other keys alone *)
Lemma flt_running_call : forall f t route evt c c', c_init c = true ->
  provider_event evt = true -> ev_status evt = S_RUNNING ->
  uts_body ev (update_task_state_fuel ev (S f)) t route evt c = (c', Val tt) -> Rflt (t, route) c c'.
Proof.
  intros f t route evt c c' Hi Hpe Hrun H. rewrite body_eq in H. apply bind_val_inv' in H. destruct H as [cp [p [Ep Htl]]].
  eapply Rflt_trans; [eapply flt_prefix; eassumption|]. unfold tail_of in Htl.
  destruct (prefix_to_machine ev _ _ _ _ _ _ Ep) as [c1 [ts [idx [c3 [r [E1 [Hm _]]]]]]].
  destruct (pre_machine_inv ev _ _ _ _ _ _ _ _ Hm) as [r0 [ns [c4 [c5 [Hr0 [Ens [_ [_ [_ [_ [_ [Ec [_ [_ [Hpo Hpn]]]]]]]]]]]]]]].
  destruct (tpe_provider _ _ _ _ Hpe Ens) as [name [Hn [_ Hname]]]. rewrite (Hname Hrun) in Hn.
  assert (Hsame : forall ctx b, po_compl p = Some (ctx, b) -> po_new p = po_old p).
  { intros ctx b Hc. destruct (completion_inv ev _ _ _ _ _ _ _ _ _ _ Ec) as [[_ [X _]]|[Hcomp _]]; [rewrite X in Hc; discriminate|].
    rewrite Hpn, Hpo, stepped_status. destruct ns as [x|]; [|reflexivity].
    rewrite stepped_status in Hcomp. rewrite (F_running_target _ _ Hn) in Hcomp. discriminate. }
  pose proof (prefix_def ev _ _ _ _ _ _ Ep) as [_ [_ Di]]. specialize (Di Hi).
  destruct (po_compl p) as [[ctx [|]]|] eqn:Ecompl.
  - unfold uts_tail in Htl. rewrite uts_unfold in Htl. eapply flt_retry_call; eassumption.
  - apply Rflt_same. apply (flt_tail_noqueue _ _ _ _ _ _ _ _ _ _ Htl); [intros ctx' E; discriminate|].
    right; left. eapply Hsame; reflexivity.
  - apply Rflt_same. apply (flt_tail_noqueue _ _ _ _ _ _ _ _ _ _ Htl); [intros ctx' E; discriminate|left; reflexivity].
Qed.

End OwnOnly.

(* the link between the conductor c and the in-flight set F *)
Definition ilink (c : cstate) (F : list ikey) : Prop := c_init c = true /\ fo c /\ J1e c F /\ J2e c F.

Lemma ilink_staged : forall c c' F, staged (c_ws c') = staged (c_ws c) -> c_init c' = true -> ilink c F -> ilink c' F.
Proof.
  intros c c' F H Hi [_ [Hfo [H1 H2]]]. split; [exact Hi|]. split; [unfold fo; rewrite H; exact Hfo|]. split.
  - intros t r j Hin. unfold items_of, get_staged_task. rewrite H. exact (H1 t r j Hin).
  - intros s l j st Hin. rewrite H in Hin. exact (H2 s l j st Hin).
Qed.
Lemma J_keys : forall c F F', (forall t r j, In (t, r, Some j) F' <-> In (t, r, Some j) F) -> (J1e c F -> J1e c F') /\ (J2e c F -> J2e c F').
Proof.
  intros c F F' H. split.
  - intros H1 t r j Hin. apply H1. apply H. exact Hin.
  - intros H2 s l j st A B C D. destruct (H2 s l j st A B C D) as [X Y]. split; [exact X|apply H; exact Y].
Qed.
Lemma ilink_keys : forall c F F', (forall t r j, In (t, r, Some j) F' <-> In (t, r, Some j) F) -> ilink c F -> ilink c F'.
Proof.
  intros c F F' H [Hi [Hfo [H1 H2]]]. destruct (J_keys c F F' H) as [K1 K2]. split; [exact Hi|split; [exact Hfo|split; auto]].
Qed.

(* a table with an item in progress survives the call unchanged, unless the anomaly flag fires *)
Lemma transfer_table : forall t0 r0 cA c' t r l,
  (forall t r l, items_of c' t r = Some l -> items_of cA t r = Some l) -> items_wiped t0 r0 cA c' = false ->
  items_of cA t r = Some l -> (any_active l = true \/ (t, r) <> (t0, r0)) -> items_of c' t r = Some l.
Proof.
  intros t0 r0 cA c' t r l B Hw Hl Hact.
  destruct (items_of c' t r) as [l'|] eqn:E; [rewrite (B _ _ _ E) in Hl; exact Hl|exfalso].
  destruct (items_of_entry _ _ _ _ Hl) as [s [Hs [Hid [Hrt [Hit _]]]]].
  assert (X : items_wiped t0 r0 cA c' = true); [|congruence].
  unfold items_wiped. apply existsb_exists. exists s. split; [exact Hs|]. rewrite Hit, Hid, Hrt, E, andb_true_r.
  destruct Hact as [->|Hne]; [apply orb_true_r|]. apply orb_true_iff. left. apply negb_true_iff.
  destruct (stg_matches t0 r0 s) eqn:Em; [|reflexivity]. exfalso. apply Hne. apply stg_matches_id in Em. destruct Em; congruence.
Qed.
Lemma Forall2_In_r : forall A B (R : A -> B -> Prop) l l' y, Forall2 R l l' -> In y l' -> exists x, In x l /\ R x y.
Proof.
  intros A B R l l' y H; induction H as [|a b l l' Hab Hl IH]; intro Hin; [destruct Hin|].
  destruct Hin as [<-|Hin]; [exists a; split; [left; reflexivity|exact Hab]|].
  destruct (IH Hin) as [x [A1 A2]]. exists x; split; [right; exact A1|exact A2].
Qed.
Lemma nth_error_repeat : forall A (x : A) n i y, nth_error (repeat x n) i = Some y -> y = x.
Proof. intros A x n i y H. apply nth_error_In in H. apply repeat_spec in H. exact H. Qed.

Lemma J_Rgn : forall c c1 F, Rgn c c1 -> J1e c F -> J2e c F -> J1e c1 F /\ J2e c1 F.
Proof.
  intros c c1 F R H1 H2. split.
  - intros t r j Hin. destruct (H1 _ _ _ Hin) as [l [A B]]. exists l. split; [|exact B].
    destruct l as [|x xs]; [destruct j; discriminate B|]. eapply Rgn_items_stable; eassumption.
  - intros s' l j st Hin Hit Hj Ha. destruct R as (_ & _ & _ & _ & _ & _ & F2).
    destruct (Forall2_In_r _ _ _ _ _ _ F2 Hin) as [s [Hs [->|[_ [n ->]]]]]; [exact (H2 _ _ _ _ Hs Hit Hj Ha)|].
    simpl in Hit. inversion Hit; subst l. apply nth_error_repeat in Hj. subst st. discriminate Ha.
Qed.

(* P holds of every item table *)
Definition Tall (P : list status -> Prop) (c : cstate) : Prop :=
  forall s l, In s (staged (c_ws c)) -> s_items s = Some l -> P l.
Lemma Tall_same_staged : forall P c c', staged (c_ws c') = staged (c_ws c) -> Tall P c -> Tall P c'.
Proof. intros P c c' H T s l Hs. rewrite H in Hs. apply T; exact Hs. Qed.

Lemma Tall_items : forall (P : list status -> Prop) c, fo c -> (forall t r l, items_of c t r = Some l -> P l) -> Tall P c.
Proof. intros P c Hfo H s l Hs Hl. exact (H _ _ l (items_of_In _ _ _ Hfo Hs Hl)). Qed.
Lemma Tall_of : forall (P : list status -> Prop) c t r l, Tall P c -> items_of c t r = Some l -> P l.
Proof. intros P c t r l T H. destruct (items_of_entry _ _ _ _ H) as [s [Hs [_ [_ [Hit _]]]]]. exact (T s l Hs Hit). Qed.
Lemma rho_items : forall s s' l, rho s s' -> s_items s' = Some l -> s_items s = Some l \/ exists n, l = repeat S_UNSET n.
Proof.
  intros s s' l [->|[_ [n ->]]] H; [left; exact H|]. right. exists n. destruct s; simpl in H. inversion H; reflexivity.
Qed.
Lemma Tall_Rgn : forall (P : list status -> Prop) c c1, (forall n, P (repeat S_UNSET n)) -> Rgn c c1 -> Tall P c -> Tall P c1.
Proof.
  intros P c c1 Hr (_ & _ & _ & _ & _ & _ & F) T. unfold Tall in *. revert T.
  induction F as [|s s' l l' Hrho Hl IH]; intros T e tb He Htb; [destruct He|].
  destruct He as [<-|He].
  - destruct (rho_items _ _ _ Hrho Htb) as [X|[n ->]]; [apply (T s tb); [left; reflexivity|exact X]|apply Hr].
  - apply (IH (fun e0 tb0 H0 => T e0 tb0 (or_intror H0)) e tb He Htb).
Qed.

(* every table of c' is, for the same key, a table of c changed by Q *)
Definition Tback (Q : list status -> list status -> Prop) (c c' : cstate) : Prop :=
  forall t r l', items_of c' t r = Some l' -> exists l, items_of c t r = Some l /\ Q l l'.
Lemma Tback_refl : forall (Q : list status -> list status -> Prop) c, (forall l, Q l l) -> Tback Q c c.
Proof. intros Q c H t r l' E. exists l'. auto. Qed.
Lemma Tback_trans : forall (Q : list status -> list status -> Prop) a b c, (forall x y z, Q x y -> Q y z -> Q x z) ->
  Tback Q a b -> Tback Q b c -> Tback Q a c.
Proof.
  intros Q a b c Ht H1 H2 t r l' E. destruct (H2 _ _ _ E) as [l1 [E1 Q1]]. destruct (H1 _ _ _ E1) as [l0 [E0 Q0]].
  exists l0. split; [exact E0|eapply Ht; eassumption].
Qed.
Lemma Tback_same_staged : forall (Q : list status -> list status -> Prop) c c', (forall l, Q l l) ->
  staged (c_ws c') = staged (c_ws c) -> Tback Q c c'.
Proof. intros Q c c' H E t r l' X. exists l'. split; [|apply H]. unfold items_of, get_staged_task in *. rewrite <- E. exact X. Qed.
Lemma Tall_back : forall (P : list status -> Prop) (Q : list status -> list status -> Prop) c c', fo c' -> Tall P c -> Tback Q c c' ->
  (forall l l', P l -> Q l l' -> P l') -> Tall P c'.
Proof.
  intros P Q c c' Hfo T B H. apply (Tall_items _ _ Hfo). intros t r l' Hl'. destruct (B _ _ _ Hl') as [l [Hl Hq]].
  exact (H l l' (Tall_of _ _ _ _ _ T Hl) Hq).
Qed.

(* statuses that were set, then the items not offered yet *)
Definition shaped (l : list status) : Prop :=
  exists pre u, l = app pre (repeat S_UNSET u) /\ Forall (fun st => st <> S_UNSET) pre.
Definition nact (l : list status) : nat := length (filter (fun st => status_in st ACTIVE_STATUSES) l).
Lemma shaped_repeat : forall n, shaped (repeat S_UNSET n).
Proof. intro n. exists [], n. split; [reflexivity|constructor]. Qed.
Lemma set_nth_app_l : forall A (l1 l2 : list A) i x, i < length l1 -> list_set_nth i x (app l1 l2) = app (list_set_nth i x l1) l2.
Proof.
  induction l1 as [|a l1 IH]; intros l2 i x H; simpl in *; [lia|]. destruct i; [reflexivity|]. simpl. rewrite IH; [reflexivity|lia].
Qed.
Lemma set_nth_app_r : forall A (l1 l2 : list A) x, list_set_nth (length l1) x (app l1 l2) = app l1 (list_set_nth 0 x l2).
Proof. induction l1 as [|a l1 IH]; intros l2 x; simpl; [reflexivity|]. rewrite IH. reflexivity. Qed.
Lemma Forall_set_nth : forall A (P : A -> Prop) l i x, Forall P l -> P x -> Forall P (list_set_nth i x l).
Proof.
  induction l as [|a l IH]; intros i x H Hx; [destruct i; constructor|]. inversion H; subst.
  destruct i; simpl; constructor; auto.
Qed.
Lemma shaped_set_nonunset : forall l i st0 st, shaped l -> nth_error l i = Some st0 -> st0 <> S_UNSET -> st <> S_UNSET ->
  shaped (list_set_nth i st l).
Proof.
  intros l i st0 st [pre [u [-> Hf]]] Hn H0 Hst.
  destruct (Nat.lt_ge_cases i (length pre)) as [Hlt|Hge].
  - exists (list_set_nth i st pre), u. split; [apply set_nth_app_l; exact Hlt|apply Forall_set_nth; assumption].
  - rewrite nth_error_app2 in Hn by exact Hge. apply nth_error_repeat in Hn. contradiction.
Qed.
Lemma set_first_unset : forall pre u st,
  list_set_nth (length pre) st (app pre (repeat S_UNSET (S u))) = app (app pre [st]) (repeat S_UNSET u).
Proof. intros. rewrite set_nth_app_r. simpl. rewrite <- app_assoc. reflexivity. Qed.
Lemma nact_app : forall l1 l2, nact (app l1 l2) = nact l1 + nact l2.
Proof. intros. unfold nact. rewrite filter_app, app_length. reflexivity. Qed.
Lemma nact_repeat_unset : forall u, nact (repeat S_UNSET u) = 0.
Proof. induction u; [reflexivity|]. unfold nact in *. simpl. exact IHu. Qed.
Lemma nact_repeat_running : forall m, nact (repeat S_RUNNING m) = m.
Proof. induction m; [reflexivity|]. change (repeat S_RUNNING (S m)) with (app [S_RUNNING] (repeat S_RUNNING m)). rewrite nact_app, IHm. reflexivity. Qed.
Lemma nact_cons : forall x l, nact (x :: l) = (if status_in x ACTIVE_STATUSES then 1 else 0) + nact l.
Proof. intros x l. unfold nact. cbn [filter]. destruct (status_in x ACTIVE_STATUSES); reflexivity. Qed.
Lemma nact_set_inactive : forall l i st, status_in st ACTIVE_STATUSES = false -> nact (list_set_nth i st l) <= nact l.
Proof.
  induction l as [|a l IH]; intros i st H; [destruct i; simpl; lia|]. destruct i; cbn [list_set_nth]; rewrite !nact_cons.
  - rewrite H. lia.
  - specialize (IH i st H). lia.
Qed.
Lemma nact_set_active : forall l i st, status_in st ACTIVE_STATUSES = true -> nact l <= nact (list_set_nth i st l).
Proof.
  induction l as [|a l IH]; intros i st H; [destruct i; simpl; lia|]. destruct i; cbn [list_set_nth]; rewrite !nact_cons.
  - rewrite H. destruct (status_in a ACTIVE_STATUSES); lia.
  - specialize (IH i st H). lia.
Qed.
Lemma notrun_shaped : forall pre (actions : list action_spec) start u,
  map a_item actions = map Some (seq start (length actions)) -> Forall (fun st => st <> S_UNSET) pre ->
  map a_item (map fst (items_notrun (combine actions (app pre (repeat S_UNSET u))))) =
  map Some (seq (start + length pre) (Nat.min (length actions - length pre) u)).
Proof.
  induction pre as [|x pre IH]; intros actions start u Hm Hf.
  - simpl. rewrite Nat.add_0_r, Nat.sub_0_r. revert start u Hm.
    induction actions as [|a actions IHa]; intros start u Hm; [reflexivity|].
    destruct u as [|u]; [reflexivity|].
    simpl in Hm. inversion Hm as [[Ha Hm']]. simpl. rewrite Ha. f_equal. apply IHa. exact Hm'.
  - inversion Hf as [|? ? Hx Hf']; subst. destruct actions as [|a actions]; [reflexivity|].
    simpl in Hm. inversion Hm as [[Ha Hm']]. simpl.
    assert (E : status_eqb x S_UNSET = false).
    { destruct (status_eqb x S_UNSET) eqn:E; [apply status_eqb_eq in E; contradiction|reflexivity]. }
    unfold items_notrun in *. simpl. rewrite E. rewrite (IH actions (S start) u Hm' Hf').
    f_equal. f_equal. lia.
Qed.
Lemma firstn_seq_some : forall k p M, firstn k (map Some (seq p M)) = map Some (seq p (Nat.min k M)).
Proof.
  induction k as [|k IH]; intros p M; [reflexivity|]. destruct M as [|M]; [reflexivity|]. simpl. f_equal. apply IH.
Qed.
Lemma chosen_seq : forall conc (actions : list action_spec) pre u acts conc' n,
  choose_items conc (combine actions (app pre (repeat S_UNSET u))) = Val (acts, conc') ->
  map a_item actions = map Some (seq 0 n) -> length actions = n -> Forall (fun st => st <> S_UNSET) pre ->
  exists m, map a_item acts = map Some (seq (length pre) m) /\ m <= u /\ m <= n - length pre /\ length acts = m.
Proof.
  intros conc actions pre u acts conc' n H Hm Hn Hf.
  destruct (offered_items_are_first_unset _ _ _ _ _ H) as [k ->].
  rewrite <- Hn in Hm. pose proof (notrun_shaped pre actions 0 u Hm Hf) as N. simpl in N.
  exists (Nat.min k (Nat.min (length actions - length pre) u)).
  assert (E : map a_item (map fst (firstn k (items_notrun (combine actions (app pre (repeat S_UNSET u)))))) =
              map Some (seq (length pre) (Nat.min k (Nat.min (length actions - length pre) u)))).
  { rewrite <- !firstn_map. rewrite N. apply firstn_seq_some. }
  split; [exact E|]. split; [lia|]. split; [lia|].
  rewrite <- (map_length a_item), E, map_length, seq_length. reflexivity.
Qed.
Lemma nactive_combine : forall pre (actions : list action_spec) u, length pre <= length actions ->
  items_nactive (combine actions (app pre (repeat S_UNSET u))) = nact pre.
Proof.
  induction pre as [|x pre IH]; intros actions u Hle.
  - clear Hle. simpl. unfold items_nactive, nact. simpl. revert u. induction actions as [|a actions IHa]; intro u; [reflexivity|].
    destruct u; [reflexivity|]. simpl. apply IHa.
  - destruct actions as [|a actions]; [simpl in Hle; lia|]. simpl in Hle.
    specialize (IH actions u (le_S_n _ _ Hle)). rewrite nact_cons, <- IH.
    unfold items_nactive. cbn [app combine filter]. destruct (status_in x ACTIVE_STATUSES); reflexivity.
Qed.
Lemma choose_conc : forall A conc (items : list (A * status)) acts conc', choose_items conc items = Val (acts, conc') ->
  py_is_int conc' = py_is_int conc /\ effective_concurrency conc' = effective_concurrency conc.
Proof.
  intros A conc items acts conc' H. unfold choose_items in H. destruct conc; inversion H; subst; clear H; try (split; reflexivity).
  - unfold effective_concurrency. destruct b; simpl; split; reflexivity.
  - split; [reflexivity|]. unfold effective_concurrency at 1. simpl py_int_value.
    unfold effective_concurrency. simpl. destruct (Z.leb z 0) eqn:E; [reflexivity|]. rewrite E. reflexivity.
Qed.
Lemma nth_error_repeat_lt : forall A (x : A) m j, j < m -> nth_error (repeat x m) j = Some x.
Proof. induction m as [|m IH]; intros j H; [lia|]. destruct j; [reflexivity|]. simpl. apply IH. lia. Qed.
Lemma shaped_order : forall l i j st, shaped l -> nth_error l j = Some st -> st <> S_UNSET -> nth_error l i = Some S_UNSET -> j < i.
Proof.
  intros l i j st [pre [u [-> Hf]]] Hj Hst Hi.
  destruct (Nat.lt_ge_cases j (length pre)) as [Hlt|Hge].
  - destruct (Nat.lt_ge_cases i (length pre)) as [Hlt'|Hge']; [|lia].
    rewrite nth_error_app1 in Hi by exact Hlt'. apply nth_error_In in Hi. rewrite Forall_forall in Hf. exfalso. exact (Hf _ Hi eq_refl).
  - rewrite nth_error_app2 in Hj by exact Hge. apply nth_error_repeat in Hj. contradiction.
Qed.

(* how a step may change a table: statuses that were set stay set (tle); outside polls nothing becomes active (tdn);
   the acknowledgements of a poll only add active items (tup) *)
Definition tle (l l' : list status) : Prop :=
  length l' = length l /\
  forall j st, nth_error l j = Some st -> st <> S_UNSET -> exists st', nth_error l' j = Some st' /\ st' <> S_UNSET.
Definition tdn (l l' : list status) : Prop := tle l l' /\ nact l' <= nact l.
Definition tup (l l' : list status) : Prop := tle l l' /\ nact l <= nact l'.
Lemma tle_refl : forall l, tle l l.
Proof. intro l. split; [reflexivity|]. intros j st H Hn. exists st. auto. Qed.
Lemma tle_trans : forall a b c, tle a b -> tle b c -> tle a c.
Proof.
  intros a b c [L1 H1] [L2 H2]. split; [congruence|]. intros j st H Hn. destruct (H1 j st H Hn) as [st1 [A B]]. exact (H2 j st1 A B).
Qed.
Lemma tdn_refl : forall l, tdn l l.
Proof. intro l. split; [apply tle_refl|lia]. Qed.
Lemma tdn_trans : forall a b c, tdn a b -> tdn b c -> tdn a c.
Proof. intros a b c [A1 A2] [B1 B2]. split; [eapply tle_trans; eassumption|lia]. Qed.
Lemma tup_refl : forall l, tup l l.
Proof. intro l. split; [apply tle_refl|lia]. Qed.
Lemma tup_trans : forall a b c, tup a b -> tup b c -> tup a c.
Proof. intros a b c [A1 A2] [B1 B2]. split; [eapply tle_trans; eassumption|lia]. Qed.
Lemma nth_error_set_nth_cases : forall A (l : list A) i x j y, nth_error (list_set_nth i x l) j = Some y ->
  (j = i /\ y = x) \/ (j <> i /\ nth_error l j = Some y).
Proof.
  induction l as [|a l IH]; intros i x j y H; [destruct i; destruct j; discriminate H|].
  destruct i; destruct j; simpl in H.
  - left. inversion H; auto.
  - right. split; [discriminate|exact H].
  - right. split; [discriminate|exact H].
  - destruct (IH _ _ _ _ H) as [[-> ->]|[A0 B]]; [left; auto|right; split; [congruence|exact B]].
Qed.
Lemma tle_set : forall l i st, st <> S_UNSET -> tle l (list_set_nth i st l).
Proof.
  intros l i st Hst. split; [apply length_set_nth|]. intros j x H Hx.
  destruct (Nat.eq_dec j i) as [->|Hne].
  - exists st. split; [eapply nth_error_set_nth_same; exact H|exact Hst].
  - exists x. split; [rewrite nth_error_set_nth_other by congruence; exact H|exact Hx].
Qed.
Lemma tdn_set : forall l i st, st <> S_UNSET -> status_in st ACTIVE_STATUSES = false -> tdn l (list_set_nth i st l).
Proof. intros l i st H1 H2. split; [apply tle_set; exact H1|apply nact_set_inactive; exact H2]. Qed.
Lemma tup_set : forall l i, tup l (list_set_nth i S_RUNNING l).
Proof. intros l i. split; [apply tle_set; discriminate|apply nact_set_active; reflexivity]. Qed.

(* the table after the acknowledgements of the offered items *)
Definition ack_table (acts : list action_spec) (l : list status) : list status :=
  fold_left (fun l a => match a_item a with Some i => list_set_nth i S_RUNNING l | None => l end) acts l.

Lemma ack_table_cons : forall a acts i l, a_item a = Some i -> ack_table (a :: acts) l = ack_table acts (list_set_nth i S_RUNNING l).
Proof. intros a acts i l H. unfold ack_table. simpl. rewrite H. reflexivity. Qed.

Lemma ack_table_seq : forall acts pre u m, map a_item acts = map Some (seq (length pre) m) -> m <= u ->
  ack_table acts (app pre (repeat S_UNSET u)) = app pre (app (repeat S_RUNNING m) (repeat S_UNSET (u - m))).
Proof.
  induction acts as [|a acts IH]; intros pre u m Hm Hmu.
  - destruct m; [|discriminate Hm]. simpl. rewrite Nat.sub_0_r. reflexivity.
  - destruct m as [|m]; [discriminate Hm|]. destruct u as [|u]; [lia|]. simpl in Hm. inversion Hm as [[Ha Hm']].
    rewrite (ack_table_cons _ _ _ _ Ha), set_first_unset, (IH (app pre [S_RUNNING]) u m).
    + rewrite <- app_assoc. reflexivity.
    + rewrite app_length. simpl. rewrite Nat.add_1_r. exact Hm'.
    + lia.
Qed.

Definition pend_ok (c : cstate) (o : offer) : Prop :=
  match o_items_count o with
  | Some (S m) => exists l, items_of c (o_id o) (o_route o) = Some l /\
                            forall a, In a (o_actions o) -> exists i, a_item a = Some i /\ i < length l
  | Some O => True
  | None => forall a, In a (o_actions o) -> a_item a = None
  end.
Lemma pend_ok_persist : forall c c' o, pend_ok c o ->
  (forall l2, items_of c (o_id o) (o_route o) = Some l2 -> items_of c' (o_id o) (o_route o) = Some l2) -> pend_ok c' o.
Proof.
  intros c c' o H P. unfold pend_ok in *. destruct (o_items_count o) as [[|m]|]; auto.
  destruct H as [l [Hl Ha]]. exists l. split; [apply P; exact Hl|exact Ha].
Qed.

(* before the acknowledgements of an offer of items: its table is shaped, the offered items are the next m unset ones
   and fit the window *)
Definition pend2 (c : cstate) (o : offer) : Prop :=
  match o_items_count o with
  | Some (S n') => exists pre u m, items_of c (o_id o) (o_route o) = Some (app pre (repeat S_UNSET u)) /\
                     Forall (fun st => st <> S_UNSET) pre /\
                     map a_item (o_actions o) = map Some (seq (length pre) m) /\ m <= u /\
                     (forall conc', o_concurrency o = Some conc' -> py_is_int conc' = true ->
                                    (Z.of_nat (nact pre + m) <= effective_concurrency conc')%Z)
  | Some O => True
  | None => forall a, In a (o_actions o) -> a_item a = None
  end.
(* after them: the table is shaped, within the window, and the offered items are "running" *)
Definition done2 (c : cstate) (o : offer) : Prop :=
  match o_items_count o with
  | Some (S n') => exists l, items_of c (o_id o) (o_route o) = Some l /\ shaped l /\
                     (forall conc', o_concurrency o = Some conc' -> py_is_int conc' = true ->
                                    (Z.of_nat (nact l) <= effective_concurrency conc')%Z) /\
                     (forall a, In a (o_actions o) -> exists i, a_item a = Some i /\ nth_error l i = Some S_RUNNING)
  | _ => True
  end.

Lemma pend2_ok : forall c o, pend2 c o -> pend_ok c o.
Proof.
  intros c o Hp. unfold pend2, pend_ok in *. destruct (o_items_count o) as [[|n']|]; auto.
  destruct Hp as [pre [u [m [Hl [Hf [Hm [Hmu _]]]]]]]. exists (app pre (repeat S_UNSET u)). split; [exact Hl|].
  intros a Ha. apply (in_map a_item) in Ha. rewrite Hm in Ha. apply in_map_iff in Ha. destruct Ha as [i [Hi Hin]].
  apply in_seq in Hin. exists i. split; [auto|]. rewrite app_length, repeat_length. lia.
Qed.
Lemma done2_persist : forall c c' o, done2 c o ->
  (forall l2, items_of c (o_id o) (o_route o) = Some l2 -> items_of c' (o_id o) (o_route o) = Some l2) -> done2 c' o.
Proof.
  intros c c' o H P. unfold done2 in *. destruct (o_items_count o) as [[|m]|]; auto.
  destruct H as [l [Hl R]]. exists l. split; [apply P; exact Hl|exact R].
Qed.
Lemma pend2_persist : forall c c' o, pend2 c o ->
  (forall l2, items_of c (o_id o) (o_route o) = Some l2 -> items_of c' (o_id o) (o_route o) = Some l2) -> pend2 c' o.
Proof.
  intros c c' o H P. unfold pend2 in *. destruct (o_items_count o) as [[|m]|]; auto.
  destruct H as [pre [u [m' [Hl R]]]]. exists pre, u, m'. split; [apply P; exact Hl|exact R].
Qed.
Lemma offers_key_distinct : forall (o o2 : offer) offers,
  existsb (fun o' => String.eqb (o_id o') (o_id o) && Nat.eqb (o_route o') (o_route o)) offers = false ->
  In o2 offers -> (o_id o2, o_route o2) <> (o_id o, o_route o).
Proof.
  intros o o2 offers Hd Ho2 E. inversion E as [[E1 E2]].
  assert (X : existsb (fun o' => String.eqb (o_id o') (o_id o) && Nat.eqb (o_route o') (o_route o)) offers = true).
  { apply existsb_exists. exists o2. split; [exact Ho2|]. rewrite E1, E2, String.eqb_refl, Nat.eqb_refl. reflexivity. }
  rewrite X in Hd. discriminate.
Qed.

(* the body of the first loop of request_status_core: every active record is told the request *)
Definition rq_body1 (st : status) : nat * trec -> M unit := fun '(i, _) =>
  w <- getws ;;
  match nth_error (sequence w) i with
  | None => ret tt
  | Some r => ns <- lift_res (task_process_event w r (EvWorkflow st)) ;;
              match ns with Some s => set_rec_status i (Some s) | None => ret tt end
  end.

Lemma rq_loop1_run : forall (Q : option status -> Prop) st, status_in st request_statuses_f = true ->
  (forall r, Q (r_status r) -> status_in (rstatus r) UNUSED_STATUSES = false) ->
  (forall w r s, Q (r_status r) -> task_process_event w r (EvWorkflow st) = Val (Some s) -> Q (Some s)) ->
  forall (l : list (nat * trec)) c, (forall i r, nth_error (sequence (c_ws c)) i = Some r -> Q (r_status r)) ->
  exists c1, forM_ l (rq_body1 st) c = (c1, Val tt) /\ wstatus (c_ws c1) = wstatus (c_ws c) /\
             tasks (c_ws c1) = tasks (c_ws c) /\ length (sequence (c_ws c1)) = length (sequence (c_ws c)) /\
             forall i r, nth_error (sequence (c_ws c1)) i = Some r -> Q (r_status r).
Proof.
  intros Q st Hst Qrow Qstep l. induction l as [|[i r0] l IH]; intros c N; cbn [forM_]; [exists c; auto 6|].
  assert (Step : exists c0, rq_body1 st (i, r0) c = (c0, Val tt) /\ wstatus (c_ws c0) = wstatus (c_ws c) /\
                 tasks (c_ws c0) = tasks (c_ws c) /\ length (sequence (c_ws c0)) = length (sequence (c_ws c)) /\
                 forall j r, nth_error (sequence (c_ws c0)) j = Some r -> Q (r_status r)).
  { unfold rq_body1. unfold bind at 1. unfold getws at 1.
    destruct (nth_error (sequence (c_ws c)) i) as [r|] eqn:Hr; [|exists c; auto 6].
    assert (Hv : exists ns, task_process_event (c_ws c) r (EvWorkflow st) = Val ns).
    { unfold task_process_event. cbn [ev_name]. rewrite (F_req_name_valid _ Hst). cbn [negb].
      unfold task_table_step. destruct (tbl_row task_table (rstatus r)) eqn:E; [eexists; reflexivity|].
      exfalso. exact (F_task_row _ (Qrow _ (N i r Hr)) E). }
    destruct Hv as [ns Hv]. unfold bind. rewrite Hv. simpl. destruct ns as [s|]; [|exists c; auto 6].
    eexists. split; [unfold set_rec_status, modws; reflexivity|]. simpl.
    split; [apply wstatus_update_rec|]. split; [apply tasks_update_rec|]. unfold ws_update_rec. rewrite Hr. simpl.
    split; [apply length_set_nth|]. intros j rj E. destruct (Nat.eq_dec j i) as [->|Hne].
    - rewrite (nth_error_set_nth_same _ _ _ _ _ Hr) in E. inversion E; subst rj. exact (Qstep _ _ _ (N i r Hr) Hv).
    - rewrite nth_error_set_nth_other in E by congruence. exact (N j rj E). }
  destruct Step as [c0 [E0 [W0 [T0 [L0 N0]]]]]. destruct (IH c0 N0) as [c1 [E1 [W1 [T1 [L1 N1]]]]].
  exists c1. unfold bind. rewrite E0. split; [exact E1|]. split; [congruence|]. split; [congruence|]. split; [congruence|exact N1].
Qed.

Definition ibad (s : isys) : bool := si_fault s || si_wiped s.
Definition unborn (c : cstate) : Prop := c_init c = false /\ c_ws c = empty_ws.
Definition set_c (s : isys) (c : cstate) : isys :=
  {| si_c := c; si_inflight := si_inflight s; si_acc := si_acc s; si_fault := si_fault s; si_wiped := si_wiped s |}.
Definition poll_start (s : isys) (c1 : cstate) (offers : list offer) : isys :=
  {| si_c := c1; si_inflight := si_inflight s; si_acc := si_acc s; si_fault := si_fault s;
     si_wiped := si_wiped s || offers_dup offers |}.
(* the link and the shape of every table *)
Definition ilink2 (s : isys) : Prop := ilink (si_c s) (si_inflight s) /\ Tall shaped (si_c s).

Section ItemSystem.
Variable ev : string -> dict -> evalres.

Lemma fo_get_next_tasks : vpres Rfo (get_next_tasks ev).
Proof.
  unfold get_next_tasks.
  assert (P : forall s, preserves Rfo (next_task_for ev s)).
  { intros s c c' r H. destruct (ntf_eff ev _ _ _ _ H) as [[->|[s0 [n [_ [_ ->]]]]] _]; [apply Rfo_refl|].
    apply fo_update. intro; split; reflexivity. }
  assert (Q : forall e t r tr, vpres Rfo (log_error e t r tr)) by (intros; apply fo_of_lt; apply vlt_log_error).
  assert (Q2 : vpres Rfo (request_status_core S_FAILED)) by (apply fo_of_lt; apply vlt_request_failed).
  apply (vp_bind _ Rfo_trans); [apply fo_ensure_ws|intros _].
  apply (vp_bind _ Rfo_trans); [apply (vp_getws _ Rfo_refl)|intro w]. cbv zeta.
  match goal with |- vpres _ (if ?b then _ else _) => destruct b end; [apply (vp_ret _ Rfo_refl)|].
  apply (vp_bind _ Rfo_trans).
  - apply (vp_mapM _ Rfo_refl Rfo_trans). intro s. apply (vp_try_catch _ Rfo_trans).
    + apply (preserves_bind _ Rfo_trans); [apply P|intro; apply (preserves_ret _ Rfo_refl)].
    + intro e. apply (vp_bind _ Rfo_trans); [apply Q|intros _; apply (vp_ret _ Rfo_refl)].
  - intro rs. destruct (existsb snd rs); [|apply (vp_ret _ Rfo_refl)].
    apply (vp_bind _ Rfo_trans); [exact Q2|intros _; apply (vp_ret _ Rfo_refl)].
Qed.

Lemma chosen_in_table : forall conc (actions : list action_spec) l acts conc' n,
  choose_items conc (combine actions l) = Val (acts, conc') -> map a_item actions = map Some (seq 0 n) -> length actions = n ->
  forall a, In a acts -> exists i, a_item a = Some i /\ i < length l /\ nth_error l i = Some S_UNSET.
Proof.
  intros conc actions l acts conc' n Hc Hmap Hlen a Ha.
  destruct (offered_items_are_first_unset _ _ _ _ _ Hc) as [k Hk]. subst acts.
  apply in_map_iff in Ha. destruct Ha as [[a' st] [Hfst Hin]]. simpl in Hfst. subst a'.
  assert (Hin2 : In (a, st) (items_notrun (combine actions l))).
  { clear -Hin. revert Hin. generalize (items_notrun (combine actions l)). intro lst. revert k.
    induction lst as [|x lst IH]; intros [|k] H; simpl in H; try contradiction. destruct H as [H|H]; [left; exact H|right; eapply IH; exact H]. }
  apply items_notrun_unset in Hin2. destruct Hin2 as [Hst Hin3]. subst st.
  apply In_nth_error in Hin3. destruct Hin3 as [p Hp].
  assert (Hpa : nth_error actions p = Some a /\ nth_error l p = Some S_UNSET).
  { clear -Hp. revert l p Hp. induction actions as [|x actions IH]; intros [|y l] [|p] Hp; simpl in Hp; try discriminate.
    - inversion Hp; subst. auto.
    - simpl. apply IH; exact Hp. }
  destruct Hpa as [Hpa Hpl]. exists p. split; [|split; [apply nth_error_Some; rewrite Hpl; discriminate|exact Hpl]].
  assert (E : nth_error (map a_item actions) p = Some (a_item a)) by (rewrite nth_error_map, Hpa; reflexivity).
  rewrite Hmap, nth_error_map in E. destruct (nth_error (seq 0 n) p) as [q|] eqn:Eq; [|discriminate].
  assert (q = p).
  { assert (p < n) by (rewrite <- Hlen; apply nth_error_Some; rewrite Hpa; discriminate).
    rewrite nth_error_nth' with (d := 0) in Eq by (rewrite seq_length; assumption). rewrite seq_nth in Eq by assumption. inversion Eq; reflexivity. }
  subst q. simpl in E. inversion E. reflexivity.
Qed.

Lemma pend_of_offer_ok : forall c1 s o, offer_ok c1 s o -> pend_ok c1 o.
Proof.
  intros c1 s o [Hid [Hr H]]. unfold pend_ok. destruct (o_items_count o) as [[|m]|]; [exact I| |exact H].
  destruct H as [l [conc [conc' [actions [Hl [Hlen [Hmap [Hch _]]]]]]]]. exists l. rewrite Hid, Hr. split; [exact Hl|].
  intros a Ha. destruct (chosen_in_table _ _ _ _ _ _ Hch Hmap Hlen a Ha) as [i [A [B _]]]. exists i. auto.
Qed.

Lemma pend2_of_offer_ok : forall c1 s o, Tall shaped c1 -> offer_ok c1 s o -> pend2 c1 o.
Proof.
  intros c1 s o T [Hid [Hr H]]. unfold pend2. destruct (o_items_count o) as [[|n']|]; [exact I| |exact H].
  destruct H as [l [conc [conc' [actions [Hl [Hlen [Hmap [Hch [Hco Hne]]]]]]]]].
  destruct (Tall_of _ _ _ _ _ T Hl) as [pre [u [-> Hf]]].
  destruct (chosen_seq _ _ _ _ _ _ _ Hch Hmap Hlen Hf) as [m [Hm [Hmu [Hmn Hlm]]]].
  exists pre, u, m. rewrite Hid, Hr. split; [exact Hl|]. split; [exact Hf|]. split; [exact Hm|]. split; [exact Hmu|].
  intros c2 Hc2 Hint. rewrite Hco in Hc2. inversion Hc2; subst c2.
  destruct (choose_conc _ _ _ _ _ Hch) as [Hpi He'].
  rewrite Hpi in Hint. rewrite He'.
  pose proof (window_respected _ _ _ _ _ Hch Hint Hne) as W. rewrite Hlm in W.
  assert (Hm1 : m <> 0) by (intro X; rewrite X in Hlm; destruct (o_actions o); [apply Hne; reflexivity|discriminate Hlm]).
  rewrite nactive_combine in W by lia. lia.
Qed.

Lemma not_bad_before : forall (f : isys -> isys) s, (ibad s = true -> ibad (f s) = true) -> ibad (f s) = false -> ibad s = false.
Proof. intros f s H Hf. destruct (ibad s) eqn:E; [rewrite (H eq_refl) in Hf; discriminate|reflexivity]. Qed.

Lemma ibad_fold_mono : forall A (f : isys -> A -> isys), (forall s a, ibad s = true -> ibad (f s a) = true) ->
  forall l s, ibad s = true -> ibad (fold_left f l s) = true.
Proof. intros A f H. induction l as [|a l IH]; intros s Hs; [exact Hs|]. apply IH. apply H. exact Hs. Qed.

Lemma fold_head_ok : forall A (f : isys -> A -> isys), (forall s a, ibad s = true -> ibad (f s a) = true) ->
  forall l s, ibad (fold_left f l s) = false -> ibad s = false.
Proof. intros A f Hm l s. apply (not_bad_before (fold_left f l)). apply ibad_fold_mono. exact Hm. Qed.

Lemma fold_left_inv : forall A (f : isys -> A -> isys) (Inv : list A -> isys -> Prop),
  (forall s a, ibad s = true -> ibad (f s a) = true) ->
  (forall a l s, Inv (a :: l) s -> ibad (f s a) = false -> Inv l (f s a)) ->
  forall l s, Inv l s -> ibad (fold_left f l s) = false -> Inv [] (fold_left f l s).
Proof.
  intros A f Inv Hm Hstep. induction l as [|a l IH]; intros s Hs Hb; [exact Hs|]. simpl in *.
  apply IH; [|exact Hb]. apply Hstep; [exact Hs|exact (fold_head_ok _ f Hm _ _ Hb)].
Qed.

Lemma ibad_event_mono : forall s t r e, ibad s = true -> ibad (isys_event ev s t r e) = true.
Proof.
  intros s t r e H. unfold isys_event. destruct (api_exec ev (OpEvent t r e) (si_c s)) as [c' x]. unfold ibad in *. simpl.
  apply orb_prop in H. destruct H as [H|H]; rewrite H; simpl; [reflexivity|apply orb_true_r].
Qed.

Lemma ibad_with_inflight : forall s l, ibad (with_inflight s l) = ibad s.
Proof. reflexivity. Qed.

Lemma ibad_ack_mono : forall t r s a, ibad s = true -> ibad (isys_ack ev t r s a) = true.
Proof. intros t r s a H. unfold isys_ack. destruct (a_item a); apply ibad_event_mono; exact H. Qed.
Lemma ibad_fold_ack_mono : forall t r acts s, ibad s = true -> ibad (fold_left (isys_ack ev t r) acts s) = true.
Proof. intros t r. apply ibad_fold_mono. intros s a. apply ibad_ack_mono. Qed.
Lemma ibad_ack_offer_mono : forall s o, ibad s = true -> ibad (isys_ack_offer ev s o) = true.
Proof.
  intros s o H. unfold isys_ack_offer. destruct (o_items_count o) as [[|m]|]; try (apply ibad_fold_ack_mono; exact H).
  apply ibad_event_mono. apply ibad_event_mono. exact H.
Qed.
Lemma ibad_fold_offer_mono : forall offers s, ibad s = true -> ibad (fold_left (isys_ack_offer ev) offers s) = true.
Proof. apply ibad_fold_mono. exact ibad_ack_offer_mono. Qed.
Lemma ibad_poll_mono : forall s, ibad s = true -> ibad (isys_poll ev s) = true.
Proof.
  intros s H. unfold isys_poll. destruct (get_next_tasks ev (si_c s)) as [c1 [offers|x]]; [|reflexivity].
  apply ibad_fold_offer_mono. unfold ibad in *. simpl. apply orb_true_iff in H. destruct H as [H|H]; rewrite H; [reflexivity|].
  simpl. apply orb_true_r.
Qed.
Lemma ibad_step_mono : forall s op, ibad s = true -> ibad (isys_step ev s op) = true.
Proof.
  intros s op H.
  assert (R : forall st, ibad (isys_request ev s st) = true).
  { intro st. unfold isys_request. destruct (status_in st request_statuses); [|exact H].
    destruct (api_exec ev (OpRequest st) (si_c s)). unfold ibad in *. simpl.
    apply orb_true_iff in H. destruct H as [H|H]; rewrite H; [reflexivity|apply orb_true_r]. }
  assert (C : forall o, ibad (isys_call ev s o) = true).
  { intro o. unfold isys_call. destruct (api_exec ev o (si_c s)). unfold ibad in *. simpl.
    apply orb_true_iff in H. destruct H as [H|H]; rewrite H; [reflexivity|apply orb_true_r]. }
  destruct op; cbn [isys_step]; auto.
  - apply ibad_poll_mono; exact H.
  - unfold isys_report. destruct (ikey_in _ _ && _); [|exact H]. destruct item; apply ibad_event_mono; exact H.
Qed.

Lemma then_ret_unit : forall (m : M unit) c c' x, (m ;;; ret RUnit) c = (c', x) ->
  (is_exc x = false /\ m c = (c', Val tt)) \/ is_exc x = true.
Proof.
  intros m c c' x H. unfold bind in H. destruct (m c) as [c1 [[]|e]]; inversion H; subst; [left; auto|right; reflexivity].
Qed.

Lemma inflight_event : forall s t r e, si_inflight (isys_event ev s t r e) = si_inflight s.
Proof. intros. unfold isys_event. destruct (api_exec ev _ (si_c s)); reflexivity. Qed.

Lemma ievent_nf : forall s t r e, ibad (isys_event ev s t r e) = false ->
  ibad s = false /\ update_task_state ev t r e (si_c s) = (si_c (isys_event ev s t r e), Val tt) /\
  items_wiped t r (expect_item (si_c s) t r e) (si_c (isys_event ev s t r e)) = false.
Proof.
  intros s t r e Hb. unfold isys_event in *. destruct (api_exec ev (OpEvent t r e) (si_c s)) as [c' x] eqn:E.
  unfold ibad in *. cbn [si_fault si_wiped si_c] in *.
  apply orb_false_elim in Hb. destruct Hb as [Hf Hw]. apply orb_false_elim in Hf. destruct Hf as [Hf Hx].
  apply orb_false_elim in Hw. destruct Hw as [Hw Hiw]. rewrite Hf, Hw. split; [reflexivity|]. split; [|exact Hiw].
  cbn [api_exec] in E. destruct (then_ret_unit _ _ _ _ E) as [[_ X]|X]; [exact X|congruence].
Qed.

Lemma ievent_val : forall s t r e, ibad (isys_event ev s t r e) = false ->
  update_task_state ev t r e (si_c s) = (si_c (isys_event ev s t r e), Val tt).
Proof. intros s t r e Hb. apply ievent_nf. exact Hb. Qed.

Lemma ievent_items : forall s t r e, c_init (si_c s) = true -> fo (si_c s) -> ibad (isys_event ev s t r e) = false ->
  c_init (si_c (isys_event ev s t r e)) = true /\ fo (si_c (isys_event ev s t r e)) /\
  (forall t' r' l, items_of (si_c (isys_event ev s t r e)) t' r' = Some l -> items_of (expect_item (si_c s) t r e) t' r' = Some l) /\
  (forall t' r' l, items_of (expect_item (si_c s) t r e) t' r' = Some l -> any_active l = true \/ (t', r') <> (t, r) ->
                   items_of (si_c (isys_event ev s t r e)) t' r' = Some l).
Proof.
  intros s t r e Hi Hfo Hb. destruct (ievent_nf s t r e Hb) as [_ [H Hw]].
  pose proof (event_from_expected ev _ _ _ _ _ Hi Hfo H) as Bk.
  split; [apply (pd_update_task_state ev t r e _ _ _ H); exact Hi|]. split; [exact (fo_update_task_state ev _ _ _ _ _ _ H Hfo)|].
  split; [exact Bk|]. intros t' r' l Hl Ha. exact (transfer_table _ _ _ _ _ _ _ Bk Hw Hl Ha).
Qed.

Lemma ievent_core : forall s t r e F0 F',
  ilink (si_c s) F0 -> ibad (isys_event ev s t r e) = false ->
  fo (expect_item (si_c s) t r e) -> J1e (expect_item (si_c s) t r e) F' -> J2e (expect_item (si_c s) t r e) F' ->
  ilink (si_c (isys_event ev s t r e)) F' /\
  (forall t' r' l, items_of (expect_item (si_c s) t r e) t' r' = Some l -> (any_active l = true \/ (t', r') <> (t, r)) ->
                   items_of (si_c (isys_event ev s t r e)) t' r' = Some l).
Proof.
  intros s t r e F0 F' [Hi [Hfo _]] Hb HfE H1 H2.
  destruct (ievent_items s t r e Hi Hfo Hb) as [Hi' [Hfo' [Bk Fw]]]. split; [|exact Fw].
  split; [exact Hi'|]. split; [exact Hfo'|]. split.
  - intros t' r' j Hin. destruct (H1 _ _ _ Hin) as [l [Hl Hj]]. exists l. split; [|exact Hj].
    apply Fw; [exact Hl|left; eapply any_active_nth; [exact Hj|reflexivity]].
  - apply (J2e_items _ _ Hfo'). intros t' r' l j st Hl. apply (proj1 (J2e_items _ _ HfE) H2). exact (Bk _ _ _ Hl).
Qed.

Lemma ievent_back : forall (Q : list status -> list status -> Prop) s t r e,
  c_init (si_c s) = true -> fo (si_c s) -> ibad (isys_event ev s t r e) = false -> (forall l, Q l l) ->
  (forall i st res acc l, e = EvItem i st res acc -> Q l (list_set_nth i st l)) ->
  Tback Q (si_c s) (si_c (isys_event ev s t r e)).
Proof.
  intros Q s t r e Hi Hfo Hb Qr Qs t' r' l' E. destruct (ievent_items s t r e Hi Hfo Hb) as [_ [_ [Bk _]]].
  destruct (expect_back _ _ _ _ _ _ _ (Bk _ _ _ E)) as [X|(i & st & res & acc & l & He & K & Hl & ->)].
  - exists l'. split; [exact X|apply Qr].
  - inversion K; subst t' r'. exists l. split; [exact Hl|exact (Qs _ _ _ _ _ He)].
Qed.

Lemma plain_event_step : forall s t r e F', not_item e -> ilink (si_c s) (si_inflight s) ->
  (forall t' r' j, In (t', r', Some j) F' <-> In (t', r', Some j) (si_inflight s)) ->
  ibad (isys_event ev s t r e) = false ->
  ilink (si_c (isys_event ev s t r e)) F' /\
  (forall t' r' l2, (t', r') <> (t, r) -> items_of (si_c s) t' r' = Some l2 -> items_of (si_c (isys_event ev s t r e)) t' r' = Some l2).
Proof.
  intros s t r e F' Hn I HF Hb. pose proof I as [Hi [Hfo [H1 H2]]].
  destruct (J_keys (si_c s) (si_inflight s) F' HF) as [K1 K2].
  destruct (ievent_core s t r e (si_inflight s) F') as [I' P']; try rewrite (expect_not_item _ _ _ _ Hn); auto.
  split; [exact I'|]. intros t' r' l2 Hne Hl2. apply P'; [rewrite (expect_not_item _ _ _ _ Hn); exact Hl2|right; exact Hne].
Qed.

Lemma ack_item_step : forall t r s a i l,
  ilink (si_c s) (si_inflight s) -> items_of (si_c s) t r = Some l -> a_item a = Some i -> i < length l ->
  ibad (isys_ack ev t r s a) = false ->
  ilink (si_c (isys_ack ev t r s a)) (si_inflight (isys_ack ev t r s a)) /\
  items_of (si_c (isys_ack ev t r s a)) t r = Some (list_set_nth i S_RUNNING l) /\
  (forall t' r' l2, (t', r') <> (t, r) -> items_of (si_c s) t' r' = Some l2 ->
                    items_of (si_c (isys_ack ev t r s a)) t' r' = Some l2) /\
  (forall t' r' l2, (t', r') <> (t, r) -> items_of (si_c (isys_ack ev t r s a)) t' r' = Some l2 ->
                    items_of (si_c s) t' r' = Some l2) /\
  (forall P : list status -> Prop, Tall P (si_c s) -> P (list_set_nth i S_RUNNING l) -> Tall P (si_c (isys_ack ev t r s a))).
Proof.
  intros t r s a i l I Hl Hai Hil Hb. unfold isys_ack in *. rewrite Hai in *.
  set (s1 := with_inflight s (ikey_add (t, r, Some i) (si_inflight s))) in *. set (e := EvItem i S_RUNNING JNull JNull) in *.
  pose proof I as [Hi [Hfo [H1 H2]]].
  destruct (expect_link (si_c s) (si_inflight s) t r i S_RUNNING JNull JNull l Hfo H1 H2 Hl Hil) as [HfE [HlE [Hack _]]].
  destruct (Hack eq_refl) as [J1' J2'].
  destruct (ievent_core s1 t r e (si_inflight s) _ I Hb HfE J1' J2') as [I' Fw].
  destruct (ievent_items s1 t r e Hi Hfo Hb) as [_ [Hfo' [Bk _]]].
  assert (Hoth : forall t' r', (t', r') <> (t, r) -> items_of (expect_item (si_c s) t r e) t' r' = items_of (si_c s) t' r')
    by (intros; apply items_of_expect_other; assumption).
  assert (Hown : items_of (si_c (isys_event ev s1 t r e)) t r = Some (list_set_nth i S_RUNNING l)).
  { apply Fw; [exact HlE|left]. apply (any_active_nth _ i S_RUNNING); [|reflexivity]. apply nth_set_nth_lt. exact Hil. }
  split; [rewrite inflight_event; exact I'|]. split; [exact Hown|]. split; [|split].
  - intros t' r' l2 Hne Hl2. apply Fw; [change (si_c s1) with (si_c s); rewrite (Hoth _ _ Hne); exact Hl2|right; exact Hne].
  - intros t' r' l2 Hne Hl2. rewrite <- (Hoth _ _ Hne). exact (Bk _ _ _ Hl2).
  - intros P T Hp. apply (Tall_items _ _ Hfo'). intros t' r' l' Hl'. destruct (tkey_dec (t', r') (t, r)) as [E|E].
    + inversion E; subst t' r'. rewrite Hown in Hl'. inversion Hl'; subst l'. exact Hp.
    + apply (Tall_of P _ t' r' _ T). rewrite <- (Hoth _ _ E). exact (Bk _ _ _ Hl').
Qed.

Lemma ack_items_loop : forall t r acts s l,
  ilink (si_c s) (si_inflight s) -> items_of (si_c s) t r = Some l ->
  (forall a, In a acts -> exists i, a_item a = Some i /\ i < length l) ->
  ibad (fold_left (isys_ack ev t r) acts s) = false ->
  ilink (si_c (fold_left (isys_ack ev t r) acts s)) (si_inflight (fold_left (isys_ack ev t r) acts s)) /\
  items_of (si_c (fold_left (isys_ack ev t r) acts s)) t r = Some (ack_table acts l) /\
  (forall t' r' l2, (t', r') <> (t, r) -> items_of (si_c s) t' r' = Some l2 ->
                    items_of (si_c (fold_left (isys_ack ev t r) acts s)) t' r' = Some l2) /\
  (forall t' r' l2, (t', r') <> (t, r) -> items_of (si_c (fold_left (isys_ack ev t r) acts s)) t' r' = Some l2 ->
                    items_of (si_c s) t' r' = Some l2).
Proof.
  intros t r. induction acts as [|a acts IH]; intros s l I Hl Hacts Hb; cbn [fold_left] in *; [auto|].
  destruct (Hacts a (or_introl eq_refl)) as [i [Hai Hil]].
  pose proof (fold_head_ok _ _ (ibad_ack_mono t r) _ _ Hb) as Hb1.
  destruct (ack_item_step t r s a i l I Hl Hai Hil Hb1) as [I1 [Hl1 [Fw [Bw _]]]].
  destruct (IH _ (list_set_nth i S_RUNNING l) I1 Hl1) as [If [Hlf [Fwf Bwf]]]; [|exact Hb|].
  { intros a' Ha'. destruct (Hacts a' (or_intror Ha')) as [i' [A B]]. exists i'. rewrite length_set_nth. auto. }
  split; [exact If|]. split; [rewrite (ack_table_cons _ _ _ _ Hai); exact Hlf|].
  split; intros t' r' l2 Hne H; [apply Fwf; [exact Hne|apply Fw; assumption]|apply Bw; [exact Hne|apply Bwf; assumption]].
Qed.

Lemma ack_plain_loop : forall t r acts s,
  ilink (si_c s) (si_inflight s) -> (forall a, In a acts -> a_item a = None) ->
  ibad (fold_left (isys_ack ev t r) acts s) = false ->
  ilink (si_c (fold_left (isys_ack ev t r) acts s)) (si_inflight (fold_left (isys_ack ev t r) acts s)) /\
  (forall t' r' l2, (t', r') <> (t, r) -> items_of (si_c s) t' r' = Some l2 ->
                    items_of (si_c (fold_left (isys_ack ev t r) acts s)) t' r' = Some l2).
Proof.
  intros t r. induction acts as [|a acts IH]; intros s I Hacts Hb; simpl in *; [split; [exact I|auto]|].
  pose proof (fold_head_ok _ _ (ibad_ack_mono t r) _ _ Hb) as Hb1.
  unfold isys_ack in *. rewrite (Hacts a (or_introl eq_refl)) in *.
  set (s1 := with_inflight s (ikey_add (t, r, None) (si_inflight s))) in *.
  destruct (plain_event_step s1 t r (EvAction S_RUNNING JNull) (si_inflight s1) Logic.I) as [I' P']; [|intros; tauto|exact Hb1|].
  - apply (ilink_keys _ (si_inflight s)); [|exact I]. intros t' r' j. unfold s1; simpl. rewrite In_ikey_add.
    split; [intros [X|X]; [discriminate X|exact X]|auto].
  - destruct (IH (isys_event ev s1 t r (EvAction S_RUNNING JNull))) as [If Pf];
      [rewrite inflight_event; exact I'|intros a' Ha'; apply Hacts; right; exact Ha'|exact Hb|].
    split; [exact If|]. intros t' r' l2 Hne Hl2. apply Pf; [exact Hne|]. apply P'; [exact Hne|exact Hl2].
Qed.

(* read backwards the acknowledgements need no validity of the acknowledged indices: c_init and fo are all an event needs *)
Lemma ack_back : forall (Q : list status -> list status -> Prop) t r s a, (forall l, Q l l) ->
  (forall i l, a_item a = Some i -> Q l (list_set_nth i S_RUNNING l)) ->
  c_init (si_c s) = true -> fo (si_c s) -> ibad (isys_ack ev t r s a) = false ->
  c_init (si_c (isys_ack ev t r s a)) = true /\ fo (si_c (isys_ack ev t r s a)) /\ Tback Q (si_c s) (si_c (isys_ack ev t r s a)).
Proof.
  intros Q t r s a Qr Qs Hi Hfo Hb. unfold isys_ack in *.
  destruct (a_item a) as [i|];
    (match type of Hb with ibad (isys_event ev ?s1 t r ?e) = false =>
       destruct (ievent_items s1 t r e Hi Hfo Hb) as [Hi' [Hfo' _]]; split; [exact Hi'|split; [exact Hfo'|]];
       apply (ievent_back Q s1); try assumption end).
  - intros i0 st res acc l E. inversion E; subst. apply Qs. reflexivity.
  - intros; discriminate.
Qed.

Lemma acks_back : forall (Q : list status -> list status -> Prop) t r acts s, (forall l, Q l l) -> (forall x y z, Q x y -> Q y z -> Q x z) ->
  (forall a i l, In a acts -> a_item a = Some i -> Q l (list_set_nth i S_RUNNING l)) ->
  c_init (si_c s) = true -> fo (si_c s) -> ibad (fold_left (isys_ack ev t r) acts s) = false ->
  c_init (si_c (fold_left (isys_ack ev t r) acts s)) = true /\ fo (si_c (fold_left (isys_ack ev t r) acts s)) /\
  Tback Q (si_c s) (si_c (fold_left (isys_ack ev t r) acts s)).
Proof.
  intros Q t r acts s Qr Qt. revert s. induction acts as [|a acts IH]; intros s Qs Hi Hfo Hb; cbn [fold_left] in *.
  - split; [exact Hi|split; [exact Hfo|apply Tback_refl; exact Qr]].
  - pose proof (fold_head_ok _ _ (ibad_ack_mono t r) _ _ Hb) as Hb1.
    destruct (ack_back Q t r s a Qr (fun i l => Qs a i l (or_introl eq_refl)) Hi Hfo Hb1) as [Hi1 [Hfo1 B1]].
    destruct (IH _ (fun a' i l H => Qs a' i l (or_intror H)) Hi1 Hfo1 Hb) as [Hi2 [Hfo2 B2]].
    split; [exact Hi2|split; [exact Hfo2|exact (Tback_trans Q _ _ _ Qt B1 B2)]].
Qed.

Lemma offer_back : forall (Q : list status -> list status -> Prop) s o, (forall l, Q l l) -> (forall x y z, Q x y -> Q y z -> Q x z) ->
  (forall a i l, o_items_count o <> Some 0 -> In a (o_actions o) -> a_item a = Some i -> Q l (list_set_nth i S_RUNNING l)) ->
  c_init (si_c s) = true -> fo (si_c s) -> ibad (isys_ack_offer ev s o) = false ->
  c_init (si_c (isys_ack_offer ev s o)) = true /\ fo (si_c (isys_ack_offer ev s o)) /\ Tback Q (si_c s) (si_c (isys_ack_offer ev s o)).
Proof.
  intros Q s o Qr Qt Qs Hi Hfo Hb. unfold isys_ack_offer in *.
  destruct (o_items_count o) as [[|m]|]; try (apply acks_back; try assumption; intros a i l; apply Qs; discriminate).
  set (s1 := isys_event ev s (o_id o) (o_route o) (EvAction S_RUNNING JNull)) in *.
  pose proof (not_bad_before (fun x => isys_event ev x _ _ _) s1 (fun H => ibad_event_mono _ _ _ _ H) Hb) as Hb1.
  destruct (ievent_items s _ _ _ Hi Hfo Hb1) as [Hi1 [Hfo1 _]]. fold s1 in Hi1, Hfo1.
  destruct (ievent_items s1 _ _ _ Hi1 Hfo1 Hb) as [Hi2 [Hfo2 _]]. split; [exact Hi2|split; [exact Hfo2|]].
  apply (Tback_trans Q _ (si_c s1)); [exact Qt| |]; apply ievent_back; try assumption; intros; discriminate.
Qed.

Lemma offers_back : forall (Q : list status -> list status -> Prop) offers s, (forall l, Q l l) -> (forall x y z, Q x y -> Q y z -> Q x z) ->
  (forall l i, Q l (list_set_nth i S_RUNNING l)) ->
  c_init (si_c s) = true -> fo (si_c s) -> ibad (fold_left (isys_ack_offer ev) offers s) = false ->
  c_init (si_c (fold_left (isys_ack_offer ev) offers s)) = true /\ fo (si_c (fold_left (isys_ack_offer ev) offers s)) /\
  Tback Q (si_c s) (si_c (fold_left (isys_ack_offer ev) offers s)).
Proof.
  intros Q offers s Qr Qt Qs Hi Hfo Hb.
  refine (fold_left_inv _ (isys_ack_offer ev) (fun _ x => c_init (si_c x) = true /\ fo (si_c x) /\ Tback Q (si_c s) (si_c x))
            ibad_ack_offer_mono _ offers s _ Hb).
  - intros o _ x [Hi1 [Hfo1 B1]] Hb1. destruct (offer_back Q x o Qr Qt (fun _ i l _ _ _ => Qs l i) Hi1 Hfo1 Hb1) as [Hi2 [Hfo2 B2]].
    split; [exact Hi2|split; [exact Hfo2|exact (Tback_trans Q _ _ _ Qt B1 B2)]].
  - split; [exact Hi|split; [exact Hfo|apply Tback_refl; exact Qr]].
Qed.

Lemma acks_keep : forall (G : cstate -> Prop) (ok : event -> Prop),
  ok (EvAction S_RUNNING JNull) -> ok (EvAction S_SUCCEEDED (JList [])) -> (forall i, ok (EvItem i S_RUNNING JNull JNull)) ->
  (forall s t r e, ok e -> ibad (isys_event ev s t r e) = false -> G (si_c s) -> G (si_c (isys_event ev s t r e))) ->
  forall offers s, ibad (fold_left (isys_ack_offer ev) offers s) = false -> G (si_c s) ->
  G (si_c (fold_left (isys_ack_offer ev) offers s)).
Proof.
  intros G ok O1 O2 O3 H offers s Hb Hg.
  refine (fold_left_inv _ (isys_ack_offer ev) (fun _ x => G (si_c x)) ibad_ack_offer_mono _ offers s Hg Hb).
  intros o _ x Hx Hb1. unfold isys_ack_offer in *. destruct (o_items_count o) as [[|m]|].
  1: { apply H; [exact O2|exact Hb1|]. apply H; [exact O1| |exact Hx].
       exact (not_bad_before (fun y => isys_event ev y _ _ _) _ (fun X => ibad_event_mono _ _ _ _ X) Hb1). }
  all: refine (fold_left_inv _ (isys_ack ev _ _) (fun _ y => G (si_c y)) (ibad_ack_mono _ _) _ (o_actions o) x Hx Hb1);
    intros a _ y Hy Hb2; unfold isys_ack in *; destruct (a_item a); apply H; auto.
Qed.

Lemma ack_offer_step : forall s o, ilink (si_c s) (si_inflight s) -> pend_ok (si_c s) o ->
  ibad (isys_ack_offer ev s o) = false ->
  ilink (si_c (isys_ack_offer ev s o)) (si_inflight (isys_ack_offer ev s o)) /\
  (forall t' r' l2, (t', r') <> (o_id o, o_route o) -> items_of (si_c s) t' r' = Some l2 ->
                    items_of (si_c (isys_ack_offer ev s o)) t' r' = Some l2) /\
  match o_items_count o with
  | Some (S _) => (forall t' r' l2, (t', r') <> (o_id o, o_route o) -> items_of (si_c (isys_ack_offer ev s o)) t' r' = Some l2 ->
                                    items_of (si_c s) t' r' = Some l2) /\
                  forall l, items_of (si_c s) (o_id o) (o_route o) = Some l ->
                            items_of (si_c (isys_ack_offer ev s o)) (o_id o) (o_route o) = Some (ack_table (o_actions o) l)
  | _ => Tback eq (si_c s) (si_c (isys_ack_offer ev s o))
  end.
Proof.
  intros s o I Hp Hb. pose proof I as [Hi [Hfo _]].
  unfold pend_ok in Hp. destruct (o_items_count o) as [[|m]|] eqn:Ec.
  - assert (B : Tback eq (si_c s) (si_c (isys_ack_offer ev s o))).
    { apply (offer_back eq s o); try assumption; [reflexivity|intros; congruence|]. rewrite Ec. intros a i l Hn. exfalso. apply Hn. reflexivity. }
    unfold isys_ack_offer in *. rewrite Ec in *.
    set (s1 := isys_event ev s (o_id o) (o_route o) (EvAction S_RUNNING JNull)) in *.
    pose proof (not_bad_before (fun x => isys_event ev x _ _ _) s1 (fun H => ibad_event_mono _ _ _ _ H) Hb) as Hb1.
    destruct (plain_event_step s (o_id o) (o_route o) (EvAction S_RUNNING JNull) (si_inflight s) Logic.I I) as [I1 P1];
      [intros; tauto|exact Hb1|]. fold s1 in I1, P1.
    destruct (plain_event_step s1 (o_id o) (o_route o) (EvAction S_SUCCEEDED (JList [])) (si_inflight s1) Logic.I) as [I2 P2];
      [unfold s1; rewrite inflight_event; exact I1|intros; tauto|exact Hb|].
    split; [rewrite inflight_event; exact I2|]. split; [|exact B]. intros t' r' l2 Hne H. apply P2; [exact Hne|]. apply P1; assumption.
  - destruct Hp as [l [Hl Ha]]. unfold isys_ack_offer in *. rewrite Ec in *.
    destruct (ack_items_loop _ _ _ _ _ I Hl Ha Hb) as [I1 [Hl1 [Fw Bw]]]. split; [exact I1|]. split; [exact Fw|]. split; [exact Bw|].
    intros l0 Hl0. rewrite Hl in Hl0. inversion Hl0; subst l0. exact Hl1.
  - assert (B : Tback eq (si_c s) (si_c (isys_ack_offer ev s o))).
    { apply (offer_back eq s o); try assumption; [reflexivity|intros; congruence|]. intros a i l _ Hin Hai. rewrite (Hp a Hin) in Hai. discriminate Hai. }
    unfold isys_ack_offer in *. rewrite Ec in *.
    destruct (ack_plain_loop _ _ _ _ I Hp Hb) as [I1 Fw]. split; [exact I1|]. split; [exact Fw|exact B].
Qed.

Lemma ack_offer_link : forall s o, ilink (si_c s) (si_inflight s) -> pend_ok (si_c s) o ->
  ibad (isys_ack_offer ev s o) = false ->
  ilink (si_c (isys_ack_offer ev s o)) (si_inflight (isys_ack_offer ev s o)) /\
  (forall t' r' l2, (t', r') <> (o_id o, o_route o) -> items_of (si_c s) t' r' = Some l2 ->
                    items_of (si_c (isys_ack_offer ev s o)) t' r' = Some l2).
Proof. intros s o I Hp Hb. destruct (ack_offer_step s o I Hp Hb) as [A [B _]]. auto. Qed.

Lemma ack_offers_link : forall offers s, ilink (si_c s) (si_inflight s) ->
  (forall o, In o offers -> pend_ok (si_c s) o) -> offers_dup offers = false ->
  ibad (fold_left (isys_ack_offer ev) offers s) = false ->
  ilink (si_c (fold_left (isys_ack_offer ev) offers s)) (si_inflight (fold_left (isys_ack_offer ev) offers s)).
Proof.
  induction offers as [|o offers IH]; intros s I Hp Hd Hb; simpl in *; [exact I|].
  apply orb_false_iff in Hd. destruct Hd as [Hd1 Hd2].
  pose proof (fold_head_ok _ _ ibad_ack_offer_mono _ _ Hb) as Hb1.
  destruct (ack_offer_link s o I (Hp o (or_introl eq_refl)) Hb1) as [I1 P1].
  apply IH; [exact I1| |exact Hd2|exact Hb].
  intros o2 Ho2. apply (pend_ok_persist (si_c s)); [apply Hp; right; exact Ho2|].
  intros l2. apply P1. apply (offers_key_distinct _ _ _ Hd1 Ho2).
Qed.

Lemma ack_offer_tbl : forall s o, ilink (si_c s) (si_inflight s) -> Tall shaped (si_c s) -> pend2 (si_c s) o ->
  ibad (isys_ack_offer ev s o) = false ->
  ilink (si_c (isys_ack_offer ev s o)) (si_inflight (isys_ack_offer ev s o)) /\
  Tall shaped (si_c (isys_ack_offer ev s o)) /\ done2 (si_c (isys_ack_offer ev s o)) o /\
  (forall t' r' l2, (t', r') <> (o_id o, o_route o) -> items_of (si_c s) t' r' = Some l2 ->
                    items_of (si_c (isys_ack_offer ev s o)) t' r' = Some l2).
Proof.
  intros s o I T Hp Hb. destruct (ack_offer_step s o I (pend2_ok _ _ Hp) Hb) as [I1 [Fw Own]]. pose proof I1 as [_ [Hfo1 _]].
  assert (Teq : Tback eq (si_c s) (si_c (isys_ack_offer ev s o)) -> Tall shaped (si_c (isys_ack_offer ev s o))).
  { intro B. apply (Tall_back shaped eq _ _ Hfo1 T B). intros l l' Hs <-. exact Hs. }
  split; [exact I1|]. unfold pend2, done2 in *. destruct (o_items_count o) as [[|n']|]; [auto| |auto].
  destruct Hp as [pre [u [m [Hl [Hf [Hm [Hmu Hw]]]]]]]. destruct Own as [Bw Own].
  pose proof (Own _ Hl) as Hl2. rewrite (ack_table_seq _ _ _ _ Hm Hmu) in Hl2.
  assert (Sh : shaped (app pre (app (repeat S_RUNNING m) (repeat S_UNSET (u - m))))).
  { exists (app pre (repeat S_RUNNING m)), (u - m). split; [apply app_assoc|].
    apply Forall_app. split; [exact Hf|]. apply Forall_forall. intros x Hx. apply repeat_spec in Hx. subst x. discriminate. }
  split; [|split; [|exact Fw]].
  - apply (Tall_items _ _ Hfo1). intros t' r' l' Hl'. destruct (tkey_dec (t', r') (o_id o, o_route o)) as [E|E].
    + inversion E; subst t' r'. rewrite Hl2 in Hl'. inversion Hl'; subst l'. exact Sh.
    + exact (Tall_of _ _ _ _ _ T (Bw _ _ _ E Hl')).
  - eexists. split; [exact Hl2|]. split; [exact Sh|]. split.
    + intros conc' Hc Hint. rewrite !nact_app, nact_repeat_running, nact_repeat_unset. specialize (Hw conc' Hc Hint). lia.
    + intros a Ha. apply (in_map a_item) in Ha. rewrite Hm in Ha. apply in_map_iff in Ha. destruct Ha as [i [Hi Hin]].
      apply in_seq in Hin. exists i. split; [auto|].
      rewrite nth_error_app2 by lia. rewrite nth_error_app1 by (rewrite repeat_length; lia).
      apply nth_error_repeat_lt. lia.
Qed.

Lemma ack_offers_tbl : forall offers s, ilink (si_c s) (si_inflight s) -> Tall shaped (si_c s) ->
  (forall o, In o offers -> pend2 (si_c s) o) -> offers_dup offers = false ->
  ibad (fold_left (isys_ack_offer ev) offers s) = false ->
  ilink (si_c (fold_left (isys_ack_offer ev) offers s)) (si_inflight (fold_left (isys_ack_offer ev) offers s)) /\
  Tall shaped (si_c (fold_left (isys_ack_offer ev) offers s)) /\
  (forall o, In o offers -> done2 (si_c (fold_left (isys_ack_offer ev) offers s)) o) /\
  (forall t' r' l2, (forall o, In o offers -> (t', r') <> (o_id o, o_route o)) -> items_of (si_c s) t' r' = Some l2 ->
                    items_of (si_c (fold_left (isys_ack_offer ev) offers s)) t' r' = Some l2).
Proof.
  induction offers as [|o offers IH]; intros s I T Hp Hd Hb; cbn [fold_left] in *.
  - split; [exact I|]. split; [exact T|]. split; [intros o []|auto].
  - simpl in Hd. apply orb_false_iff in Hd. destruct Hd as [Hd1 Hd2].
    pose proof (fold_head_ok _ _ ibad_ack_offer_mono _ _ Hb) as Hb1.
    destruct (ack_offer_tbl s o I T (Hp o (or_introl eq_refl)) Hb1) as [I1 [T1 [D1 Fw1]]].
    destruct (IH (isys_ack_offer ev s o) I1 T1) as [I2 [T2 [D2 Fw2]]]; [|exact Hd2|exact Hb|].
    + intros o2 Ho2. apply (pend2_persist (si_c s)); [apply Hp; right; exact Ho2|].
      intros l2. apply Fw1. apply (offers_key_distinct _ _ _ Hd1 Ho2).
    + split; [exact I2|]. split; [exact T2|]. split.
      * intros o2 [<-|Ho2]; [|apply D2; exact Ho2].
        apply (done2_persist _ _ _ D1). intros l2. apply Fw2. intros o3 Ho3 E.
        exact (offers_key_distinct _ _ _ Hd1 Ho3 (eq_sym E)).
      * intros t' r' l2 Hk H. apply Fw2; [intros o3 Ho3; apply Hk; right; exact Ho3|].
        apply Fw1; [apply Hk; left; reflexivity|exact H].
Qed.

Lemma ipoll_val : forall s, ibad (isys_poll ev s) = false ->
  exists c1 offers, get_next_tasks ev (si_c s) = (c1, Val offers) /\
    isys_poll ev s = fold_left (isys_ack_offer ev) offers (poll_start s c1 offers) /\ ibad s = false /\ offers_dup offers = false.
Proof.
  intros s Hb. unfold isys_poll in *. destruct (get_next_tasks ev (si_c s)) as [c1 [offers|x]]; [|discriminate Hb].
  exists c1, offers. split; [reflexivity|]. split; [reflexivity|].
  pose proof (fold_head_ok _ _ ibad_ack_offer_mono _ _ Hb) as Hb0. unfold ibad in *. simpl in Hb0.
  apply orb_false_iff in Hb0. destruct Hb0 as [A B]. apply orb_false_iff in B. destruct B as [B C]. rewrite A, B. auto.
Qed.

Lemma poll_ready : forall s c1 offers, ilink (si_c s) (si_inflight s) -> get_next_tasks ev (si_c s) = (c1, Val offers) ->
  Rgn (si_c s) c1 /\ ilink c1 (si_inflight s) /\ forall o, In o offers -> exists e, offer_ok c1 e o.
Proof.
  intros s c1 offers [Hi [Hfo [H1 H2]]] Hg. destruct (gn_items_eff ev _ _ _ Hi Hg) as [HR Hof].
  destruct (J_Rgn _ _ _ HR H1 H2) as [K1 K2]. split; [exact HR|]. split.
  - split; [destruct HR as [_ [_ [Hin _]]]; rewrite Hin; exact Hi|]. split; [exact (fo_get_next_tasks _ _ _ Hg Hfo)|split; assumption].
  - intros o Ho. destruct (Hof o Ho) as [e [_ [_ [_ Hok]]]]. exists e. exact Hok.
Qed.

Lemma poll_link : forall s, ilink (si_c s) (si_inflight s) -> ibad (isys_poll ev s) = false ->
  ilink (si_c (isys_poll ev s)) (si_inflight (isys_poll ev s)).
Proof.
  intros s I Hb. destruct (ipoll_val s Hb) as [c1 [offers [Hg [E [_ Hd]]]]]. rewrite E in *.
  destruct (poll_ready s c1 offers I Hg) as [_ [I1 Hof]]. apply ack_offers_link; [exact I1| |exact Hd|exact Hb].
  intros o Ho. destruct (Hof o Ho) as [e Hok]. exact (pend_of_offer_ok _ _ _ Hok).
Qed.

Lemma poll_tables : forall s c1 offers, ilink2 s -> get_next_tasks ev (si_c s) = (c1, Val offers) ->
  ibad (isys_poll ev s) = false -> ilink2 (isys_poll ev s) /\ forall o, In o offers -> done2 (si_c (isys_poll ev s)) o.
Proof.
  intros s c1 offers [I T] Hg Hb. destruct (ipoll_val s Hb) as [c1' [offers' [Hg' [E [_ Hd]]]]].
  rewrite Hg in Hg'. inversion Hg'; subst c1' offers'. rewrite E in *.
  destruct (poll_ready s c1 offers I Hg) as [HR [I1 Hof]]. pose proof (Tall_Rgn shaped _ _ shaped_repeat HR T) as T1.
  destruct (ack_offers_tbl offers (poll_start s c1 offers) I1 T1) as [A [B [D _]]];
    [|exact Hd|exact Hb|split; [split; assumption|exact D]].
  intros o Ho. destruct (Hof o Ho) as [e Hok]. exact (pend2_of_offer_ok _ _ _ T1 Hok).
Qed.

Lemma Rgn_back : forall c c1 t r l', Rgn c c1 -> items_of c1 t r = Some l' ->
  items_of c t r = Some l' \/ ((items_of c t r = None \/ items_of c t r = Some []) /\ exists n, l' = repeat S_UNSET n).
Proof.
  intros c c1 t r l' (_ & _ & _ & _ & _ & _ & F) H. unfold items_of, get_staged_task in *.
  induction F as [|s s' l0 l1 Hr Hl IH]; [discriminate|]. simpl in *. destruct (rho_key _ _ Hr) as [_ K]. rewrite K in H.
  destruct (stg_matches t r s); [|apply IH; exact H].
  destruct Hr as [->|[Hn [n ->]]]; [left; exact H|]. right. split; [exact Hn|]. exists n. destruct s; simpl in H; inversion H; reflexivity.
Qed.

Lemma poll_back : forall s c1 offers, ilink (si_c s) (si_inflight s) ->
  get_next_tasks ev (si_c s) = (c1, Val offers) -> ibad (isys_poll ev s) = false ->
  Rgn (si_c s) c1 /\ Tback tup c1 (si_c (isys_poll ev s)).
Proof.
  intros s c1 offers I Hg Hb. destruct (ipoll_val s Hb) as [c1' [offers' [Hg' [E _]]]].
  rewrite Hg in Hg'. inversion Hg'; subst c1' offers'. rewrite E in *.
  destruct (poll_ready s c1 offers I Hg) as [HR [[Hi1 [Hfo1 _]] _]]. split; [exact HR|].
  apply (offers_back tup offers (poll_start s c1 offers) tup_refl tup_trans tup_set Hi1 Hfo1 Hb).
Qed.

Lemma completed_not_active : forall st, status_in st report_statuses = true -> status_in st ACTIVE_STATUSES = false.
Proof. intros st; destruct st; vm_compute; congruence. Qed.

Lemma report_link : forall s t r item st result, ilink (si_c s) (si_inflight s) ->
  ibad (isys_report ev s t r item st result) = false ->
  ilink (si_c (isys_report ev s t r item st result)) (si_inflight (isys_report ev s t r item st result)).
Proof.
  intros s t r item st result I Hb. unfold isys_report in *.
  destruct (ikey_in (t, r, item) (si_inflight s) && status_in st report_statuses) eqn:En; [|exact I].
  apply andb_true_iff in En. destruct En as [Hin Hst]. apply ikey_in_iff in Hin.
  destruct item as [i|].
  - pose proof I as [Hi [Hfo [H1 H2]]].
    destruct (H1 _ _ _ Hin) as [l [Hl Hn]].
    assert (Hil : i < length l) by (apply nth_error_Some; rewrite Hn; discriminate).
    set (acc' := acc_set (si_acc s) (t, r) i result) in *.
    set (e := EvItem i st result (acc_list (acc_get acc' (t, r)))) in *.
    set (s2 := {| si_c := si_c (with_inflight s (ikey_remove (t, r, Some i) (si_inflight s)));
                  si_inflight := si_inflight (with_inflight s (ikey_remove (t, r, Some i) (si_inflight s)));
                  si_acc := acc'; si_fault := si_fault (with_inflight s (ikey_remove (t, r, Some i) (si_inflight s)));
                  si_wiped := si_wiped (with_inflight s (ikey_remove (t, r, Some i) (si_inflight s))) |}) in *.
    destruct (expect_link (si_c s) (si_inflight s) t r i st result (acc_list (acc_get acc' (t, r))) l Hfo H1 H2 Hl Hil)
      as [HfE [_ [_ Hrem]]].
    destruct (Hrem (completed_not_active _ Hst)) as [J1' J2'].
    destruct (ievent_core s2 t r e (si_inflight s) (ikey_remove (t, r, Some i) (si_inflight s))) as [I' _];
      [exact I|exact Hb|exact HfE|exact J1'|exact J2'|].
    rewrite inflight_event. exact I'.
  - set (s1 := with_inflight s (ikey_remove (t, r, None) (si_inflight s))) in *.
    destruct (plain_event_step s1 t r (EvAction st result) (si_inflight s1) Logic.I) as [I' _]; [|intros; tauto|exact Hb|].
    + unfold s1; simpl. apply (ilink_keys _ (si_inflight s)); [|exact I].
      intros t' r' j. rewrite In_ikey_remove. split; [tauto|]. intros X; split; [exact X|discriminate].
    + rewrite inflight_event. exact I'.
Qed.

Lemma plain_event_tall : forall (P : list status -> Prop) s t r e, not_item e -> c_init (si_c s) = true -> fo (si_c s) ->
  ibad (isys_event ev s t r e) = false -> Tall P (si_c s) -> Tall P (si_c (isys_event ev s t r e)).
Proof.
  intros P s t r e Hn Hi Hfo Hb T. destruct (ievent_items s t r e Hi Hfo Hb) as [_ [Hfo' _]].
  apply (Tall_back P eq _ _ Hfo' T); [|intros l l' H <-; exact H].
  apply ievent_back; try assumption; [reflexivity|]. intros i st res acc l E. subst e. destruct Hn.
Qed.

Lemma report_tall : forall s t r item st result, ilink2 s -> ibad (isys_report ev s t r item st result) = false ->
  Tall shaped (si_c (isys_report ev s t r item st result)) /\
  Tback tdn (si_c s) (si_c (isys_report ev s t r item st result)).
Proof.
  intros s t r item st result [I T] Hb. unfold isys_report in *.
  destruct (ikey_in (t, r, item) (si_inflight s) && status_in st report_statuses) eqn:En; [|split; [exact T|apply Tback_refl; apply tdn_refl]].
  apply andb_true_iff in En. destruct En as [Hin Hst]. apply ikey_in_iff in Hin.
  pose proof I as [Hi [Hfo [H1 H2]]].
  assert (Hst1 : st <> S_UNSET) by (intro X; subst st; discriminate Hst).
  destruct item as [i|].
  - destruct (H1 _ _ _ Hin) as [l [Hl Hn]].
    set (acc' := acc_set (si_acc s) (t, r) i result) in *.
    set (e := EvItem i st result (acc_list (acc_get acc' (t, r)))) in *.
    set (s2 := {| si_c := si_c (with_inflight s (ikey_remove (t, r, Some i) (si_inflight s)));
                  si_inflight := si_inflight (with_inflight s (ikey_remove (t, r, Some i) (si_inflight s)));
                  si_acc := acc'; si_fault := si_fault (with_inflight s (ikey_remove (t, r, Some i) (si_inflight s)));
                  si_wiped := si_wiped (with_inflight s (ikey_remove (t, r, Some i) (si_inflight s))) |}) in *.
    split.
    + destruct (ievent_items s2 t r e Hi Hfo Hb) as [_ [Hfo' [Bk _]]]. apply (Tall_items _ _ Hfo'). intros t' r' l' Hl'.
      destruct (expect_back _ _ _ _ _ _ _ (Bk _ _ _ Hl')) as [X|(i0 & st0 & res & acc & l0 & He & K & Hl0 & ->)].
      * exact (Tall_of _ _ _ _ _ T X).
      * unfold e in He. inversion He; subst i0 st0 res acc. change (si_c s2) with (si_c s) in Hl0. rewrite Hl in Hl0. inversion Hl0; subst l0.
        apply (shaped_set_nonunset l i S_RUNNING st (Tall_of _ _ _ _ _ T Hl) Hn); [discriminate|exact Hst1].
    + apply (ievent_back tdn s2); try assumption; [apply tdn_refl|].
      intros i0 st0 res acc l0 E. inversion E; subst. apply tdn_set; [exact Hst1|apply completed_not_active; exact Hst].
  - set (s1 := with_inflight s (ikey_remove (t, r, None) (si_inflight s))) in *. split.
    + apply plain_event_tall; [exact Logic.I|exact Hi|exact Hfo|exact Hb|exact T].
    + apply (ievent_back tdn s1); try assumption; [apply tdn_refl|intros; discriminate].
Qed.

Lemma first_only_none : forall l, (forall s, In s l -> s_items s = None) -> first_only l.
Proof. induction l as [|a l IH]; intros H; simpl; [exact Logic.I|]. split; [intros s2 Hs2 _; apply H; right; exact Hs2|apply IH; intros; apply H; right; assumption]. Qed.

Lemma born_none : forall c c1, unborn c -> ensure_ws ev c = (c1, Val tt) -> forall s, In s (staged (c_ws c1)) -> s_items s = None.
Proof.
  intros c c1 [Hi Hw] H. destruct (ensure_fresh ev c c1 Hi Hw H) as [Hi1 [_ [_ [_ [_ Hst]]]]].
  destruct Hst as [[_ E]|[_ E]]; rewrite E; [intros s []|]. intros s Hs. apply in_map_iff in Hs. destruct Hs as [x [<- _]]. reflexivity.
Qed.

Lemma born_link : forall c c1, unborn c -> ensure_ws ev c = (c1, Val tt) -> ilink c1 [].
Proof.
  intros c c1 Hu H. pose proof (born_none c c1 Hu H) as Hn. destruct Hu as [Hi Hw].
  destruct (ensure_fresh ev c c1 Hi Hw H) as [Hi1 _].
  split; [exact Hi1|split; [apply first_only_none; exact Hn|split]].
  - intros t r j [].
  - intros s l j st Hs Hl. rewrite (Hn s Hs) in Hl. discriminate.
Qed.

Lemma born_tall : forall (P : list status -> Prop) c c1, unborn c -> ensure_ws ev c = (c1, Val tt) -> Tall P c1.
Proof. intros P c c1 Hu H s l Hs Hl. rewrite (born_none c c1 Hu H s Hs) in Hl. discriminate. Qed.

Lemma unborn_call : forall A (k : unit -> M A) c, unborn c ->
  (exists c1 e, ensure_ws ev c = (c1, Exc e) /\ bind (ensure_ws ev) k c = (c1, Exc e)) \/
  (exists c1, ensure_ws ev c = (c1, Val tt) /\ ilink c1 [] /\ bind (ensure_ws ev) k c = bind (ensure_ws ev) k c1).
Proof.
  intros A k c Hu. destruct (ensure_ws ev c) as [c1 [[]|e]] eqn:E.
  - right. exists c1. split; [reflexivity|]. pose proof (born_link _ _ Hu E) as I. split; [exact I|].
    apply ensure_then; [exact E|]. destruct I as [X _]. exact X.
  - left. exists c1, e. split; [reflexivity|]. unfold bind. rewrite E. reflexivity.
Qed.

Lemma unborn_get_next : forall s, unborn (si_c s) ->
  (exists c1 e, get_next_tasks ev (si_c s) = (c1, Exc e)) \/
  (exists c2, ensure_ws ev (si_c s) = (c2, Val tt) /\ ilink c2 [] /\ get_next_tasks ev (si_c s) = get_next_tasks ev c2).
Proof.
  intros s Hu. unfold get_next_tasks.
  match goal with |- context [bind (ensure_ws ev) ?k0 (si_c s)] =>
    destruct (unborn_call _ k0 (si_c s) Hu) as [[c2 [e [_ X]]]|[c2 [En [I X]]]] end;
    [left; exists c2, e; exact X|right; exists c2; split; [exact En|split; [exact I|exact X]]].
Qed.

Lemma unborn_no_table : forall c t r, unborn c -> items_of c t r = None.
Proof. intros c t r [_ Hw]. unfold items_of, get_staged_task. rewrite Hw. reflexivity. Qed.

Lemma irequest_val : forall s st, c_init (si_c s) = true -> isys_request ev s st = s \/
  exists c' x, status_in st request_statuses = true /\ request_status_core st (si_c s) = (c', x) /\
               request_workflow_status ev st (si_c s) = (c', x) /\ isys_request ev s st = set_c s c'.
Proof.
  intros s st Hi. unfold isys_request. destruct (status_in st request_statuses); [|left; reflexivity]. right.
  cbn [api_exec]. unfold request_workflow_status, bind. rewrite (ensure_ws_inited ev _ Hi).
  destruct (request_status_core st (si_c s)) as [c' x]. exists c', x. split; [reflexivity|]. split; [reflexivity|]. split; [reflexivity|].
  unfold set_c. simpl. rewrite orb_false_r. destruct x; reflexivity.
Qed.

Lemma icall_val : forall s op, c_init (si_c s) = true -> op = OpRender \/ op = OpPersist -> ibad (isys_call ev s op) = false ->
  Rlt (si_c s) (si_c (isys_call ev s op)) /\ isys_call ev s op = set_c s (si_c (isys_call ev s op)).
Proof.
  intros s op Hi Hop Hb. unfold isys_call in *. destruct (api_exec ev op (si_c s)) as [c' x] eqn:E.
  unfold ibad in Hb. simpl in *. apply orb_false_iff in Hb. destruct Hb as [Hb _]. apply orb_false_iff in Hb. destruct Hb as [_ Hx].
  split; [|unfold set_c; simpl; rewrite Hx, orb_false_r; reflexivity].
  destruct Hop as [-> | ->]; cbn [api_exec] in E; destruct (then_ret_unit _ _ _ _ E) as [[_ X]|Y]; try congruence.
  - exact (vlt_render_workflow_output ev _ Hi c' tt X).
  - rewrite (persist_identity ev _ Hi) in X. inversion X; subst. apply Rlt_refl.
Qed.

Lemma request_staged : forall s st, c_init (si_c s) = true -> staged (c_ws (si_c (isys_request ev s st))) = staged (c_ws (si_c s)) /\
  c_init (si_c (isys_request ev s st)) = true /\ si_inflight (isys_request ev s st) = si_inflight s.
Proof.
  intros s st Hi. destruct (irequest_val s st Hi) as [->|[c' [x [_ [_ [R ->]]]]]]; [auto|]. simpl.
  pose proof (control_request_frame ev st _ _ _ Hi R) as [_ [_ [Hst _]]].
  split; [exact Hst|]. split; [exact (presi_request_workflow_status ev st _ _ _ R Hi)|reflexivity].
Qed.

Lemma call_staged : forall s op, c_init (si_c s) = true -> op = OpRender \/ op = OpPersist -> ibad (isys_call ev s op) = false ->
  staged (c_ws (si_c (isys_call ev s op))) = staged (c_ws (si_c s)) /\
  c_init (si_c (isys_call ev s op)) = true /\ si_inflight (isys_call ev s op) = si_inflight s.
Proof.
  intros s op Hi Hop Hb. destruct (icall_val s op Hi Hop Hb) as [(_ & _ & Hst & _ & _ & _ & _ & _ & Hin) E].
  split; [exact Hst|]. split; [congruence|]. rewrite E. reflexivity.
Qed.

(* the first step on the conductor before its first call is that step on the state ensure_ws makes *)
Lemma isys_step_unborn : forall s op, si_inflight s = [] -> ibad (isys_step ev s op) = false ->
  isys_step ev s op = s \/
  exists c0, ensure_ws ev (si_c s) = (c0, Val tt) /\ isys_step ev s op = isys_step ev (set_c s c0) op.
Proof.
  intros s op HF Hb.
  assert (Rp : forall t r item st res, isys_report ev s t r item st res = s) by (intros; unfold isys_report; rewrite HF; reflexivity).
  destruct (ensure_ws ev (si_c s)) as [c0 [[]|e]] eqn:En.
  - pose proof (ensure_ws_inited ev c0 (ensure_ws_init_after ev _ _ _ En)) as En0.
    assert (Rq : forall st, isys_request ev s st = s \/ isys_request ev s st = isys_request ev (set_c s c0) st).
    { intro st. unfold isys_request. destruct (status_in st request_statuses); [right|left; reflexivity]. cbn [set_c si_c si_inflight si_acc si_fault si_wiped].
      rewrite (api_exec_ensure ev (OpRequest st) _ _ _ En), En, En0. reflexivity. }
    assert (Cl : forall o, isys_call ev s o = isys_call ev (set_c s c0) o).
    { intro o. unfold isys_call. cbn [set_c si_c si_inflight si_acc si_fault si_wiped].
      rewrite (api_exec_ensure ev o _ _ _ En). reflexivity. }
    destruct op; cbn [isys_step].
    + destruct (Rq S_RUNNING) as [X|X]; [left|right; exists c0; split; [reflexivity|]]; exact X.
    + right. exists c0. split; [reflexivity|]. unfold isys_poll. cbn [set_c si_c si_inflight si_acc si_fault si_wiped].
      rewrite (get_next_ensure ev _ _ _ En). reflexivity.
    + left. apply Rp.
    + destruct (Rq st) as [X|X]; [left|right; exists c0; split; [reflexivity|]]; exact X.
    + right. exists c0. split; [reflexivity|apply Cl].
    + right. exists c0. split; [reflexivity|apply Cl].
  - assert (Rq : forall st, ibad (isys_request ev s st) = false -> isys_request ev s st = s).
    { intros st Hb'. unfold isys_request in *. destruct (status_in st request_statuses); [exfalso|reflexivity].
      rewrite En in Hb'. destruct (api_exec ev (OpRequest st) (si_c s)). unfold ibad in Hb'. simpl in Hb'. rewrite orb_true_r in Hb'. discriminate Hb'. }
    assert (Cl : forall o, ibad (isys_call ev s o) = false -> False).
    { intros o Hb'. unfold isys_call in Hb'. rewrite (api_exec_ensure ev o _ _ _ En) in Hb'.
      unfold ibad in Hb'. simpl in Hb'. rewrite orb_true_r in Hb'. discriminate Hb'. }
    left. destruct op; cbn [isys_step] in *; auto.
    + exfalso. unfold isys_poll in Hb. rewrite (get_next_ensure ev _ _ _ En) in Hb. discriminate Hb.
    + exfalso. exact (Cl OpRender Hb).
    + exfalso. exact (Cl OpPersist Hb).
Qed.

Section StepGen.
Variable G : isys -> Prop.
Hypothesis G_born : forall s c0, unborn (si_c s) -> si_inflight s = [] -> ensure_ws ev (si_c s) = (c0, Val tt) -> G (set_c s c0).
Hypothesis G_step : forall s op, G s -> ibad (isys_step ev s op) = false -> G (isys_step ev s op).

(* not flagged: before the first call with nothing in flight, or G *)
Definition ginv (s : isys) : Prop := ibad s = false -> (unborn (si_c s) /\ si_inflight s = []) \/ G s.

Lemma ginv_step : forall s op, ginv s -> ginv (isys_step ev s op).
Proof.
  intros s op H Hb. destruct (H (not_bad_before (fun x => isys_step ev x op) s (fun X => ibad_step_mono _ _ X) Hb)) as [[Hu HF]|Hg];
    [|right; apply G_step; assumption].
  destruct (isys_step_unborn s op HF Hb) as [E|[c0 [En E]]]; rewrite E in *; [left; auto|right].
  apply G_step; [exact (G_born s c0 Hu HF En)|exact Hb].
Qed.

Lemma ginv_run : forall ops s, ginv s -> ginv (isys_run ev ops s).
Proof. induction ops as [|op ops IH]; intros s Hs; [exact Hs|]. simpl. apply IH. apply ginv_step; exact Hs. Qed.
End StepGen.

(* ginv at the link alone; isys_inv2 below adds the shape of the tables *)
Definition isys_inv (s : isys) : Prop :=
  ibad s = false -> (unborn (si_c s) /\ si_inflight s = []) \/ ilink (si_c s) (si_inflight s).

Lemma link_step : forall s op, ilink (si_c s) (si_inflight s) -> ibad (isys_step ev s op) = false ->
  ilink (si_c (isys_step ev s op)) (si_inflight (isys_step ev s op)).
Proof.
  intros s op I Hb. pose proof I as [Hi _].
  assert (Rq : forall st, ilink (si_c (isys_request ev s st)) (si_inflight (isys_request ev s st))).
  { intro st. destruct (request_staged s st Hi) as [A [B ->]]. exact (ilink_staged _ _ _ A B I). }
  assert (Cl : forall o, o = OpRender \/ o = OpPersist -> ibad (isys_call ev s o) = false ->
               ilink (si_c (isys_call ev s o)) (si_inflight (isys_call ev s o))).
  { intros o Ho Hb'. destruct (call_staged s o Hi Ho Hb') as [A [B ->]]. exact (ilink_staged _ _ _ A B I). }
  destruct op; cbn [isys_step] in *; auto; [apply poll_link|apply report_link]; assumption.
Qed.

Theorem isys_step_inv : forall s op, isys_inv s -> isys_inv (isys_step ev s op).
Proof.
  apply (ginv_step (fun s => ilink (si_c s) (si_inflight s))); [|exact link_step].
  intros s c0 Hu HF En. simpl. rewrite HF. exact (born_link _ _ Hu En).
Qed.

Theorem isys_run_inv : forall ops s, isys_inv s -> isys_inv (isys_run ev ops s).
Proof. induction ops as [|op ops IH]; intros s Hs; [exact Hs|]. simpl. apply IH. apply isys_step_inv; exact Hs. Qed.

Lemma isys_init_inv : forall sp g inputs parent, isys_inv (isys_init sp g inputs parent).
Proof. intros sp g inputs parent _. left. split; [split; reflexivity|reflexivity]. Qed.

Definition isys_inv2 (s : isys) : Prop :=
  ibad s = false -> (unborn (si_c s) /\ si_inflight s = []) \/ ilink2 s.

Lemma link2_step : forall s op, ilink2 s -> ibad (isys_step ev s op) = false -> ilink2 (isys_step ev s op).
Proof.
  intros s op [I T] Hb. split; [exact (link_step s op I Hb)|]. pose proof I as [Hi _].
  destruct op; cbn [isys_step] in *.
  - destruct (request_staged s S_RUNNING Hi) as [A _]. exact (Tall_same_staged shaped _ _ A T).
  - destruct (ipoll_val s Hb) as [c1 [offers [Hg _]]]. apply (poll_tables s c1 offers); [split| |]; assumption.
  - apply report_tall; [split; assumption|exact Hb].
  - destruct (request_staged s st Hi) as [A _]. exact (Tall_same_staged shaped _ _ A T).
  - destruct (call_staged s OpRender Hi (or_introl eq_refl) Hb) as [A _]. exact (Tall_same_staged shaped _ _ A T).
  - destruct (call_staged s OpPersist Hi (or_intror eq_refl) Hb) as [A _]. exact (Tall_same_staged shaped _ _ A T).
Qed.

Lemma born_link2 : forall s c0, unborn (si_c s) -> si_inflight s = [] -> ensure_ws ev (si_c s) = (c0, Val tt) -> ilink2 (set_c s c0).
Proof. intros s c0 Hu HF En. split; simpl; [rewrite HF; exact (born_link _ _ Hu En)|exact (born_tall shaped _ _ Hu En)]. Qed.

Theorem isys_step_inv2 : forall s op, isys_inv2 s -> isys_inv2 (isys_step ev s op).
Proof. exact (ginv_step ilink2 born_link2 link2_step). Qed.

Theorem isys_run_inv2 : forall ops s, isys_inv2 s -> isys_inv2 (isys_run ev ops s).
Proof. exact (ginv_run ilink2 born_link2 link2_step). Qed.

Lemma isys_init_inv2 : forall sp g inputs parent, isys_inv2 (isys_init sp g inputs parent).
Proof. intros sp g inputs parent _. left. split; [split; reflexivity|reflexivity]. Qed.

Lemma poll_linked : forall s c1 offers, isys_inv2 s -> ibad s = false -> get_next_tasks ev (si_c s) = (c1, Val offers) ->
  exists c0, ilink2 (set_c s c0) /\ get_next_tasks ev c0 = (c1, Val offers).
Proof.
  intros s c1 offers Hs Hb Hg. destruct (Hs Hb) as [[Hu HF]|I]; [|exists (si_c s); auto].
  destruct (unborn_get_next s Hu) as [[c2 [e X]]|[c2 [En [_ X]]]]; [rewrite X in Hg; discriminate|].
  exists c2. split; [exact (born_link2 s c2 Hu HF En)|rewrite <- X; exact Hg].
Qed.

Lemma step_back_tdn : forall s op, ilink2 s -> op <> IPoll -> ibad (isys_step ev s op) = false ->
  Tback tdn (si_c s) (si_c (isys_step ev s op)).
Proof.
  intros s op [I T] Hop Hb. pose proof I as [Hi _].
  destruct op; cbn [isys_step] in *; try congruence;
    try (apply report_tall; [split; assumption|exact Hb]); (apply Tback_same_staged; [apply tdn_refl|]).
  - apply request_staged; exact Hi.
  - apply request_staged; exact Hi.
  - apply call_staged; auto.
  - apply call_staged; auto.
Qed.

Lemma isys_op_eq_poll : forall op, op = IPoll \/ op <> IPoll.
Proof. intro op. destruct op; try (right; discriminate). left; reflexivity. Qed.

Lemma inv2_linked : forall s t r l, isys_inv2 s -> ibad s = false -> items_of (si_c s) t r = Some l -> ilink2 s.
Proof.
  intros s t r l Hs Hb Hl. destruct (Hs Hb) as [[Hu _]|I]; [|exact I]. rewrite (unborn_no_table _ t r Hu) in Hl. discriminate.
Qed.

Lemma step_keeps : forall s op t r l l' j st, isys_inv2 s -> ibad (isys_step ev s op) = false ->
  items_of (si_c s) t r = Some l -> nth_error l j = Some st -> st <> S_UNSET ->
  items_of (si_c (isys_step ev s op)) t r = Some l' -> exists st', nth_error l' j = Some st' /\ st' <> S_UNSET.
Proof.
  intros s op t r l l' j st Hs Hb Hl Hj Hst Hl'.
  pose proof (not_bad_before (fun x => isys_step ev x op) s (fun X => ibad_step_mono _ _ X) Hb) as Hb0.
  pose proof (inv2_linked _ _ _ _ Hs Hb0 Hl) as I.
  destruct (isys_op_eq_poll op) as [->|Hne].
  - cbn [isys_step] in *. destruct I as [I T].
    destruct (ipoll_val s Hb) as [c1 [offers [Hg _]]]. destruct (poll_back s c1 offers I Hg Hb) as [HR HB].
    destruct (HB _ _ _ Hl') as [l1 [Hl1 [[_ Q] _]]].
    destruct l as [|x xs]; [destruct j; discriminate Hj|].
    rewrite (Rgn_items_stable _ _ _ _ _ _ HR Hl) in Hl1. inversion Hl1; subst l1. exact (Q j st Hj Hst).
  - destruct (step_back_tdn s op I Hne Hb _ _ _ Hl') as [l0 [Hl0 [[_ Q] _]]]. rewrite Hl in Hl0. inversion Hl0; subst l0.
    exact (Q j st Hj Hst).
Qed.

Lemma run_keeps : forall t r j ops s l st, isys_inv2 s -> ibad (isys_run ev ops s) = false ->
  items_of (si_c s) t r = Some l -> nth_error l j = Some st -> st <> S_UNSET ->
  (forall ops1 ops2, ops = app ops1 ops2 -> items_of (si_c (isys_run ev ops1 s)) t r <> None) ->
  exists l' st', items_of (si_c (isys_run ev ops s)) t r = Some l' /\ nth_error l' j = Some st' /\ st' <> S_UNSET.
Proof.
  intros t r j. induction ops as [|op ops IH]; intros s l st Hs Hb Hl Hj Hst Hal; [exists l, st; auto|].
  cbn [isys_run fold_left] in *.
  pose proof (fold_head_ok _ _ ibad_step_mono _ _ Hb) as Hb1.
  destruct (items_of (si_c (isys_step ev s op)) t r) as [l1|] eqn:E1;
    [|exfalso; apply (Hal [op] ops eq_refl); exact E1].
  destruct (step_keeps s op t r l l1 j st Hs Hb1 Hl Hj Hst E1) as [st1 [Hj1 Hst1]].
  apply (IH (isys_step ev s op) l1 st1); [apply isys_step_inv2; exact Hs|exact Hb|exact E1|exact Hj1|exact Hst1|].
  intros ops1 ops2 E. apply (Hal (op :: ops1) ops2). rewrite E. reflexivity.
Qed.

(* a poll offers item i of (t, r) *)
Definition offered_by (s : isys) (t : string) (r : nat) (i : nat) : Prop :=
  exists c1 offers o a n, get_next_tasks ev (si_c s) = (c1, Val offers) /\ In o offers /\ o_id o = t /\ o_route o = r /\
                          o_items_count o = Some (S n) /\ In a (o_actions o) /\ a_item a = Some i.

Lemma poll_done : forall s c1 offers, isys_inv2 s -> get_next_tasks ev (si_c s) = (c1, Val offers) ->
  ibad (isys_poll ev s) = false -> forall o, In o offers -> done2 (si_c (isys_poll ev s)) o.
Proof.
  intros s c1 offers Hs Hg Hb. destruct (poll_linked s c1 offers Hs (not_bad_before _ _ (ibad_poll_mono s) Hb) Hg) as [c0 [I Hg0]].
  assert (E : isys_poll ev s = isys_poll ev (set_c s c0)) by (unfold isys_poll; simpl; rewrite Hg, Hg0; reflexivity).
  rewrite E in *. exact (proj2 (poll_tables (set_c s c0) c1 offers I Hg0 Hb)).
Qed.

(* ONCE / ORDER: an item offered by a poll is, for as long as the task's table stays, never offered again, and
   everything offered later has a greater index *)
Theorem once_order : forall s1 ops t r i j, isys_inv2 s1 ->
  offered_by s1 t r j ->
  (forall ops1 ops2, ops = app ops1 ops2 -> items_of (si_c (isys_run ev ops1 (isys_poll ev s1))) t r <> None) ->
  offered_by (isys_run ev ops (isys_poll ev s1)) t r i ->
  ibad (isys_poll ev (isys_run ev ops (isys_poll ev s1))) = false -> j < i.
Proof.
  intros s1 ops t r i j Hs1 [c1 [offers [o [a [n [Hg [Ho [Hid [Hr [Hn [Ha Hai]]]]]]]]]]] Hal
         [c1' [offers' [o' [a' [n' [Hg' [Ho' [Hid' [Hr' [Hn' [Ha' Hai']]]]]]]]]]] Hb.
  set (s2 := isys_poll ev s1) in *. set (s3 := isys_run ev ops s2) in *.
  assert (Hb3 : ibad s3 = false) by (apply (not_bad_before _ _ (ibad_poll_mono s3)); exact Hb).
  pose proof (fold_head_ok _ _ ibad_step_mono _ _ Hb3 : ibad s2 = false) as Hb2.
  pose proof (poll_done s1 c1 offers Hs1 Hg Hb2 o Ho) as D. unfold done2 in D. rewrite Hn in D.
  destruct D as [l2 [Hl2 [_ [_ Hrun]]]]. destruct (Hrun a Ha) as [j0 [Hj0 Hnj]]. rewrite Hai in Hj0. inversion Hj0; subst j0.
  rewrite Hid, Hr in Hl2.
  assert (Hs2 : isys_inv2 s2) by (exact (isys_step_inv2 s1 IPoll Hs1)).
  destruct (run_keeps t r j ops s2 l2 S_RUNNING Hs2 Hb3 Hl2 Hnj) as [l3 [st3 [Hl3 [Hj3 Hst3]]]]; [discriminate|exact Hal|].
  fold s3 in Hl3.
  assert (Hs3 : isys_inv2 s3) by (apply isys_run_inv2; exact Hs2).
  destruct (inv2_linked _ _ _ _ Hs3 Hb3 Hl3) as [I3 T3]. pose proof I3 as [Hi3 _].
  destruct (gn_items_eff ev _ _ _ Hi3 Hg') as [HR Hof].
  destruct (Hof o' Ho') as [e [_ [_ [_ [Eid [Ert Hok]]]]]]. rewrite Hn' in Hok.
  destruct Hok as [l1 [conc [conc' [actions [Hl1 [Hlen [Hmap [Hch _]]]]]]]].
  destruct (chosen_in_table _ _ _ _ _ _ Hch Hmap Hlen a' Ha') as [i0 [A [_ B]]]. rewrite Hai' in A. inversion A; subst i0.
  rewrite <- Eid, <- Ert, Hid', Hr' in Hl1.
  destruct l3 as [|x xs]; [destruct j; discriminate Hj3|].
  rewrite (Rgn_items_stable _ _ _ _ _ _ HR Hl3) in Hl1. inversion Hl1; subst l1.
  exact (shaped_order _ i j st3 (Tall_of _ _ _ _ _ T3 Hl3) Hj3 Hst3 B).
Qed.

(* WINDOW, at the end of a poll: for every offer of items with an integer concurrency k, at most max(k,1) items of
   the task are active *)
Theorem poll_window : forall s c1 offers o n k, isys_inv2 s -> get_next_tasks ev (si_c s) = (c1, Val offers) ->
  ibad (isys_poll ev s) = false -> In o offers -> o_items_count o = Some (S n) ->
  o_concurrency o = Some k -> py_is_int k = true ->
  exists l, items_of (si_c (isys_poll ev s)) (o_id o) (o_route o) = Some l /\
            (Z.of_nat (nact l) <= effective_concurrency k)%Z.
Proof.
  intros s c1 offers o n k Hs Hg Hb Ho Hn Hk Hint. pose proof (poll_done s c1 offers Hs Hg Hb o Ho) as D.
  unfold done2 in D. rewrite Hn in D. destruct D as [l [Hl [_ [W _]]]]. exists l. split; [exact Hl|exact (W k Hk Hint)].
Qed.

(* ORDER inside one poll: the items offered for a task are consecutive, starting at the first item never offered *)
Theorem poll_offers_consecutive : forall s c1 offers o n, isys_inv2 s -> ibad s = false -> c_init (si_c s) = true ->
  get_next_tasks ev (si_c s) = (c1, Val offers) -> In o offers -> o_items_count o = Some (S n) ->
  exists pre u m, items_of c1 (o_id o) (o_route o) = Some (app pre (repeat S_UNSET u)) /\
                  Forall (fun st => st <> S_UNSET) pre /\
                  map a_item (o_actions o) = map Some (seq (length pre) m) /\ 0 < m <= u.
Proof.
  intros s c1 offers o n Hs Hb Hi Hg Ho Hn.
  assert (T : Tall shaped (si_c s)).
  { destruct (Hs Hb) as [[[Hu _] _]|[_ T]]; [congruence|exact T]. }
  destruct (gn_items_eff ev _ _ _ Hi Hg) as [HR Hof].
  pose proof (Tall_Rgn shaped _ _ shaped_repeat HR T) as T1.
  destruct (Hof o Ho) as [e [_ [_ [_ Hok]]]].
  pose proof (pend2_of_offer_ok _ _ _ T1 Hok) as P. unfold pend2 in P. rewrite Hn in P.
  destruct P as [pre [u [m [A [B [C [D _]]]]]]]. exists pre, u, m. repeat split; try assumption.
  destruct Hok as [_ [_ Hok]]. rewrite Hn in Hok. destruct Hok as [l [conc [conc' [actions [_ [_ [_ [_ [_ Hne]]]]]]]]].
  destruct m; [|lia]. destruct (o_actions o); [exfalso; apply Hne; reflexivity|discriminate C].
Qed.

(* WINDOW between polls: no other step makes an item active, or changes the number of items *)
Theorem step_window : forall s op t r l', isys_inv2 s -> op <> IPoll -> ibad (isys_step ev s op) = false ->
  items_of (si_c (isys_step ev s op)) t r = Some l' ->
  exists l, items_of (si_c s) t r = Some l /\ length l' = length l /\ nact l' <= nact l.
Proof.
  intros s op t r l' Hs Hop Hb Hl'.
  destruct (Hs (not_bad_before (fun x => isys_step ev x op) s (fun X => ibad_step_mono _ _ X) Hb)) as [[Hu HF]|I].
  - (* born by this step: every entry is a root entry without table *)
    exfalso. destruct (isys_step_unborn s op HF Hb) as [E|[c0 [En E]]]; rewrite E in *.
    + rewrite (unborn_no_table _ t r Hu) in Hl'. discriminate.
    + destruct (step_back_tdn (set_c s c0) op (born_link2 s c0 Hu HF En) Hop Hb _ _ _ Hl') as [l [Hl _]].
      destruct (items_of_entry _ _ _ _ Hl) as [e [He [_ [_ [Hit _]]]]]. rewrite (born_none _ _ Hu En e He) in Hit. discriminate.
  - destruct (step_back_tdn s op I Hop Hb _ _ _ Hl') as [l [Hl [[Hlen _] Hn]]]. exists l. auto.
Qed.

(* HELD: once the workflow is pausing, paused, canceling or canceled a poll offers nothing and changes nothing *)
Theorem held_poll_nothing : forall s, c_init (si_c s) = true ->
  In (wstatus (c_ws (si_c s))) [S_PAUSING; S_PAUSED; S_CANCELING; S_CANCELED] ->
  get_next_tasks ev (si_c s) = (si_c s, Val []) /\ isys_poll ev s = s.
Proof.
  intros s Hi Hw. pose proof (no_offers_when_held ev (si_c s) Hi Hw) as H. split; [exact H|].
  unfold isys_poll. rewrite H. simpl. rewrite orb_false_r. destruct s; reflexivity.
Qed.

(* EMPTY LIST: the acknowledgement of an empty offer puts nothing in flight *)
Lemma empty_offer_inflight : forall s o, o_items_count o = Some 0 -> si_inflight (isys_ack_offer ev s o) = si_inflight s.
Proof. intros s o H. unfold isys_ack_offer. rewrite H. rewrite !inflight_event. reflexivity. Qed.

(* WINDOW inside a poll: after the acknowledgement of any number of offers and of any number of the actions of the next
   one, every offer of the poll -- acknowledged already or not -- has at most max(k,1) active items *)
Theorem poll_window_inside : forall s c1 offers os1 o0 os2 as1 as2 o n k l,
  isys_inv2 s -> get_next_tasks ev (si_c s) = (c1, Val offers) -> ibad (isys_poll ev s) = false ->
  offers = app os1 (o0 :: os2) -> o_items_count o0 <> Some 0 -> o_actions o0 = app as1 as2 ->
  In o offers -> o_items_count o = Some (S n) -> o_concurrency o = Some k -> py_is_int k = true ->
  items_of (si_c (fold_left (isys_ack ev (o_id o0) (o_route o0)) as1
                            (fold_left (isys_ack_offer ev) os1 (poll_start s c1 offers)))) (o_id o) (o_route o) = Some l ->
  (Z.of_nat (nact l) <= effective_concurrency k)%Z.
Proof.
  intros s c1 offers os1 o0 os2 as1 as2 o n k l Hs Hg Hb Hsplit Hn0 Hacts Ho Hn Hk Hint Hl.
  pose proof (poll_done s c1 offers Hs Hg Hb o Ho) as D. unfold done2 in D. rewrite Hn in D.
  destruct D as [lf [Hlf [_ [W _]]]]. specialize (W k Hk Hint).
  destruct (poll_linked s c1 offers Hs (not_bad_before _ _ (ibad_poll_mono s) Hb) Hg) as [c0 [[I _] Hg0]].
  destruct (poll_ready (set_c s c0) c1 offers I Hg0) as [_ [[Hi0 [Hfo0 _]] _]].
  assert (Hfin : isys_poll ev s = fold_left (isys_ack_offer ev) offers (poll_start s c1 offers)) by (unfold isys_poll; rewrite Hg; reflexivity).
  rewrite Hfin in *. clear Hfin. subst offers. rewrite fold_left_app in Hb, Hlf. cbn [fold_left] in Hb, Hlf.
  set (sA := fold_left (isys_ack_offer ev) os1 (poll_start s c1 (app os1 (o0 :: os2)))) in *.
  set (mid := fold_left (isys_ack ev (o_id o0) (o_route o0)) as1 sA) in *.
  assert (HsB : isys_ack_offer ev sA o0 = fold_left (isys_ack ev (o_id o0) (o_route o0)) as2 mid).
  { unfold isys_ack_offer, mid. rewrite Hacts, fold_left_app. destruct (o_items_count o0) as [[|m]|]; [congruence|reflexivity|reflexivity]. }
  rewrite HsB in Hb, Hlf.
  pose proof (fold_head_ok _ _ ibad_ack_offer_mono _ _ Hb) as HbB. pose proof (fold_head_ok _ _ (ibad_ack_mono _ _) _ _ HbB) as Hbm.
  pose proof (fold_head_ok _ _ (ibad_ack_mono _ _) _ _ Hbm : ibad sA = false) as HbA.
  destruct (offers_back tup os1 (poll_start s c1 (app os1 (o0 :: os2))) tup_refl tup_trans tup_set Hi0 Hfo0 HbA) as [HiA [HfoA _]]. fold sA in HiA, HfoA.
  destruct (acks_back tup _ _ as1 sA tup_refl tup_trans (fun _ i l _ _ => tup_set l i) HiA HfoA Hbm) as [Him [Hfom _]]. fold mid in Him, Hfom.
  destruct (acks_back tup _ _ as2 mid tup_refl tup_trans (fun _ i l _ _ => tup_set l i) Him Hfom HbB) as [HiB [HfoB BackM]].
  destruct (offers_back tup os2 _ tup_refl tup_trans tup_set HiB HfoB Hb) as [_ [_ BackB]].
  destruct (BackB _ _ _ Hlf) as [lB [HlB [_ NB]]]. destruct (BackM _ _ _ HlB) as [lm [Hlm [_ NM]]].
  rewrite Hl in Hlm. inversion Hlm; subst lm. lia.
Qed.

End ItemSystem.

Section Reachable.
Variable ev : string -> dict -> evalres.
Variables (sp : wf_spec) (g : graph) (inputs parent : dict).

Definition ireach (ops : list isys_op) : isys := isys_run ev ops (isys_init sp g inputs parent).

Lemma ibad_false : forall s, si_fault s = false -> si_wiped s = false -> ibad s = false.
Proof. intros s A B. unfold ibad. rewrite A, B. reflexivity. Qed.

Lemma ireach_inv2 : forall ops, isys_inv2 (ireach ops).
Proof. intro ops. apply isys_run_inv2. apply isys_init_inv2. Qed.

Lemma ireach_app : forall ops1 ops2, ireach (app ops1 ops2) = isys_run ev ops2 (ireach ops1).
Proof. intros. unfold ireach, isys_run. apply fold_left_app. Qed.

(* LINK, item part, with the shape of the tables *)
Theorem items_link : forall ops, let s := ireach ops in
  si_fault s = false -> si_wiped s = false ->
  (forall t r i, In (t, r, Some i) (si_inflight s) ->
     exists l, items_of (si_c s) t r = Some l /\ nth_error l i = Some S_RUNNING) /\
  (forall e l i st, In e (staged (c_ws (si_c s))) -> s_items e = Some l -> nth_error l i = Some st ->
     status_in st ACTIVE_STATUSES = true -> st = S_RUNNING /\ In (s_id e, s_route e, Some i) (si_inflight s)) /\
  (forall e l, In e (staged (c_ws (si_c s))) -> s_items e = Some l -> shaped l) /\
  first_only (staged (c_ws (si_c s))).
Proof.
  intros ops s Hf Hw. destruct (ireach_inv2 ops (ibad_false _ Hf Hw)) as [[[_ Hws] HF]|[[_ [Hfo [H1 H2]]] T]].
  - fold s in Hws, HF. rewrite HF, Hws. simpl. split; [intros; contradiction|]. split; [intros; contradiction|].
    split; [intros; contradiction|exact I].
  - fold s in Hfo, H1, H2, T. split; [exact H1|]. split; [exact H2|]. split; [exact T|exact Hfo].
Qed.

(* WINDOW at the end of a poll *)
Theorem items_window_poll : forall ops c1 offers o n k, let s := ireach ops in
  si_fault (isys_poll ev s) = false -> si_wiped (isys_poll ev s) = false ->
  get_next_tasks ev (si_c s) = (c1, Val offers) -> In o offers -> o_items_count o = Some (S n) ->
  o_concurrency o = Some k -> py_is_int k = true ->
  exists l, items_of (si_c (isys_poll ev s)) (o_id o) (o_route o) = Some l /\
            (Z.of_nat (nact l) <= effective_concurrency k)%Z.
Proof.
  intros ops c1 offers o n k s Hf Hw Hg Ho Hn Hk Hint.
  exact (poll_window ev s c1 offers o n k (ireach_inv2 ops) Hg (ibad_false _ Hf Hw) Ho Hn Hk Hint).
Qed.

(* WINDOW between polls *)
Theorem items_window_step : forall ops op t r l', let s := ireach ops in op <> IPoll ->
  si_fault (isys_step ev s op) = false -> si_wiped (isys_step ev s op) = false ->
  items_of (si_c (isys_step ev s op)) t r = Some l' ->
  exists l, items_of (si_c s) t r = Some l /\ length l' = length l /\ nact l' <= nact l.
Proof.
  intros ops op t r l' s Hop Hf Hw Hl'. exact (step_window ev s op t r l' (ireach_inv2 ops) Hop (ibad_false _ Hf Hw) Hl').
Qed.

(* ORDER inside a poll *)
Theorem items_offers_consecutive : forall ops c1 offers o n, let s := ireach ops in
  si_fault s = false -> si_wiped s = false -> c_init (si_c s) = true ->
  get_next_tasks ev (si_c s) = (c1, Val offers) -> In o offers -> o_items_count o = Some (S n) ->
  exists pre u m, items_of c1 (o_id o) (o_route o) = Some (app pre (repeat S_UNSET u)) /\
                  Forall (fun st => st <> S_UNSET) pre /\
                  map a_item (o_actions o) = map Some (seq (length pre) m) /\ 0 < m <= u.
Proof.
  intros ops c1 offers o n s Hf Hw Hi Hg Ho Hn.
  exact (poll_offers_consecutive ev s c1 offers o n (ireach_inv2 ops) (ibad_false _ Hf Hw) Hi Hg Ho Hn).
Qed.

(* ONCE / ORDER across polls *)
Theorem items_once_order : forall ops1 ops2 t r i j,
  let s1 := ireach ops1 in let s3 := isys_run ev ops2 (isys_poll ev s1) in
  offered_by ev s1 t r j ->
  (forall pre post, ops2 = app pre post -> items_of (si_c (isys_run ev pre (isys_poll ev s1))) t r <> None) ->
  offered_by ev s3 t r i ->
  si_fault (isys_poll ev s3) = false -> si_wiped (isys_poll ev s3) = false -> j < i.
Proof.
  intros ops1 ops2 t r i j s1 s3 Hj Hal Hi Hf Hw.
  exact (once_order ev s1 ops2 t r i j (ireach_inv2 ops1) Hj Hal Hi (ibad_false _ Hf Hw)).
Qed.

(* WINDOW after every API call of a poll *)
Theorem items_window_inside : forall ops c1 offers os1 o0 os2 as1 as2 o n k l, let s := ireach ops in
  si_fault (isys_poll ev s) = false -> si_wiped (isys_poll ev s) = false ->
  get_next_tasks ev (si_c s) = (c1, Val offers) ->
  offers = app os1 (o0 :: os2) -> o_items_count o0 <> Some 0 -> o_actions o0 = app as1 as2 ->
  In o offers -> o_items_count o = Some (S n) -> o_concurrency o = Some k -> py_is_int k = true ->
  items_of (si_c (fold_left (isys_ack ev (o_id o0) (o_route o0)) as1
                            (fold_left (isys_ack_offer ev) os1 (poll_start s c1 offers)))) (o_id o) (o_route o) = Some l ->
  (Z.of_nat (nact l) <= effective_concurrency k)%Z.
Proof.
  intros ops c1 offers os1 o0 os2 as1 as2 o n k l s Hf Hw Hg.
  exact (poll_window_inside ev s c1 offers os1 o0 os2 as1 as2 o n k l (ireach_inv2 ops) Hg (ibad_false _ Hf Hw)).
Qed.

End Reachable.
