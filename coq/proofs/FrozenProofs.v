(* FrozenProofs.v -- C18, second half: a task execution record whose status is completed at an API
   boundary ("decided": the call that completed it has evaluated its outbound transitions, or was a
   retry that reopened it before doing so) keeps its status, its transition decisions (r_next), its
   published-context reference (r_out), its inbound contexts, predecessors, id, route and retry
   bookkeeping through every later API call -- only the "terminal" flag r_term may still change.

   One hypothesis is needed, per event: the engine's internal retry event, injected from outside, reopens a
   decided record (witness at the end of the file).  So an event must not address the decided record, or
   address an engine command, or address the record as a new start of a task staged again and not flagged
   completed (a loop iteration: a NEW record is appended), or not be the internal retry event.  A late duplicate
   completion report is absorbed, whatever retries the record has left (D33; witnesses at the end).
   Names ending in _w carry this hypothesis; the same names without the suffix ask in addition that the record has
   no retry left, and follow from the _w ones. *)
From Coq Require Import String List Bool ZArith Arith Lia.
From Orq Require Import GenStatuses GenEvents GenTables GenSpecMeta Base State Machines Codec Conductor Decode Api.
From Orq Require Import F_tables Hoare Frame ValuePost C13Proofs C05Proofs C18Proofs RetryProofs InertProofs ListFacts StateFacts.
Import ListNotations.
Open Scope string_scope.
Open Scope monad_scope.

Create HintDb prestk.
Create HintDb presfz.
Create HintDb presnx.
Create HintDb presno.

Definition decided (r : trec) : Prop := ostatus_in (r_status r) COMPLETED_STATUSES = true.

(* everything but r_term *)
Definition same_decided (r r' : trec) : Prop :=
  r_id r' = r_id r /\ r_route r' = r_route r /\ r_in r' = r_in r /\ r_prev r' = r_prev r /\
  r_status r' = r_status r /\ r_next r' = r_next r /\ r_out r' = r_out r /\ r_retry r' = r_retry r.

Lemma sd_refl : forall r, same_decided r r.
Proof. intro; repeat split. Qed.
Lemma sd_trans : forall a b c, same_decided a b -> same_decided b c -> same_decided a c.
Proof. unfold same_decided; intros a b c H1 H2; intuition congruence. Qed.

Definition retry_open (r : trec) : Prop :=
  exists rr, r_retry r = Some rr /\ py_is_int (rr_count rr) = true /\
             (Z.of_nat (rr_tally rr) < py_int_value (rr_count rr))%Z.

(* the engine's internal retry event (never sent by a provider) *)
Definition is_retry_event (e : event) : bool :=
  match e with EvEngine n _ => String.eqb n EV_TASK_RETRY_REQUESTED | _ => false end.

Lemma provider_event_not_retry : forall e, provider_event e = true -> is_retry_event e = false.
Proof. intros [st|st r|it st r a|n st] H; simpl in *; try reflexivity; discriminate. Qed.

Lemma F_active_not_completed : forall s, status_in s ACTIVE_STATUSES = true ->
  status_in s COMPLETED_STATUSES = true -> False.
Proof. intros s; destruct s; vm_compute; intros; discriminate. Qed.

Lemma active_not_decided : forall w j r, In j (map fst (ws_tasks_by_status w ACTIVE_STATUSES)) ->
  nth_error (sequence w) j = Some r -> ~ decided r.
Proof.
  intros w j r Hin Hn Hd. apply in_map_iff in Hin. destruct Hin as [[j' rj] [Ej Hin]]. simpl in Ej; subst j'.
  apply tasks_by_status_In in Hin. destruct Hin as [Hn' Ha]. rewrite Hn in Hn'; inversion Hn'; subst rj.
  unfold decided in Hd. destruct (r_status r) as [s|]; [|discriminate]. exact (F_active_not_completed s Ha Hd).
Qed.

Lemma F_completed_not_retrying : forall s, status_in s COMPLETED_STATUSES = true -> status_eqb s S_RETRYING = false.
Proof. intros s; destruct s; vm_compute; intros; try reflexivity; discriminate. Qed.

Lemma F_completed_step : forall s e t, status_in s COMPLETED_STATUSES = true ->
  tbl_step task_table s e = Some t -> e = EV_TASK_RETRY_REQUESTED.
Proof.
  intros s e t Hs H. apply status_in_In in Hs.
  pose proof (F_task_completed_final _ _ _ Hs H) as Ht. subst t.
  apply F_task_retrying_only_by_retry in H. tauto.
Qed.

Lemma prefix_literal_neq : forall p x q, String.get 0 p <> String.get 0 q -> String.get 0 p <> None ->
  (p ++ x)%string <> q.
Proof.
  intros p x q Hne Hn E. apply Hne. rewrite <- E. destruct p as [|a p]; [exfalso; apply Hn; reflexivity|reflexivity].
Qed.

Lemma item_event_name_not_retry : forall w t route item st n,
  item_event_name w t route item st = Val n -> n <> EV_TASK_RETRY_REQUESTED.
Proof.
  intros w t route item st n H. unfold item_event_name in H.
  assert (B : forall x, ((ACTION_EVENT_PREFIX ++ status_name st) ++ x)%string <> EV_TASK_RETRY_REQUESTED).
  { intro x. rewrite app_assoc_s. apply prefix_literal_neq; vm_compute; congruence. }
  assert (B0 : (ACTION_EVENT_PREFIX ++ status_name st)%string <> EV_TASK_RETRY_REQUESTED)
    by (apply prefix_literal_neq; vm_compute; congruence).
  destruct (negb (status_in st item_requirements)); [inversion H; subst; exact B0|].
  destruct (get_staged_task w t route) as [s|]; [|inversion H; subst; exact B0].
  destruct (s_items s) as [items|]; [|inversion H; subst; exact B0].
  destruct (negb (Nat.ltb item (length items))); [discriminate H|].
  cbv zeta in H.
  repeat match type of H with
         | (if ?b then _ else _) = _ => destruct b
         end; inversion H; subst; rewrite app_assoc_s; apply B.
Qed.

Lemma tpe_name_not_retry : forall w r evt n, is_retry_event evt = false -> tpe_name w r evt = Val n ->
  n <> EV_TASK_RETRY_REQUESTED.
Proof.
  intros w r evt n Hn H. destruct evt as [st|st res|item st res acc|nm st]; cbn [tpe_name] in H.
  - replace n with (task_workflow_event_name w (r_id r) (r_route r) st) by (inversion H; reflexivity).
    unfold task_workflow_event_name.
    assert (B : forall x, ((WORKFLOW_EVENT_PREFIX ++ status_name st) ++ x)%string <> EV_TASK_RETRY_REQUESTED).
    { intro x. rewrite app_assoc_s. apply prefix_literal_neq; vm_compute; congruence. }
    assert (B0 : (WORKFLOW_EVENT_PREFIX ++ status_name st)%string <> EV_TASK_RETRY_REQUESTED)
      by (apply prefix_literal_neq; vm_compute; congruence).
    destruct (status_in st (app PAUSE_STATUSES CANCEL_STATUSES)); [|exact B0].
    destruct (get_staged_task w (r_id r) (r_route r)) as [s|]; [|exact B0].
    destruct (s_items s); [|exact B0]. rewrite app_assoc_s. apply B.
  - replace n with (ev_name (EvAction st res)) by (inversion H; reflexivity).
    cbn [ev_name]. apply prefix_literal_neq; vm_compute; congruence.
  - eapply item_event_name_not_retry; exact H.
  - inversion H; subst n. cbn [ev_name]. simpl in Hn. intro E. subst nm. rewrite String.eqb_refl in Hn. discriminate.
Qed.

Lemma completed_step_none : forall w r evt ns, ostatus_in (r_status r) COMPLETED_STATUSES = true ->
  is_retry_event evt = false -> task_process_event w r evt = Val ns -> ns = None.
Proof.
  intros w r evt ns Hc Hn H. destruct (tpe_val _ _ _ _ H) as [n [En Hs]].
  destruct ns as [s|]; [exfalso|reflexivity]. apply (tpe_name_not_retry _ _ _ _ Hn En).
  eapply F_completed_step; [|exact Hs]. unfold rstatus. destruct (r_status r); [exact Hc|discriminate].
Qed.

(* the records outside the positions J are the same *)
Definition Rmod (J : list nat) (c c' : cstate) : Prop :=
  forall k, ~ In k J -> nth_error (sequence (c_ws c')) k = nth_error (sequence (c_ws c)) k.
Lemma Rmod_refl : forall J c, Rmod J c c.
Proof. intros J c k _; reflexivity. Qed.
Lemma Rmod_trans : forall J a b c, Rmod J a b -> Rmod J b c -> Rmod J a c.
Proof. intros J a b c H1 H2 k Hk. rewrite (H2 k Hk). apply H1; exact Hk. Qed.

Lemma Rmod_same_seq : forall J c c', sequence (c_ws c') = sequence (c_ws c) -> Rmod J c c'.
Proof. intros J c c' H k _; rewrite H; reflexivity. Qed.

Lemma Rmod_update : forall J c j f, In j J -> Rmod J c (set_ws c (ws_update_rec (c_ws c) j f)).
Proof.
  intros J c j f Hj k Hk. cbn [c_ws set_ws]. apply nth_update_rec_other. intro E; subst; contradiction.
Qed.

Lemma pmod_set_rec_status : forall J j s, In j J -> preserves (Rmod J) (set_rec_status j s).
Proof. intros J j s Hj. unfold set_rec_status. apply (preserves_modws (Rmod J)). intro c. apply Rmod_update; exact Hj. Qed.

Lemma pmod_wf_workflow_event : forall J st, preserves (Rmod J) (wf_workflow_event_M st).
Proof. intro J; apply (preserves_wf_workflow_event (Rmod J) (Rmod_refl J)); intros; apply Rmod_same_seq; reflexivity. Qed.

Lemma pmod_log_unreachable : forall J l, preserves (Rmod J) (log_unreachable l).
Proof.
  intros J l c c' r H. destruct (log_unreachable_run l c) as [c1 [H1 W1]]. rewrite H1 in H; inversion H; subst.
  apply Rmod_same_seq. rewrite W1. reflexivity.
Qed.

Lemma pmod_request_status_core : forall st c c' r, request_status_core st c = (c', r) ->
  Rmod (map fst (ws_tasks_by_status (c_ws c) ACTIVE_STATUSES)) c c'.
Proof.
  intros st c c' r H. rewrite request_status_core_eq in H.
  remember (ws_tasks_by_status (c_ws c) ACTIVE_STATUSES) as active eqn:Ea.
  set (J := map fst active).
  assert (HJ : forall j rj, In (j, rj) active -> In j J)
    by (intros j rj Hin; apply in_map_iff; exists (j, rj); split; [reflexivity|exact Hin]).
  assert (P : preserves (Rmod J) (bind (forM_ active (push_body st))
                                       (fun _ => request_tail st (wstatus (c_ws c)) active))).
  { apply (preserves_bind _ (Rmod_trans J)).
    - apply (preserves_forM_In _ (Rmod_refl J) (Rmod_trans J)). intros [j rj] Hin. unfold push_body.
      apply (preserves_bind _ (Rmod_trans J)); [apply (preserves_getws _ (Rmod_refl J))|intro w].
      destruct (nth_error (sequence w) j); [|apply (preserves_ret _ (Rmod_refl J))].
      apply (preserves_bind _ (Rmod_trans J)); [apply (preserves_lift_res _ (Rmod_refl J))|intros [s|]].
      + apply pmod_set_rec_status. eapply HJ; exact Hin.
      + apply (preserves_ret _ (Rmod_refl J)).
    - intros _. unfold request_tail.
      apply (preserves_bind _ (Rmod_trans J)); [apply pmod_wf_workflow_event|intro unr].
      apply (preserves_bind _ (Rmod_trans J)); [apply pmod_log_unreachable|intros _].
      apply (preserves_bind _ (Rmod_trans J)); [apply (preserves_getws _ (Rmod_refl J))|intro w1]. cbv zeta.
      repeat match goal with |- preserves _ (if ?b then _ else _) => destruct b end;
        try apply (preserves_ret _ (Rmod_refl J)).
      apply (preserves_bind _ (Rmod_trans J)); [|intros _; apply (preserves_raise _ (Rmod_refl J))].
      apply (preserves_forM_In _ (Rmod_refl J) (Rmod_trans J)). intros [j rj] Hin.
      apply pmod_set_rec_status. eapply HJ; exact Hin. }
  exact (P c c' r H).
Qed.

(* the index of records by task and route is the same *)
Definition Rtk (c c' : cstate) : Prop := tasks (c_ws c') = tasks (c_ws c).
Lemma Rtk_refl : forall c, Rtk c c.
Proof. intro; reflexivity. Qed.
Lemma Rtk_trans : forall a b c, Rtk a b -> Rtk b c -> Rtk a c.
Proof. unfold Rtk; intros; congruence. Qed.

Section TasksKept.
Variable ev : string -> dict -> evalres.

Lemma ptk_modws : forall f, (forall w, tasks (f w) = tasks w) -> preserves Rtk (modws f).
Proof. intros f Hf; apply (preserves_modws Rtk); intro c. apply Hf. Qed.
Lemma ptk_modify : forall f, (forall c, c_ws (f c) = c_ws c) -> preserves Rtk (modify f).
Proof. intros f Hf; apply (preserves_modify Rtk); intro c. unfold Rtk; rewrite Hf; reflexivity. Qed.
Lemma ptk_wf_workflow_event : forall st, preserves Rtk (wf_workflow_event_M st).
Proof. apply (preserves_wf_workflow_event Rtk Rtk_refl); reflexivity. Qed.
Lemma ptk_log_entry_error : forall m t r tr res, preserves Rtk (log_entry_error m t r tr res).
Proof. intros; apply ptk_modify; intro c; cbv zeta. destruct (existsb _ _); reflexivity. Qed.
Lemma ptk_set_rec_status : forall j s, preserves Rtk (set_rec_status j s).
Proof. intros; apply ptk_modws; intro; apply tasks_update_rec. Qed.
Hint Resolve ptk_modws ptk_modify ptk_wf_workflow_event ptk_log_entry_error ptk_set_rec_status : prestk.

Lemma ptk_log_error : forall e t r tr, preserves Rtk (log_error e t r tr).
Proof. intros; apply (frame_log_error Rtk); auto with prestk. Qed.
Lemma ptk_log_errors : forall es t r tr, preserves Rtk (log_errors es t r tr).
Proof. intros; apply (frame_log_errors Rtk Rtk_refl Rtk_trans); auto with prestk. Qed.
Lemma ptk_log_unreachable : forall l, preserves Rtk (log_unreachable l).
Proof. intros; apply (frame_log_unreachable Rtk Rtk_refl Rtk_trans); auto with prestk. Qed.
Lemma ptk_request_status_core : forall st, preserves Rtk (request_status_core st).
Proof. intros; apply (frame_request_status_core Rtk Rtk_refl Rtk_trans); auto with prestk. Qed.
Lemma ptk_render_input : forall specs rt rolling errs, preserves Rtk (render_input ev specs rt rolling errs).
Proof. intros; apply (frame_render_input ev Rtk Rtk_refl Rtk_trans). Qed.
Lemma ptk_render_vars : forall specs rolling rendered errs, preserves Rtk (render_vars ev specs rolling rendered errs).
Proof. intros; apply (frame_render_vars ev Rtk Rtk_refl Rtk_trans). Qed.
Lemma ptk_ensure_ws : preserves Rtk (ensure_ws ev).
Proof. apply (frame_ensure_ws ev Rtk Rtk_refl Rtk_trans); auto with prestk. Qed.
End TasksKept.

Section Frozen.
Variable i : nat.
Variable r0 : trec.
Hypothesis Hdec : decided r0.

(* position i holds the decided record r0 up to its terminal flag; Rf: a step keeps that *)
Definition Fz (c : cstate) : Prop :=
  exists r, nth_error (sequence (c_ws c)) i = Some r /\ same_decided r0 r.
Definition Rf (c c' : cstate) : Prop := Fz c -> Fz c'.

Lemma Rf_refl : forall c, Rf c c.
Proof. intros c H; exact H. Qed.
Lemma Rf_trans : forall a b c, Rf a b -> Rf b c -> Rf a c.
Proof. unfold Rf; intros; auto. Qed.

Lemma Rf_same_seq : forall c c', sequence (c_ws c') = sequence (c_ws c) -> Rf c c'.
Proof. intros c c' H [r [Hn Hs]]. exists r; rewrite H; split; assumption. Qed.

Lemma Rf_update_other : forall c j f, j <> i -> Rf c (set_ws c (ws_update_rec (c_ws c) j f)).
Proof.
  intros c j f Hj [r [Hn Hs]]. exists r; split; [|exact Hs]. cbn [c_ws set_ws].
  rewrite nth_update_rec_other by exact Hj. exact Hn.
Qed.

Lemma Rf_update_sd : forall c j f, (forall r, same_decided r (f r)) -> Rf c (set_ws c (ws_update_rec (c_ws c) j f)).
Proof.
  intros c j f Hf [r [Hn Hs]]. destruct (Nat.eq_dec j i) as [->|Hj].
  - exists (f r); split; [|eapply sd_trans; [exact Hs|apply Hf]]. cbn [c_ws set_ws].
    apply nth_update_rec_same; exact Hn.
  - apply (Rf_update_other c j f Hj). exists r; split; assumption.
Qed.

Lemma Rf_append : forall c r tk,
  Rf c (set_ws c (ws_set_tasks (ws_set_sequence (c_ws c) (app (sequence (c_ws c)) [r])) tk)).
Proof.
  intros c r tk [r1 [Hn Hs]]. exists r1; split; [|exact Hs]. cbn [c_ws set_ws sequence ws_set_tasks ws_set_sequence].
  rewrite nth_error_app1; [exact Hn|]. apply nth_error_Some; congruence.
Qed.

Lemma Fz_status : forall c r, Fz c -> nth_error (sequence (c_ws c)) i = Some r -> same_decided r0 r.
Proof. intros c r [r1 [Hn Hs]] H. rewrite Hn in H; inversion H; subst; exact Hs. Qed.

Lemma sd_decided : forall r, same_decided r0 r -> ostatus_in (r_status r) COMPLETED_STATUSES = true.
Proof. intros r [_ [_ [_ [_ [Hs _]]]]]. rewrite Hs. exact Hdec. Qed.

Lemma sd_rstatus_completed : forall r, same_decided r0 r -> status_in (rstatus r) COMPLETED_STATUSES = true.
Proof.
  intros r H. pose proof (sd_decided r H) as D. unfold rstatus. destruct (r_status r); [exact D|discriminate].
Qed.

Lemma Fz_not_fresh : forall c j r, Fz c -> nth_error (sequence (c_ws c)) j = Some r -> r_status r = None -> j <> i.
Proof.
  intros c j r Hf Hn Hs E. subst j. pose proof (sd_decided r (Fz_status c r Hf Hn)) as D.
  rewrite Hs in D. discriminate.
Qed.

Lemma pfz_request_status_core : forall st, preserves Rf (request_status_core st).
Proof.
  intros st c c' r H [r1 [Hn Hs]]. pose proof (pmod_request_status_core st c c' r H) as Hm.
  exists r1; split; [|exact Hs]. rewrite Hm; [exact Hn|].
  intro Hin. exact (active_not_decided _ _ _ Hin Hn (sd_decided r1 Hs)).
Qed.

Section WithEval.
Variable ev : string -> dict -> evalres.

Lemma pfz_modws : forall f, (forall w, sequence (f w) = sequence w) -> preserves Rf (modws f).
Proof. intros f Hf; apply (preserves_modws Rf); intro c. apply Rf_same_seq, Hf. Qed.
Lemma pfz_modify : forall f, (forall c, sequence (c_ws (f c)) = sequence (c_ws c)) -> preserves Rf (modify f).
Proof. intros f Hf; apply (preserves_modify Rf); intro c. apply Rf_same_seq, Hf. Qed.
Lemma pfz_new_rec : forall r k idx,
  preserves Rf (modws (fun w => ws_set_tasks (ws_set_sequence w (app (sequence w) [r])) (aset tkey_eqb k idx (tasks w)))).
Proof. intros; apply (preserves_modws Rf); intro c. apply Rf_append. Qed.
Lemma pfz_upd_sd : forall j f, (forall r, same_decided r (f r)) -> preserves Rf (upd_rec j f).
Proof. intros j f Hf; apply (preserves_modws Rf); intro c. apply Rf_update_sd, Hf. Qed.
Lemma pfz_upd_other : forall j f, j <> i -> preserves Rf (upd_rec j f).
Proof. intros j f Hj; apply (preserves_modws Rf); intro c. apply Rf_update_other, Hj. Qed.

Lemma pfz_wf_workflow_event : forall st, preserves Rf (wf_workflow_event_M st).
Proof. apply (preserves_wf_workflow_event Rf Rf_refl); intros; apply Rf_same_seq; reflexivity. Qed.
Lemma pfz_wf_task_event : forall t route st, preserves Rf (wf_task_event_M t route st).
Proof. apply (preserves_wf_task_event Rf Rf_refl); intros; apply Rf_same_seq; reflexivity. Qed.
Lemma pfz_log_entry_error : forall m t r tr res, preserves Rf (log_entry_error m t r tr res).
Proof. intros; apply pfz_modify; intro c; cbv zeta. destruct (existsb _ _); reflexivity. Qed.
Hint Resolve pfz_modws pfz_modify pfz_new_rec pfz_upd_sd pfz_upd_other pfz_wf_workflow_event pfz_wf_task_event
  pfz_log_entry_error pfz_request_status_core seq_remove_staged : presfz.
Hint Extern 1 (same_decided _ _) => repeat split : presfz.
Ltac walk := pw Rf_refl Rf_trans ltac:(solve [auto with presfz]).

Lemma pfz_log_error : forall e t r tr, preserves Rf (log_error e t r tr).
Proof. intros; apply (frame_log_error Rf); auto with presfz. Qed.
Hint Resolve pfz_log_error : presfz.
Lemma pfz_log_errors : forall es t r tr, preserves Rf (log_errors es t r tr).
Proof. intros; apply (frame_log_errors Rf Rf_refl Rf_trans); auto with presfz. Qed.
Hint Resolve pfz_log_errors : presfz.
Lemma pfz_log_unreachable : forall l, preserves Rf (log_unreachable l).
Proof. intros; apply (frame_log_unreachable Rf Rf_refl Rf_trans); auto with presfz. Qed.
Hint Resolve pfz_log_unreachable : presfz.
Lemma pfz_render_input : forall specs rt rolling errs, preserves Rf (render_input ev specs rt rolling errs).
Proof. intros; apply (frame_render_input ev Rf Rf_refl Rf_trans). Qed.
Hint Resolve pfz_render_input : presfz.
Lemma pfz_render_vars : forall specs rolling rendered errs, preserves Rf (render_vars ev specs rolling rendered errs).
Proof. intros; apply (frame_render_vars ev Rf Rf_refl Rf_trans). Qed.
Hint Resolve pfz_render_vars : presfz.
Lemma pfz_ensure_ws : preserves Rf (ensure_ws ev).
Proof. unfold ensure_ws; walk. Qed.
Hint Resolve pfz_ensure_ws : presfz.
Lemma pfz_request_workflow_status : forall st, preserves Rf (request_workflow_status ev st).
Proof. intros; unfold request_workflow_status; walk. Qed.
Lemma pfz_get_task_context : forall idxs, preserves Rf (get_task_context idxs).
Proof. intros; apply (frame_get_task_context Rf Rf_refl Rf_trans). Qed.
Hint Resolve pfz_get_task_context : presfz.
Lemma pfz_render_task : forall ts ctx, preserves Rf (render_task ev ts ctx).
Proof. intros; apply (frame_render_task ev Rf Rf_refl Rf_trans). Qed.
Hint Resolve pfz_render_task : presfz.
Lemma pfz_next_task_for : forall s, preserves Rf (next_task_for ev s).
Proof. intros; apply (frame_next_task_for ev Rf Rf_refl Rf_trans); auto with presfz. Qed.
Hint Resolve pfz_next_task_for : presfz.
Lemma pfz_get_next_tasks : preserves Rf (get_next_tasks ev).
Proof. unfold get_next_tasks; walk. Qed.
Lemma pfz_setup_retry : forall t idxs, preserves Rf (setup_retry ev t idxs).
Proof. intros; apply (frame_setup_retry ev Rf Rf_refl Rf_trans). Qed.
Hint Resolve pfz_setup_retry : presfz.
Lemma pfz_add_task_state : forall t r ins p, preserves Rf (add_task_state ev t r ins p).
Proof. intros; unfold add_task_state; walk. Qed.
Hint Resolve pfz_add_task_state : presfz.
Lemma pfz_evaluate_route : forall e r, preserves Rf (evaluate_route e r).
Proof. intros; apply (frame_evaluate_route Rf Rf_refl Rf_trans); auto with presfz. Qed.
Hint Resolve pfz_evaluate_route : presfz.
Lemma pfz_evaluate_task_retry : forall r ctx, preserves Rf (evaluate_task_retry ev r ctx).
Proof. intros; apply (frame_evaluate_task_retry ev Rf Rf_refl Rf_trans). Qed.
Hint Resolve pfz_evaluate_task_retry : presfz.
Lemma pfz_finalize_context : forall ts e ctx, preserves Rf (finalize_context ev ts e ctx).
Proof. intros; apply (frame_finalize_context ev Rf Rf_refl Rf_trans). Qed.
Hint Resolve pfz_finalize_context : presfz.
Lemma pfz_get_rec : forall j, preserves Rf (get_rec j).
Proof. intros; apply (frame_get_rec Rf Rf_refl Rf_trans). Qed.
Hint Resolve pfz_get_rec : presfz.
Lemma pfz_merge_term_contexts : forall l acc, preserves Rf (merge_term_contexts l acc).
Proof. intros; apply (frame_merge_term_contexts Rf Rf_refl Rf_trans). Qed.
Hint Resolve pfz_merge_term_contexts : presfz.
Lemma pfz_render_workflow_output : preserves Rf (render_workflow_output ev).
Proof. unfold render_workflow_output, get_workflow_terminal_context; walk. Qed.
Lemma pfz_request_task_rerun : forall t r b, preserves Rf (request_task_rerun ev t r b).
Proof. intros; unfold request_task_rerun; walk. Qed.
Hint Resolve pfz_request_task_rerun : presfz.
Lemma pfz_request_workflow_rerun : forall reqs, preserves Rf (request_workflow_rerun ev reqs).
Proof. intros; unfold request_workflow_rerun; walk. Qed.

Lemma pfz_need_staged : forall s0, preserves Rf (uts_need_staged s0).
Proof. intros; apply (frame_need_staged Rf Rf_refl). Qed.
Hint Resolve pfz_need_staged : presfz.
Lemma pfz_sel1 : forall t s0 e0, preserves Rf (uts_sel1 ev t s0 e0).
Proof. intros; unfold uts_sel1; walk. Qed.
Lemma pfz_sel2 : forall t evt s0 r1 j, preserves Rf (uts_sel2 ev t evt s0 r1 j).
Proof. intros; unfold uts_sel2; walk. Qed.
Lemma pfz_unstage : forall t route evt s0, preserves Rf (uts_unstage t route evt s0).
Proof. intros; apply (frame_unstage Rf Rf_refl); auto with presfz. Qed.
Lemma pfz_item : forall t route evt s0, preserves Rf (uts_item t route evt s0).
Proof. intros; apply (frame_item Rf Rf_refl); auto with presfz. Qed.
Lemma pfz_logfail : forall t evt, preserves Rf (uts_logfail t evt).
Proof. intros; apply (frame_logfail Rf Rf_refl); auto with presfz. Qed.
Lemma pfz_completion : forall t route evt ts idx ns o0, preserves Rf (uts_completion ev t route evt ts idx ns o0).
Proof. intros; unfold uts_completion; walk. Qed.
Hint Resolve pfz_completion : presfz.

Section Other.
Variable idx : nat.
Hypothesis Hne : idx <> i.

Lemma pfz_set_rec_status_o : forall s, preserves Rf (set_rec_status idx s).
Proof. intros; apply pfz_upd_other, Hne. Qed.
Lemma pfz_setst_o : forall ns, preserves Rf (uts_setst idx ns).
Proof. intros [s|]; unfold uts_setst; [apply pfz_set_rec_status_o|apply (preserves_ret _ Rf_refl)]. Qed.
Lemma pfz_retrying_o : forall t route r ns, preserves Rf (uts_retrying t route idx r ns).
Proof. intros; unfold uts_retrying; walk. Qed.
Lemma pfz_process_transition_o : forall t route ts ctx e, preserves Rf (process_transition ev t route idx ts ctx e).
Proof. intros; unfold process_transition; walk. Qed.
Hint Resolve pfz_process_transition_o : presfz.
Lemma pfz_queue_o : forall t route ts o n compl, preserves Rf (uts_queue ev t route idx ts o n compl).
Proof. intros; unfold uts_queue; walk. Qed.
Lemma pfz_pre_machine_o : forall t route evt ts, preserves Rf (pre_machine ev t route evt ts idx).
Proof. intros; unfold pre_machine; pw Rf_refl Rf_trans ltac:(solve [auto using pfz_setst_o, pfz_retrying_o with presfz]). Qed.
End Other.

Lemma pfz_upd_term : forall j b, preserves Rf (upd_rec j (fun r => r_set_term r b)).
Proof. intros; apply pfz_upd_sd; intro; repeat split. Qed.

Lemma bind_fz : forall A B (m : M A) (f : A -> M B) (Post : result B -> Prop) c c' res,
  bind m f c = (c', res) -> Fz c -> preserves Rf m -> (forall e, Post (Exc e)) ->
  (forall c1 a, m c = (c1, Val a) -> Fz c1 -> f a c1 = (c', res) -> Fz c' /\ Post res) ->
  Fz c' /\ Post res.
Proof.
  intros A B m f Post c c' res H Hf Hm He Hk. apply bind_inv in H.
  destruct H as [[c1 [a [E H]]]|[e [E ->]]].
  - apply (Hk c1 a E); [eapply Hm; [exact E|exact Hf]|exact H].
  - split; [eapply Hm; [exact E|exact Hf]|apply He].
Qed.

Definition tail_ok (p : pre_out) : Prop :=
  po_idx p <> i \/ (po_new p = po_old p /\ forall ctx b, po_compl p = Some (ctx, b) -> b = false).
Definition PostP (res : result pre_out) : Prop := forall p, res = Val p -> tail_ok p.

Lemma PostP_exc : forall e, PostP (Exc e).
Proof. intros e p H; discriminate. Qed.

(* the task machine on the frozen record itself: a non-retry event leaves it as it is, and -- D33: the status did not
   change -- the completion step does not decide to retry, whatever retries are left *)
Lemma pre_machine_same : forall t route evt ts c c' res,
  is_retry_event evt = false ->
  pre_machine ev t route evt ts i c = (c', res) -> Fz c -> Fz c' /\ PostP res.
Proof.
  intros t route evt ts c c' res Hne H Hf. unfold pre_machine in H.
  eapply bind_fz; [exact H|exact Hf|apply pfz_get_rec|apply PostP_exc|]. clear H Hf.
  intros c1 r E Hf H. apply get_rec_inv in E; destruct E as [-> Hr].
  pose proof (Fz_status _ _ Hf Hr) as Sr.
  eapply bind_fz; [exact H|exact Hf|apply (preserves_getws _ Rf_refl)|apply PostP_exc|]. clear H.
  intros c1 w E Hf1 H. inversion E; subst c1 w; clear E Hf1.
  eapply bind_fz; [exact H|exact Hf|apply (preserves_lift_res _ Rf_refl)|apply PostP_exc|]. clear H.
  intros c1 ns E Hf1 H. apply lift_res_inv in E; destruct E as [-> Ens]. clear Hf1.
  assert (ns = None) as -> by (eapply completed_step_none; [apply sd_decided; exact Sr|exact Hne|symmetry; exact Ens]).
  cbn [uts_setst] in H.
  eapply bind_fz; [exact H|exact Hf|apply (preserves_ret _ Rf_refl)|apply PostP_exc|]. clear H.
  intros c1 u E Hf1 H. inversion E; subst c1; clear E Hf1.
  eapply bind_fz; [exact H|exact Hf|apply pfz_get_rec|apply PostP_exc|]. clear H.
  intros c1 r' E Hf1 H. apply get_rec_inv in E; destruct E as [-> Hr']. clear Hf1.
  rewrite Hr in Hr'; inversion Hr'; subst r'; clear Hr'.
  assert (Er : uts_retrying t route i r (rstatus r) = ret tt).
  { unfold uts_retrying. rewrite (F_completed_not_retrying _ (sd_rstatus_completed r Sr)). reflexivity. }
  rewrite Er in H.
  eapply bind_fz; [exact H|exact Hf|apply (preserves_ret _ Rf_refl)|apply PostP_exc|]. clear H.
  intros c1 u' E Hf1 H. inversion E; subst c1; clear E Hf1.
  eapply bind_fz; [exact H|exact Hf|apply pfz_completion|apply PostP_exc|]. clear H.
  intros c2 compl E Hf2 H. inversion H; subst c' res; clear H.
  split; [exact Hf2|]. intros p Hp; inversion Hp; subst p; clear Hp. right. cbn [po_new po_old po_compl].
  split; [reflexivity|]. intros ctx b Hc.
  destruct (completion_inv _ _ _ _ _ _ _ _ _ _ _ E) as [[_ [Hn _]]|[_ [c3 [r3 [ctx3 [b3 [_ [_ [_ [Hc3 [_ [_ Hdiff]]]]]]]]]]]].
  - rewrite Hn in Hc; discriminate.
  - rewrite Hc3 in Hc; inversion Hc; subst ctx3 b3. destruct b; [exfalso|reflexivity].
    apply (Hdiff eq_refl). reflexivity.
Qed.

Definition sel_ok (t : string) (evt : event) (s0 : option stg) (e0 : option nat) : Prop :=
  e0 <> Some i \/ is_engine_command t = true \/
  (status_in (ev_status evt) STARTING_STATUSES = true /\ exists s, s0 = Some s /\ s_completed s = false) \/
  is_retry_event evt = false.

Lemma fresh_not_frozen : forall t rt ins prev c c' idx,
  add_task_state ev t rt ins prev c = (c', Val idx) -> Fz c' -> idx <> i.
Proof.
  intros t rt ins prev c c' idx H Hf. destruct (add_task_state_inv _ _ _ _ _ _ _ _ H) as [r [Hn [Hs _]]].
  eapply Fz_not_fresh; eassumption.
Qed.

Lemma pre_main_fz : forall t route evt ts s0 e0 c c' res,
  pre_main ev t route evt ts s0 e0 c = (c', res) -> Fz c -> sel_ok t evt s0 e0 -> Fz c' /\ PostP res.
Proof.
  intros t route evt ts s0 e0 c c' res H Hf Hok. unfold pre_main in H.
  eapply bind_fz; [exact H|exact Hf|apply pfz_sel1|apply PostP_exc|]. clear H Hf.
  intros c1 idx1 E1 Hf1 H.
  assert (A1 : idx1 <> i \/ (e0 = Some idx1 /\ is_engine_command t = false)).
  { destruct (sel1_inv _ _ _ _ _ _ _ E1) as [[He [Hc _]]|[s [_ Ha]]]; [right; split; assumption|left].
    eapply fresh_not_frozen; eassumption. }
  eapply bind_fz; [exact H|exact Hf1|apply pfz_get_rec|apply PostP_exc|]. clear H.
  intros c1' r1 E Hf1' H. apply get_rec_inv in E; destruct E as [-> Hr1]. clear Hf1'.
  eapply bind_fz; [exact H|exact Hf1|apply pfz_sel2|apply PostP_exc|]. clear H.
  intros c2 idx E2 Hf2 H.
  assert (A2 : idx <> i \/ is_retry_event evt = false).
  { unfold uts_sel2 in E2.
    destruct (ostatus_in (r_status r1) COMPLETED_STATUSES && status_in (ev_status evt) STARTING_STATUSES
              && match s0 with Some s1 => negb (s_completed s1) | None => false end) eqn:Ec.
    - left. apply bind_val_inv' in E2. destruct E2 as [c0 [s [_ Ha]]]. eapply fresh_not_frozen; eassumption.
    - inversion E2; subst idx c2; clear E2.
      destruct A1 as [A1|[He Hcmd]]; [left; exact A1|].
      destruct (Nat.eq_dec idx1 i) as [->|Hn]; [|left; exact Hn].
      destruct Hok as [Hok|[Hok|[[Hst [s1 [Hs0 Hsc]]]|Hok]]]; [congruence|congruence| |right; exact Hok].
      exfalso. rewrite (sd_decided r1 (Fz_status _ _ Hf1 Hr1)), Hst in Ec. subst s0. rewrite Hsc in Ec. discriminate. }
  eapply bind_fz; [exact H|exact Hf2|apply pfz_unstage|apply PostP_exc|]. clear H.
  intros c3 u3 _ Hf3 H.
  eapply bind_fz; [exact H|exact Hf3|apply pfz_item|apply PostP_exc|]. clear H.
  intros c4 u4 _ Hf4 H.
  eapply bind_fz; [exact H|exact Hf4|apply pfz_logfail|apply PostP_exc|]. clear H.
  intros c5 u5 _ Hf5 H.
  destruct (Nat.eq_dec idx i) as [->|Hn].
  - destruct A2 as [A2|Hne]; [congruence|]. eapply pre_machine_same; eassumption.
  - split; [eapply (pfz_pre_machine_o idx Hn); [exact H|exact Hf5]|].
    intros p Hp; subst res. left.
    destruct (pre_machine_inv _ _ _ _ _ _ _ _ _ H) as [r [ns [ca [cb Hx]]]].
    decompose [and] Hx. congruence.
Qed.

Definition safe_w (c : cstate) (t : string) (route : nat) (evt : event) : Prop :=
  ws_task_idx (c_ws c) t route <> Some i \/ is_engine_command t = true \/
  (c_init c = true /\ status_in (ev_status evt) STARTING_STATUSES = true /\
   exists s, get_staged_task (c_ws c) t route = Some s /\ s_completed s = false) \/
  is_retry_event evt = false.

Lemma prefix_fz : forall t route evt c c' res,
  uts_prefix ev t route evt c = (c', res) -> Fz c -> safe_w c t route evt -> Fz c' /\ PostP res.
Proof.
  intros t route evt c c' res H Hf Hs.
  destruct (prefix_run ev _ _ _ _ _ _ H) as [c1 [r1 [E1 Hc]]].
  pose proof (pfz_ensure_ws _ _ _ E1 Hf) as Hf1.
  destruct Hc as [[e [_ [-> ->]]]|[[_ [-> Hr]]|[-> [ts [_ [_ [_ Hm]]]]]]].
  - split; [exact Hf1|apply PostP_exc].
  - split; [exact Hf1|]. destruct Hr as [[_ ->]|[[_ [_ ->]]|[_ [_ [_ [_ ->]]]]]]; apply PostP_exc.
  - eapply pre_main_fz; [exact Hm|exact Hf1|]. destruct Hs as [Hs|[Hs|[[Hi [Hst Hsg]]|Hs]]].
    + left. unfold ws_task_idx in *. rewrite (ptk_ensure_ws ev _ _ _ E1). exact Hs.
    + right; left; exact Hs.
    + right; right; left. rewrite (ensure_ws_inited ev c Hi) in E1. inversion E1; subst c1. split; assumption.
    + right; right; right; exact Hs.
Qed.

Lemma prefix_pointer : forall t route evt c c' p ctx,
  uts_prefix ev t route evt c = (c', Val p) -> po_compl p = Some (ctx, true) ->
  ws_task_idx (c_ws c') t route = Some (po_idx p).
Proof. intros t route evt c c' p ctx H Hc. exact (proj1 (prefix_decided ev _ _ _ _ _ _ _ H Hc)). Qed.

Lemma tail_fz : forall rec,
  (forall t route evt c c' res, rec t route evt c = (c', res) -> Fz c -> safe_w c t route evt -> Fz c') ->
  forall t route p c c' res, tail_of ev rec t route p c = (c', res) -> Fz c -> tail_ok p ->
  (forall ctx, po_compl p = Some (ctx, true) -> ws_task_idx (c_ws c) t route = Some (po_idx p)) -> Fz c'.
Proof.
  intros rec IH t route p c c' res H Hf Hok Hptr. unfold tail_of in H. rewrite uts_tail_eq in H.
  assert (Hnr : preserves Rf (uts_rest ev rec t route (po_ts p) (po_idx p) (po_old p) (po_new p) (po_compl p))).
  { apply (preserves_bind_v _ Rf_trans _ _ (Forall cmd_pair)); [apply queue_cmds| |intros q Hq].
    - destruct Hok as [Hn|[Hsame Hb]]; [apply pfz_queue_o; exact Hn|].
      unfold uts_queue. destruct (po_compl p) as [[ctx b]|]; [|apply (preserves_ret _ Rf_refl)].
      rewrite Hsame, status_eqb_refl. apply (preserves_ret _ Rf_refl).
    - apply (uts_after_pres Rf Rf_refl Rf_trans pfz_log_entry_error pfz_wf_task_event pfz_upd_term).
      intros n rt e Hin _ ca cb rr Hr Hfa. rewrite Forall_forall in Hq.
      eapply IH; [exact Hr|exact Hfa|]. right; left; exact (Hq _ Hin). }
  revert H Hnr. destruct (po_compl p) as [[ctx [|]]|] eqn:Ec; intros H Hnr; [|exact (Hnr _ _ _ H Hf)|exact (Hnr _ _ _ H Hf)].
  eapply IH; [exact H|exact Hf|]. left. rewrite (Hptr ctx eq_refl).
  destruct Hok as [Hn|[_ Hb]]; [congruence|]. specialize (Hb ctx true Ec); discriminate.
Qed.

Lemma uts_frozen_w : forall fuel t route evt c c' res,
  update_task_state_fuel ev fuel t route evt c = (c', res) -> Fz c -> safe_w c t route evt -> Fz c'.
Proof.
  intros fuel t route evt c c' res H.
  refine (uts_fuel_ind ev (fun t route evt c c' _ => Fz c -> safe_w c t route evt -> Fz c') _ _ fuel t route evt c c' res H);
    [auto|].
  clear fuel t route evt c c' res H. intros rec IH t route evt c c' res H Hf Hs. rewrite body_eq in H. apply bind_inv in H.
  destruct H as [[c1 [p [E H]]]|[e [E ->]]]; destruct (prefix_fz _ _ _ _ _ _ E Hf Hs) as [Hf1 Hp]; [|exact Hf1].
  eapply tail_fz; [intros; eapply IH; eassumption|exact H|exact Hf1|apply Hp; reflexivity|].
  intros ctx Hc. eapply prefix_pointer; eassumption.
Qed.

Definition op_safe_w (c : cstate) (op : api_op) : Prop :=
  match op with
  | OpEvent t route evt => safe_w c t route evt
  | OpPersist => c_init c = true
  | _ => True
  end.

Theorem api_frozen_w : forall op c c' res, op_safe_w c op -> api_exec ev op c = (c', res) -> Fz c -> Fz c'.
Proof.
  intros op c c' res Hs H Hf. replace c' with (fst (api_exec ev op c)) by (rewrite H; reflexivity).
  rewrite api_exec_state. destruct op; cbn [api_state].
  - exact (preserves_fst Rf _ _ pfz_ensure_ws c Hf).
  - exact (preserves_fst Rf _ _ (pfz_request_workflow_status st) c Hf).
  - exact (preserves_fst Rf _ _ pfz_get_next_tasks c Hf).
  - destruct (update_task_state ev t route e c) as [c1 r1] eqn:E. exact (uts_frozen_w _ _ _ _ _ _ _ E Hf Hs).
  - exact (preserves_fst Rf _ _ pfz_render_workflow_output c Hf).
  - exact (preserves_fst Rf _ _ (pfz_request_workflow_rerun reqs) c Hf).
  - exact (preserves_fst Rf _ _ pfz_ensure_ws c Hf).
Qed.

Fixpoint hist_safe_w (ops : list api_op) (c : cstate) : Prop :=
  match ops with
  | [] => True
  | op :: ops' => op_safe_w c op /\ hist_safe_w ops' (fst (api_exec ev op c))
  end.

Theorem history_frozen_w : forall ops c, hist_safe_w ops c -> Fz c -> Fz (run_ops ev ops c).
Proof.
  induction ops as [|op ops IH]; intros c Hs Hf; cbn [run_ops fold_left]; [exact Hf|].
  destruct Hs as [Ho Hs]. apply IH; [exact Hs|].
  destruct (api_exec ev op c) as [c1 r] eqn:E. cbn [fst]. eapply api_frozen_w; eassumption.
Qed.

(* the stronger hypothesis: safe_w, and the record has no retry left *)
Definition safe (c : cstate) (t : string) (route : nat) (evt : event) : Prop :=
  ws_task_idx (c_ws c) t route <> Some i \/ is_engine_command t = true \/
  (c_init c = true /\ status_in (ev_status evt) STARTING_STATUSES = true /\
   exists s, get_staged_task (c_ws c) t route = Some s /\ s_completed s = false) \/
  (is_retry_event evt = false /\ ~ retry_open r0).
Lemma safe_weaken : forall c t route evt, safe c t route evt -> safe_w c t route evt.
Proof. intros c t route evt [H|[H|[H|[H _]]]]; [left|right; left|right; right; left|right; right; right]; exact H. Qed.
Lemma uts_frozen : forall fuel t route evt c c' res,
  update_task_state_fuel ev fuel t route evt c = (c', res) -> Fz c -> safe c t route evt -> Fz c'.
Proof. intros fuel t route evt c c' res H Hf Hs. eapply uts_frozen_w; [exact H|exact Hf|apply safe_weaken; exact Hs]. Qed.
Definition op_safe (c : cstate) (op : api_op) : Prop :=
  match op with
  | OpEvent t route evt => safe c t route evt
  | OpPersist => c_init c = true
  | _ => True
  end.
Lemma op_safe_weaken : forall c op, op_safe c op -> op_safe_w c op.
Proof. intros c op H. destruct op; try exact H. apply safe_weaken; exact H. Qed.
Theorem api_frozen : forall op c c' res, op_safe c op -> api_exec ev op c = (c', res) -> Fz c -> Fz c'.
Proof. intros op c c' res Hs. apply api_frozen_w. apply op_safe_weaken; exact Hs. Qed.
Fixpoint hist_safe (ops : list api_op) (c : cstate) : Prop :=
  match ops with
  | [] => True
  | op :: ops' => op_safe c op /\ hist_safe ops' (fst (api_exec ev op c))
  end.
Lemma hist_safe_weaken : forall ops c, hist_safe ops c -> hist_safe_w ops c.
Proof.
  induction ops as [|op ops IH]; intros c H; [exact I|]. destruct H as [H1 H2].
  split; [apply op_safe_weaken; exact H1|apply IH; exact H2].
Qed.
Theorem history_frozen : forall ops c, hist_safe ops c -> Fz c -> Fz (run_ops ev ops c).
Proof. intros ops c H. apply history_frozen_w. apply hist_safe_weaken; exact H. Qed.

(* a hypothesis that does not mention intermediate states: no operation injects the engine's internal retry event.
   op_safe_w admits OpPersist on an initialised conductor only, which cannot be read off the operation: refused here *)
Definition op_static (op : api_op) : bool :=
  match op with
  | OpEvent _ _ e => negb (is_retry_event e)
  | OpPersist => false
  | _ => true
  end.

Lemma op_static_safe_w : forall op c, op_static op = true -> op_safe_w c op.
Proof.
  intros op c H. destruct op; cbn [op_safe_w]; try exact I; [|discriminate].
  right; right; right. simpl in H. destruct (is_retry_event e); [discriminate|reflexivity].
Qed.

Theorem history_frozen_static_w : forall ops c, forallb op_static ops = true -> Fz c -> Fz (run_ops ev ops c).
Proof.
  intros ops c H Hf. apply history_frozen_w; [|exact Hf]. clear Hf. revert c.
  induction ops as [|op ops IH]; intro c; cbn [hist_safe_w]; [exact I|].
  simpl in H. apply andb_prop in H. destruct H as [H1 H2].
  split; [apply op_static_safe_w; assumption|apply IH; exact H2].
Qed.

Lemma op_static_safe : forall op c, ~ retry_open r0 -> op_static op = true -> op_safe c op.
Proof.
  intros op c Hno H. destruct op; cbn [op_safe]; try exact I; [|discriminate].
  right; right; right. split; [|exact Hno]. simpl in H. destruct (is_retry_event e); [discriminate|reflexivity].
Qed.

Theorem history_frozen_static : forall ops c, ~ retry_open r0 -> forallb op_static ops = true ->
  Fz c -> Fz (run_ops ev ops c).
Proof. intros ops c _. apply history_frozen_static_w. Qed.
End WithEval.
End Frozen.

Section Statements.
Variable ev : string -> dict -> evalres.

Theorem decided_record_frozen_step : forall op c c' res i r,
  nth_error (sequence (c_ws c)) i = Some r -> decided r ->
  op_safe i r c op -> api_exec ev op c = (c', res) ->
  exists r', nth_error (sequence (c_ws c')) i = Some r' /\ same_decided r r'.
Proof.
  intros op c c' res i r Hn Hd Hs H.
  apply (api_frozen i r Hd ev op c c' res Hs H). exists r; split; [exact Hn|apply sd_refl].
Qed.

Theorem decided_record_frozen_history : forall ops c i r,
  nth_error (sequence (c_ws c)) i = Some r -> decided r -> hist_safe i r ev ops c ->
  exists r', nth_error (sequence (c_ws (run_ops ev ops c))) i = Some r' /\ same_decided r r'.
Proof.
  intros ops c i r Hn Hd Hs. apply (history_frozen i r Hd ev ops c Hs). exists r; split; [exact Hn|apply sd_refl].
Qed.

(* D33: the general forms need no hypothesis on the retries left (safe_w / op_safe_w / hist_safe_w ask, of an event
   that addresses the record, only that it is not the internal retry event) *)
Theorem decided_record_frozen_step_w : forall op c c' res i r,
  nth_error (sequence (c_ws c)) i = Some r -> decided r ->
  op_safe_w i c op -> api_exec ev op c = (c', res) ->
  exists r', nth_error (sequence (c_ws c')) i = Some r' /\ same_decided r r'.
Proof.
  intros op c c' res i r Hn Hd Hs H.
  apply (api_frozen_w i r Hd ev op c c' res Hs H). exists r; split; [exact Hn|apply sd_refl].
Qed.

Theorem decided_record_frozen_always : forall ops c i r,
  nth_error (sequence (c_ws c)) i = Some r -> decided r -> forallb op_static ops = true ->
  exists r', nth_error (sequence (c_ws (run_ops ev ops c))) i = Some r' /\ same_decided r r'.
Proof.
  intros ops c i r Hn Hd H. apply (history_frozen_static_w i r Hd ev ops c H).
  exists r; split; [exact Hn|apply sd_refl].
Qed.

Theorem decided_record_frozen : forall ops c i r,
  nth_error (sequence (c_ws c)) i = Some r -> decided r -> ~ retry_open r ->
  forallb op_static ops = true ->
  exists r', nth_error (sequence (c_ws (run_ops ev ops c))) i = Some r' /\ same_decided r r'.
Proof.
  intros ops c i r Hn Hd Hno H. apply (history_frozen_static i r Hd ev ops c Hno H).
  exists r; split; [exact Hn|apply sd_refl].
Qed.

End Statements.

(* Rnx: every record stays at its position with its decisions (r_next) and its published context (r_out);
   Rno: moreover an initialised conductor stays initialised with the same list of contexts *)
Definition Rnx (c c' : cstate) : Prop :=
  forall j r, nth_error (sequence (c_ws c)) j = Some r ->
    exists r', nth_error (sequence (c_ws c')) j = Some r' /\ r_next r' = r_next r /\ r_out r' = r_out r.
Definition Rno (c c' : cstate) : Prop :=
  (c_init c = true -> c_init c' = true /\ contexts (c_ws c') = contexts (c_ws c)) /\ Rnx c c'.

Lemma Rnx_refl : forall c, Rnx c c.
Proof. intros c j r H; exists r; repeat split; exact H. Qed.
Lemma Rnx_trans : forall a b c, Rnx a b -> Rnx b c -> Rnx a c.
Proof.
  intros a b c H1 H2 j r H. destruct (H1 j r H) as [r1 [Hr1 [N1 O1]]]. destruct (H2 j r1 Hr1) as [r2 [Hr2 [N2 O2]]].
  exists r2; repeat split; congruence.
Qed.
Lemma Rno_refl : forall c, Rno c c.
Proof. intro c; split; [intro H; split; [exact H|reflexivity]|apply Rnx_refl]. Qed.
Lemma Rno_trans : forall a b c, Rno a b -> Rno b c -> Rno a c.
Proof.
  intros a b c [I1 X1] [I2 X2]; split; [|eapply Rnx_trans; eassumption].
  intro Hi. destruct (I1 Hi) as [Hb C1]. destruct (I2 Hb) as [Hc C2]. split; [exact Hc|congruence].
Qed.

Lemma Rnx_same_seq : forall c c', sequence (c_ws c') = sequence (c_ws c) -> Rnx c c'.
Proof. intros c c' H j r Hj; exists r; rewrite H; repeat split; exact Hj. Qed.

Lemma Rnx_update : forall c j f, (forall r, r_next (f r) = r_next r /\ r_out (f r) = r_out r) ->
  Rnx c (set_ws c (ws_update_rec (c_ws c) j f)).
Proof.
  intros c j f Hf k r Hk. cbn [c_ws set_ws]. destruct (Nat.eq_dec j k) as [->|Hn].
  - exists (f r); split; [apply nth_update_rec_same; exact Hk|apply Hf].
  - exists r; split; [rewrite nth_update_rec_other by exact Hn; exact Hk|split; reflexivity].
Qed.

Lemma Rnx_append : forall c r tk,
  Rnx c (set_ws c (ws_set_tasks (ws_set_sequence (c_ws c) (app (sequence (c_ws c)) [r])) tk)).
Proof.
  intros c r tk k r1 Hk. exists r1; split; [|split; reflexivity].
  cbn [c_ws set_ws sequence ws_set_tasks ws_set_sequence].
  rewrite nth_error_app1; [exact Hk|]. apply nth_error_Some; congruence.
Qed.

Lemma Rno_of : forall c c', c_init c' = c_init c -> contexts (c_ws c') = contexts (c_ws c) -> Rnx c c' -> Rno c c'.
Proof. intros c c' Hi Hc Hx; split; [intro H; split; [congruence|exact Hc]|exact Hx]. Qed.

(* the parenthesis of the head: a record completed by a call that went on to retry.  Neither the call that delivers
   the retry event nor the branch that decides to retry writes a decision (r_next) or a published context (r_out) *)
Section Reopened.
Variable ev : string -> dict -> evalres.

Ltac nx_side := intro; split; reflexivity.

Lemma pnx_modws : forall f, (forall w, sequence (f w) = sequence w) -> preserves Rnx (modws f).
Proof. intros f Hf; apply (preserves_modws Rnx); intro c. apply Rnx_same_seq, Hf. Qed.
Lemma pnx_modify : forall f, (forall c, sequence (c_ws (f c)) = sequence (c_ws c)) -> preserves Rnx (modify f).
Proof. intros f Hf; apply (preserves_modify Rnx); intro c. apply Rnx_same_seq, Hf. Qed.
Lemma pnx_new_rec : forall r k idx,
  preserves Rnx (modws (fun w => ws_set_tasks (ws_set_sequence w (app (sequence w) [r])) (aset tkey_eqb k idx (tasks w)))).
Proof. intros; apply (preserves_modws Rnx); intro c. apply Rnx_append. Qed.
Lemma pnx_upd_rec : forall j f, (forall r, r_next (f r) = r_next r /\ r_out (f r) = r_out r) -> preserves Rnx (upd_rec j f).
Proof. intros j f Hf; apply (preserves_modws Rnx); intro c. apply Rnx_update, Hf. Qed.

Lemma pnx_wf_workflow_event : forall st, preserves Rnx (wf_workflow_event_M st).
Proof. apply (preserves_wf_workflow_event Rnx Rnx_refl); intros; apply Rnx_same_seq; reflexivity. Qed.
Lemma pnx_log_entry_error : forall m t r tr res, preserves Rnx (log_entry_error m t r tr res).
Proof. intros; apply pnx_modify; intro c; cbv zeta. destruct (existsb _ _); reflexivity. Qed.
Lemma pnx_set_rec_status : forall j s, preserves Rnx (set_rec_status j s).
Proof. intros; apply pnx_upd_rec; nx_side. Qed.
Hint Resolve pnx_modws pnx_modify pnx_new_rec pnx_wf_workflow_event pnx_log_entry_error pnx_set_rec_status : presnx.
Lemma pnx_log_error : forall e t r tr, preserves Rnx (log_error e t r tr).
Proof. intros; apply (frame_log_error Rnx); auto with presnx. Qed.
Lemma pnx_log_errors : forall es t r tr, preserves Rnx (log_errors es t r tr).
Proof. intros; apply (frame_log_errors Rnx Rnx_refl Rnx_trans); auto with presnx. Qed.
Lemma pnx_log_unreachable : forall l, preserves Rnx (log_unreachable l).
Proof. intros; apply (frame_log_unreachable Rnx Rnx_refl Rnx_trans); auto with presnx. Qed.
Lemma pnx_request_status_core : forall st, preserves Rnx (request_status_core st).
Proof. intros; apply (frame_request_status_core Rnx Rnx_refl Rnx_trans); auto with presnx. Qed.
Lemma pnx_render_vars : forall specs rolling rendered errs, preserves Rnx (render_vars ev specs rolling rendered errs).
Proof. intros; apply (frame_render_vars ev Rnx Rnx_refl Rnx_trans). Qed.
Lemma pnx_ensure_ws : preserves Rnx (ensure_ws ev).
Proof. apply (frame_ensure_ws ev Rnx Rnx_refl Rnx_trans); auto with presnx. Qed.

Lemma pno_ensure_ws : preserves Rno (ensure_ws ev).
Proof.
  intros c c' r H. destruct (c_init c) eqn:Hi.
  - rewrite (ensure_ws_inited ev c Hi) in H. inversion H; subst. apply Rno_refl.
  - split; [intro Ht; congruence|eapply pnx_ensure_ws; exact H].
Qed.

Lemma pno_modws : forall f, (forall w, contexts (f w) = contexts w /\ sequence (f w) = sequence w) -> preserves Rno (modws f).
Proof.
  intros f Hf; apply (preserves_modws Rno); intro c. destruct (Hf (c_ws c)) as [Hc Hs].
  apply Rno_of; [reflexivity|exact Hc|apply Rnx_same_seq; exact Hs].
Qed.
Lemma pno_modify : forall f, (forall c, c_init (f c) = c_init c /\ c_ws (f c) = c_ws c) -> preserves Rno (modify f).
Proof.
  intros f Hf; apply (preserves_modify Rno); intro c. destruct (Hf c) as [Hi Hw].
  apply Rno_of; [exact Hi|rewrite Hw; reflexivity|apply Rnx_same_seq; rewrite Hw; reflexivity].
Qed.
Lemma pno_new_rec : forall r k idx,
  preserves Rno (modws (fun w => ws_set_tasks (ws_set_sequence w (app (sequence w) [r])) (aset tkey_eqb k idx (tasks w)))).
Proof. intros; apply (preserves_modws Rno); intro c. apply Rno_of; [reflexivity|reflexivity|apply Rnx_append]. Qed.
Lemma pno_upd_rec : forall j f, (forall r, r_next (f r) = r_next r /\ r_out (f r) = r_out r) -> preserves Rno (upd_rec j f).
Proof.
  intros j f Hf; apply (preserves_modws Rno); intro c.
  apply Rno_of; [reflexivity|apply contexts_update_rec|apply Rnx_update, Hf].
Qed.

Lemma pno_wf_workflow_event : forall st, preserves Rno (wf_workflow_event_M st).
Proof. apply (preserves_wf_workflow_event Rno Rno_refl); intros; apply Rno_of; [reflexivity|reflexivity|apply Rnx_same_seq; reflexivity]. Qed.
Lemma pno_wf_task_event : forall t route st, preserves Rno (wf_task_event_M t route st).
Proof. apply (preserves_wf_task_event Rno Rno_refl); intros; apply Rno_of; [reflexivity|reflexivity|apply Rnx_same_seq; reflexivity]. Qed.
Lemma pno_log_entry_error : forall m t r tr res, preserves Rno (log_entry_error m t r tr res).
Proof. intros; apply pno_modify; intro c; cbv zeta. destruct (existsb _ _); split; reflexivity. Qed.
Lemma pno_set_rec_status : forall j s, preserves Rno (set_rec_status j s).
Proof. intros; apply pno_upd_rec; nx_side. Qed.
Hint Resolve pno_modws pno_modify pno_new_rec pno_upd_rec pno_ensure_ws pno_wf_workflow_event pno_wf_task_event
  pno_log_entry_error pno_set_rec_status contexts_remove_staged seq_remove_staged : presno.
Ltac walko := pw Rno_refl Rno_trans ltac:(solve [auto with presno]).
Lemma pno_log_error : forall e t r tr, preserves Rno (log_error e t r tr).
Proof. intros; apply (frame_log_error Rno); auto with presno. Qed.
Lemma pno_log_unreachable : forall l, preserves Rno (log_unreachable l).
Proof. intros; apply (frame_log_unreachable Rno Rno_refl Rno_trans); auto with presno. Qed.
Lemma pno_request_status_core : forall st, preserves Rno (request_status_core st).
Proof. intros; apply (frame_request_status_core Rno Rno_refl Rno_trans); auto with presno. Qed.
Lemma pno_get_task_context : forall idxs, preserves Rno (get_task_context idxs).
Proof. intros; apply (frame_get_task_context Rno Rno_refl Rno_trans). Qed.
Lemma pno_setup_retry : forall t idxs, preserves Rno (setup_retry ev t idxs).
Proof. intros; apply (frame_setup_retry ev Rno Rno_refl Rno_trans). Qed.
Lemma pno_add_task_state : forall t r ins p, preserves Rno (add_task_state ev t r ins p).
Proof. intros; apply (frame_add_task_state ev Rno Rno_refl Rno_trans); auto with presno. Qed.
Lemma pno_evaluate_task_retry : forall r ctx, preserves Rno (evaluate_task_retry ev r ctx).
Proof. intros; apply (frame_evaluate_task_retry ev Rno Rno_refl Rno_trans). Qed.
Lemma pno_get_rec : forall j, preserves Rno (get_rec j).
Proof. intros; apply (frame_get_rec Rno Rno_refl Rno_trans). Qed.
Hint Resolve pno_get_rec : presno.

Lemma pno_prefix : forall t route evt, preserves Rno (uts_prefix ev t route evt).
Proof.
  intros. pose proof (frame_pre_main ev Rno Rno_refl Rno_trans) as Hm. unfold uts_prefix.
  pw Rno_refl Rno_trans ltac:(first [apply pno_ensure_ws|apply Hm; auto 6 with presno]).
Qed.

Lemma queue_norec_rno : forall t route idx ts old new compl c c' r,
  (compl = None \/ exists ctx, compl = Some (ctx, false) /\ (new = old \/ g_next_transitions (c_graph c) t = [])) ->
  uts_queue ev t route idx ts old new compl c = (c', r) -> Rno c c'.
Proof.
  intros t route idx ts old new compl c c' r Hc H. unfold uts_queue in H.
  destruct Hc as [->|[ctx [-> Hc]]]; [inversion H; subst; apply Rno_refl|].
  destruct (negb (status_eqb new old)) eqn:En; [|inversion H; subst; apply Rno_refl].
  destruct Hc as [Hc|Hc]; [subst; rewrite status_eqb_refl in En; discriminate|].
  unfold bind at 1, get in H. cbv beta iota zeta in H. rewrite Hc in H.
  match type of H with ?m c = _ => assert (P : preserves Rno m) end.
  { cbn [mapM]. walko. }
  eapply P; exact H.
Qed.

Lemma tail_norec_rno : forall rec t route p c c' res, norec_cond c t p ->
  tail_of ev rec t route p c = (c', res) -> Rno c c'.
Proof.
  intros rec t route p c c' res Hn H. unfold tail_of in H. rewrite uts_tail_eq in H.
  assert (G : uts_rest ev rec t route (po_ts p) (po_idx p) (po_old p) (po_new p) (po_compl p) c = (c', res))
    by (destruct Hn as [E|[ctx [E _]]]; rewrite E in H |- *; exact H).
  apply bind_inv in G. destruct G as [[c1 [q [E G]]]|[e [E _]]]; [|eapply queue_norec_rno; [exact Hn|exact E]].
  eapply Rno_trans; [eapply queue_norec_rno; [exact Hn|exact E]|].
  assert (q = []) as ->.
  { destruct Hn as [Hc|[ctx [Hc Hd]]]; rewrite Hc in E; [inversion E; reflexivity|eapply queue_nil; eassumption]. }
  revert G. apply (uts_after_pres Rno Rno_refl Rno_trans); auto with presno. intros n rt e [].
Qed.

(* (a) the call that delivers the retry event -- the one that takes a record to "retrying" --
   changes no record's decisions or published-context reference and appends no context snapshot *)
Theorem retry_call_decides_nothing : forall fuel t route c c' res,
  update_task_state_fuel ev fuel t route retry_event c = (c', res) -> Rno c c'.
Proof.
  intros [|fuel] t route c c' res H; [simpl in H; inversion H; subst; apply Rno_refl|].
  rewrite uts_unfold, body_eq in H. apply bind_inv in H.
  destruct H as [[c1 [p [E H]]]|[e [E _]]].
  - eapply Rno_trans; [eapply pno_prefix; exact E|].
    eapply tail_norec_rno; [eapply prefix_retry_event; exact E|exact H].
  - eapply pno_prefix; exact E.
Qed.

(* (b) a call whose completion step decides to retry does nothing after that decision but make
   the retry call: the whole call decides nothing *)
Theorem retry_branch_decides_nothing : forall fuel t route evt c c1 p ctx c' res,
  uts_prefix ev t route evt c = (c1, Val p) -> po_compl p = Some (ctx, true) ->
  update_task_state_fuel ev (S fuel) t route evt c = (c', res) -> Rno c c'.
Proof.
  intros fuel t route evt c c1 p ctx c' res E Hc H.
  rewrite uts_unfold, body_eq in H. rewrite (bind_step _ _ _ _ _ _ _ E) in H.
  unfold tail_of, uts_tail in H. rewrite Hc in H.
  eapply Rno_trans; [eapply pno_prefix; exact E|eapply retry_call_decides_nothing; exact H].
Qed.

End Reopened.

(* (c) and those are the only ways into "retrying": the task machine moves a record there only
   when it is handed the retry event *)
Theorem enters_retrying_only_by_retry_event : forall w r evt,
  task_process_event w r evt = Val (Some S_RETRYING) -> is_retry_event evt = true.
Proof.
  intros w r evt H. destruct (is_retry_event evt) eqn:E; [reflexivity|exfalso].
  destruct (tpe_val _ _ _ _ H) as [n [En Hs]]. apply F_task_retrying_only_by_retry in Hs.
  exact (tpe_name_not_retry _ _ _ _ E En (proj1 Hs)).
Qed.

(* t1 --(when "ok", publish seen)--> t2; t1 has the retry policy {when: "again", count: 3}.
   The evaluator answers "again" with (result = 1) and "ok" with (result <> 5). *)
Definition cur_result (ctx : dict) : json :=
  match dget "__current_task" ctx with
  | Some (JDict d) => match dget "result" d with Some v => v | None => JNull end
  | _ => JNull
  end.
Definition ev_w (s : string) (ctx : dict) : evalres :=
  if String.eqb s "again" then EvOk (JBool (json_eqb (cur_result ctx) (JInt 1)))
  else if String.eqb s "ok" then EvOk (JBool (negb (json_eqb (cur_result ctx) (JInt 5))))
  else EvOk JNull.
Definition w_spec : wf_spec :=
  {| wf_input := []; wf_vars := []; wf_output := [];
     wf_tasks := [("t1", {| ts_action := JNull; ts_input := JNull; ts_with := None; ts_delay := JNull; ts_join := JNull;
                            ts_next := [{| tr_when := JStr "ok"; tr_publish := [("seen", JStr "val")]; tr_do := ["t2"] |}] |});
                  ("t2", empty_task_spec)] |}.
Definition w_graph (retry : json) : graph :=
  {| g_nodes := [{| n_id := "t1"; n_barrier := JNull; n_splits := None; n_retry := retry |};
                 {| n_id := "t2"; n_barrier := JNull; n_splits := None; n_retry := JNull |}];
     g_edges := [{| e_src := "t1"; e_dst := "t2"; e_key := 0; e_ref := 0; e_criteria := [JStr "ok"] |}] |}.
Definition w_retry : json := JDict [("when", JStr "again"); ("count", JInt 3)].
Definition w_init (retry : json) : cstate :=
  {| c_spec := w_spec; c_graph := w_graph retry; c_inputs := []; c_parent := []; c_init := false;
     c_ws := empty_ws; c_errors := []; c_log := []; c_output := None |}.
(* run t1 once: it succeeds with result 0, is not retried, its transition to t2 is decided *)
Definition w_ops1 : list api_op :=
  [OpRequest S_RUNNING; OpGetNext; OpEvent "t1" 0 (EvAction S_RUNNING JNull);
   OpEvent "t1" 0 (EvAction S_SUCCEEDED (JInt 0))].
Definition w_decided (retry : json) : cstate := run_ops ev_w w_ops1 (w_init retry).
(* a duplicate completion report of the same execution, carrying another result *)
Definition w_late : api_op := OpEvent "t1" 0 (EvAction S_SUCCEEDED (JInt 1)).
(* the provider then serves the retry it is offered *)
Definition w_ops3 : list api_op :=
  [OpGetNext; OpEvent "t1" 0 (EvAction S_RUNNING JNull); OpEvent "t1" 0 (EvAction S_FAILED (JInt 5))].
Definition w_obs (c : cstate) :=
  (map (fun r => (r_status r, r_next r, r_out r, r_term r)) (sequence (c_ws c)),
   wstatus (c_ws c), map s_id (staged (c_ws c)), length (contexts (c_ws c))).

Example w_decided_state :
  w_obs (w_decided w_retry)
  = ([(Some S_SUCCEEDED, [(("t2", 0), true)], Some (("t2", 0), 1), false)], S_RUNNING, ["t2"], 2).
Proof. vm_compute. reflexivity. Qed.

(* D33: the retry of a completed task is evaluated only when the report changed its status, so a duplicate report
   finds a decided record with retries left and is absorbed ... *)
Example w_late_report_absorbed :
  w_obs (run_ops ev_w [w_late] (w_decided w_retry))
  = ([(Some S_SUCCEEDED, [(("t2", 0), true)], Some (("t2", 0), 1), false)], S_RUNNING, ["t2"], 2).
Proof. vm_compute. reflexivity. Qed.

(* ... and so are the reports of the attempt that is never offered *)
Example w_decision_kept :
  w_obs (run_ops ev_w (w_late :: w_ops3) (w_decided w_retry))
  = ([(Some S_SUCCEEDED, [(("t2", 0), true)], Some (("t2", 0), 1), false)], S_RUNNING, ["t2"], 2).
Proof. vm_compute. reflexivity. Qed.

(* with retries left: every operation is a provider event or a poll, the record is decided, and its status and its
   decision stay *)
Theorem decided_record_kept_with_retries_left : exists r r',
  nth_error (sequence (c_ws (w_decided w_retry))) 0 = Some r /\ decided r /\ retry_open r /\
  forallb op_static (w_late :: w_ops3) = true /\
  nth_error (sequence (c_ws (run_ops ev_w (w_late :: w_ops3) (w_decided w_retry)))) 0 = Some r' /\
  r_status r = Some S_SUCCEEDED /\ r_status r' = Some S_SUCCEEDED /\
  r_next r = [(("t2", 0), true)] /\ r_next r' = [(("t2", 0), true)].
Proof.
  eexists; eexists. split; [vm_compute; reflexivity|].
  split; [vm_compute; reflexivity|].
  split; [eexists; split; [reflexivity|split; vm_compute; reflexivity]|].
  split; [reflexivity|]. split; [vm_compute; reflexivity|]. repeat split.
Qed.

(* the same definition without the retry policy: the theorem applies, the duplicate report (and
   everything after it) leaves the decided record alone *)
Example w_no_policy_frozen : exists r r',
  nth_error (sequence (c_ws (w_decided JNull))) 0 = Some r /\
  nth_error (sequence (c_ws (run_ops ev_w (w_late :: w_late :: w_ops3) (w_decided JNull)))) 0 = Some r' /\
  same_decided r r'.
Proof.
  assert (H0 : exists r, nth_error (sequence (c_ws (w_decided JNull))) 0 = Some r /\ decided r /\ r_retry r = None).
  { eexists. split; [vm_compute; reflexivity|]. split; [vm_compute; reflexivity|reflexivity]. }
  destruct H0 as [r [Hn [Hd Hr]]].
  destruct (decided_record_frozen ev_w (w_late :: w_late :: w_ops3) (w_decided JNull) 0 r Hn Hd) as [r' [Hn' Hs]].
  - intros [rr [Hrr _]]. rewrite Hr in Hrr. discriminate.
  - reflexivity.
  - exists r, r'. repeat split; try assumption; apply Hs.
Qed.

(* the engine's internal retry event, injected from outside, reopens a decided record even when
   the task has no retry policy (and then raises KeyError('retry')) *)
Example w_injected_retry_event_reopens :
  (let p := api_exec ev_w (OpEvent "t1" 0 (EvEngine EV_TASK_RETRY_REQUESTED S_RETRYING)) (w_decided JNull) in
   (map r_status (sequence (c_ws (fst p))), match snd p with Exc e => x_cls e | Val _ => "" end))
  = ([Some S_RETRYING], "KeyError").
Proof. vm_compute. reflexivity. Qed.

(* a rerun keeps the decided record but resets its terminal flag and appends a new record:
   r_term is the one field that is not frozen *)
Definition w_ops4 : list api_op :=
  [OpGetNext; OpEvent "t2" 0 (EvAction S_RUNNING JNull); OpEvent "t2" 0 (EvAction S_FAILED JNull)].
Example w_t2_failed :
  w_obs (run_ops ev_w w_ops4 (w_decided w_retry))
  = ([(Some S_SUCCEEDED, [(("t2", 0), true)], Some (("t2", 0), 1), false); (Some S_FAILED, [], None, true)],
     S_FAILED, [], 2).
Proof. vm_compute. reflexivity. Qed.
Example w_rerun_resets_term_only :
  w_obs (run_ops ev_w [OpRerun []] (run_ops ev_w w_ops4 (w_decided w_retry)))
  = ([(Some S_SUCCEEDED, [(("t2", 0), true)], Some (("t2", 0), 1), false); (Some S_FAILED, [], None, false);
      (None, [], None, false)],
     S_RESUMING, ["t2"], 2).
Proof. vm_compute. reflexivity. Qed.

(* with retries left the record is still protected from everything that does not address it:
   here the events of the other task (first disjunct of [safe]) *)
Example w_other_task_events_frozen : exists r r',
  nth_error (sequence (c_ws (w_decided w_retry))) 0 = Some r /\ retry_open r /\
  nth_error (sequence (c_ws (run_ops ev_w [OpGetNext; OpEvent "t2" 0 (EvAction S_RUNNING JNull);
                                            OpEvent "t2" 0 (EvAction S_SUCCEEDED JNull); OpRender]
                                     (w_decided w_retry)))) 0 = Some r' /\
  same_decided r r'.
Proof.
  assert (H0 : exists r, nth_error (sequence (c_ws (w_decided w_retry))) 0 = Some r /\ decided r /\ retry_open r).
  { eexists. split; [vm_compute; reflexivity|]. split; [vm_compute; reflexivity|].
    eexists; split; [reflexivity|split; vm_compute; reflexivity]. }
  destruct H0 as [r [Hn [Hd Ho]]].
  destruct (decided_record_frozen_history ev_w
              [OpGetNext; OpEvent "t2" 0 (EvAction S_RUNNING JNull); OpEvent "t2" 0 (EvAction S_SUCCEEDED JNull); OpRender]
              (w_decided w_retry) 0 r Hn Hd) as [r' [Hn' Hs]].
  - cbn [hist_safe op_safe]. split; [exact I|]. split; [left; vm_compute; discriminate|].
    split; [left; vm_compute; discriminate|]. split; exact I.
  - exists r, r'. repeat split; try assumption; apply Hs.
Qed.

Lemma safe_unfold : forall i r0 c t route evt,
  safe i r0 c t route evt <->
  (ws_task_idx (c_ws c) t route <> Some i \/ is_engine_command t = true \/
   (c_init c = true /\ status_in (ev_status evt) STARTING_STATUSES = true /\
   exists s, get_staged_task (c_ws c) t route = Some s /\ s_completed s = false) \/
   (is_retry_event evt = false /\ ~ retry_open r0)).
Proof. intros; split; intro H; exact H. Qed.

Lemma safe_w_unfold : forall i c t route evt,
  safe_w i c t route evt <->
  (ws_task_idx (c_ws c) t route <> Some i \/ is_engine_command t = true \/
   (c_init c = true /\ status_in (ev_status evt) STARTING_STATUSES = true /\
   exists s, get_staged_task (c_ws c) t route = Some s /\ s_completed s = false) \/
   is_retry_event evt = false).
Proof. intros; split; intro H; exact H. Qed.

Lemma op_safe_w_unfold : forall i c op,
  op_safe_w i c op <->
  match op with
  | OpEvent t route evt => safe_w i c t route evt
  | OpPersist => c_init c = true
  | _ => True
  end.
Proof. intros; split; intro H; exact H. Qed.

Lemma op_safe_unfold : forall i r0 c op,
  op_safe i r0 c op <->
  match op with
  | OpEvent t route evt => safe i r0 c t route evt
  | OpPersist => c_init c = true
  | _ => True
  end.
Proof. intros; split; intro H; exact H. Qed.
