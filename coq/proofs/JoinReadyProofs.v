(* JoinReadyProofs.v -- C07, the clause "the ready flag of a staged (join) entry equals the barrier
   status computed at the last arrival".

   (1) Whenever a satisfied transition stages or updates the entry of its target, the last thing
       process_transition does is to set that entry's s_ready to
         (get_inbound_criteria_status graph state target route = satisfied)
       computed on the state of that very moment (all arrivals recorded so far, this one included)
       ([ready_flag_is_barrier_status], [ready_flag_read_back]).
   (2) Nothing else rewrites the flag: every other API operation, and every part of
       update_task_state outside process_transition, deletes staged entries, rewrites them keeping
       (task, route, ready), or appends entries that are ready (roots at creation, the retried task,
       the rerun task) ([Rrd]; [ready_kept_outside_events], [ready_kept_by_prefix],
       [ready_kept_by_quiet_tail]). *)
From Coq Require Import String List Bool ZArith Arith Lia.
From Orq Require Import GenStatuses GenEvents GenTables GenSpecMeta Base State Machines Codec Conductor Decode Api.
From Orq Require Import F_tables ListFacts StateFacts Hoare Frame ValuePost C05Proofs RetryProofs FrozenProofs JustifiedProofs.
Import ListNotations.
Open Scope string_scope.
Open Scope monad_scope.

Section Ready.
Variable ev : string -> dict -> evalres.

Definition ready_of (c : cstate) (nt : string) (route : nat) : bool :=
  inbound_eqb (get_inbound_criteria_status (c_graph c) (c_ws c) nt route) InbSatisfied.

(* a satisfied transition, when it returns: either its publish failed (nothing is staged, the
   workflow is failed), or the target's entry exists and the call ended by writing its ready flag
   from the barrier status of the state [c2] reached after the arrival was recorded *)
Theorem ready_flag_is_barrier_status : forall t route idx ts ctx e c c' res,
  pt_cont ev t route idx ts ctx e (Some true) c = (c', Val res) ->
  (exists cf new_ctx x errs, finalize_context ev ts e ctx c = (cf, Val (new_ctx, x :: errs))) \/
  (exists c2 nr, get_staged_task (c_ws c2) (e_dst e) nr <> None /\
     c' = set_ws c2 (ws_set_staged (c_ws c2)
                       (staged_update (fun s => s_set_ready s (ready_of c2 (e_dst e) route))
                                      (e_dst e) nr (staged (c_ws c2))))).
Proof.
  intros t route idx ts ctx e c c' res H.
  destruct (pt_act_true_inv ev t route idx ts ctx e c c' res H) as [cf [new_ctx [errors [Ef Ho]]]].
  destruct errors as [|x errs]; [|left; exists cf, new_ctx, x, errs; exact Ef]. right.
  destruct Ho as [r [c3 [nr [c4 [_ [_ [Ea [-> _]]]]]]]]. exists c4, nr. split; [|reflexivity].
  unfold arrived in Ea. unfold get_staged_task in *. destruct (find (stg_matches (e_dst e) nr) (staged (c_ws c3))) as [s0|] eqn:Eg.
  - destruct (nat_remove_first 0 _); inversion Ea; subst c4. cbn [c_ws set_ws staged ws_set_staged].
    apply find_staged_update_some; [intro s; reflexivity|]. rewrite Eg. discriminate.
  - inversion Ea; subst c4. cbn [c_ws set_ws staged ws_set_staged ws_add_staged].
    apply find_app_some. unfold stg_matches, mk_staged; cbn [s_id s_route].
    rewrite String.eqb_refl, Nat.eqb_refl. reflexivity.
Qed.

(* read back: in the state the transition leaves, the entry get_staged_task finds for the target
   carries exactly that barrier status as its ready flag *)
Theorem ready_flag_read_back : forall c2 nt nr route,
  get_staged_task (c_ws c2) nt nr <> None ->
  exists s', get_staged_task
               (c_ws (set_ws c2 (ws_set_staged (c_ws c2)
                        (staged_update (fun s => s_set_ready s (ready_of c2 nt route)) nt nr (staged (c_ws c2))))))
               nt nr = Some s' /\
             s_ready s' = ready_of c2 nt route.
Proof.
  intros c2 nt nr route H. unfold get_staged_task in *. cbn [c_ws set_ws staged ws_set_staged].
  rewrite find_staged_update_same by (intro s; reflexivity).
  destruct (find (stg_matches nt nr) (staged (c_ws c2))) as [s|]; [|congruence].
  eexists; split; reflexivity.
Qed.

End Ready.

Definition kr (s : stg) : string * nat * bool := (s_id s, s_route s, s_ready s).

(* l' is l with entries deleted and entries rewritten that keep (task, route, ready) *)
Inductive subkr : list stg -> list stg -> Prop :=
  | sk_nil : subkr [] []
  | sk_skip : forall s l l', subkr l l' -> subkr (s :: l) l'
  | sk_keep : forall s s' l l', kr s' = kr s -> subkr l l' -> subkr (s :: l) (s' :: l').

Lemma subkr_refl : forall l, subkr l l.
Proof. induction l as [|s l IH]; [constructor|apply sk_keep; [reflexivity|exact IH]]. Qed.

Lemma subkr_trans : forall a b c, subkr a b -> subkr b c -> subkr a c.
Proof.
  intros a b c H; revert c; induction H as [|s l l' H IH|s s' l l' E H IH]; intros c Hc.
  - exact Hc.
  - apply sk_skip. apply IH. exact Hc.
  - inversion Hc as [|x y z Hz|x x' y z E' Hz]; subst.
    + apply sk_skip. apply IH. exact Hz.
    + apply sk_keep; [congruence|apply IH; exact Hz].
Qed.

Lemma subkr_app : forall a la b lb, subkr a la -> subkr b lb -> subkr (app a b) (app la lb).
Proof. intros a la b lb H; induction H; intro Hb; simpl; [exact Hb|apply sk_skip; auto|apply sk_keep; auto]. Qed.

Lemma subkr_app_inv : forall a b l, subkr (app a b) l ->
  exists la lb, l = app la lb /\ subkr a la /\ subkr b lb.
Proof.
  induction a as [|s a IH]; intros b l H; simpl in H.
  - exists [], l. split; [reflexivity|]. split; [constructor|exact H].
  - inversion H as [|x y z Hz|x x' y z E Hz]; subst.
    + destruct (IH _ _ Hz) as [la [lb [-> [Ha Hb]]]]. exists la, lb. split; [reflexivity|]. split; [apply sk_skip; exact Ha|exact Hb].
    + destruct (IH _ _ Hz) as [la [lb [-> [Ha Hb]]]]. exists (x' :: la), lb. split; [reflexivity|].
      split; [apply sk_keep; assumption|exact Hb].
Qed.

Lemma subkr_ready : forall b lb, subkr b lb -> Forall (fun s => s_ready s = true) b -> Forall (fun s => s_ready s = true) lb.
Proof.
  intros b lb H; induction H as [|s l l' H IH|s s' l l' E H IH]; intro F; [constructor| |].
  - inversion F; subst. apply IH; assumption.
  - inversion F; subst. constructor; [|apply IH; assumption]. unfold kr in E. inversion E. congruence.
Qed.

Definition Rrd (c c' : cstate) : Prop :=
  exists l1 new, staged (c_ws c') = app l1 new /\ subkr (staged (c_ws c)) l1 /\
                 Forall (fun s => s_ready s = true) new.

Lemma Rrd_refl : forall c, Rrd c c.
Proof. intro c. exists (staged (c_ws c)), []. rewrite app_nil_r. split; [reflexivity|]. split; [apply subkr_refl|constructor]. Qed.

Lemma Rrd_trans : forall a b c, Rrd a b -> Rrd b c -> Rrd a c.
Proof.
  intros a b c [l1 [n1 [E1 [S1 F1]]]] [l2 [n2 [E2 [S2 F2]]]]. rewrite E1 in S2.
  destruct (subkr_app_inv _ _ _ S2) as [la [lb [-> [Sa Sb]]]].
  exists la, (app lb n2). split; [rewrite E2, app_assoc; reflexivity|].
  split; [eapply subkr_trans; eassumption|]. apply Forall_app. split; [eapply subkr_ready; eassumption|exact F2].
Qed.

Lemma Rrd_sub : forall c c', subkr (staged (c_ws c)) (staged (c_ws c')) -> Rrd c c'.
Proof. intros c c' H. exists (staged (c_ws c')), []. rewrite app_nil_r. split; [reflexivity|]. split; [exact H|constructor]. Qed.

Lemma Rrd_same : forall c c', staged (c_ws c') = staged (c_ws c) -> Rrd c c'.
Proof. intros c c' H. apply Rrd_sub. rewrite H. apply subkr_refl. Qed.

Lemma subkr_staged_update : forall f t r l, (forall s, kr (f s) = kr s) -> subkr l (staged_update f t r l).
Proof.
  intros f t r l Hf; induction l as [|s l IH]; simpl; [constructor|].
  destruct (stg_matches t r s); apply sk_keep; [apply Hf|apply subkr_refl|reflexivity|exact IH].
Qed.

Lemma subkr_remove_first : forall t r l, subkr l (staged_remove_first t r l).
Proof.
  intros t r l; induction l as [|s l IH]; simpl; [constructor|].
  destruct (stg_matches t r s); [apply sk_skip; apply subkr_refl|apply sk_keep; [reflexivity|exact IH]].
Qed.

Lemma Rrd_update : forall c f t r, (forall s, kr (f s) = kr s) ->
  Rrd c (set_ws c (ws_set_staged (c_ws c) (staged_update f t r (staged (c_ws c))))).
Proof. intros; apply Rrd_sub; cbn [c_ws set_ws staged ws_set_staged]; apply subkr_staged_update; assumption. Qed.

Lemma Rrd_remove : forall c t r, Rrd c (set_ws c (ws_remove_staged_task (c_ws c) t r)).
Proof.
  intros c t r. apply Rrd_sub. cbn [c_ws set_ws]. unfold ws_remove_staged_task.
  destruct (get_staged_task (c_ws c) t r) as [s|]; [|apply subkr_refl].
  destruct (items_any_active s); [apply subkr_refl|]. cbn [staged ws_set_staged]. apply subkr_remove_first.
Qed.

Lemma Rrd_add_ready : forall c s, s_ready s = true -> Rrd c (set_ws c (ws_add_staged (c_ws c) s)).
Proof.
  intros c s H. exists (staged (c_ws c)), [s]. split; [reflexivity|]. split; [apply subkr_refl|].
  constructor; [exact H|constructor].
Qed.

Section ReadyKept.
Variable ev : string -> dict -> evalres.

Ltac leafr :=
  first
    [ apply (preserves_modws Rrd); intro; apply Rrd_same; cbn [c_ws set_ws]; first [reflexivity|apply staged_update_rec]
    | apply (preserves_modws Rrd); intro; apply Rrd_update; intro; reflexivity
    | apply (preserves_modws Rrd); intro; apply Rrd_remove
    | apply (preserves_modws Rrd); intro; apply Rrd_add_ready; reflexivity
    | apply (preserves_modify Rrd); intro; apply Rrd_same; reflexivity
    | apply (preserves_modify Rrd); intro; apply Rrd_same;
      match goal with |- context [if ?b then _ else _] => destruct b end; reflexivity
    | assumption
    | match goal with IH : forall _ _ _ _, preserves _ _ |- _ => apply IH end
    | eauto 3 with presrd ].
Ltac walkr := pw Rrd_refl Rrd_trans leafr.

Lemma prd_wf_workflow_event : forall st, preserves Rrd (wf_workflow_event_M st).
Proof. apply (preserves_wf_workflow_event Rrd Rrd_refl (fun c s => Rrd_same _ _ eq_refl)). Qed.
Hint Resolve prd_wf_workflow_event : presrd.
Lemma prd_wf_task_event : forall t route st, preserves Rrd (wf_task_event_M t route st).
Proof. apply (preserves_wf_task_event Rrd Rrd_refl (fun c s => Rrd_same _ _ eq_refl)). Qed.
Hint Resolve prd_wf_task_event : presrd.
Lemma prd_log_entry_error : forall m t r tr res, preserves Rrd (log_entry_error m t r tr res).
Proof. intros; unfold log_entry_error; walkr. Qed.
Hint Resolve prd_log_entry_error : presrd.
Lemma prd_log_error : forall e t r tr, preserves Rrd (log_error e t r tr).
Proof. intros; unfold log_error; apply prd_log_entry_error. Qed.
Hint Resolve prd_log_error : presrd.
Lemma prd_log_errors : forall es t r tr, preserves Rrd (log_errors es t r tr).
Proof. intros; apply (frame_log_errors Rrd Rrd_refl Rrd_trans); intros; leafr. Qed.
Hint Resolve prd_log_errors : presrd.
Lemma prd_log_unreachable : forall l, preserves Rrd (log_unreachable l).
Proof. intros; apply (frame_log_unreachable Rrd Rrd_refl Rrd_trans); intros; leafr. Qed.
Hint Resolve prd_log_unreachable : presrd.
Lemma prd_set_rec_status : forall j s, preserves Rrd (set_rec_status j s).
Proof. intros; unfold set_rec_status; walkr. Qed.
Hint Resolve prd_set_rec_status : presrd.
Lemma prd_request_status_core : forall st, preserves Rrd (request_status_core st).
Proof. intros; apply (frame_request_status_core Rrd Rrd_refl Rrd_trans); intros; leafr. Qed.
Hint Resolve prd_request_status_core : presrd.
Lemma prd_render_input : forall specs rt rolling errs, preserves Rrd (render_input ev specs rt rolling errs).
Proof. intros; apply (frame_render_input ev Rrd Rrd_refl Rrd_trans). Qed.
Hint Resolve prd_render_input : presrd.
Lemma prd_render_vars : forall specs rolling rendered errs, preserves Rrd (render_vars ev specs rolling rendered errs).
Proof. intros; apply (frame_render_vars ev Rrd Rrd_refl Rrd_trans). Qed.
Hint Resolve prd_render_vars : presrd.
Lemma prd_ensure_ws : preserves Rrd (ensure_ws ev).
Proof. apply (rframe_ensure_ws ev Rrd Rrd_refl Rrd_trans); intros; leafr. Qed.
Hint Resolve prd_ensure_ws : presrd.
Lemma prd_get_task_context : forall idxs, preserves Rrd (get_task_context idxs).
Proof. intros; apply (frame_get_task_context Rrd Rrd_refl Rrd_trans). Qed.
Hint Resolve prd_get_task_context : presrd.
Lemma prd_render_task : forall ts ctx, preserves Rrd (render_task ev ts ctx).
Proof. intros; apply (frame_render_task ev Rrd Rrd_refl Rrd_trans). Qed.
Hint Resolve prd_render_task : presrd.
Lemma prd_next_task_for : forall s, preserves Rrd (next_task_for ev s).
Proof. intros; apply (sframe_next_task_for ev Rrd Rrd_refl Rrd_trans); intros; leafr. Qed.
Hint Resolve prd_next_task_for : presrd.
Lemma prd_setup_retry : forall t idxs, preserves Rrd (setup_retry ev t idxs).
Proof. intros; apply (frame_setup_retry ev Rrd Rrd_refl Rrd_trans). Qed.
Hint Resolve prd_setup_retry : presrd.
Lemma prd_add_task_state : forall t r ins p, preserves Rrd (add_task_state ev t r ins p).
Proof. intros; apply (frame_add_task_state ev Rrd Rrd_refl Rrd_trans); intros; leafr. Qed.
Hint Resolve prd_add_task_state : presrd.
Lemma prd_evaluate_task_retry : forall r ctx, preserves Rrd (evaluate_task_retry ev r ctx).
Proof. intros; apply (frame_evaluate_task_retry ev Rrd Rrd_refl Rrd_trans). Qed.
Hint Resolve prd_evaluate_task_retry : presrd.
Lemma prd_get_rec : forall j, preserves Rrd (get_rec j).
Proof. intros; apply (frame_get_rec Rrd Rrd_refl Rrd_trans). Qed.
Hint Resolve prd_get_rec : presrd.
Lemma prd_merge_term_contexts : forall l acc, preserves Rrd (merge_term_contexts l acc).
Proof. intros; apply (frame_merge_term_contexts Rrd Rrd_refl Rrd_trans). Qed.
Hint Resolve prd_merge_term_contexts : presrd.
Lemma prd_request_task_rerun : forall t r b, preserves Rrd (request_task_rerun ev t r b).
Proof. intros; apply (rframe_request_task_rerun ev Rrd Rrd_refl Rrd_trans); intros; leafr. Qed.
Hint Resolve prd_request_task_rerun : presrd.

(* every API operation other than update_task_state: staged entries are deleted, rewritten keeping
   (task, route, ready), or appended ready *)
Theorem ready_kept_outside_events : forall op,
  match op with OpEvent _ _ _ => False | _ => True end -> preserves Rrd (api_exec ev op).
Proof.
  intros op Hop. destruct op; try contradiction; cbn [api_exec];
    (apply (preserves_bind _ Rrd_trans); [|intro; apply (preserves_ret _ Rrd_refl)]).
  - apply prd_ensure_ws.
  - apply (rframe_request_workflow_status ev Rrd Rrd_refl Rrd_trans); intros; leafr.
  - apply (rframe_get_next_tasks ev Rrd Rrd_refl Rrd_trans); intros; leafr.
  - apply (rframe_render_workflow_output ev Rrd Rrd_refl Rrd_trans); intros; leafr.
  - apply (rframe_request_workflow_rerun ev Rrd Rrd_refl Rrd_trans); intros; leafr.
  - apply preserves_persist; [exact Rrd_trans|apply prd_ensure_ws|intro c; apply Rrd_same; reflexivity].
Qed.

(* inside update_task_state: everything before the transitions (record selection, unstaging, item
   bookkeeping, task machine, the retry staging -- ready --, the completion step) ... *)
Theorem ready_kept_by_prefix : forall t route evt, preserves Rrd (uts_prefix ev t route evt).
Proof.
  intros; unfold uts_prefix, pre_main, pre_machine, uts_sel1, uts_sel2, uts_need_staged, uts_unstage, uts_item,
    uts_logfail, uts_setst, uts_retrying, uts_completion, upd_rec.
  walkr.
Qed.

(* ... the evaluation of a transition's criteria with the recording of the decision ... *)
Theorem ready_kept_by_decision : forall t route idx ctx e, preserves Rrd (pt_step1 ev t route idx ctx e).
Proof. intros; unfold pt_step1, upd_rec; walkr. Qed.

(* ... and the rest of the tail when it makes no call (the workflow-machine step, the terminal flag) *)
Theorem ready_kept_by_quiet_tail : forall (rec : string -> nat -> event -> M unit) t route idx,
  preserves Rrd (r <- get_rec idx ;;
                 st <- (match r_status r with Some s => ret s | None => raise (exn_key "status") end) ;;
                 unreachable <- wf_task_event_M t route st ;;
                 log_unreachable unreachable ;;;
                 forM_ [] (uts_call rec) ;;;
                 w <- getws ;;
                 if status_in (wstatus w) COMPLETED_STATUSES
                 then upd_rec idx (fun r => r_set_term r true)
                 else ret tt).
Proof. intros; cbn [forM_]; unfold upd_rec; walkr. Qed.

End ReadyKept.

(* Rrd does constrain: it rejects flipping the flag of an existing entry *)
Example Rrd_rejects_flip : forall s, s_ready s = false -> ~ subkr [s] [s_set_ready s true].
Proof.
  intros s Hs H. inversion H as [|x y z Hz|x x' y z E Hz]; subst.
  - inversion Hz.
  - unfold kr in E. cbn [s_set_ready s_id s_route s_ready] in E. inversion E. congruence.
Qed.

Lemma ready_of_unfold : forall c nt route,
  ready_of c nt route = inbound_eqb (get_inbound_criteria_status (c_graph c) (c_ws c) nt route) InbSatisfied.
Proof. reflexivity. Qed.

Lemma Rrd_unfold : forall c c',
  Rrd c c' <-> exists l1 new, staged (c_ws c') = app l1 new /\ subkr (staged (c_ws c)) l1 /\
                              Forall (fun s => s_ready s = true) new.
Proof. intros; split; intro H; exact H. Qed.
