(* RetryBoundProofs.v -- the unconditional retry bound, stated on ENTRIES into the status `retrying`
   (each entry is one more execution of the task).  No protocol hypothesis: a tally that runs ahead
   under duplicate or ignored reports only costs retries.
   (a) [Rmono]  records are append-only; id, route and retry count of a record never change and its
       tally never decreases -- in every API operation, for every event;
   (b) [Rent]   an operation takes a record from not-retrying (or absent) to retrying only if its tally
       before was below its count, and its tally after is at least one more;
   (c) over a history the number of entries of a record plus its initial tally is at most its count.
   The quiet part of the engine (everything but the task-machine step, the increment and the nested
   calls) satisfies the stronger [Rq]: retry information untouched, nothing becomes retrying. *)
From Coq Require Import String List Bool ZArith Arith Lia.
From Orq Require Import GenStatuses GenEvents GenTables GenSpecMeta Base State Machines Codec Conductor Decode Api.
From Orq Require Import F_tables Hoare Frame ValuePost C13Proofs C05Proofs RetryProofs StateFacts.
Import ListNotations.
Open Scope string_scope.
Open Scope monad_scope.

Definition rec_at (c : cstate) (idx : nat) : option trec := nth_error (sequence (c_ws c)) idx.
Definition retrying_of (o : option trec) : bool :=
  match o with
  | Some r => match r_status r with Some s => status_eqb s S_RETRYING | None => false end
  | None => false
  end.
Definition tally_of (o : option trec) : nat :=
  match o with
  | Some r => match r_retry r with Some rr => rr_tally rr | None => 0 end
  | None => 0
  end.
Definition retr (c : cstate) (idx : nat) : bool := retrying_of (rec_at c idx).
Definition tal (c : cstate) (idx : nat) : nat := tally_of (rec_at c idx).

Definition retry_mono (o o' : option retry_rec) : Prop :=
  match o, o' with
  | Some rr, Some rr' => rr_count rr' = rr_count rr /\ rr_tally rr <= rr_tally rr'
  | None, None => True
  | _, _ => False
  end.

Lemma retry_mono_refl : forall o, retry_mono o o.
Proof. intros [rr|]; simpl; auto. Qed.
Lemma retry_mono_trans : forall a b c, retry_mono a b -> retry_mono b c -> retry_mono a c.
Proof.
  intros [x|] [y|] [z|]; simpl; try tauto. intros [H1 H2] [H3 H4]; split; [congruence|lia].
Qed.
Lemma retry_mono_eq : forall a b, b = a -> retry_mono a b.
Proof. intros a b ->; apply retry_mono_refl. Qed.

Definition Rmono (c c' : cstate) : Prop :=
  forall idx r, rec_at c idx = Some r ->
    exists r', rec_at c' idx = Some r' /\ r_id r' = r_id r /\ r_route r' = r_route r /\
               retry_mono (r_retry r) (r_retry r').

Lemma Rmono_refl : forall c, Rmono c c.
Proof. intros c idx r H; exists r; repeat split; [exact H|apply retry_mono_refl]. Qed.
Lemma Rmono_trans : forall a b c, Rmono a b -> Rmono b c -> Rmono a c.
Proof.
  intros a b c H1 H2 idx r H. destruct (H1 _ _ H) as [r1 [Hr1 [I1 [O1 M1]]]].
  destruct (H2 _ _ Hr1) as [r2 [Hr2 [I2 [O2 M2]]]].
  exists r2; repeat split; [exact Hr2|congruence|congruence|eapply retry_mono_trans; eassumption].
Qed.

Lemma tal_mono : forall c c' idx, Rmono c c' -> tal c idx <= tal c' idx.
Proof.
  intros c c' idx H. unfold tal. destruct (rec_at c idx) as [r|] eqn:E; [|simpl; lia].
  destruct (H _ _ E) as [r' [Hr' [_ [_ M]]]]. rewrite Hr'. simpl.
  destruct (r_retry r), (r_retry r'); simpl in M; try tauto; lia.
Qed.

Definition Rq (c c' : cstate) : Prop :=
  (forall idx r, rec_at c idx = Some r ->
     exists r', rec_at c' idx = Some r' /\ r_id r' = r_id r /\ r_route r' = r_route r /\ r_retry r' = r_retry r) /\
  (forall idx, retr c' idx = true -> retr c idx = true).

Lemma Rq_refl : forall c, Rq c c.
Proof. intro c; split; [intros idx r H; exists r; auto|auto]. Qed.
Lemma Rq_trans : forall a b c, Rq a b -> Rq b c -> Rq a c.
Proof.
  intros a b c [H1 S1] [H2 S2]; split; [|auto]. intros idx r H.
  destruct (H1 _ _ H) as [r1 [Hr1 [I1 [O1 M1]]]]. destruct (H2 _ _ Hr1) as [r2 [Hr2 [I2 [O2 M2]]]].
  exists r2; repeat split; congruence.
Qed.

Definition entered_at (c c' : cstate) (idx : nat) : Prop :=
  exists r' rr', rec_at c' idx = Some r' /\ r_retry r' = Some rr' /\ py_is_int (rr_count rr') = true /\
                 (Z.of_nat (tal c idx) < py_int_value (rr_count rr'))%Z /\ tal c idx + 1 <= rr_tally rr'.

Definition Rent (c c' : cstate) : Prop :=
  Rmono c c' /\ forall idx, retr c idx = false -> retr c' idx = true -> entered_at c c' idx.

Lemma Rent_refl : forall c, Rent c c.
Proof. intro c; split; [apply Rmono_refl|]. intros idx H1 H2; congruence. Qed.

Lemma Rent_trans : forall a b c, Rent a b -> Rent b c -> Rent a c.
Proof.
  intros a b c [M1 E1] [M2 E2]; split; [eapply Rmono_trans; eassumption|].
  intros idx Ha Hc. destruct (retr b idx) eqn:Hb.
  - destruct (E1 idx Ha Hb) as [r1 [rr1 [Hr1 [Hrr1 [Hi [Hlt Hge]]]]]].
    destruct (M2 _ _ Hr1) as [r2 [Hr2 [_ [_ Mo]]]]. rewrite Hrr1 in Mo.
    destruct (r_retry r2) as [rr2|] eqn:Hrr2; simpl in Mo; [|tauto]. destruct Mo as [Mc Mt].
    exists r2, rr2. rewrite Mc. repeat split; try assumption. lia.
  - destruct (E2 idx Hb Hc) as [r2 [rr2 [Hr2 [Hrr2 [Hi [Hlt Hge]]]]]].
    pose proof (tal_mono _ _ idx M1) as Ht.
    exists r2, rr2. repeat split; try assumption; lia.
Qed.

Lemma Rq_Rmono : forall c c', Rq c c' -> Rmono c c'.
Proof.
  intros c c' [H _] idx r Hr. destruct (H _ _ Hr) as [r' [Hr' [I [O M]]]].
  exists r'; repeat split; try assumption. apply retry_mono_eq; exact M.
Qed.
Lemma Rq_Rent : forall c c', Rq c c' -> Rent c c'.
Proof.
  intros c c' H; split; [apply Rq_Rmono; exact H|]. destruct H as [_ S]. intros idx H1 H2.
  rewrite (S _ H2) in H1; discriminate.
Qed.
Lemma Rent_Rmono : forall c c', Rent c c' -> Rmono c c'.
Proof. intros c c' [H _]; exact H. Qed.

Definition upd_at (c c' : cstate) (idx : nat) (r2 : trec) : Prop :=
  rec_at c' idx = Some r2 /\ forall j, j <> idx -> rec_at c' j = rec_at c j.

Lemma upd_at_trans : forall a b c idx x y, upd_at a b idx x -> upd_at b c idx y -> upd_at a c idx y.
Proof. intros a b c idx x y [_ H1] [H2 H3]; split; [exact H2|]. intros j Hj; rewrite H3, H1; auto. Qed.

Lemma upd_at_update_rec : forall c i f r, rec_at c i = Some r ->
  upd_at c (set_ws c (ws_update_rec (c_ws c) i f)) i (f r).
Proof.
  intros c i f r H; split; unfold rec_at; simpl.
  - apply nth_update_rec_same; exact H.
  - intros j Hj. apply nth_update_rec_other; auto.
Qed.


Lemma retr_other : forall c c' idx r2 j, upd_at c c' idx r2 -> j <> idx -> retr c' j = retr c j.
Proof. intros c c' idx r2 j [_ H] Hj; unfold retr; rewrite H; auto. Qed.

Lemma Rq_upd_at : forall c c' idx r r2, rec_at c idx = Some r -> upd_at c c' idx r2 ->
  r_id r2 = r_id r -> r_route r2 = r_route r -> r_retry r2 = r_retry r ->
  (retrying_of (Some r2) = true -> retrying_of (Some r) = true) -> Rq c c'.
Proof.
  intros c c' idx r r2 Hr [H2 Ho] Hi Hro Hre Hs; split.
  - intros j x Hx. destruct (Nat.eq_dec j idx) as [->|Hj].
    + rewrite Hr in Hx; inversion Hx; subst x. exists r2; auto.
    + exists x; rewrite Ho by exact Hj; auto.
  - intros j. unfold retr. destruct (Nat.eq_dec j idx) as [->|Hj]; [rewrite H2, Hr; exact Hs|rewrite Ho; auto].
Qed.

Lemma Rq_same : forall c c', sequence (c_ws c') = sequence (c_ws c) -> Rq c c'.
Proof.
  intros c c' H; split; unfold retr, rec_at; rewrite H; [intros idx r Hr; exists r; auto|auto].
Qed.

Lemma Rq_append : forall c c' r, sequence (c_ws c') = app (sequence (c_ws c)) [r] -> r_status r = None -> Rq c c'.
Proof.
  intros c c' r H Hs; split; unfold retr, rec_at; rewrite H.
  - intros idx x Hx. exists x. rewrite nth_error_app1 by (apply nth_error_Some; congruence). auto.
  - intros idx Hr. destruct (Nat.lt_ge_cases idx (length (sequence (c_ws c)))) as [Hl|Hl].
    + rewrite nth_error_app1 in Hr by exact Hl. exact Hr.
    + rewrite nth_error_app2 in Hr by exact Hl. destruct (idx - length (sequence (c_ws c))) as [|n]; simpl in Hr.
      * rewrite Hs in Hr; discriminate.
      * destruct n; discriminate.
Qed.

Definition quiet (f : trec -> trec) : Prop :=
  forall r, r_id (f r) = r_id r /\ r_route (f r) = r_route r /\ r_retry (f r) = r_retry r /\ r_status (f r) = r_status r.

Lemma Rq_update_rec : forall c i f, quiet f -> Rq c (set_ws c (ws_update_rec (c_ws c) i f)).
Proof.
  intros c i f Hf. destruct (rec_at c i) as [r|] eqn:E.
  - destruct (Hf r) as [H1 [H2 [H3 H4]]].
    eapply Rq_upd_at; [exact E|apply upd_at_update_rec; exact E|assumption..|]. simpl; rewrite H4; auto.
  - unfold rec_at in E. rewrite update_rec_absent by exact E. destruct c; apply Rq_refl.
Qed.

Lemma Rq_set_status : forall c i s, s <> S_RETRYING ->
  Rq c (set_ws c (ws_update_rec (c_ws c) i (fun r => r_set_status r (Some s)))).
Proof.
  intros c i s Hs. destruct (rec_at c i) as [r|] eqn:E.
  - eapply Rq_upd_at; [exact E|apply (upd_at_update_rec c i (fun r => r_set_status r (Some s))); exact E|reflexivity..|].
    simpl. intro H; apply status_eqb_eq in H; contradiction.
  - unfold rec_at in E. rewrite update_rec_absent by exact E. destruct c; apply Rq_refl.
Qed.

Create HintDb presq.

Section Quiet.
Variable ev : string -> dict -> evalres.

Ltac quiet_side := intro; repeat split; reflexivity.

Lemma pq_modws : forall f, (forall w, sequence (f w) = sequence w) -> preserves Rq (modws f).
Proof. intros f Hf; apply (preserves_modws Rq); intro c. apply Rq_same, Hf. Qed.
Lemma pq_modify : forall f, (forall c, sequence (c_ws (f c)) = sequence (c_ws c)) -> preserves Rq (modify f).
Proof. intros f Hf; apply (preserves_modify Rq); intro c. apply Rq_same, Hf. Qed.
Lemma pq_new_rec : forall r k idx, r_status r = None ->
  preserves Rq (modws (fun w => ws_set_tasks (ws_set_sequence w (app (sequence w) [r])) (aset tkey_eqb k idx (tasks w)))).
Proof. intros r k idx Hr; apply (preserves_modws Rq); intro c. eapply Rq_append; [reflexivity|exact Hr]. Qed.

Lemma pq_upd_rec : forall i f, quiet f -> preserves Rq (upd_rec i f).
Proof. intros i f Hf; unfold upd_rec. apply (preserves_modws Rq); intro c. apply Rq_update_rec; exact Hf. Qed.
Lemma pq_upd_term : forall i b, preserves Rq (upd_rec i (fun r => r_set_term r b)).
Proof. intros; apply pq_upd_rec; quiet_side. Qed.
Lemma pq_upd_next : forall i (g : trec -> list (trid * bool)), preserves Rq (upd_rec i (fun r => r_set_next r (g r))).
Proof. intros; apply pq_upd_rec; quiet_side. Qed.
Lemma pq_upd_out : forall i o, preserves Rq (upd_rec i (fun r => r_set_out r o)).
Proof. intros; apply pq_upd_rec; quiet_side. Qed.

Lemma pq_set_status : forall i s, s <> S_RETRYING -> preserves Rq (set_rec_status i (Some s)).
Proof. intros i s Hs; unfold set_rec_status. apply (preserves_modws Rq); intro c. apply Rq_set_status; exact Hs. Qed.

Lemma pq_wf_workflow_event : forall st, preserves Rq (wf_workflow_event_M st).
Proof. apply (preserves_wf_workflow_event Rq Rq_refl); intros; apply Rq_same; reflexivity. Qed.
Lemma pq_wf_task_event : forall t route st, preserves Rq (wf_task_event_M t route st).
Proof. apply (preserves_wf_task_event Rq Rq_refl); intros; apply Rq_same; reflexivity. Qed.
Lemma pq_log_entry_error : forall m t r tr res, preserves Rq (log_entry_error m t r tr res).
Proof. intros; apply pq_modify; intro c; cbv zeta. destruct (existsb _ _); reflexivity. Qed.
Hint Resolve pq_modws pq_modify pq_new_rec pq_upd_term pq_upd_next pq_upd_out pq_wf_workflow_event pq_wf_task_event
  pq_log_entry_error seq_remove_staged : presq.
Ltac walk := pw Rq_refl Rq_trans ltac:(solve [auto with presq]).

Lemma pq_log_error : forall e t r tr, preserves Rq (log_error e t r tr).
Proof. intros; apply (frame_log_error Rq); auto with presq. Qed.
Hint Resolve pq_log_error : presq.
Lemma pq_log_errors : forall es t r tr, preserves Rq (log_errors es t r tr).
Proof. intros; apply (frame_log_errors Rq Rq_refl Rq_trans); auto with presq. Qed.
Hint Resolve pq_log_errors : presq.
Lemma pq_log_unreachable : forall l, preserves Rq (log_unreachable l).
Proof. intros; apply (frame_log_unreachable Rq Rq_refl Rq_trans); auto with presq. Qed.
Hint Resolve pq_log_unreachable : presq.
Lemma pq_get_rec : forall i, preserves Rq (get_rec i).
Proof. intros; apply (frame_get_rec Rq Rq_refl Rq_trans). Qed.
Hint Resolve pq_get_rec : presq.

Lemma pq_request_status_core : forall st, preserves Rq (request_status_core st).
Proof.
  apply (request_status_core_not_retrying Rq Rq_refl Rq_trans pq_log_entry_error pq_set_status pq_wf_workflow_event).
Qed.
Hint Resolve pq_request_status_core : presq.

Lemma pq_render_input : forall specs rt rolling errs, preserves Rq (render_input ev specs rt rolling errs).
Proof. intros; apply (frame_render_input ev Rq Rq_refl Rq_trans). Qed.
Hint Resolve pq_render_input : presq.
Lemma pq_render_vars : forall specs rolling rendered errs, preserves Rq (render_vars ev specs rolling rendered errs).
Proof. intros; apply (frame_render_vars ev Rq Rq_refl Rq_trans). Qed.
Hint Resolve pq_render_vars : presq.
Lemma pq_ensure_ws : preserves Rq (ensure_ws ev).
Proof. unfold ensure_ws; walk. Qed.
Hint Resolve pq_ensure_ws : presq.
Theorem pq_request_workflow_status : forall st, preserves Rq (request_workflow_status ev st).
Proof. intros; unfold request_workflow_status; walk. Qed.
Lemma pq_get_task_context : forall idxs, preserves Rq (get_task_context idxs).
Proof. intros; apply (frame_get_task_context Rq Rq_refl Rq_trans). Qed.
Hint Resolve pq_get_task_context : presq.
Lemma pq_render_task : forall ts ctx, preserves Rq (render_task ev ts ctx).
Proof. intros; apply (frame_render_task ev Rq Rq_refl Rq_trans). Qed.
Hint Resolve pq_render_task : presq.
Lemma pq_next_task_for : forall s, preserves Rq (next_task_for ev s).
Proof. intros; apply (frame_next_task_for ev Rq Rq_refl Rq_trans); auto with presq. Qed.
Hint Resolve pq_next_task_for : presq.
Theorem pq_get_next_tasks : preserves Rq (get_next_tasks ev).
Proof. unfold get_next_tasks; walk. Qed.
Lemma pq_setup_retry : forall t idxs, preserves Rq (setup_retry ev t idxs).
Proof. intros; apply (frame_setup_retry ev Rq Rq_refl Rq_trans). Qed.
Hint Resolve pq_setup_retry : presq.
Lemma pq_add_task_state : forall t r i p, preserves Rq (add_task_state ev t r i p).
Proof. intros; unfold add_task_state; walk. Qed.
Hint Resolve pq_add_task_state : presq.
Lemma pq_evaluate_route : forall e r, preserves Rq (evaluate_route e r).
Proof. intros; apply (frame_evaluate_route Rq Rq_refl Rq_trans); auto with presq. Qed.
Hint Resolve pq_evaluate_route : presq.
Lemma pq_evaluate_task_retry : forall r ctx, preserves Rq (evaluate_task_retry ev r ctx).
Proof. intros; apply (frame_evaluate_task_retry ev Rq Rq_refl Rq_trans). Qed.
Hint Resolve pq_evaluate_task_retry : presq.
Lemma pq_finalize_context : forall ts e ctx, preserves Rq (finalize_context ev ts e ctx).
Proof. intros; apply (frame_finalize_context ev Rq Rq_refl Rq_trans). Qed.
Hint Resolve pq_finalize_context : presq.
Lemma pq_process_transition : forall t route idx ts ctx e, preserves Rq (process_transition ev t route idx ts ctx e).
Proof. intros; unfold process_transition; walk. Qed.
Hint Resolve pq_process_transition : presq.
Lemma pq_merge_term_contexts : forall l acc, preserves Rq (merge_term_contexts l acc).
Proof. intros; apply (frame_merge_term_contexts Rq Rq_refl Rq_trans). Qed.
Hint Resolve pq_merge_term_contexts : presq.
Theorem pq_render_workflow_output : preserves Rq (render_workflow_output ev).
Proof. unfold render_workflow_output, get_workflow_terminal_context; walk. Qed.
Lemma pq_request_task_rerun : forall t r b, preserves Rq (request_task_rerun ev t r b).
Proof. intros; unfold request_task_rerun; walk. Qed.
Hint Resolve pq_request_task_rerun : presq.
Theorem pq_request_workflow_rerun : forall reqs, preserves Rq (request_workflow_rerun ev reqs).
Proof. intros; unfold request_workflow_rerun; walk. Qed.

Lemma pq_need_staged : forall s0, preserves Rq (uts_need_staged s0).
Proof. intros; apply (frame_need_staged Rq Rq_refl). Qed.
Hint Resolve pq_need_staged : presq.
Lemma pq_sel1 : forall t s0 e0, preserves Rq (uts_sel1 ev t s0 e0).
Proof. intros; unfold uts_sel1; walk. Qed.
Lemma pq_sel2 : forall t evt s0 r1 i, preserves Rq (uts_sel2 ev t evt s0 r1 i).
Proof. intros; unfold uts_sel2; walk. Qed.
Lemma pq_unstage : forall t route evt s0, preserves Rq (uts_unstage t route evt s0).
Proof. intros; apply (frame_unstage Rq Rq_refl); auto with presq. Qed.
Lemma pq_item : forall t route evt s0, preserves Rq (uts_item t route evt s0).
Proof. intros; apply (frame_item Rq Rq_refl); auto with presq. Qed.
Lemma pq_select : forall t evt s0 e0, preserves Rq (uts_select ev t evt s0 e0).
Proof. intros; unfold uts_select; pw Rq_refl Rq_trans ltac:(first [apply pq_sel1|apply pq_sel2|apply pq_get_rec]). Qed.
Lemma pq_before : forall t route evt s0, preserves Rq (uts_before t route evt s0).
Proof. intros; apply (frame_before Rq Rq_refl Rq_trans); auto with presq. Qed.
Lemma pq_logfail : forall t evt, preserves Rq (uts_logfail t evt).
Proof. intros; apply (frame_logfail Rq Rq_refl); auto with presq. Qed.
Lemma pq_completion : forall t route evt ts idx ns o0, preserves Rq (uts_completion ev t route evt ts idx ns o0).
Proof. intros; unfold uts_completion; walk. Qed.
Lemma pq_queue : forall t route idx ts o n compl, preserves Rq (uts_queue ev t route idx ts o n compl).
Proof. intros; unfold uts_queue; walk. Qed.

End Quiet.

Lemma Rmono_upd_at : forall c c' idx r r2, rec_at c idx = Some r -> upd_at c c' idx r2 ->
  r_id r2 = r_id r -> r_route r2 = r_route r -> retry_mono (r_retry r) (r_retry r2) -> Rmono c c'.
Proof.
  intros c c' idx r r2 Hr [H2 Ho] Hi Hro Hm j x Hx. destruct (Nat.eq_dec j idx) as [->|Hj].
  - rewrite Hr in Hx; inversion Hx; subst x. exists r2; auto.
  - exists x; rewrite Ho by exact Hj. repeat split; auto. apply retry_mono_refl.
Qed.

Lemma Rent_upd_at : forall c c' idx r r2, rec_at c idx = Some r -> upd_at c c' idx r2 ->
  r_id r2 = r_id r -> r_route r2 = r_route r -> retry_mono (r_retry r) (r_retry r2) ->
  (retrying_of (Some r) = false -> retrying_of (Some r2) = true ->
   exists rr2, r_retry r2 = Some rr2 /\ py_is_int (rr_count rr2) = true /\
               (Z.of_nat (tally_of (Some r)) < py_int_value (rr_count rr2))%Z /\ tally_of (Some r) + 1 <= rr_tally rr2) ->
  Rent c c'.
Proof.
  intros c c' idx r r2 Hr Hu Hi Hro Hm He. split; [eapply Rmono_upd_at; eassumption|].
  intros j H1 H2. destruct (Nat.eq_dec j idx) as [->|Hj].
  - unfold retr in H1, H2. destruct Hu as [Hu _]. rewrite Hr in H1. rewrite Hu in H2.
    destruct (He H1 H2) as [rr2 [E1 [E2 [E3 E4]]]]. exists r2, rr2. unfold tal. rewrite Hr. auto.
  - rewrite (retr_other _ _ _ _ _ Hu Hj) in H2. congruence.
Qed.

Definition allowed (r : trec) : Prop := retry_allowed r true.

Lemma allowed_retry_eq : forall r r', r_retry r' = r_retry r -> allowed r -> allowed r'.
Proof. intros r r' E H Ht. destruct (H Ht) as [rr Hrr]. exists rr. rewrite E; exact Hrr. Qed.

Lemma setst_upd_at : forall idx ns c c1 res r, rec_at c idx = Some r -> uts_setst idx ns c = (c1, res) ->
  upd_at c c1 idx (stepped r ns) /\ tasks (c_ws c1) = tasks (c_ws c).
Proof.
  intros idx ns c c1 res r Hr H. unfold uts_setst in H. destruct ns as [s|].
  - unfold set_rec_status, modws in H; inversion H; subst. split.
    + exact (upd_at_update_rec c idx (fun r => r_set_status r (Some s)) r Hr).
    + simpl. apply tasks_update_rec.
  - inversion H; subst. split; [split; [exact Hr|auto]|reflexivity].
Qed.

Lemma retrying_upd_at : forall t route idx r st c c' res, rec_at c idx = Some r ->
  uts_retrying t route idx r st c = (c', res) ->
  tasks (c_ws c') = tasks (c_ws c) /\
  exists r2, upd_at c c' idx r2 /\ r_id r2 = r_id r /\ r_route r2 = r_route r /\ r_status r2 = r_status r /\
    (r_retry r2 = r_retry r \/
     (st = S_RETRYING /\ exists rr rr2, r_retry r = Some rr /\ r_retry r2 = Some rr2 /\
                                         rr_count rr2 = rr_count rr /\ rr_tally rr2 = S (rr_tally rr))) /\
    (st = S_RETRYING -> r_retry r <> None -> r_retry r2 <> r_retry r).
Proof.
  intros t route idx r st c c' res Hr H. unfold uts_retrying in H.
  assert (Same : c' = c -> tasks (c_ws c') = tasks (c_ws c) /\
     exists r2, upd_at c c' idx r2 /\ r_id r2 = r_id r /\ r_route r2 = r_route r /\ r_status r2 = r_status r /\
       (r_retry r2 = r_retry r \/
        (st = S_RETRYING /\ exists rr rr2, r_retry r = Some rr /\ r_retry r2 = Some rr2 /\
                                            rr_count rr2 = rr_count rr /\ rr_tally rr2 = S (rr_tally rr)))).
  { intros ->. split; [reflexivity|]. exists r. split; [split; [exact Hr|auto]|]. do 3 (split; [reflexivity|]). left; reflexivity. }
  destruct (status_eqb st S_RETRYING) eqn:E.
  2: { inversion H; subst. destruct (Same eq_refl) as [S1 [r2 [S2 [S3 [S4 [S5 S6]]]]]].
       split; [exact S1|]. exists r2. do 5 (split; [assumption|]).
       intros Hs; subst st. rewrite status_eqb_refl in E; discriminate. }
  apply status_eqb_eq in E.
  destruct (r_retry r) as [rr|] eqn:Er.
  2: { inversion H; subst. destruct (Same eq_refl) as [S1 [r2 [S2 [S3 [S4 [S5 S6]]]]]].
       split; [exact S1|]. exists r2. do 5 (split; [assumption|]). intros _ Hn; congruence. }
  cbv zeta in H. unfold bind, upd_rec, modws in H. cbv beta iota in H. inversion H; subst c' res; clear H.
  split; [simpl; rewrite tasks_remove_staged; simpl; apply tasks_update_rec|].
  eexists. split; [|split; [|split; [|split; [|split]]]].
  - pose proof (upd_at_update_rec c idx (fun r0 => r_set_retry r0 (Some {| rr_when := rr_when rr; rr_count := rr_count rr;
                  rr_delay := rr_delay rr; rr_tally := S (rr_tally rr) |})) r Hr) as [U1 U2].
    split; unfold rec_at in *; simpl; rewrite seq_remove_staged; [exact U1|exact U2].
  - reflexivity.
  - reflexivity.
  - reflexivity.
  - right. split; [exact E|]. eexists; eexists; split; [reflexivity|]. split; [simpl; reflexivity|].
    split; reflexivity.
  - intros _ _. simpl. intro Hc.
    apply (f_equal (fun o => match o with Some x => rr_tally x | None => 0 end)) in Hc. simpl in Hc. lia.
Qed.

Lemma step_rel : forall t route idx ns c c1 res1 c2 res2 r, rec_at c idx = Some r ->
  uts_setst idx ns c = (c1, res1) ->
  uts_retrying t route idx (stepped r ns) (rstatus (stepped r ns)) c1 = (c2, res2) ->
  tasks (c_ws c2) = tasks (c_ws c) /\ Rmono c c2 /\ ((ns = Some S_RETRYING -> allowed r) -> Rent c c2).
Proof.
  intros t route idx ns c c1 res1 c2 res2 r Hr E1 E2.
  destruct (setst_upd_at _ _ _ _ _ _ Hr E1) as [U1 T1].
  destruct (retrying_upd_at _ _ _ _ _ _ _ _ (proj1 U1) E2) as [T2 [r2 [U2 [I2 [O2 [S2 [D2 N2]]]]]]].
  pose proof (upd_at_trans _ _ _ _ _ _ U1 U2) as U.
  assert (Hid : r_id r2 = r_id r) by (rewrite I2; destruct ns; reflexivity).
  assert (Hro : r_route r2 = r_route r) by (rewrite O2; destruct ns; reflexivity).
  assert (Hm : retry_mono (r_retry r) (r_retry r2)).
  { destruct D2 as [D2|[_ [rr [rr2 [A1 [A2 [A3 A4]]]]]]].
    - apply retry_mono_eq. rewrite D2. apply stepped_retry.
    - rewrite stepped_retry in A1. rewrite A1, A2. simpl. split; [exact A3|lia]. }
  split; [congruence|]. split; [eapply Rmono_upd_at; eassumption|].
  intro Hal. eapply Rent_upd_at; try eassumption.
  intros Hb Ha. simpl in Hb, Ha. rewrite S2 in Ha.
  assert (Hns : ns = Some S_RETRYING).
  { destruct ns as [s|]; simpl in Ha; [apply status_eqb_eq in Ha; subst; reflexivity|]. congruence. }
  specialize (Hal Hns). destruct (Hal eq_refl) as [rr [Hrr [Hint Hlt]]].
  assert (Hst : rstatus (stepped r ns) = S_RETRYING) by (subst ns; reflexivity).
  destruct D2 as [D2|[_ [rr' [rr2 [A1 [A2 [A3 A4]]]]]]].
  - exfalso. apply (N2 Hst); [rewrite stepped_retry, Hrr; discriminate|exact D2].
  - rewrite stepped_retry, Hrr in A1; inversion A1; subst rr'.
    exists rr2. simpl. rewrite Hrr. rewrite A3, A4. repeat split; try assumption; lia.
Qed.

(* events from outside: anything but the engine's own retry request *)
Definition external_event (evt : event) : bool :=
  match evt with EvEngine n _ => negb (String.eqb n EV_TASK_RETRY_REQUESTED) | _ => true end.

Lemma provider_external : forall evt, provider_event evt = true -> external_event evt = true.
Proof. intros [| | |]; simpl; intro H; try reflexivity; discriminate. Qed.

Definition rec_ok2 (evt : event) (r : trec) : Prop :=
  r_status r = None \/ external_event evt = true \/ allowed r.

Definition entry2 (evt : event) (c : cstate) (t : string) (route : nat) : Prop :=
  external_event evt = true \/ is_engine_command t = true \/
  forall i r, ws_task_idx (c_ws c) t route = Some i -> rec_at c i = Some r -> allowed r.

Lemma entry2_Rnr : forall evt c c' t route, entry2 evt c t route -> Rnr c c' -> entry2 evt c' t route.
Proof.
  intros evt c c' t route [H|[H|H]] [Ht Hs]; [left; exact H|right; left; exact H|right; right].
  intros i r' Hp Hn. unfold ws_task_idx in *. rewrite Ht in Hp. destruct (Hs _ _ Hn) as [r [Hr [Er _]]].
  eapply allowed_retry_eq; [exact Er|]. eapply H; eassumption.
Qed.

Lemma machine_enters_allowed : forall w r evt, rec_ok2 evt r ->
  task_process_event w r evt = Val (Some S_RETRYING) -> allowed r.
Proof.
  intros w r evt Hok H. destruct Hok as [Hnone|[Hext|Hal]]; [exfalso|exfalso|exact Hal].
  - destruct (tpe_step _ _ _ _ H) as [name Hn]. unfold rstatus in Hn. rewrite Hnone in Hn.
    apply F_task_retrying_only_by_retry in Hn. destruct Hn as [_ Hn]. exact (unset_not_completed Hn).
  - destruct evt as [st|st res|item st res acc|n st].
    + exact (workflow_event_never_retrying _ _ _ _ H eq_refl).
    + destruct (tpe_provider w r (EvAction st res) _ eq_refl H) as [name [Hn [Hne _]]].
      apply F_task_retrying_only_by_retry in Hn. exact (Hne (proj1 Hn)).
    + destruct (tpe_provider w r (EvItem item st res acc) _ eq_refl H) as [name [Hn [Hne _]]].
      apply F_task_retrying_only_by_retry in Hn. exact (Hne (proj1 Hn)).
    + apply tpe_engine in H. apply F_task_retrying_only_by_retry in H. destruct H as [H _]. subst n.
      vm_compute in Hext. discriminate.
Qed.

Section Entries.
Variable ev : string -> dict -> evalres.

Ltac binv H c1 a E :=
  apply bind_inv in H; destruct H as [[c1 [a [E H]]]|[?e [E ->]]].

(* monotone always; entries accounted for when the call is entered properly *)
Definition Rme (ok : Prop) (c c' : cstate) : Prop := Rmono c c' /\ (ok -> Rent c c').
Lemma Rme_quiet : forall ok c c', Rq c c' -> Rme ok c c'.
Proof. intros ok c c' H; split; [apply Rq_Rmono|intros _; apply Rq_Rent]; exact H. Qed.
Lemma Rme_ent : forall ok c c', Rent c c' -> Rme ok c c'.
Proof. intros ok c c' H; split; [apply Rent_Rmono; exact H|intros _; exact H]. Qed.
Lemma Rme_refl : forall ok c, Rme ok c c.
Proof. intros; apply Rme_quiet, Rq_refl. Qed.
Lemma Rme_trans : forall ok a b c, Rme ok a b -> Rme ok b c -> Rme ok a c.
Proof. intros ok a b c [M1 E1] [M2 E2]; split; [eapply Rmono_trans; eassumption|intro H; eapply Rent_trans; auto]. Qed.

Lemma machine_both : forall t route evt ts idx c c' res,
  pre_machine ev t route evt ts idx c = (c', res) -> Rme (forall r, rec_at c idx = Some r -> rec_ok2 evt r) c c'.
Proof.
  intros t route evt ts idx c c' res H. unfold pre_machine in H.
  binv H c0 r E0; [|apply get_rec_state in E0; subst; apply Rme_refl].
  apply get_rec_inv in E0; destruct E0 as [-> Hr].
  binv H c0 w E0; [|inversion E0]. inversion E0; subst c0 w; clear E0.
  binv H c0 ns E0; [|apply lift_res_inv in E0; destruct E0 as [-> _]; apply Rme_refl].
  apply lift_res_inv in E0; destruct E0 as [-> Ens]. symmetry in Ens.
  binv H c1 u1 E1; [|destruct (setst_inv _ _ _ _ _ _ E1 Hr) as [F _]; discriminate F].
  destruct (setst_inv _ _ _ _ _ _ E1 Hr) as [_ [_ [_ Hn1]]]. fold (stepped r ns) in Hn1.
  binv H c0 r' E0; [|unfold get_rec, bind, getws in E0; rewrite Hn1 in E0; inversion E0].
  apply get_rec_inv in E0; destruct E0 as [-> Hr']. rewrite Hn1 in Hr'; inversion Hr'; subst r'; clear Hr'.
  assert (Both : forall c2 res2, uts_retrying t route idx (stepped r ns) (rstatus (stepped r ns)) c1 = (c2, res2) ->
            Rme (forall r, rec_at c idx = Some r -> rec_ok2 evt r) c c2).
  { intros c2 res2 E2. destruct (step_rel _ _ _ _ _ _ _ _ _ _ Hr E1 E2) as [_ [Mo En]].
    split; [exact Mo|]. intro Hok. apply En. intro Hns; subst ns.
    eapply machine_enters_allowed; [apply Hok; exact Hr|exact Ens]. }
  binv H c2 u2 E2; [|exact (Both _ _ E2)].
  eapply Rme_trans; [exact (Both _ _ E2)|]. apply Rme_quiet.
  binv H c3 compl E3; [inversion H; subst|]; eapply pq_completion; eassumption.
Qed.

Lemma main_both : forall t route evt ts s0 e0 c c' res,
  pre_main ev t route evt ts s0 e0 c = (c', res) ->
  Rme ((forall s, s0 = Some s -> s_route s = route) /\ e0 = ws_task_idx (c_ws c) t route /\ entry2 evt c t route) c c'.
Proof.
  intros t route evt ts s0 e0 c c' res H. rewrite pre_main_eq in H.
  binv H c2 idx E2; [|apply Rme_quiet; eapply pq_select; exact E2].
  pose proof (pq_select ev _ _ _ _ _ _ _ E2) as Q2.
  binv H c5 u5 E5; [|apply Rme_quiet; eapply Rq_trans; [exact Q2|eapply pq_before; exact E5]].
  eapply Rme_trans; [apply Rme_quiet; eapply Rq_trans; [exact Q2|eapply pq_before; exact E5]|].
  destruct (machine_both _ _ _ _ _ _ _ _ H) as [Mo En]. split; [exact Mo|]. intros [Hroute [He0 Hok]]. apply En.
  destruct (uts_select_inv ev _ _ _ _ _ _ _ _ _ Hroute He0 E2 (pk_before _ _ _ _ _ _ _ E5)) as [r [Hn [Hp Hd]]].
  intros r' Hr'. unfold rec_at in Hr'. rewrite Hn in Hr'; inversion Hr'; subst r'; clear Hr'.
  destruct Hd as [[He [Hc [Ks Kt]]]|[Hd _]]; [|left; exact Hd].
  destruct Hok as [Hok|[Hok|Hok]]; [right; left; exact Hok|congruence|right; right].
  apply (Hok idx); [rewrite <- He0; exact He|unfold rec_at; rewrite <- Ks; exact Hn].
Qed.

Lemma prefix_both : forall t route evt c c' res,
  uts_prefix ev t route evt c = (c', res) -> Rme (entry2 evt c t route) c c'.
Proof.
  intros t route evt c c' res H. destruct (prefix_run ev _ _ _ _ _ _ H) as [c1 [r1 [E1 Hc]]].
  pose proof (pq_ensure_ws ev _ _ _ E1) as Q1.
  destruct Hc as [[e [_ [-> _]]]|[[_ [-> _]]|[-> [ts [_ [_ [_ Hm]]]]]]]; [apply Rme_quiet; exact Q1..|].
  eapply Rme_trans; [apply Rme_quiet; exact Q1|]. destruct (main_both _ _ _ _ _ _ _ _ _ Hm) as [Mo En].
  split; [exact Mo|]. intro Hok. apply En. split; [intros s Hs; apply get_staged_matches in Hs; apply Hs|].
  split; [reflexivity|exact (entry2_Rnr _ _ _ _ _ Hok (pn_ensure_ws ev _ _ _ E1))].
Qed.

Definition callme (rec : string -> nat -> event -> M unit) : Prop :=
  forall t route evt c c' r, rec t route evt c = (c', r) -> Rme (entry2 evt c t route) c c'.

Lemma rest_ent : forall rec, callme rec -> forall t route ts idx old new compl,
  preserves Rent (uts_rest ev rec t route ts idx old new compl).
Proof.
  intros rec Hrec t route ts idx old new compl.
  assert (W : forall A (m : M A), preserves Rq m -> preserves Rent m) by (intros A m; apply preserves_sub; exact Rq_Rent).
  apply (preserves_bind_v _ Rent_trans _ _ (Forall cmd_pair)); [apply queue_cmds|apply W, pq_queue|intros q Hq].
  apply (uts_after_pres Rent Rent_refl Rent_trans); [intros; apply W, pq_log_entry_error|intros; apply W, pq_wf_task_event
    |intros; apply W, pq_upd_term|].
  intros n rt e Hin _ x x' rr Hx. rewrite Forall_forall in Hq. apply (Hrec _ _ _ _ _ _ Hx). right; left; exact (Hq _ Hin).
Qed.

Lemma body_me : forall rec, callme rec -> callme (uts_body ev rec).
Proof.
  intros rec Hrec t route evt c c' r H. rewrite body_eq in H.
  binv H c1 p E1; [|exact (prefix_both _ _ _ _ _ _ E1)].
  eapply Rme_trans; [exact (prefix_both _ _ _ _ _ _ E1)|]. apply Rme_ent.
  unfold tail_of in H. rewrite uts_tail_eq in H.
  destruct (po_compl p) as [[ctx [|]]|] eqn:Ec; [|exact (rest_ent rec Hrec _ _ _ _ _ _ _ _ _ _ H)..].
  apply (Hrec _ _ _ _ _ _ H). right; right. intros i x Hp Hx.
  destruct (prefix_decided ev _ _ _ _ _ _ _ E1 Ec) as [Hp' [x' [Hx' [Hal _]]]].
  rewrite Hp in Hp'; inversion Hp'; subst i. unfold rec_at in Hx. rewrite Hx in Hx'; inversion Hx'; subst x'. exact Hal.
Qed.

Lemma uts_fuel_me : forall fuel, callme (update_task_state_fuel ev fuel).
Proof.
  intros fuel t route evt c c' r H.
  refine (uts_fuel_ind ev (fun t route evt c c' _ => Rme (entry2 evt c t route) c c') _ body_me fuel t route evt c c' r H).
  intros; apply Rme_refl.
Qed.

End Entries.

Section History.
Variable ev : string -> dict -> evalres.

Definition op_external (op : api_op) : Prop :=
  match op with OpEvent _ _ e => external_event e = true | _ => True end.

Lemma api_exec_me : forall op c, Rme (op_external op) c (fst (api_exec ev op c)).
Proof.
  intros op c. rewrite api_exec_state. destruct op; cbn [api_state];
    try (apply Rme_quiet; apply (preserves_fst Rq);
         auto using pq_ensure_ws, pq_request_workflow_status, pq_get_next_tasks, pq_render_workflow_output, pq_request_workflow_rerun; fail).
  destruct (update_task_state ev t route e c) as [c1 r1] eqn:E. destruct (uts_fuel_me ev 3 _ _ _ _ _ _ E) as [Mo En].
  split; [exact Mo|]. intro Hx. apply En. left; exact Hx.
Qed.

Theorem api_exec_mono : forall op, preserves Rmono (api_exec ev op).
Proof. intros op c c' r H. replace c' with (fst (api_exec ev op c)) by (rewrite H; reflexivity). exact (proj1 (api_exec_me op c)). Qed.

Theorem api_exec_ent : forall op, op_external op -> preserves Rent (api_exec ev op).
Proof.
  intros op Hx c c' r H. replace c' with (fst (api_exec ev op c)) by (rewrite H; reflexivity).
  exact (proj2 (api_exec_me op c) Hx).
Qed.

Definition entry_bit (c c' : cstate) (idx : nat) : nat :=
  if negb (retr c idx) && retr c' idx then 1 else 0.

Fixpoint entries (ops : list api_op) (c : cstate) (idx : nat) : nat :=
  match ops with
  | [] => 0
  | op :: ops' => let c' := fst (api_exec ev op c) in entry_bit c c' idx + entries ops' c' idx
  end.

(* t0: the tally when counting started; k: entries counted so far *)
Definition good (t0 k : nat) (c : cstate) (idx : nat) : Prop :=
  t0 + k <= tal c idx /\
  (k = 0 \/ exists r rr, rec_at c idx = Some r /\ r_retry r = Some rr /\ py_is_int (rr_count rr) = true /\
                         (Z.of_nat (t0 + k) <= py_int_value (rr_count rr))%Z).

Lemma good_step : forall t0 k c c' idx, Rent c c' -> good t0 k c idx -> good t0 (k + entry_bit c c' idx) c' idx.
Proof.
  intros t0 k c c' idx [Mo En] [G1 G2]. unfold entry_bit.
  pose proof (tal_mono _ _ idx Mo) as Ht.
  destruct (retr c idx) eqn:Rc; cbn [negb andb]; [|destruct (retr c' idx) eqn:Rc'].
  - rewrite Nat.add_0_r. split; [lia|]. destruct G2 as [G2|[r [rr [Hr [Hrr [Hi Hle]]]]]]; [left; exact G2|right].
    destruct (Mo _ _ Hr) as [r' [Hr' [_ [_ Hm]]]]. rewrite Hrr in Hm.
    destruct (r_retry r') as [rr'|] eqn:Hrr'; simpl in Hm; [|tauto]. destruct Hm as [Hc _].
    exists r', rr'. rewrite Hc. auto.
  - destruct (En idx Rc Rc') as [r' [rr' [Hr' [Hrr' [Hi [Hlt Hge]]]]]].
    split; [unfold tal at 1; rewrite Hr'; simpl; rewrite Hrr'; lia|].
    right. exists r', rr'. repeat split; try assumption. lia.
  - rewrite Nat.add_0_r. split; [lia|]. destruct G2 as [G2|[r [rr [Hr [Hrr [Hi Hle]]]]]]; [left; exact G2|right].
    destruct (Mo _ _ Hr) as [r' [Hr' [_ [_ Hm]]]]. rewrite Hrr in Hm.
    destruct (r_retry r') as [rr'|] eqn:Hrr'; simpl in Hm; [|tauto]. destruct Hm as [Hc _].
    exists r', rr'. rewrite Hc. auto.
Qed.

Lemma entries_inv : forall idx t0 ops c k, Forall op_external ops -> good t0 k c idx ->
  good t0 (k + entries ops c idx) (run_ops ev ops c) idx.
Proof.
  intros idx t0; induction ops as [|op ops IH]; intros c k Hx Hg; simpl.
  - rewrite Nat.add_0_r; exact Hg.
  - inversion Hx as [|x l Hop Hops]; subst. unfold run_ops; simpl. rewrite Nat.add_assoc.
    apply IH; [exact Hops|]. apply good_step; [|exact Hg].
    destruct (api_exec ev op c) as [c' r] eqn:E. simpl. eapply api_exec_ent; eassumption.
Qed.

(* from any state on: the initial tally plus the number of entries into retrying never exceeds the tally
   reached, and -- when there was an entry at all -- never exceeds the (integer) count *)
Theorem retry_entries_bounded : forall ops c idx, Forall op_external ops ->
  good (tal c idx) (entries ops c idx) (run_ops ev ops c) idx.
Proof.
  intros ops c idx Hx. apply (entries_inv idx (tal c idx) ops c 0 Hx). split; [lia|left; reflexivity].
Qed.

(* the form of the property text: at most max(count, 0) retried executions of a record that starts at
   tally 0 (in particular every record of a history that starts with no record) *)
Corollary retry_entries_at_most_count : forall ops c idx r rr, Forall op_external ops -> tal c idx = 0 ->
  rec_at (run_ops ev ops c) idx = Some r -> r_retry r = Some rr ->
  (Z.of_nat (entries ops c idx) <= Z.max (py_int_value (rr_count rr)) 0)%Z /\ entries ops c idx <= rr_tally rr.
Proof.
  intros ops c idx r rr Hx H0 Hr Hrr. destruct (retry_entries_bounded ops c idx Hx) as [G1 G2].
  rewrite H0 in *. cbn [Nat.add] in *. unfold tal in G1. rewrite Hr in G1. simpl in G1. rewrite Hrr in G1.
  split; [|exact G1]. destruct G2 as [G2|[r' [rr' [Hr' [Hrr' [_ Hle]]]]]]; [rewrite G2; simpl; lia|].
  rewrite Hr in Hr'; inversion Hr'; subst r'. rewrite Hrr in Hrr'; inversion Hrr'; subst rr'. lia.
Qed.

Corollary no_retry_no_entries : forall ops c idx, Forall op_external ops ->
  (forall r, rec_at (run_ops ev ops c) idx = Some r -> r_retry r = None) -> entries ops c idx = 0.
Proof.
  intros ops c idx Hx Hn. destruct (retry_entries_bounded ops c idx Hx) as [_ [G|[r [rr [Hr [Hrr _]]]]]]; [exact G|].
  rewrite (Hn _ Hr) in Hrr; discriminate.
Qed.

Lemma empty_tal : forall c idx, sequence (c_ws c) = [] -> tal c idx = 0.
Proof. intros c idx H; unfold tal, rec_at; rewrite H. destruct idx; reflexivity. Qed.

Theorem new_record_tally_zero : forall t rt ins prev c c' idx,
  add_task_state ev t rt ins prev c = (c', Val idx) ->
  exists r, rec_at c' idx = Some r /\ r_status r = None /\ tal c' idx = 0.
Proof.
  intros t rt ins prev c c' idx H. destruct (add_task_state_inv _ _ _ _ _ _ _ _ H) as [r [Hn [Hs [Hf _]]]].
  exists r. split; [exact Hn|]. split; [exact Hs|]. unfold tal, rec_at. rewrite Hn. simpl.
  destruct (r_retry r) as [rr|] eqn:E; [apply Hf; reflexivity|reflexivity].
Qed.

End History.

Definition op_external_b (op : api_op) : bool :=
  match op with OpEvent _ _ e => external_event e | _ => true end.
Lemma ops_external_b_sound : forall ops, forallb op_external_b ops = true -> Forall op_external ops.
Proof.
  intros ops H. apply Forall_forall. intros op Hin. rewrite forallb_forall in H. specialize (H _ Hin).
  destruct op; simpl in *; auto.
Qed.
