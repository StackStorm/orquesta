(* C04, third clause: late completion reports of still-running actions are absorbed.
   A provider's completion report (EvAction with a completed status) for a plain task whose record is still
   running / pausing / canceling, delivered when the workflow is already failed, canceled or succeeded:
   the call returns normally -- with ONE exception, stated exactly: in a CANCELED workflow, when an expression of one
   of the task's transitions fails, the engine's attempt to fail the workflow is refused and the refusal
   (InvalidWorkflowStatusTransition) escapes update_task_state; the workflow status does not move (succeeded may
   become failed, by such an expression failure only); the record takes the reported status; what the transitions
   stage is never offered (C04).
   The task's transitions may queue engine commands (late_report_absorbed_gen: each is delivered to the done workflow
   and only makes its own record); late_report_absorbed is the case without such edges.  With-items tasks: Late2Proofs. *)
From Coq Require Import String List Bool ZArith Arith Lia.
From Orq Require Import GenStatuses GenEvents GenTables Base State Machines Conductor Api.
From Orq Require Import F_tables F_names Hoare Frame ValuePost StatusReach C04Proofs C05Proofs InertProofs RetryProofs RetryBoundProofs
  FrozenProofs NoInternalProofs CancelProofs ListFacts StateFacts.
Import ListNotations.
Open Scope string_scope.
Open Scope monad_scope.

Definition done_status (s : status) : Prop := In s [S_FAILED; S_CANCELED; S_SUCCEEDED].
Definition done (c : cstate) : Prop := done_status (wstatus (c_ws c)).

Lemma F_done_not_active : forall s, done_status s -> status_in s ACTIVE_STATUSES = false.
Proof. intros s [<-|[<-|[<-|[]]]]; vm_compute; reflexivity. Qed.
Lemma F_done_completed : forall s, done_status s -> status_in s COMPLETED_STATUSES = true.
Proof. intros s [<-|[<-|[<-|[]]]]; vm_compute; reflexivity. Qed.
Lemma F_done_lifecycle : forall s, done_status s -> In s wf_statuses.
Proof. intros s [<-|[<-|[<-|[]]]]; vm_compute; tauto. Qed.
Lemma reach_done : forall s u, done_status s -> wf_reach s u -> done_status u.
Proof.
  intros s u [<-|[<-|[<-|[]]]] H.
  - rewrite (reach_from_failed _ H). left; reflexivity.
  - rewrite (reach_from_canceled _ H). right; left; reflexivity.
  - destruct (reach_from_succeeded _ H) as [->| ->]; [right; right; left|left]; reflexivity.
Qed.
Lemma reach_done_exact : forall s u, done_status s -> wf_reach s u -> u = s \/ (s = S_SUCCEEDED /\ u = S_FAILED).
Proof.
  intros s u [<-|[<-|[<-|[]]]] H.
  - left; apply (reach_from_failed _ H).
  - left; apply (reach_from_canceled _ H).
  - destruct (reach_from_succeeded _ H) as [->| ->]; [left; reflexivity|right; split; reflexivity].
Qed.

(* a task event never moves a workflow that is done, and reports no join *)
Lemma F_done_task_event : forall s n, done_status s -> string_in n TASK_EXECUTION_EVENTS = true ->
  exists row, tbl_row wf_table s = Some row /\ aget String.eqb n row = None.
Proof.
  intros s n Hs Hn. destruct Hs as [<-|[<-|[<-|[]]]].
  (* the rows of failed, canceled and succeeded in wf_table (gen/GenTables.v): two are empty, the third has one entry *)
  - exists []. split; vm_compute; reflexivity.
  - exists []. split; vm_compute; reflexivity.
  - exists [("workflow_failed", S_FAILED)]. split; [vm_compute; reflexivity|].
    simpl. destruct (String.eqb n "workflow_failed") eqn:E; [|reflexivity].
    apply String.eqb_eq in E. exfalso. exact (task_event_not_failure_request n Hn E).
Qed.

Definition still_running (r : trec) : Prop :=
  exists s, r_status r = Some s /\ In s [S_RUNNING; S_PAUSING; S_CANCELING].
Definition reported (st : status) : status :=
  if status_eqb st S_SUCCEEDED then S_SUCCEEDED else if status_eqb st S_CANCELED then S_CANCELED else S_FAILED.
Lemma F_completion_step : forall s st, In s [S_RUNNING; S_PAUSING; S_CANCELING] -> status_in st COMPLETED_STATUSES = true ->
  tbl_step task_table s (ACTION_EVENT_PREFIX ++ status_name st) = Some (reported st) /\
  string_in (ACTION_EVENT_PREFIX ++ status_name st) (app ACTION_EXECUTION_EVENTS ENGINE_OPERATION_EVENTS) = true.
Proof.
  intros s st Hs Hst. apply status_in_In in Hst.
  repeat (destruct Hs as [<-|Hs]; [repeat (destruct Hst as [<-|Hst]; [split; vm_compute; reflexivity|]); destruct Hst|]).
  destruct Hs.
Qed.
Lemma F_reported_completed : forall st, status_in (reported st) COMPLETED_STATUSES = true /\ reported st <> S_RETRYING.
Proof.
  intro st. unfold reported. destruct (status_eqb st S_SUCCEEDED); [|destruct (status_eqb st S_CANCELED)];
    (split; [reflexivity|discriminate]).
Qed.
Lemma reported_known : forall st, ~ In (reported st) [S_EXPIRED; S_ABANDONED; S_UNSET].
Proof.
  intros st [E|[E|[E|[]]]]; unfold reported in E;
    destruct (status_eqb st S_SUCCEEDED); try discriminate; destruct (status_eqb st S_CANCELED); discriminate.
Qed.
Lemma F_running_not_completed : forall s, In s [S_RUNNING; S_PAUSING; S_CANCELING] ->
  status_in s COMPLETED_STATUSES = false /\ s <> S_RETRYING /\ (forall st, s <> reported st).
Proof.
  intros s H. repeat (destruct H as [<-|H]; [split; [vm_compute; reflexivity|split; [discriminate|]];
    intro st; unfold reported; destruct (status_eqb st S_SUCCEEDED); [discriminate|destruct (status_eqb st S_CANCELED); discriminate]|]).
  destruct H.
Qed.

Definition fail_refused : exn := exn_invalid_wf_transition S_CANCELED (WORKFLOW_EVENT_PREFIX ++ status_name S_FAILED).

Lemma rsc_failed_done : forall c c' res, done c -> request_status_core S_FAILED c = (c', res) ->
  (res = Val tt /\ wstatus (c_ws c') = (if status_eqb (wstatus (c_ws c)) S_SUCCEEDED then S_FAILED else wstatus (c_ws c))) \/
  (wstatus (c_ws c) = S_CANCELED /\ c' = c /\ res = Exc fail_refused).
Proof.
  intros c c' res Hd H. rewrite rsc_failed_run in H. destruct Hd as [E|[E|[E|[]]]]; rewrite <- E in H.
  - rewrite F_wf_failed_final in H. inversion H; subst. left. split; [reflexivity|]. rewrite <- E. reflexivity.
  - rewrite F_wf_canceled_final in H. inversion H; subst. right. split; [symmetry; exact E|split; reflexivity].
  - change (tbl_step wf_table S_SUCCEEDED "workflow_failed") with (Some S_FAILED) in H. inversion H; subst.
    left. split; [reflexivity|]. cbn [c_ws set_ws wstatus ws_set_status]. rewrite <- E. reflexivity.
Qed.

Definition Rfail (c c' : cstate) : Prop := wstatus (c_ws c') = wstatus (c_ws c) \/ wstatus (c_ws c') = S_FAILED.
Lemma Rfail_refl : forall c, Rfail c c.
Proof. intro c; left; reflexivity. Qed.
Lemma Rfail_trans : forall a b c, Rfail a b -> Rfail b c -> Rfail a c.
Proof. unfold Rfail; intros a b c [H1|H1] [H2|H2]; [left|right|right|right]; congruence. Qed.
Lemma pfail_rsc : preserves Rfail (request_status_core S_FAILED).
Proof.
  intros c c' r H. rewrite rsc_failed_run in H.
  destruct (tbl_step wf_table (wstatus (c_ws c)) "workflow_failed"); inversion H; [right|left]; reflexivity.
Qed.

(* from a state satisfying I, m ends in a state satisfying I -- also when it raises -- and an exception it raises
   satisfies Q in the state it is raised in *)
Definition hx (I : cstate -> Prop) (Q : cstate -> exn -> Prop) {A} (m : M A) : Prop :=
  forall c c' r, I c -> m c = (c', r) -> I c' /\ (forall e, r = Exc e -> Q c' e).

Section HX.
Variable I : cstate -> Prop.
Variable Q : cstate -> exn -> Prop.
Lemma hx_ret : forall A (a : A), hx I Q (ret a).
Proof. intros A a c c' r Hi H; inversion H; subst. split; [exact Hi|discriminate]. Qed.
Lemma hx_raise : forall A e, (forall c, I c -> Q c e) -> hx I Q (@raise A e).
Proof. intros A e Hq c c' r Hi H; inversion H; subst. split; [exact Hi|]. intros e0 E; inversion E; subst; apply Hq; exact Hi. Qed.
Lemma hx_get : hx I Q get.
Proof. intros c c' r Hi H; inversion H; subst. split; [exact Hi|discriminate]. Qed.
Lemma hx_getws : hx I Q getws.
Proof. intros c c' r Hi H; inversion H; subst. split; [exact Hi|discriminate]. Qed.
Lemma hx_modify : forall f, (forall c, I c -> I (f c)) -> hx I Q (modify f).
Proof. intros f Hf c c' r Hi H; inversion H; subst. split; [apply Hf; exact Hi|discriminate]. Qed.
Lemma hx_modws : forall f, (forall c, I c -> I (set_ws c (f (c_ws c)))) -> hx I Q (modws f).
Proof. intros f Hf c c' r Hi H; inversion H; subst. split; [apply Hf; exact Hi|discriminate]. Qed.
Lemma hx_bind : forall A B (m : M A) (f : A -> M B), hx I Q m -> (forall a, hx I Q (f a)) -> hx I Q (bind m f).
Proof.
  intros A B m f Hm Hf c c' r Hi H. unfold bind in H. destruct (m c) as [c1 [a|x]] eqn:E.
  - destruct (Hm c c1 (Val a) Hi E) as [I1 _]. eapply Hf; [exact I1|exact H].
  - inversion H; subst. destruct (Hm c c' (Exc x) Hi E) as [I1 Q1]. split; [exact I1|].
    intros e He; inversion He; subst. apply Q1; reflexivity.
Qed.
Lemma hx_try_catch : forall Q0 A (m : M A) h, hx I Q0 m -> (forall e, hx I Q (h e)) -> hx I Q (try_catch m h).
Proof.
  intros Q0 A m h Hm Hh c c' r Hi H. unfold try_catch in H. destruct (m c) as [c1 [a|x]] eqn:E.
  - inversion H; subst. destruct (Hm c c' (Val a) Hi E) as [I1 _]. split; [exact I1|discriminate].
  - destruct (Hm c c1 (Exc x) Hi E) as [I1 _]. eapply Hh; [exact I1|exact H].
Qed.
Lemma hx_try_catch_expr : forall A (m : M A) h,
  hx I (fun c e => x_expr e = true \/ Q c e) m -> (forall e, hx I Q (h e)) -> hx I Q (try_catch_expr m h).
Proof.
  intros A m h Hm Hh c c' r Hi H. unfold try_catch_expr in H. destruct (m c) as [c1 [a|x]] eqn:E.
  - inversion H; subst. destruct (Hm c c' (Val a) Hi E) as [I1 _]. split; [exact I1|discriminate].
  - destruct (Hm c c1 (Exc x) Hi E) as [I1 Q1]. destruct (x_expr x) eqn:Ex.
    + eapply Hh; [exact I1|exact H].
    + inversion H; subst. split; [exact I1|]. intros e He; inversion He; subst.
      destruct (Q1 e eq_refl) as [X|X]; [congruence|exact X].
Qed.
Lemma hx_mapM : forall A B (f : A -> M B) l, (forall a, hx I Q (f a)) -> hx I Q (mapM f l).
Proof.
  intros A B f l Hf; induction l as [|x l IH]; simpl; [apply hx_ret|].
  apply hx_bind; [apply Hf|intro]. apply hx_bind; [exact IH|intro; apply hx_ret].
Qed.
Lemma hx_forM : forall A (l : list A) f, (forall a, hx I Q (f a)) -> hx I Q (forM_ l f).
Proof.
  intros A l f Hf; induction l as [|x l IH]; simpl; [apply hx_ret|].
  apply hx_bind; [apply Hf|intro; exact IH].
Qed.
Lemma hx_lift_res : forall A (r : result A), (forall e c, r = Exc e -> I c -> Q c e) -> hx I Q (lift_res r).
Proof.
  intros A r H c c' r0 Hi E. destruct r; inversion E; subst; (split; [exact Hi|]); [discriminate|].
  intros e0 He; inversion He; subst. apply H; [reflexivity|exact Hi].
Qed.
Lemma hx_pure : forall A (m : M A), state_pure m -> (forall c c' e, m c = (c', Exc e) -> Q c' e) -> hx I Q m.
Proof.
  intros A m Hp Hq c c' r Hi E. pose proof (Hp c) as P. rewrite E in P. simpl in P. subst c'.
  split; [exact Hi|]. intros e He; subst r. eapply Hq; exact E.
Qed.
End HX.

(* the walk: [qr] closes the goal "Q c e" of a raise, [dn] the goal "I (new state)" of a state update *)
Ltac hxw qr dn leaf :=
  lazymatch goal with
  | |- hx _ _ (ret _) => apply hx_ret
  | |- hx _ _ (raise _) => apply hx_raise; intros; qr
  | |- hx _ _ get => apply hx_get
  | |- hx _ _ getws => apply hx_getws
  | |- hx _ _ (modify _) => apply hx_modify; intros; dn
  | |- hx _ _ (modws _) => apply hx_modws; intros; dn
  | |- hx _ _ (bind _ _) => apply hx_bind; [ hxw qr dn leaf | intro; hxw qr dn leaf ]
  | |- hx _ _ (mapM _ _) => apply hx_mapM; intro; hxw qr dn leaf
  | |- hx _ _ (forM_ _ _) => apply hx_forM; intro; hxw qr dn leaf
  | |- hx _ _ (match ?x with _ => _ end) => destruct x; hxw qr dn leaf
  | |- hx _ _ ?m =>
      first [ solve [leaf]
            | let h := head_of m in progress (unfold h); hxw qr dn leaf
            | progress (cbv beta); hxw qr dn leaf
            | idtac ]
  end.

(* the evaluator's own errors are expression-evaluation errors (the class the engine's renderers contain) *)
Definition ev_expr (ev : string -> dict -> evalres) : Prop := forall s ctx e, ev s ctx = EvErr e -> x_expr e = true.

Lemma internal_type_error : forall m, internal_cls (mkexn "TypeError" m).
Proof. intro; reflexivity. Qed.

Lemma evaluate_raises : forall ev, ev_expr ev -> forall stmt ctx,
  raises_only (fun e => x_expr e = true \/ internal_cls e) (evaluate ev stmt ctx).
Proof.
  intros ev He. apply (evaluate_closed ev (fun A m => raises_only (fun e => x_expr e = true \/ internal_cls e) m)); intros.
  - apply ro_ret.
  - apply ro_bind; assumption.
  - intros c c' e H. destruct (ev s ctx) as [v|x] eqn:E; inversion H; subst. left. eapply He; exact E.
  - apply ro_raise. left; reflexivity.
  - apply ro_raise. right; reflexivity.
Qed.

(* what the transitions of a late task can raise: an exception of an internal class (WF excludes those, queue_wf), or the
   refusal of the request to fail, in a canceled workflow *)
Definition Qd (c : cstate) (e : exn) : Prop :=
  internal_cls e \/ (wstatus (c_ws c) = S_CANCELED /\ e = fail_refused).

(* leaves of the walks for [hx done Qd]: [dn] closes `done` of a state whose workflow status the write left alone, [qr] the
   goal a raise leaves (Qd for an exception of an internal class, or True); `hxw qr dn fail`: no leaf lemma is needed *)
Ltac dn :=
  unfold done in *; cbn [c_ws set_ws wstatus ws_set_contexts ws_set_routes ws_set_staged ws_add_staged ws_set_sequence ws_set_tasks];
  rewrite ?wstatus_update_rec, ?wstatus_remove_staged;
  first [ assumption
        | match goal with |- context [if ?b then _ else _] => destruct b end; assumption ].
Ltac qr := first [ left; reflexivity | exact Logic.I ].

Lemma task_event_when_done : forall t route st c, done c -> ~ In st [S_EXPIRED; S_ABANDONED; S_UNSET] ->
  wf_task_event_M t route st c = (c, Val []).
Proof.
  intros t route st c Hd Hst. unfold wf_task_event_M, wf_process_task_event.
  assert (Hv : string_in (wf_task_event_name (c_graph c) (c_ws c) t route st) TASK_EXECUTION_EVENTS = true).
  { unfold wf_task_event_name. apply F_task_event_names_valid. destruct st; try (exfalso; apply Hst; simpl; tauto); simpl; tauto. }
  rewrite Hv. cbn [negb]. destruct (F_done_task_event _ _ Hd Hv) as [row [Hrow Hag]]. rewrite Hrow, Hag.
  rewrite set_status_same. reflexivity.
Qed.
Lemma wf_task_event_done : forall t route st c, done c ->
  In st [S_SUCCEEDED; S_FAILED; S_CANCELED; S_RUNNING; S_PAUSING; S_CANCELING] ->
  wf_task_event_M t route st c = (c, Val []).
Proof.
  intros t route st c Hd Hst. apply task_event_when_done; [exact Hd|].
  intro X. repeat (destruct Hst as [<-|Hst]; [simpl in X; intuition discriminate|]). destruct Hst.
Qed.

Lemma after_done : forall rec t route idx q new c r c5,
  done c -> nth_error (sequence (c_ws c)) idx = Some r -> r_status r = Some new ->
  ~ In new [S_EXPIRED; S_ABANDONED; S_UNSET] ->
  forM_ q (uts_call rec) c = (c5, Val tt) -> done c5 ->
  uts_after rec t route idx q c = (set_ws c5 (ws_update_rec (c_ws c5) idx (fun r0 => r_set_term r0 true)), Val tt).
Proof.
  intros rec t route idx q new c r c5 Hd Hr Hs Hvoc E5 D5. unfold uts_after.
  rewrite (bind_step _ _ _ _ _ _ _ (get_rec_run _ _ _ Hr)), Hs.
  rewrite (bind_step _ _ _ _ _ _ _ (eq_refl : ret new c = (c, Val new))).
  rewrite (bind_step _ _ _ _ _ _ _ (task_event_when_done t route new c Hd Hvoc)).
  unfold log_unreachable. cbn [forM_].
  rewrite (bind_step _ _ _ _ _ _ _ (eq_refl : ret tt c = (c, Val tt))).
  rewrite (bind_step _ _ _ _ _ _ _ E5).
  rewrite (bind_step _ _ _ _ _ _ _ (eq_refl : getws c5 = (c5, Val (c_ws c5)))).
  rewrite (F_done_completed _ D5). reflexivity.
Qed.

Section Transitions.
Variable ev : string -> dict -> evalres.
Hypothesis Hexpr : ev_expr ev.

Lemma hx_rsc_failed : hx done Qd (request_status_core S_FAILED).
Proof.
  intros c c' r Hd H. destruct (rsc_failed_done c c' r Hd H) as [[-> Hs]|[Hc [-> ->]]].
  - split; [|discriminate]. unfold done. rewrite Hs. destruct Hd as [E|[E|[E|[]]]]; rewrite <- E; vm_compute; auto.
  - split; [exact Hd|]. intros e E; inversion E; subst. right. split; [exact Hc|reflexivity].
Qed.

Lemma hx_log_entry_error : forall Q m t r tr res, hx done Q (log_entry_error m t r tr res).
Proof. intros; unfold log_entry_error. apply hx_modify. intros c Hc. cbv zeta. destruct (existsb _ _); exact Hc. Qed.
Lemma hx_log_error : forall Q e t r tr, hx done Q (log_error e t r tr).
Proof. intros; unfold log_error; apply hx_log_entry_error. Qed.
Lemma hx_log_errors : forall Q es t r tr, hx done Q (log_errors es t r tr).
Proof. intros; unfold log_errors; apply hx_forM; intro; apply hx_log_error. Qed.

Lemma hx_evaluate : forall stmt ctx, hx done (fun c e => x_expr e = true \/ Qd c e) (evaluate ev stmt ctx).
Proof.
  intros stmt ctx. apply hx_pure; [apply evaluate_pure|].
  intros c c' e H. destruct (evaluate_raises ev Hexpr stmt ctx c c' e H) as [X|X]; [left; exact X|right; left; exact X].
Qed.
Lemma hx_evaluate_any : forall stmt ctx, hx done (fun _ _ => True) (evaluate ev stmt ctx).
Proof. intros stmt ctx. apply hx_pure; [apply evaluate_pure|intros; exact Logic.I]. Qed.

Lemma hx_render_vars : forall specs rolling rendered errs, hx done Qd (render_vars ev specs rolling rendered errs).
Proof.
  induction specs as [|[n d] specs IH]; intros; simpl; [apply hx_ret|].
  apply hx_bind.
  - apply hx_try_catch_expr; [|intro; apply hx_ret].
    apply hx_bind; [apply hx_evaluate|intro; apply hx_ret].
  - intros [x|e]; apply IH.
Qed.

Lemma hx_finalize_context : forall ts e ctx, hx done Qd (finalize_context ev ts e ctx).
Proof.
  intros. unfold finalize_context. destruct (nth_error (ts_next ts) (e_ref e)); [|apply hx_raise; intros; left; reflexivity].
  destruct (string_in (e_dst e) (tr_do t)); [apply hx_render_vars|apply hx_ret].
Qed.

Lemma hx_get_rec : forall i, hx done Qd (get_rec i).
Proof. intros; unfold get_rec. hxw qr dn fail. Qed.
Lemma hx_upd_rec : forall Q i f, hx done Q (upd_rec i f).
Proof. intros; unfold upd_rec. apply hx_modws; intros; dn. Qed.
Lemma hx_evaluate_route : forall e r, hx done Qd (evaluate_route e r).
Proof. intros; unfold evaluate_route. hxw qr dn fail. Qed.

Lemma hx_process_transition : forall t route idx ts ctx e, hx done Qd (process_transition ev t route idx ts ctx e).
Proof.
  intros. unfold process_transition. cbv zeta.
  apply hx_bind.
  - apply (hx_try_catch done Qd (fun _ _ => True)).
    + apply hx_bind; [apply hx_mapM; intro; apply hx_evaluate_any|intro vs].
      apply hx_bind; [apply hx_upd_rec|intro; apply hx_ret].
    + intro x. apply hx_bind; [apply hx_log_error|intros _]. apply hx_bind; [apply hx_rsc_failed|intros _; apply hx_ret].
  - intros [[|]|]; try apply hx_ret.
    apply hx_bind; [apply hx_finalize_context|intros [new_ctx errors]].
    destruct errors as [|x xs].
    2: { apply hx_bind; [apply hx_log_errors|intros _]. apply hx_bind; [apply hx_rsc_failed|intros _; apply hx_ret]. }
    hxw qr dn ltac:(first [apply hx_get_rec|apply hx_upd_rec|apply hx_evaluate_route]).
Qed.

Lemma tpe_completion_report : forall w r s st res, r_status r = Some s -> In s [S_RUNNING; S_PAUSING; S_CANCELING] ->
  status_in st COMPLETED_STATUSES = true ->
  task_process_event w r (EvAction st res) = Val (Some (reported st)).
Proof.
  intros w r s st res Hs Hin Hst. destruct (F_completion_step s st Hin Hst) as [Hstep Hv].
  unfold task_process_event. cbn [ev_name]. rewrite Hv. cbn [negb]. unfold task_table_step, rstatus. rewrite Hs.
  unfold tbl_step in Hstep. destruct (tbl_row task_table s) as [row|]; [rewrite Hstep; reflexivity|discriminate].
Qed.

(* the task has no retry to spend: no policy, or the tally has reached the count *)
Definition no_retry_left (r : trec) : Prop :=
  r_retry r = None \/
  exists rr, r_retry r = Some rr /\ py_is_int (rr_count rr) = true /\ (py_int_value (rr_count rr) <= Z.of_nat (rr_tally rr))%Z.
Lemma no_retry_left_false : forall r ctx c, no_retry_left r -> evaluate_task_retry ev r ctx c = (c, Val false).
Proof.
  intros r ctx c [H|[rr [H [Hi Hle]]]]; unfold evaluate_task_retry; rewrite H; [reflexivity|].
  rewrite Hi. cbn [negb]. apply Z.leb_le in Hle. rewrite Hle. reflexivity.
Qed.

(* the frame of a late call up to and including its completion step: all but the records, the staged list and the error log *)
Definition kept (c c' : cstate) : Prop :=
  tasks (c_ws c') = tasks (c_ws c) /\ contexts (c_ws c') = contexts (c_ws c) /\ routes (c_ws c') = routes (c_ws c) /\
  wstatus (c_ws c') = wstatus (c_ws c) /\ c_graph c' = c_graph c /\ c_spec c' = c_spec c /\ c_init c' = c_init c /\
  length (sequence (c_ws c')) = length (sequence (c_ws c)).

Lemma kept_refl : forall c, kept c c.
Proof. intro c; repeat split. Qed.
Lemma kept_trans : forall a b c, kept a b -> kept b c -> kept a c.
Proof. unfold kept; intros a b c H1 H2. decompose [and] H1. decompose [and] H2. repeat split; congruence. Qed.
Lemma kept_ws : forall c w, tasks w = tasks (c_ws c) -> contexts w = contexts (c_ws c) -> routes w = routes (c_ws c) ->
  wstatus w = wstatus (c_ws c) -> length (sequence w) = length (sequence (c_ws c)) -> kept c (set_ws c w).
Proof. intros; repeat split; assumption. Qed.
Lemma kept_remove_staged : forall c t r, kept c (set_ws c (ws_remove_staged_task (c_ws c) t r)).
Proof.
  intros. apply kept_ws; [apply tasks_remove_staged|apply contexts_remove_staged|apply routes_remove_staged
                          |apply wstatus_remove_staged|rewrite seq_remove_staged; reflexivity].
Qed.
Lemma kept_staged : forall c l, kept c (set_ws c (ws_set_staged (c_ws c) l)).
Proof. intros; repeat split. Qed.
Lemma kept_update_rec : forall c i f, kept c (set_ws c (ws_update_rec (c_ws c) i f)).
Proof.
  intros. apply kept_ws; [apply tasks_update_rec|apply contexts_update_rec|apply routes_update_rec
                          |apply wstatus_update_rec|apply length_update_rec].
Qed.
Lemma kept_log : forall m t r tr res, preserves kept (log_entry_error m t r tr res).
Proof. intros. apply (preserves_modify kept). intro c. cbv zeta. destruct (existsb _ _); repeat split. Qed.

Lemma prefix_known : forall t route evt ts c, c_init c = true -> g_has_task (c_graph c) t = true ->
  spec_get_task (c_spec c) t = Some ts ->
  get_staged_task (c_ws c) t route <> None \/ ws_task_idx (c_ws c) t route <> None ->
  uts_prefix ev t route evt c = pre_main ev t route evt ts (get_staged_task (c_ws c) t route) (ws_task_idx (c_ws c) t route) c.
Proof.
  intros t route evt ts c Hi Hg Hts Hk. unfold uts_prefix. rewrite (bind_step _ _ _ _ _ _ _ (ensure_ws_inited ev c Hi)).
  rewrite (bind_step _ _ _ _ _ _ _ (eq_refl : get c = (c, Val c))). rewrite Hg. cbn [negb]. cbv zeta. rewrite Hts.
  rewrite (bind_step _ _ _ _ _ _ _ (eq_refl : ret ts c = (c, Val ts))).
  destruct (get_staged_task (c_ws c) t route), (ws_task_idx (c_ws c) t route); try reflexivity.
  destruct Hk as [X|X]; exfalso; apply X; reflexivity.
Qed.

Lemma pre_main_known : forall t route evt ts s0 idx c r,
  is_engine_command t = false -> nth_error (sequence (c_ws c)) idx = Some r ->
  ostatus_in (r_status r) COMPLETED_STATUSES = false ->
  pre_main ev t route evt ts s0 (Some idx) c =
  (uts_unstage t route evt s0 ;;; uts_item t route evt s0 ;;; uts_logfail t evt ;;; pre_machine ev t route evt ts idx) c.
Proof.
  intros t route evt ts s0 idx c r Hcmd Hr Hnc. unfold pre_main, uts_sel1. rewrite Hcmd.
  rewrite (bind_step _ _ _ _ _ _ _ (eq_refl : ret idx c = (c, Val idx))).
  rewrite (bind_step _ _ _ _ _ _ _ (get_rec_run _ _ _ Hr)). unfold uts_sel2. rewrite Hnc. reflexivity.
Qed.

Lemma unstage_returns : forall t route evt s0 c, exists c', uts_unstage t route evt s0 c = (c', Val tt).
Proof. intros. unfold uts_unstage. destruct s0 as [s'|]; [destruct (s_items s'); [|destruct evt]|]; eexists; reflexivity. Qed.
Lemma front_pieces : forall t route evt s0 c cU cI cL,
  uts_unstage t route evt s0 c = (cU, Val tt) -> uts_item t route evt s0 cU = (cI, Val tt) ->
  uts_logfail t evt cI = (cL, Val tt) ->
  kept c cL /\ sequence (c_ws cL) = sequence (c_ws c) /\ (WF c -> WF cL).
Proof.
  intros t route evt s0 c cU cI cL E3 E4 E5. split; [|split].
  - apply (kept_trans _ cU); [|apply (kept_trans _ cI)].
    + exact (frame_unstage kept kept_refl
               (fun t0 r0 => preserves_modws kept _ (fun x => kept_remove_staged x t0 r0)) _ _ _ _ _ _ _ E3).
    + exact (frame_item kept kept_refl (fun f t0 r0 => preserves_modws kept _ (fun x => kept_staged x _)) _ _ _ _ _ _ _ E4).
    + exact (frame_logfail kept kept_refl kept_log _ _ _ _ _ E5).
  - destruct (pk_unstage _ _ _ _ _ _ _ E3) as [A _]. destruct (pk_item _ _ _ _ _ _ _ E4) as [B _].
    destruct (pk_logfail _ _ _ _ _ E5) as [C _]. congruence.
  - intro Wc. eapply WF_Rw; [|exact Wc].
    eapply Rw_trans; [eapply pw_unstage; exact E3|]. eapply Rw_trans; [eapply pw_item; exact E4|eapply pw_logfail; exact E5].
Qed.

Lemma completion_run_no_retry : forall t route evt ts idx new old c c7 r,
  status_in new COMPLETED_STATUSES = true ->
  (if negb (task_has_items ts && status_in new ABENDED_STATUSES)
   then modws (fun w => ws_remove_staged_task w t route)
   else (w <- getws ;;
         match get_staged_task w t route with
         | None => raise (exn_type "'NoneType' object does not support item assignment")
         | Some _ => modws (fun w => ws_set_staged w (staged_update (fun s => s_set_completed s true) t route (staged w)))
         end)) c = (c7, Val tt) ->
  nth_error (sequence (c_ws c7)) idx = Some r -> ctx_ok (c_ws c7) (r_in r) ->
  (status_in (wstatus (c_ws c7)) ACTIVE_STATUSES = false \/ no_retry_left r) ->
  exists ctx, uts_completion ev t route evt ts idx new old c = (c7, Val (Some (ctx, false))).
Proof.
  intros t route evt ts idx new old c c7 r Hc E8 Hr7 Hctx Hd.
  destruct (get_task_context_ok (r_in r) c7 Hctx) as [d Ed].
  unfold uts_completion. rewrite Hc. rewrite (bind_step _ _ _ _ _ _ _ E8). cbv zeta.
  rewrite (bind_step _ _ _ _ _ _ _ (get_rec_run _ _ _ Hr7)). rewrite (bind_step _ _ _ _ _ _ _ Ed).
  rewrite (bind_step _ _ _ _ _ _ _ (eq_refl : getws c7 = (c7, Val (c_ws c7)))).
  destruct Hd as [Hd|Hd].
  - rewrite Hd. rewrite andb_false_r. cbn [andb]. eexists. unfold try_catch, bind, ret. reflexivity.
  - eexists. match goal with |- context [if ?g then _ else _] => destruct g end.
    + unfold bind, try_catch. rewrite (no_retry_left_false r _ c7 Hd). reflexivity.
    + unfold try_catch, bind, ret. reflexivity.
Qed.

Lemma late_machine : forall t route evt ts idx c r ns,
  nth_error (sequence (c_ws c)) idx = Some r -> ctx_ok (c_ws c) (r_in r) ->
  task_process_event (c_ws c) r evt = Val ns -> rstatus (stepped r ns) <> S_RETRYING ->
  (status_in (wstatus (c_ws c)) ACTIVE_STATUSES = false \/ no_retry_left r) ->
  (task_has_items ts = true -> get_staged_task (c_ws c) t route <> None) ->
  exists c1 compl,
    pre_machine ev t route evt ts idx c =
      (c1, Val {| po_ts := ts; po_idx := idx; po_old := rstatus r; po_new := rstatus (stepped r ns); po_compl := compl |}) /\
    ((compl = None /\ status_in (rstatus (stepped r ns)) COMPLETED_STATUSES = false /\ staged (c_ws c1) = staged (c_ws c)) \/
     (exists ctx, compl = Some (ctx, false) /\ status_in (rstatus (stepped r ns)) COMPLETED_STATUSES = true)) /\
    kept c c1 /\ nth_error (sequence (c_ws c1)) idx = Some (stepped r ns) /\
    (forall j, j <> idx -> nth_error (sequence (c_ws c1)) j = nth_error (sequence (c_ws c)) j) /\ (WF c -> WF c1).
Proof.
  intros t route evt ts idx c r ns Hr Hctx Ht Hnr Hd Hpres.
  rewrite (pre_machine_run ev t route evt ts idx c r ns Hr Ht Hnr).
  set (new := rstatus (stepped r ns)) in *. set (c6 := setst_state c idx ns).
  assert (Hr6 : nth_error (sequence (c_ws c6)) idx = Some (stepped r ns)) by exact (nth_setst_state c idx ns r Hr).
  assert (K6 : kept c c6) by (unfold c6, setst_state; destruct ns; [apply kept_update_rec|apply kept_refl]).
  assert (O6 : forall j, j <> idx -> nth_error (sequence (c_ws c6)) j = nth_error (sequence (c_ws c)) j).
  { intros j Hj. unfold c6, setst_state. destruct ns; [|reflexivity]. apply nth_update_rec_other. congruence. }
  assert (St6 : staged (c_ws c6) = staged (c_ws c)) by (unfold c6, setst_state; destruct ns; [apply staged_update_rec|reflexivity]).
  assert (W6 : WF c -> WF c6).
  { intro Wc. unfold c6, setst_state. destruct ns as [s'|]; [|exact Wc]. apply WF_update_rec; [exact Wc|].
    intros r0 Hr0. rewrite Hr in Hr0; inversion Hr0; subst r0. split; [reflexivity|]. intro E. exfalso. apply Hnr. exact E. }
  destruct (status_in new COMPLETED_STATUSES) eqn:Hc.
  2: { exists c6, None. split; [unfold uts_completion; rewrite Hc; reflexivity|].
       split; [left; split; [reflexivity|split; [reflexivity|exact St6]]|].
       split; [exact K6|]. split; [exact Hr6|]. split; [exact O6|exact W6]. }
  assert (Stage : exists c7, (if negb (task_has_items ts && status_in new ABENDED_STATUSES)
                              then modws (fun w => ws_remove_staged_task w t route)
                              else (w <- getws ;;
                                    match get_staged_task w t route with
                                    | None => raise (exn_type "'NoneType' object does not support item assignment")
                                    | Some _ => modws (fun w => ws_set_staged w (staged_update (fun s => s_set_completed s true) t route (staged w)))
                                    end)) c6 = (c7, Val tt) /\
                             kept c6 c7 /\ sequence (c_ws c7) = sequence (c_ws c6) /\ (WF c6 -> WF c7)).
  { destruct (negb (task_has_items ts && status_in new ABENDED_STATUSES)) eqn:En.
    - eexists. split; [reflexivity|]. split; [apply kept_remove_staged|]. split; [apply seq_remove_staged|].
      intro W. eapply WF_Rw; [apply Rw_remove_staged|exact W].
    - rewrite (bind_step _ _ _ _ _ _ _ (eq_refl : getws c6 = (c6, Val (c_ws c6)))).
      assert (Hp6 : get_staged_task (c_ws c6) t route <> None).
      { unfold get_staged_task in *. rewrite St6. apply Hpres. apply negb_false_iff in En. apply andb_prop in En. tauto. }
      destruct (get_staged_task (c_ws c6) t route); [|contradiction].
      eexists. split; [reflexivity|]. split; [apply kept_staged|]. split; [reflexivity|].
      intro W. eapply WF_Rw; [apply Rw_staged_update; intro; repeat split; reflexivity|exact W]. }
  destruct Stage as [c7 [E8 [K7 [Sq7 W7]]]].
  pose proof (kept_trans _ _ _ K6 K7) as K.
  assert (Hr7 : nth_error (sequence (c_ws c7)) idx = Some (stepped r ns)) by (rewrite Sq7; exact Hr6).
  destruct (completion_run_no_retry t route evt ts idx new (rstatus r) c6 c7 (stepped r ns) Hc E8 Hr7) as [ctx Ec].
  { destruct K as [_ [C _]]. replace (r_in (stepped r ns)) with (r_in r) by (destruct ns; reflexivity).
    eapply ctx_ok_mono; [|exact Hctx]. rewrite C. apply Nat.le_refl. }
  { destruct Hd as [Hd|Hd]; [left; destruct K as [_ [_ [_ [S _]]]]; rewrite S; exact Hd|right].
    unfold no_retry_left in *. rewrite stepped_retry. exact Hd. }
  exists c7, (Some (ctx, false)). split; [rewrite (bind_step _ _ _ _ _ _ _ Ec); reflexivity|].
  split; [right; exists ctx; split; reflexivity|]. split; [exact K|]. split; [exact Hr7|].
  split; [intros j Hj; rewrite Sq7; apply O6; exact Hj|intro Wc; apply W7, W6; exact Wc].
Qed.

Lemma late_pre_main : forall t route st res ts s0 idx r s c,
  WF c -> (done c \/ no_retry_left r) -> is_engine_command t = false -> task_has_items ts = false ->
  nth_error (sequence (c_ws c)) idx = Some r -> r_status r = Some s -> In s [S_RUNNING; S_PAUSING; S_CANCELING] ->
  status_in st COMPLETED_STATUSES = true ->
  exists c1 ctx,
    pre_main ev t route (EvAction st res) ts s0 (Some idx) c =
      (c1, Val {| po_ts := ts; po_idx := idx; po_old := s; po_new := reported st; po_compl := Some (ctx, false) |}) /\
    kept c c1 /\ nth_error (sequence (c_ws c1)) idx = Some (r_set_status r (Some (reported st))) /\ WF c1.
Proof.
  intros t route st res ts s0 idx r s c Wc Hd Hcmd Hit Hr Hs Hin Hst.
  destruct (F_running_not_completed s Hin) as [Hnc _].
  destruct (F_reported_completed st) as [Hrc Hrr].
  rewrite (pre_main_known t route (EvAction st res) ts s0 idx c r Hcmd Hr) by (unfold ostatus_in; rewrite Hs; exact Hnc).
  destruct (unstage_returns t route (EvAction st res) s0 c) as [cU E3]. rewrite (bind_step _ _ _ _ _ _ _ E3).
  assert (E4 : uts_item t route (EvAction st res) s0 cU = (cU, Val tt)) by (unfold uts_item; destruct s0; reflexivity).
  rewrite (bind_step _ _ _ _ _ _ _ E4).
  destruct (logfail_run t (EvAction st res) cU) as [cL [E5 _]]. rewrite (bind_step _ _ _ _ _ _ _ E5).
  destruct (front_pieces _ _ _ _ _ _ _ _ E3 E4 E5) as [KL [SL WL]].
  assert (HrL : nth_error (sequence (c_ws cL)) idx = Some r) by (rewrite SL; exact Hr).
  destruct (late_machine t route (EvAction st res) ts idx cL r (Some (reported st)) HrL) as [c1 [compl [E [Hcompl [K1 [Hr1 [_ W1]]]]]]].
  - apply (wf_rec _ (WL Wc)). eapply nth_error_In; exact HrL.
  - exact (tpe_completion_report (c_ws cL) r s st res Hs Hin Hst).
  - exact Hrr.
  - destruct Hd as [Hd|Hd]; [left; destruct KL as [_ [_ [_ [S _]]]]; rewrite S; apply F_done_not_active; exact Hd|right; exact Hd].
  - rewrite Hit; discriminate.
  - change (rstatus (stepped r (Some (reported st)))) with (reported st) in *.
    destruct Hcompl as [[_ [X _]]|[ctx [-> _]]]; [congruence|].
    assert (Hold : rstatus r = s) by (unfold rstatus; rewrite Hs; reflexivity). rewrite Hold in E.
    exists c1, ctx. split; [exact E|]. split; [exact (kept_trans _ _ _ KL K1)|]. split; [exact Hr1|exact (W1 (WL Wc))].
Qed.

Lemma hx_queue : forall t route idx ts o n compl, hx done Qd (uts_queue ev t route idx ts o n compl).
Proof.
  intros. unfold uts_queue.
  hxw qr dn ltac:(first [apply hx_upd_rec|apply hx_process_transition|apply hx_get_rec]).
Qed.

(* the record at idx, if it has status s, keeps it (s completed: the engine's status requests move active records only) *)
Definition Rcs (idx : nat) (s : status) (c c' : cstate) : Prop :=
  forall r, nth_error (sequence (c_ws c)) idx = Some r -> r_status r = Some s ->
    exists r', nth_error (sequence (c_ws c')) idx = Some r' /\ r_status r' = Some s.
Lemma Rcs_refl : forall idx s c, Rcs idx s c c.
Proof. intros idx s c r H1 H2; exists r; auto. Qed.
Lemma Rcs_trans : forall idx s a b c, Rcs idx s a b -> Rcs idx s b c -> Rcs idx s a c.
Proof. intros idx s a b c H1 H2 r Hr Hs. destruct (H1 r Hr Hs) as [r1 [A B]]. exact (H2 r1 A B). Qed.
Lemma Rcs_same_seq : forall idx s c c', sequence (c_ws c') = sequence (c_ws c) -> Rcs idx s c c'.
Proof. intros idx s c c' E r H1 H2; exists r; rewrite E; auto. Qed.
Lemma Rcs_update : forall idx s c j f, (forall r, r_status (f r) = r_status r) ->
  Rcs idx s c (set_ws c (ws_update_rec (c_ws c) j f)).
Proof.
  intros idx s c j f Hf r Hr Hs. cbn [c_ws set_ws]. destruct (Nat.eq_dec j idx) as [->|Hn].
  - exists (f r). split; [apply nth_update_rec_same; exact Hr|rewrite Hf; exact Hs].
  - exists r. split; [rewrite nth_update_rec_other by exact Hn; exact Hr|exact Hs].
Qed.

Section StatusKept.
Variable idx : nat.
Variable s : status.
Hypothesis Hcs : status_in s COMPLETED_STATUSES = true.

Ltac leaf :=
  first
    [ apply (preserves_modws (Rcs idx s)); intro; apply Rcs_same_seq; reflexivity
    | apply (preserves_modws (Rcs idx s)); intro; apply Rcs_update; intro; reflexivity
    | apply (preserves_modify (Rcs idx s)); intro; apply Rcs_same_seq; cbv zeta;
      try match goal with |- context [if ?b then _ else _] => destruct b end; reflexivity
    | assumption
    | match goal with H : forall _, preserves _ _ |- _ => apply H end ].

Lemma pcs_request_status_core : forall st, preserves (Rcs idx s) (request_status_core st).
Proof.
  intros st c c' res H r Hr Hs. pose proof (pmod_request_status_core st c c' res H) as Hm.
  exists r. split; [|exact Hs]. rewrite Hm; [exact Hr|].
  intro Hin. apply in_map_iff in Hin. destruct Hin as [[j rj] [Ej Hin]]. simpl in Ej; subst j.
  apply tasks_by_status_In in Hin. destruct Hin as [Hn' Ha]. rewrite Hr in Hn'; inversion Hn'; subst rj.
  unfold ostatus_in in Ha. rewrite Hs in Ha. exact (F_active_not_completed s Ha Hcs).
Qed.
Lemma pcs_process_transition : forall t route i ts ctx e, preserves (Rcs idx s) (process_transition ev t route i ts ctx e).
Proof.
  apply (hframe_process_transition ev (Rcs idx s) (Rcs_refl idx s) (Rcs_trans idx s)); intros; unfold upd_rec; try leaf;
    unfold log_errors, log_error, log_entry_error;
    pw (Rcs_refl idx s) (Rcs_trans idx s) ltac:(first [apply pcs_request_status_core|leaf]).
Qed.
Lemma pcs_queue : forall t route i ts o n compl, preserves (Rcs idx s) (uts_queue ev t route i ts o n compl).
Proof.
  intros. unfold uts_queue, get_rec, upd_rec.
  pw (Rcs_refl idx s) (Rcs_trans idx s) ltac:(first [apply pcs_process_transition|leaf]).
Qed.
End StatusKept.

Lemma queue_from_edges : forall t route idx ts o n compl c c' q,
  uts_queue ev t route idx ts o n compl c = (c', Val q) ->
  forall p, In p q -> exists e, In e (g_next_transitions (c_graph c) t) /\ e_dst e = fst p /\ is_engine_command (fst p) = true.
Proof.
  intros t route idx ts o n compl c c' q H p Hp.
  destruct (uts_queue_inv ev _ _ _ _ _ _ _ _ _ _ H) as [[_ [-> _]]|[ctx [b [c1 [c2 [rs [c3 [r4 [_ [_ [E2 [_ [_ [_ ->]]]]]]]]]]]]]]; [destruct Hp|].
  pose proof (vpost_mapM _ _ _ _ _ (pt_cmd_dst ev t route idx ts ctx) _ _ _ E2) as V. clear -V Hp.
  induction V as [|e [q0 q1] l rs Hq Hl IH]; simpl in Hp; [destruct Hp|].
  destruct q0 as [x|]; simpl in Hp.
  - destruct Hp as [<-|Hp].
    + destruct (Hq x eq_refl) as [A B]. exists e. split; [left; reflexivity|split; [symmetry; exact A|exact B]].
    + destruct (IH Hp) as [e' [A B]]. exists e'. split; [right; exact A|exact B].
  - destruct (IH Hp) as [e' [A B]]. exists e'. split; [right; exact A|exact B].
Qed.

Lemma late_prefix : forall t route st res ts idx r s c,
  WF c -> (done c \/ no_retry_left r) -> is_engine_command t = false -> g_has_task (c_graph c) t = true ->
  spec_get_task (c_spec c) t = Some ts -> task_has_items ts = false ->
  ws_task_idx (c_ws c) t route = Some idx -> nth_error (sequence (c_ws c)) idx = Some r ->
  r_status r = Some s -> In s [S_RUNNING; S_PAUSING; S_CANCELING] -> status_in st COMPLETED_STATUSES = true ->
  exists c1 ctx,
    uts_prefix ev t route (EvAction st res) c =
      (c1, Val {| po_ts := ts; po_idx := idx; po_old := s; po_new := reported st; po_compl := Some (ctx, false) |}) /\
    kept c c1 /\ nth_error (sequence (c_ws c1)) idx = Some (r_set_status r (Some (reported st))) /\ WF c1.
Proof.
  intros t route st res ts idx r s c Wc Hd Hcmd Hg Hts Hit Hp Hr Hs Hin Hst.
  rewrite (prefix_known t route (EvAction st res) ts c (wf_init _ Wc) Hg Hts) by (right; rewrite Hp; discriminate).
  rewrite Hp. exact (late_pre_main t route st res ts _ idx r s c Wc Hd Hcmd Hit Hr Hs Hin Hst).
Qed.

(* what follows goes through the transitions with WF kept (queue_wf, uts_fuel_callW), which asks this of the evaluator *)
Hypothesis Hev : eval_no_internal ev.

(* a startable command's own event takes a record without status to succeeded (noop, continue) or failed (fail) *)
Lemma F_cmd_start : forall n name st s, engine_event n = Some (EvEngine name st) ->
  task_process_event empty_ws (fresh_rec n 0) (EvEngine name st) = Val (Some s) -> In s [S_SUCCEEDED; S_FAILED].
Proof.
  intros n name st s He Ht. unfold engine_event in He.
  destruct (aget String.eqb n ENGINE_EVENT_MAP) as [[nm st']|] eqn:E; [|discriminate]. inversion He; subst nm st'. clear He.
  apply aget_In in E. unfold ENGINE_EVENT_MAP in E.
  repeat (destruct E as [E|E]; [inversion E; subst; vm_compute in Ht; inversion Ht; subst; simpl; tauto|]). destruct E.
Qed.

Lemma engine_event_shape : forall n e, engine_event n = Some e -> exists name st, e = EvEngine name st.
Proof.
  intros n e H. unfold engine_event in H. destruct (aget String.eqb n ENGINE_EVENT_MAP) as [[nm st]|]; [|discriminate].
  inversion H. eauto.
Qed.

Lemma cmd_call_done : forall fuel n rt e sf c,
  WF c -> static_ok (c_spec c) (c_graph c) -> done c ->
  is_engine_command n = true -> engine_event n = Some e -> cmd_startable n -> g_has_task (c_graph c) n = true ->
  get_staged_task (c_ws c) n rt = Some sf -> ws_task_idx (c_ws c) n rt = None ->
  exists c', update_task_state_fuel ev (S fuel) n rt e c = (c', Val tt) /\
    wstatus (c_ws c') = wstatus (c_ws c) /\
    (forall j, j < length (sequence (c_ws c)) -> nth_error (sequence (c_ws c')) j = nth_error (sequence (c_ws c)) j) /\
    (forall k, k <> (n, rt) -> aget tkey_eqb k (tasks (c_ws c')) = aget tkey_eqb k (tasks (c_ws c))) /\
    (exists rn s, nth_error (sequence (c_ws c')) (length (sequence (c_ws c))) = Some rn /\ r_id rn = n /\ r_route rn = rt /\
                  r_status rn = Some s /\ In s [S_SUCCEEDED; S_FAILED]).
Proof.
  intros fuel n rt e sf c Wc Hso Hd Hcmd He Hstart Hg Hsf Hno.
  destruct (engine_event_shape n e He) as [name [st ->]].
  destruct Hstart as [name' [st' [s [He' Hfresh]]]]. rewrite He in He'. inversion He'; subst name' st'. clear He'.
  pose proof (F_cmd_start n name st s He Hfresh) as Hs.
  assert (Hsc : status_in s COMPLETED_STATUSES = true /\ status_eqb s S_RETRYING = false /\ status_eqb s S_UNSET = false)
    by (destruct Hs as [<-|[<-|[]]]; repeat split).
  destruct Hsc as [Hsc [Hsr Hsu]].
  destruct (so_inert _ _ Hso n Hcmd) as [Htr Hnr].
  destruct (get_staged_matches _ _ _ _ Hsf) as [Hid Hrt].
  assert (Hin : In sf (staged (c_ws c))) by (unfold get_staged_task in Hsf; apply find_some in Hsf; tauto).
  destruct (wf_stg _ Wc sf Hin) as [Hroute Hctx].
  assert (Hne : s_in sf <> []) by (destruct Hctx as [H0 _]; destruct (s_in sf); [destruct H0|discriminate]).
  set (evt := EvEngine name st).
  set (r0 := new_trec n rt (s_in sf) (s_prev sf) None).
  set (idx := length (sequence (c_ws c))).
  set (cA := append_rec c r0).
  rewrite uts_unfold, body_eq.
  assert (Ea : add_task_state ev n (s_route sf) (s_in sf) (s_prev sf) c = (cA, Val idx)).
  { rewrite add_task_state_run, Hg. cbn [negb]. cbv zeta. unfold ats_retry. rewrite Hnr, Hrt.
    destruct (s_in sf); [contradiction|reflexivity]. }
  pose proof (nth_append_rec c r0 : nth_error (sequence (c_ws cA)) idx = Some r0) as HrA.
  destruct (unstage_returns n rt evt (Some sf) cA) as [cU E3].
  assert (E4 : uts_item n rt evt (Some sf) cU = (cU, Val tt)) by reflexivity.
  destruct (logfail_run n evt cU) as [cL [E5 [WL _]]].
  destruct (front_pieces _ _ _ _ _ _ _ _ E3 E4 E5) as [KL [SL _]].
  assert (HrL : nth_error (sequence (c_ws cL)) idx = Some r0) by (rewrite SL; exact HrA).
  assert (Hnr' : rstatus (stepped r0 (Some s)) <> S_RETRYING) by (intro E; change (s = S_RETRYING) in E; rewrite E in Hsr; discriminate).
  destruct (late_machine n rt evt empty_task_spec idx cL r0 (Some s) HrL) as [c7 [compl [Em [Hcompl [K1 [Hr7 [O7 _]]]]]]].
  { eapply ctx_ok_mono; [|exact Hctx]. destruct KL as [_ [C _]]. rewrite C. apply Nat.le_refl. }
  { rewrite <- Hfresh. apply tpe_congr; [reflexivity|exact I]. }
  { exact Hnr'. }
  { left. destruct KL as [_ [_ [_ [S _]]]]. rewrite S. apply F_done_not_active; exact Hd. }
  { intro X; discriminate X. }
  change (rstatus (stepped r0 (Some s))) with s in *. set (r' := r_set_status r0 (Some s)) in *.
  destruct Hcompl as [[_ [X _]]|[ctx [-> _]]]; [congruence|].
  destruct (kept_trans _ _ _ KL K1) as [T7 [_ [_ [S7 [G7 _]]]]].
  assert (Ep : uts_prefix ev n rt evt c =
               (c7, Val {| po_ts := empty_task_spec; po_idx := idx; po_old := S_UNSET; po_new := s; po_compl := Some (ctx, false) |})).
  { rewrite (prefix_known n rt evt empty_task_spec c (wf_init _ Wc) Hg (cmd_reserved (c_spec c) n Hcmd)) by (left; rewrite Hsf; discriminate).
    rewrite Hsf, Hno.
    unfold pre_main.
    assert (E1 : uts_sel1 ev n (Some sf) None c = (cA, Val idx)).
    { unfold uts_sel1, uts_need_staged. rewrite (bind_step _ _ _ _ _ _ _ (eq_refl : ret sf c = (c, Val sf))). exact Ea. }
    rewrite (bind_step _ _ _ _ _ _ _ E1).
    rewrite (bind_step _ _ _ _ _ _ _ (get_rec_run _ _ _ HrA)).
    rewrite (bind_step _ _ _ _ _ _ _ (eq_refl : uts_sel2 ev n evt (Some sf) r0 idx cA = (cA, Val idx))).
    rewrite (bind_step _ _ _ _ _ _ _ E3). rewrite (bind_step _ _ _ _ _ _ _ E4). rewrite (bind_step _ _ _ _ _ _ _ E5).
    exact Em. }
  rewrite (bind_step _ _ _ _ _ _ _ Ep). unfold tail_of. cbn [po_ts po_idx po_old po_new po_compl].
  rewrite uts_tail_eq. unfold uts_rest.
  set (c8 := set_ws c7 (ws_update_rec (c_ws c7) idx (fun x => r_set_term x true))).
  assert (Hr8 : nth_error (sequence (c_ws c8)) idx = Some (r_set_term r' true))
    by (exact (nth_update_rec_same (c_ws c7) idx (fun x => r_set_term x true) r' Hr7)).
  assert (Eq : uts_queue ev n rt idx empty_task_spec S_UNSET s (Some (ctx, false)) c7 = (c8, Val [])).
  { unfold uts_queue. rewrite Hsu. cbn [negb]. rewrite (bind_step _ _ _ _ _ _ _ (eq_refl : get c7 = (c7, Val c7))). cbv zeta.
    rewrite G7. change (c_graph cA) with (c_graph c). rewrite Htr.
    rewrite (bind_step _ _ _ _ _ _ _ (eq_refl : upd_rec idx (fun x => r_set_term x true) c7 = (c8, Val tt))).
    cbn [mapM]. rewrite (bind_step _ _ _ _ _ _ _ (eq_refl : ret [] c8 = (c8, Val []))). cbn [flat_map existsb].
    rewrite (bind_step _ _ _ _ _ _ _ (eq_refl : ret tt c8 = (c8, Val tt))).
    rewrite (bind_step _ _ _ _ _ _ _ (get_rec_run _ _ _ Hr8)). unfold bind, ret. reflexivity. }
  rewrite (bind_step _ _ _ _ _ _ _ Eq).
  assert (S8 : wstatus (c_ws c8) = wstatus (c_ws c)) by (unfold c8; cbn [c_ws set_ws]; rewrite wstatus_update_rec; exact S7).
  assert (D8 : done c8) by (unfold done; rewrite S8; exact Hd).
  assert (Hvoc : ~ In s [S_EXPIRED; S_ABANDONED; S_UNSET]) by (intros [E|[E|[E|[]]]]; destruct Hs as [<-|[<-|[]]]; discriminate).
  rewrite (after_done _ n rt idx [] s c8 _ c8 D8 Hr8 eq_refl Hvoc eq_refl D8).
  eexists. split; [reflexivity|].
  cbn [c_ws set_ws]. rewrite wstatus_update_rec.
  split; [exact S8|]. split.
  { intros j Hj. assert (Hne' : idx <> j) by (unfold idx; lia).
    rewrite nth_update_rec_other by exact Hne'. unfold c8. cbn [c_ws set_ws]. rewrite nth_update_rec_other by exact Hne'.
    rewrite O7 by (intro E; apply Hne'; symmetry; exact E). rewrite SL.
    apply (nth_error_app1 (sequence (c_ws c)) [r0]); exact Hj. }
  split.
  { intros k Hk. rewrite tasks_update_rec. unfold c8. cbn [c_ws set_ws]. rewrite tasks_update_rec, T7.
    apply (aget_aset_other tkey_eqb tkey_eqb_eq). exact Hk. }
  exists (r_set_term (r_set_term r' true) true), s.
  split; [exact (nth_update_rec_same (c_ws c8) idx (fun x => r_set_term x true) _ Hr8)|]. repeat split; [exact Hs].
Qed.

Definition cmd_ready (c : cstate) (p : string * nat) : Prop :=
  queued_ok c p /\ g_has_task (c_graph c) (fst p) = true /\ ws_task_idx (c_ws c) (fst p) (snd p) = None.

Lemma cmd_loop_done : forall fuel q c,
  WF c -> static_ok (c_spec c) (c_graph c) -> done c -> NoDup q -> Forall (cmd_ready c) q ->
  exists c', forM_ q (uts_call (update_task_state_fuel ev (S fuel))) c = (c', Val tt) /\
    WF c' /\ wstatus (c_ws c') = wstatus (c_ws c) /\
    length (sequence (c_ws c)) <= length (sequence (c_ws c')) /\
    (forall j, j < length (sequence (c_ws c)) -> nth_error (sequence (c_ws c')) j = nth_error (sequence (c_ws c)) j).
Proof.
  intros fuel q; induction q as [|[n rt] q IH]; intros c Wc Hso Hd Hnd Hq.
  - exists c. split; [reflexivity|]. split; [exact Wc|]. split; [reflexivity|]. split; [lia|auto].
  - inversion Hq as [|x l [[Hcmd [Hpres Hstart]] [Hg Hno]] Hq']; subst. simpl in Hcmd, Hpres, Hstart, Hg, Hno.
    apply NoDup_cons_iff in Hnd. destruct Hnd as [Hn1 Hn2].
    destruct (cmd_engine_event n Hcmd) as [e Ee].
    unfold present in Hpres. destruct (get_staged_task (c_ws c) n rt) as [sf|] eqn:Esf; [|contradiction].
    destruct (cmd_call_done fuel n rt e sf c Wc Hso Hd Hcmd Ee Hstart Hg Esf Hno) as [c1 [E1 [S1 [F1 [T1 [rn [s1 [Hrn _]]]]]]]].
    destruct (uts_fuel_callW ev Hev (S fuel) n rt e c c1 (Val tt) Wc Hso) as [W1 [_ [G1 [Sp1 Q1]]]]; [|exact E1|].
    { right. split; [exact Hcmd|]. split; [unfold present; rewrite Esf; discriminate|]. split; [exact Ee|exact Hstart]. }
    destruct (Q1 Hcmd) as [P1 _].
    assert (L1 : length (sequence (c_ws c)) < length (sequence (c_ws c1))) by (apply nth_error_Some; rewrite Hrn; discriminate).
    destruct (IH c1 W1) as [c' [E' [W' [S' [L' F']]]]].
    + rewrite G1, Sp1; exact Hso.
    + unfold done; rewrite S1; exact Hd.
    + exact Hn2.
    + rewrite Forall_forall in Hq' |- *. intros [n' rt'] Hin. destruct (Hq' _ Hin) as [[A [B C]] [D E]]. simpl in *.
      assert (Hne : (n', rt') <> (n, rt)) by (intro X; inversion X; subst; apply Hn1; exact Hin).
      split; [split; [exact A|split; [apply P1; [exact Hne|exact B]|exact C]]|]. simpl.
      split; [rewrite G1; exact D|]. unfold ws_task_idx in *. rewrite (T1 _ Hne). exact E.
    + exists c'. split.
      { cbn [forM_]. unfold uts_call at 1. rewrite Ee. rewrite (bind_step _ _ _ _ _ _ _ E1). exact E'. }
      split; [exact W'|]. split; [congruence|]. split; [lia|].
      intros j Hj. rewrite F' by lia. apply F1; exact Hj.
Qed.

Lemma queue_kinds : forall t route idx ts o n compl c c' q,
  uts_queue ev t route idx ts o n compl c = (c', Val q) ->
  WF c -> static_ok (c_spec c) (c_graph c) -> spec_get_task (c_spec c) t = Some ts ->
  route < length (routes (c_ws c)) -> idx < length (sequence (c_ws c)) ->
  forall p, In p q ->
    exists e, In e (g_next_transitions (c_graph c) t) /\ e_dst e = fst p /\
              ((snd p = route /\ stays c route e = true) \/ length (routes (c_ws c)) <= snd p).
Proof.
  intros t route idx ts o n compl c c' q H Wc Hso Hts Hroute Hidx p Hp.
  destruct (uts_queue_inv ev _ _ _ _ _ _ _ _ _ _ H) as [[_ [-> _]]|[ctx [b [c1 [c2 [rs [c3 [r4 [_ [E1 [E2 [_ [_ [_ ->]]]]]]]]]]]]]]; [destruct Hp|].
  assert (K1 : NoInternalProofs.Rw c c1 /\ c_graph c1 = c_graph c /\ c_spec c1 = c_spec c).
  { clear -E1. destruct (g_next_transitions (c_graph c) t).
    - unfold upd_rec, modws in E1. inversion E1; subst.
      split; [apply (NoInternalProofs.Rw_update_rec c idx (fun r => r_set_term r true)); intro; repeat split; auto|split; reflexivity].
    - inversion E1; subst. split; [apply NoInternalProofs.Rw_refl|split; reflexivity]. }
  destruct K1 as [Q1 [G1 S1]]. pose proof (WF_Rw _ _ Q1 Wc) as W1.
  destruct Q1 as [_ [_ [_ [O1 [_ [L1 _]]]]]].
  destruct (mapM_pt_wf ev Hev _ _ _ _ _ _ _ _ _ E2 W1) as [_ [_ [_ P2]]].
  { rewrite G1, S1; exact Hso. } { intros e He; rewrite G1; exact He. } { rewrite S1; exact Hts. } { rewrite O1; exact Hroute. }
  { rewrite L1; exact Hidx. }
  destruct (P2 rs eq_refl) as [F2 _]. rewrite Forall_forall in F2.
  destruct (F2 p Hp) as [_ [_ [e [He [Hde K]]]]]. exists e. split; [exact He|]. split; [exact Hde|].
  destruct K as [[K1 K2]|K]; [left; split; [exact K1|]|right; rewrite <- O1; exact K].
  unfold stays in *. rewrite G1, S1, O1 in K2. exact K2.
Qed.

Lemma queued_unvisited : forall t route idx ts o n compl c c' q,
  uts_queue ev t route idx ts o n compl c = (c', Val q) ->
  WF c -> static_ok (c_spec c) (c_graph c) -> spec_get_task (c_spec c) t = Some ts ->
  route < length (routes (c_ws c)) -> idx < length (sequence (c_ws c)) ->
  (forall e, In e (cmd_edges_on_route c t route) -> ws_task_idx (c_ws c) (e_dst e) route = None) ->
  forall p, In p q -> ws_task_idx (c_ws c) (fst p) (snd p) = None.
Proof.
  intros t route idx ts o n compl c c' q E1 Wc Hso Hts Hroute Hidx Hunv p Hin.
  destruct (queue_from_edges _ _ _ _ _ _ _ _ _ _ E1 p Hin) as [_ [_ [_ Hc]]].
  destruct (queue_kinds _ _ _ _ _ _ _ _ _ _ E1 Wc Hso Hts Hroute Hidx p Hin) as [e' [He' [Hde' [[K1 K2]|K]]]].
  - rewrite K1, <- Hde'. apply Hunv. unfold cmd_edges_on_route. apply filter_In. split; [exact He'|].
    rewrite Hde', Hc, K2. reflexivity.
  - unfold ws_task_idx. destruct (aget tkey_eqb (fst p, snd p) (tasks (c_ws c))) as [i|] eqn:E; [|reflexivity].
    destruct (wf_ptr _ Wc _ _ E) as [_ Hlt]. simpl in Hlt. lia.
Qed.

Lemma late_tail : forall fuel t route ts idx old new compl c c' res,
  uts_tail ev (update_task_state_fuel ev (S fuel)) t route ts idx old new compl c = (c', res) ->
  (compl = None \/ exists ctx, compl = Some (ctx, false) /\ status_in new COMPLETED_STATUSES = true) ->
  WF c -> static_ok (c_spec c) (c_graph c) -> done c -> spec_get_task (c_spec c) t = Some ts ->
  ws_task_idx (c_ws c) t route = Some idx ->
  (exists r, nth_error (sequence (c_ws c)) idx = Some r /\ r_status r = Some new) ->
  ~ In new [S_EXPIRED; S_ABANDONED; S_UNSET] ->
  (forall e, In e (g_next_transitions (c_graph c) t) -> is_engine_command (e_dst e) = true -> g_has_task (c_graph c) (e_dst e) = true) ->
  cmd_routes_distinct c t route ->
  (forall e, In e (cmd_edges_on_route c t route) -> ws_task_idx (c_ws c) (e_dst e) route = None) ->
  (res = Val tt \/ (wstatus (c_ws c') = S_CANCELED /\ res = Exc fail_refused)) /\
  done c' /\ WF c' /\ (exists r', nth_error (sequence (c_ws c')) idx = Some r' /\ r_status r' = Some new).
Proof.
  intros fuel t route ts idx old new compl c c' res H Hcompl Wc Hso Hd Hts Hp [r [Hr Hs]] Hvoc Hknown Hdist Hunv.
  destruct (wf_ptr _ Wc _ _ Hp) as [Hidx Hroute]. simpl in Hroute.
  assert (Rest : forall q c2 r2,
            WF c2 -> static_ok (c_spec c2) (c_graph c2) -> done c2 -> NoDup q -> Forall (cmd_ready c2) q ->
            nth_error (sequence (c_ws c2)) idx = Some r2 -> r_status r2 = Some new ->
            uts_after (update_task_state_fuel ev (S fuel)) t route idx q c2 = (c', res) ->
            res = Val tt /\ done c' /\ WF c' /\ (exists r', nth_error (sequence (c_ws c')) idx = Some r' /\ r_status r' = Some new)).
  { intros q c2 r2 W2 So2 D2 Hnd Hq Hr2 Hs2 H0.
    destruct (cmd_loop_done fuel q c2 W2 So2 D2 Hnd Hq) as [c5 [E5 [W5 [S5 [L5 F5]]]]].
    assert (D5 : done c5) by (unfold done; rewrite S5; exact D2).
    rewrite (after_done _ t route idx q new c2 r2 c5 D2 Hr2 Hs2 Hvoc E5 D5) in H0. inversion H0; subst c' res; clear H0.
    assert (Hi2 : idx < length (sequence (c_ws c2))) by (apply nth_error_Some; rewrite Hr2; discriminate).
    assert (Hr5 : nth_error (sequence (c_ws c5)) idx = Some r2) by (rewrite F5 by exact Hi2; exact Hr2).
    split; [reflexivity|]. split; [unfold done; cbn [c_ws set_ws]; rewrite wstatus_update_rec; exact D5|].
    split; [eapply WF_Rw; [|exact W5]; apply NoInternalProofs.Rw_update_rec; intro; repeat split; auto|].
    exact (Rcs_update idx new c5 idx (fun r0 => r_set_term r0 true) (fun _ => eq_refl) r2 Hr5 Hs2). }
  destruct Hcompl as [->|[ctx [-> Hnc]]]; rewrite uts_tail_eq in H; unfold uts_rest in H.
  - rewrite (bind_step _ _ _ _ _ _ _ (eq_refl : uts_queue ev t route idx ts old new None c = (c, Val []))) in H.
    destruct (Rest [] c r Wc Hso Hd (NoDup_nil _) (Forall_nil _) Hr Hs H) as [A B]. split; [left; exact A|exact B].
  - apply bind_inv in H. destruct H as [[c2 [q [E1 H]]]|[x [E1 ->]]].
    2: { destruct (queue_wf ev Hev _ _ _ _ _ _ _ _ _ _ E1 Wc Hso Hts Hroute Hidx Hdist) as [Wx [_ [N1 _]]].
         destruct (hx_queue _ _ _ _ _ _ _ c c' (Exc x) Hd E1) as [D1 Q1].
         split; [|split; [exact D1|split; [exact Wx|exact (pcs_queue idx new Hnc _ _ _ _ _ _ _ _ _ _ E1 r Hr Hs)]]].
         right. destruct (Q1 x eq_refl) as [X|[X1 X2]]; [exfalso; exact (N1 x eq_refl X)|]. subst x. split; [exact X1|reflexivity]. }
    destruct (queue_wf ev Hev _ _ _ _ _ _ _ _ _ _ E1 Wc Hso Hts Hroute Hidx Hdist) as [W2 [G2 [_ Q2]]].
    destruct (Q2 q eq_refl) as [Qok Qnd].
    destruct (hx_queue _ _ _ _ _ _ _ c c2 (Val q) Hd E1) as [D2 _].
    destruct (pcs_queue idx new Hnc _ _ _ _ _ _ _ _ _ _ E1 r Hr Hs) as [r2 [Hr2 Hs2]].
    destruct G2 as [F4 [F5 [_ [F1 _]]]].
    assert (Hq : Forall (cmd_ready c2) q).
    { rewrite Forall_forall in Qok |- *. intros p Hin. split; [apply Qok; exact Hin|].
      destruct (queue_from_edges _ _ _ _ _ _ _ _ _ _ E1 p Hin) as [e [He [Hde Hc]]].
      split; [rewrite F4, <- Hde; apply Hknown; [exact He|rewrite Hde; exact Hc]|].
      unfold ws_task_idx. rewrite F1.
      exact (queued_unvisited _ _ _ _ _ _ _ _ _ _ E1 Wc Hso Hts Hroute Hidx Hunv p Hin). }
    destruct (Rest q c2 r2 W2) as [A B]; try assumption.
    + rewrite F4, F5; exact Hso.
    + split; [left; exact A|exact B].
Qed.

Lemma kept_cmd_edges : forall c c1 t route, kept c c1 -> cmd_edges_on_route c1 t route = cmd_edges_on_route c t route.
Proof.
  intros c c1 t route [_ [_ [K3 [_ [K5 [K6 _]]]]]]. unfold cmd_edges_on_route, stays. rewrite K3, K5, K6. reflexivity.
Qed.

(* a call on a done workflow whose prefix is known: the tail, read back in the state the call started in *)
Lemma late_call_done : forall t route evt ts idx old new compl c c1 r1 c' r',
  static_ok (c_spec c) (c_graph c) -> done c -> spec_get_task (c_spec c) t = Some ts ->
  ws_task_idx (c_ws c) t route = Some idx ->
  (forall e, In e (g_next_transitions (c_graph c) t) -> is_engine_command (e_dst e) = true -> g_has_task (c_graph c) (e_dst e) = true) ->
  cmd_routes_distinct c t route ->
  (forall e, In e (cmd_edges_on_route c t route) -> ws_task_idx (c_ws c) (e_dst e) route = None) ->
  uts_prefix ev t route evt c =
    (c1, Val {| po_ts := ts; po_idx := idx; po_old := old; po_new := new; po_compl := compl |}) ->
  (compl = None \/ exists ctx, compl = Some (ctx, false) /\ status_in new COMPLETED_STATUSES = true) ->
  kept c c1 -> WF c1 -> nth_error (sequence (c_ws c1)) idx = Some r1 -> r_status r1 = Some new ->
  ~ In new [S_EXPIRED; S_ABANDONED; S_UNSET] ->
  update_task_state ev t route evt c = (c', r') ->
  (r' = Val tt \/ (wstatus (c_ws c') = S_CANCELED /\ r' = Exc fail_refused)) /\
  WF c' /\
  (wstatus (c_ws c') = wstatus (c_ws c) \/ (wstatus (c_ws c) = S_SUCCEEDED /\ wstatus (c_ws c') = S_FAILED)) /\
  (exists r2, nth_error (sequence (c_ws c')) idx = Some r2 /\ r_status r2 = Some new).
Proof.
  intros t route evt ts idx old new compl c c1 r1 c' r' Hso Hd Hts Hp Hknown Hdist Hunv E1 Hcompl K W1 Hr1 Hs1 Hvoc H.
  pose proof (pres_update_task_state ev _ _ _ _ _ _ H) as Hreach.
  unfold update_task_state in H. rewrite uts_unfold, body_eq in H.
  rewrite (bind_step _ _ _ _ _ _ _ E1) in H. unfold tail_of in H. cbn [po_ts po_idx po_old po_new po_compl] in H.
  pose proof (kept_cmd_edges c c1 t route K) as Ke.
  destruct K as [K1 [K2 [K3 [K4 [K5 [K6 [K7 K8]]]]]]].
  (* update_task_state has fuel 3: its body calls back with fuel 2 = S 1 *)
  destruct (late_tail 1 _ _ _ _ _ _ _ _ _ _ H Hcompl W1) as [A [B [C D]]].
  - rewrite K5, K6; exact Hso.
  - unfold done; rewrite K4; exact Hd.
  - rewrite K6; exact Hts.
  - unfold ws_task_idx in *; rewrite K1; exact Hp.
  - eexists; split; [exact Hr1|exact Hs1].
  - exact Hvoc.
  - rewrite K5. exact Hknown.
  - unfold cmd_routes_distinct. rewrite Ke. exact Hdist.
  - unfold ws_task_idx. rewrite Ke, K1. exact Hunv.
  - split; [exact A|]. split; [exact C|]. split; [|exact D]. apply reach_done_exact; [exact Hd|exact Hreach].
Qed.

Theorem late_report_absorbed_gen : forall t route st res ts idx r s c c' r',
  WF c -> static_ok (c_spec c) (c_graph c) -> done c ->
  is_engine_command t = false -> g_has_task (c_graph c) t = true ->
  spec_get_task (c_spec c) t = Some ts -> task_has_items ts = false ->
  (forall e, In e (g_next_transitions (c_graph c) t) -> is_engine_command (e_dst e) = true -> g_has_task (c_graph c) (e_dst e) = true) ->
  cmd_routes_distinct c t route ->
  (forall e, In e (cmd_edges_on_route c t route) -> ws_task_idx (c_ws c) (e_dst e) route = None) ->
  ws_task_idx (c_ws c) t route = Some idx -> nth_error (sequence (c_ws c)) idx = Some r ->
  r_status r = Some s -> In s [S_RUNNING; S_PAUSING; S_CANCELING] -> status_in st COMPLETED_STATUSES = true ->
  update_task_state ev t route (EvAction st res) c = (c', r') ->
  (r' = Val tt \/ (wstatus (c_ws c') = S_CANCELED /\ r' = Exc fail_refused)) /\
  WF c' /\
  (wstatus (c_ws c') = wstatus (c_ws c) \/ (wstatus (c_ws c) = S_SUCCEEDED /\ wstatus (c_ws c') = S_FAILED)) /\
  (exists r1, nth_error (sequence (c_ws c')) idx = Some r1 /\ r_status r1 = Some (reported st)).
Proof.
  intros t route st res ts idx r s c c' r' Wc Hso Hd Hcmd Hg Hts Hit Hknown Hdist Hunv Hp Hr Hs Hin Hst H.
  destruct (late_prefix t route st res ts idx r s c Wc (or_introl Hd) Hcmd Hg Hts Hit Hp Hr Hs Hin Hst) as [c1 [ctx [E1 [K [Hr1 W1]]]]].
  destruct (F_reported_completed st) as [Hrc _].
  exact (late_call_done _ _ _ _ _ _ _ _ _ _ _ _ _ Hso Hd Hts Hp Hknown Hdist Hunv E1
           (or_intror (ex_intro _ ctx (conj eq_refl Hrc))) K W1 Hr1 eq_refl (reported_known st) H).
Qed.

Theorem late_report_absorbed : forall t route st res ts idx r s c c' r',
  WF c -> static_ok (c_spec c) (c_graph c) -> done c ->
  is_engine_command t = false -> g_has_task (c_graph c) t = true ->
  spec_get_task (c_spec c) t = Some ts -> task_has_items ts = false ->
  (forall e, In e (g_next_transitions (c_graph c) t) -> is_engine_command (e_dst e) = false) ->
  ws_task_idx (c_ws c) t route = Some idx -> nth_error (sequence (c_ws c)) idx = Some r ->
  r_status r = Some s -> In s [S_RUNNING; S_PAUSING; S_CANCELING] -> status_in st COMPLETED_STATUSES = true ->
  update_task_state ev t route (EvAction st res) c = (c', r') ->
  (r' = Val tt \/ (wstatus (c_ws c') = S_CANCELED /\ r' = Exc fail_refused)) /\
  WF c' /\
  (wstatus (c_ws c') = wstatus (c_ws c) \/ (wstatus (c_ws c) = S_SUCCEEDED /\ wstatus (c_ws c') = S_FAILED)) /\
  (exists r1, nth_error (sequence (c_ws c')) idx = Some r1 /\ r_status r1 = Some (reported st)).
Proof.
  intros t route st res ts idx r s c c' r' Wc Hso Hd Hcmd Hg Hts Hit Hnc.
  (* no edge of the task leads to an engine command: the three conditions on such edges hold for want of one *)
  assert (E : cmd_edges_on_route c t route = []).
  { unfold cmd_edges_on_route. induction (g_next_transitions (c_graph c) t) as [|e l IH]; [reflexivity|]. simpl.
    rewrite (Hnc e (or_introl eq_refl)). simpl. apply IH. intros e0 He0; apply Hnc; right; exact He0. }
  apply (late_report_absorbed_gen t route st res ts idx r s c c' r' Wc Hso Hd Hcmd Hg Hts Hit).
  - intros e He Hc. rewrite (Hnc e He) in Hc. discriminate.
  - unfold cmd_routes_distinct. rewrite E. constructor.
  - rewrite E. intros e [].
Qed.

End Transitions.

(* what the late task's transitions staged is not offered: nothing is, in a canceled or succeeded workflow (in a failed
   one only entries flagged run_on_fail are, C04_failed_offers_only_cleanup) *)
Theorem late_report_no_offers : forall ev c', WF c' -> In (wstatus (c_ws c')) [S_SUCCEEDED; S_CANCELED] ->
  get_next_tasks ev c' = (c', Val []).
Proof. intros ev c' W H. apply no_offers_when_done; [apply (wf_init _ W)|exact H]. Qed.
