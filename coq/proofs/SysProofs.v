(* SysProofs.v -- the provider protocol (model/ProviderSys.v) as a transition system over the conductor model,
   and the invariant of its reachable states that LINKS the conductor's task records to the provider's set of
   in-flight actions and makes the reported workflow status truthful about both.

   Scope: every evaluator; definitions without with-items tasks; Boot / Poll (+ acknowledgements) / completion
   reports / control requests / render / persist; fault-free histories (no conductor call raised, rejected status
   requests excepted).  The invariant [cinv] of an initialised conductor c with in-flight set F says:
     - the pointer map is a function and every pointer names a record of its own key; no staged entry tracks items or
       is marked completed; no engine command is staged ([winv], [ncmd c = 0]);
     - every pointed record is running, succeeded, failed, canceled or retrying ([simple]);
     - (I1) every key in F points to a running record; (I2) every pointed running record has its key in F; no key in
       F is an engine command;
     - [kinv]: paused / canceled / succeeded => no active record; succeeded => nothing ready in staging;
       pausing / canceling => some active record; running / resuming => an active record or a ready staged entry.
   [sys_reachable_inv] proves it for every history, given that the queue step of a report leaves every satisfied
   next task in staging ([queue_hnt_prop], proved in SysNextProofs.v from the uniqueness of edge keys).

   Method.  A judgment for RETURNING runs ([vpres R m], with its walk tactic [sw]) proves the frames that do not depend
   on values computed on the way (key and status of records, well-formedness, definition kept); the value-dependent
   spine of update_task_state is inverted once (selection of the record, machine step, completion, tail), on the
   decomposition of proofs/RetryProofs.v; engine commands in staging are counted; the workflow-machine step is read off
   two table sweeps of facts/F_sys.v; the three kinds of call -- queued engine command, retry re-entry,
   acknowledgement / report -- are assembled from these, get_next_tasks, the lazy creation and control requests are
   characterised, and each protocol step is given by a value lemma on an initialised conductor; [sys_sat_step] carries
   a property of such steps over the lazy creation to every history.  Walks over update_task_state are stated for
   any relation of their kind and serve the with-items development too: [stg_walk] for relations that read only the
   staging, [key_walk] for relations that read the records ([rec_walk], without the key and pointer premises, is for
   relations that also read the workflow status: SysItemsIdleProofs.v).

   Names.  [Rlt] ("light"): only the workflow status, the log and the output move; [Rfr] ("frame"): pointers, keys and
   statuses of records kept; [Rw]: well-formedness kept; [Rdef]: definition kept; [Rstg]: staging kept; [RQ]: a
   staging relation.  A lemma [x_f] says that function f keeps the relation of prefix x: lt_ / fr_ / w_ / pd_ / ps_ for
   every run ([preserves]: Rlt, Rfr, Rw, Rdef, Rstg), vlt_ / vfr_ / vw_ / vs_ / sq_ for returning runs ([vpres]; sq_
   is RQ), rw_ and kw_ inside the record walks. *)
From Coq Require Import String List Bool ZArith Arith Lia.
From Orq Require Import GenStatuses GenEvents GenTables GenSpecMeta Base State Machines Codec Conductor Decode Api Driver ProviderSys.
From Orq Require Import F_tables F_names F_sys ListFacts StateFacts Hoare Frame ValuePost StatusReach C04Proofs C05Proofs C02C03Proofs OffersProofs InertProofs RetryProofs.
Import ListNotations.
Open Scope string_scope.
Open Scope monad_scope.

(* [vpres R m]: every run of m that RETURNS relates the state before to the state after.  (Hoare.preserves
   speaks about raising runs as well; the link theorems are about fault-free histories, and the conductor's
   rejected-request path undoes its own writes, which only a returning-run judgment can ignore.) *)
Definition vpres (R : cstate -> cstate -> Prop) {A} (m : M A) : Prop :=
  forall c c' a, m c = (c', Val a) -> R c c'.

Section VPres.
  Variable R : cstate -> cstate -> Prop.
  Hypothesis R_refl : forall c, R c c.
  Hypothesis R_trans : forall a b c, R a b -> R b c -> R a c.

  Lemma vp_of_pres : forall A (m : M A), preserves R m -> vpres R m.
  Proof. intros A m H c c' a E; eapply H; exact E. Qed.
  Lemma vp_ret : forall A (a : A), vpres R (ret a).
  Proof. intros A a c c' x H; inversion H; subst; apply R_refl. Qed.
  Lemma vp_raise : forall A e, vpres R (@raise A e).
  Proof. intros A e c c' x H; inversion H. Qed.
  Lemma vp_get : vpres R get.
  Proof. intros c c' x H; inversion H; subst; apply R_refl. Qed.
  Lemma vp_getws : vpres R getws.
  Proof. intros c c' x H; inversion H; subst; apply R_refl. Qed.
  Lemma vp_bind : forall A B (m : M A) (f : A -> M B),
    vpres R m -> (forall a, vpres R (f a)) -> vpres R (bind m f).
  Proof.
    intros A B m f Hm Hf c c' b H. unfold bind in H. destruct (m c) as [c1 [a|e]] eqn:E; [|inversion H].
    eapply R_trans; [eapply Hm; exact E|eapply Hf; exact H].
  Qed.
  Lemma vp_bind_raise : forall A B (m : M A) (e : A -> exn), vpres R (bind m (fun a => @raise B (e a))).
  Proof. intros A B m e c c' b H. unfold bind in H. destruct (m c) as [c1 [a|x]]; inversion H. Qed.
  Lemma vp_bind_v : forall A B (Q : A -> Prop) (m : M A) (f : A -> M B),
    vpost Q m -> vpres R m -> (forall a, Q a -> vpres R (f a)) -> vpres R (bind m f).
  Proof.
    intros A B Q m f Hq Hm Hf c c' b H. unfold bind in H. destruct (m c) as [c1 [a|e]] eqn:E; [|inversion H].
    eapply R_trans; [eapply Hm; exact E|eapply Hf; [eapply Hq; exact E|exact H]].
  Qed.
  Lemma vp_try_catch : forall A (m : M A) h,
    preserves R m -> (forall e, vpres R (h e)) -> vpres R (try_catch m h).
  Proof.
    intros A m h Hm Hh c c' a H. unfold try_catch in H. destruct (m c) as [c1 [a1|e]] eqn:E.
    - inversion H; subst. eapply Hm; exact E.
    - eapply R_trans; [eapply Hm; exact E|eapply Hh; exact H].
  Qed.
  Lemma vp_try_catch_expr : forall A (m : M A) h,
    preserves R m -> (forall e, vpres R (h e)) -> vpres R (try_catch_expr m h).
  Proof.
    intros A m h Hm Hh c c' a H. unfold try_catch_expr in H. destruct (m c) as [c1 [a1|e]] eqn:E.
    - inversion H; subst. eapply Hm; exact E.
    - destruct (x_expr e); [|inversion H]. eapply R_trans; [eapply Hm; exact E|eapply Hh; exact H].
  Qed.
  Lemma vp_mapM : forall A B (f : A -> M B) l, (forall a, vpres R (f a)) -> vpres R (mapM f l).
  Proof.
    intros A B f l Hf; induction l as [|x l IH]; simpl; [apply vp_ret|].
    apply vp_bind; [apply Hf|intro y]. apply vp_bind; [exact IH|intro ys; apply vp_ret].
  Qed.
  Lemma vp_forM : forall A (l : list A) f, (forall a, vpres R (f a)) -> vpres R (forM_ l f).
  Proof.
    intros A l f Hf; induction l as [|x l IH]; simpl; [apply vp_ret|].
    apply vp_bind; [apply Hf|intro; exact IH].
  Qed.
  Lemma vp_forM_In : forall A (l : list A) f, (forall a, In a l -> vpres R (f a)) -> vpres R (forM_ l f).
  Proof.
    intros A l f; induction l as [|x l IH]; intro Hf; simpl; [apply vp_ret|].
    apply vp_bind; [apply Hf; left; reflexivity|intro; apply IH; intros y Hy; apply Hf; right; exact Hy].
  Qed.
  Lemma vp_lift_res : forall A (r : result A), vpres R (lift_res r).
  Proof. intros A r; destruct r; [apply vp_ret|apply vp_raise]. Qed.
  Lemma vp_lift_eval : forall r, vpres R (lift_eval r).
  Proof. intros r; destruct r; [apply vp_ret|apply vp_raise]. Qed.
  Lemma vp_modify : forall f, (forall c, R c (f c)) -> vpres R (modify f).
  Proof. intros f Hf c c' a H; inversion H; subst; apply Hf. Qed.
  Lemma vp_modws : forall f, (forall c, R c (set_ws c (f (c_ws c)))) -> vpres R (modws f).
  Proof. intros f Hf c c' a H; inversion H; subst; apply Hf. Qed.
  Lemma vp_when : forall b m, vpres R m -> vpres R (when_ b m).
  Proof. intros b m Hm; destruct b; [exact Hm|apply vp_ret]. Qed.
  Lemma vp_state_pure : forall A (m : M A), state_pure m -> vpres R m.
  Proof. intros A m H c c' a E. specialize (H c). rewrite E in H; simpl in H; subst; apply R_refl. Qed.
End VPres.

Lemma vpres_sub : forall (R1 R2 : cstate -> cstate -> Prop), (forall c c', R1 c c' -> R2 c c') ->
  forall A (m : M A), vpres R1 m -> vpres R2 m.
Proof. intros R1 R2 H A m Hm c c' a E. apply H. exact (Hm _ _ _ E). Qed.

(* the walk for returning runs: [pleaf] closes Hoare.preserves goals (the bodies of try blocks), [leaf]
   closes vpres goals at the state-writing primitives *)
Ltac sw Rr Rt pleaf leaf :=
  lazymatch goal with
  | |- vpres _ (ret _) => apply (vp_ret _ Rr)
  | |- vpres _ (raise _) => apply vp_raise
  | |- vpres _ get => apply (vp_get _ Rr)
  | |- vpres _ getws => apply (vp_getws _ Rr)
  | |- vpres _ (bind _ (fun _ => raise _)) => apply vp_bind_raise
  | |- vpres _ (bind _ _) => apply (vp_bind _ Rt); [ sw Rr Rt pleaf leaf | intro; sw Rr Rt pleaf leaf ]
  | |- vpres _ (try_catch _ _) =>
      apply (vp_try_catch _ Rt); [ pw Rr Rt pleaf | intro; sw Rr Rt pleaf leaf ]
  | |- vpres _ (try_catch_expr _ _) =>
      apply (vp_try_catch_expr _ Rt); [ pw Rr Rt pleaf | intro; sw Rr Rt pleaf leaf ]
  | |- vpres _ (mapM _ _) => apply (vp_mapM _ Rr Rt); intro; sw Rr Rt pleaf leaf
  | |- vpres _ (forM_ _ _) => apply (vp_forM _ Rr Rt); intro; sw Rr Rt pleaf leaf
  | |- vpres _ (when_ _ _) => apply (vp_when _ Rr); sw Rr Rt pleaf leaf
  | |- vpres _ (lift_res _) => apply (vp_lift_res _ Rr)
  | |- vpres _ (lift_eval _) => apply (vp_lift_eval _ Rr)
  | |- vpres _ (evaluate _ _ _) => apply (vp_state_pure _ Rr); apply evaluate_pure
  | |- vpres _ (match ?x with _ => _ end) => destruct x; sw Rr Rt pleaf leaf
  | |- vpres _ ?m =>
      first [ solve [leaf]
            | let h := head_of m in progress (unfold h); sw Rr Rt pleaf leaf
            | progress (cbv beta); sw Rr Rt pleaf leaf
            | idtac ]
  end.

Definition sig (r : trec) : string * nat * option status := (r_id r, r_route r, r_status r).

Definition Rfr (c c' : cstate) : Prop :=
  tasks (c_ws c') = tasks (c_ws c) /\
  map sig (sequence (c_ws c')) = map sig (sequence (c_ws c)) /\
  (wstatus (c_ws c') = wstatus (c_ws c) \/ wstatus (c_ws c') = S_FAILED) /\
  c_graph c' = c_graph c /\ c_spec c' = c_spec c /\ c_init c' = c_init c.

Lemma Rfr_refl : forall c, Rfr c c.
Proof. intro c; repeat split; auto. Qed.
Lemma Rfr_trans : forall a b c, Rfr a b -> Rfr b c -> Rfr a c.
Proof.
  intros a b c [A1 [A2 [A3 [A4 [A5 A6]]]]] [B1 [B2 [B3 [B4 [B5 B6]]]]].
  repeat split; try congruence.
  destruct B3 as [B3|B3]; [|right; exact B3]. destruct A3 as [A3|A3]; [left|right]; congruence.
Qed.

Lemma Rfr_same_ws : forall c c', c_ws c' = c_ws c -> c_graph c' = c_graph c -> c_spec c' = c_spec c ->
  c_init c' = c_init c -> Rfr c c'.
Proof. intros c c' H1 H2 H3 H4; unfold Rfr; rewrite H1; repeat split; auto. Qed.

Lemma map_sig_set_nth : forall l i (r r' : trec), nth_error l i = Some r -> sig r' = sig r ->
  map sig (list_set_nth i r' l) = map sig l.
Proof.
  induction l as [|a l IH]; intros [|i] r r' H E; simpl in *; try discriminate.
  - inversion H; subst. rewrite E; reflexivity.
  - f_equal. eapply IH; eassumption.
Qed.

Lemma map_sig_update_rec : forall w i f, (forall r, sig (f r) = sig r) ->
  map sig (sequence (ws_update_rec w i f)) = map sig (sequence w).
Proof.
  intros w i f Hf; unfold ws_update_rec. destruct (nth_error (sequence w) i) as [r|] eqn:E; [|reflexivity].
  simpl. eapply map_sig_set_nth; [exact E|apply Hf].
Qed.

Lemma Rfr_update_rec : forall c i f, (forall r, sig (f r) = sig r) -> Rfr c (set_ws c (ws_update_rec (c_ws c) i f)).
Proof.
  intros c i f Hf; unfold Rfr; simpl. rewrite tasks_update_rec, map_sig_update_rec, wstatus_update_rec by exact Hf.
  repeat split; auto.
Qed.

Lemma Rfr_remove_staged : forall c t r, Rfr c (set_ws c (ws_remove_staged_task (c_ws c) t r)).
Proof.
  intros c t r; unfold Rfr; simpl. rewrite tasks_remove_staged, seq_remove_staged, wstatus_remove_staged.
  repeat split; auto.
Qed.

Lemma tpe_workflow_failed : forall w r ns, task_process_event w r (EvWorkflow S_FAILED) = Val ns -> ns = None.
Proof.
  intros w r ns H. unfold task_process_event in H.
  destruct (negb (string_in (ev_name (EvWorkflow S_FAILED)) WORKFLOW_EXECUTION_EVENTS)); [discriminate|].
  apply task_table_step_val in H. change (task_workflow_event_name w (r_id r) (r_route r) S_FAILED)
    with (workflow_event_name S_FAILED) in H. rewrite F_workflow_failed_nowhere in H. symmetry; exact H.
Qed.

Lemma wf_failed_event_name : forall w, wf_workflow_event_name w S_FAILED = "workflow_failed".
Proof.
  intro w. unfold wf_workflow_event_name. cbn [status_in existsb status_eqb S_FAILED app PAUSE_STATUSES CANCEL_STATUSES].
  rewrite andb_false_r. reflexivity.
Qed.

Definition Rlt (c c' : cstate) : Prop :=
  sequence (c_ws c') = sequence (c_ws c) /\ tasks (c_ws c') = tasks (c_ws c) /\
  staged (c_ws c') = staged (c_ws c) /\ contexts (c_ws c') = contexts (c_ws c) /\
  routes (c_ws c') = routes (c_ws c) /\
  (wstatus (c_ws c') = wstatus (c_ws c) \/ wstatus (c_ws c') = S_FAILED) /\
  c_graph c' = c_graph c /\ c_spec c' = c_spec c /\ c_init c' = c_init c.

Lemma Rlt_refl : forall c, Rlt c c.
Proof. intro c; repeat split; auto. Qed.
Lemma Rlt_trans : forall a b c, Rlt a b -> Rlt b c -> Rlt a c.
Proof.
  intros a b c [A1 [A2 [A3 [A4 [A5 [A6 [A7 [A8 A9]]]]]]]] [B1 [B2 [B3 [B4 [B5 [B6 [B7 [B8 B9]]]]]]]].
  repeat split; try congruence.
  destruct B6 as [B6|B6]; [|right; exact B6]. destruct A6 as [A6|A6]; [left|right]; congruence.
Qed.
Lemma Rlt_same_ws : forall c c', c_ws c' = c_ws c -> c_graph c' = c_graph c -> c_spec c' = c_spec c ->
  c_init c' = c_init c -> Rlt c c'.
Proof. intros c c' H1 H2 H3 H4; unfold Rlt; rewrite H1; repeat split; auto. Qed.
Lemma Rlt_Rfr : forall c c', Rlt c c' -> Rfr c c'.
Proof. intros c c' [A1 [A2 [A3 [A4 [A5 [A6 [A7 [A8 A9]]]]]]]]. unfold Rfr. rewrite A1, A2. repeat split; auto. Qed.

Create HintDb syslt.

Create HintDb sysfr.

Section Light.
Variable ev : string -> dict -> evalres.

Ltac pleaf :=
  first
    [ apply (preserves_modws Rlt); intro; first [ apply Rlt_same_ws; reflexivity | unfold Rlt; simpl; repeat split; auto ]
    | apply (preserves_modify Rlt); intro; first [ apply Rlt_same_ws; reflexivity
        | match goal with |- context [if ?b then _ else _] => destruct b end; apply Rlt_same_ws; reflexivity ]
    | assumption
    | eauto 3 with syslt ].
Ltac leaf :=
  first
    [ apply (vp_modws Rlt); intro; first [ apply Rlt_same_ws; reflexivity | unfold Rlt; simpl; repeat split; auto ]
    | apply (vp_modify Rlt); intro; first [ apply Rlt_same_ws; reflexivity
        | match goal with |- context [if ?b then _ else _] => destruct b end; apply Rlt_same_ws; reflexivity ]
    | assumption
    | eauto 3 with syslt ].
Ltac walk := sw Rlt_refl Rlt_trans pleaf leaf.
Ltac pwalk := pw Rlt_refl Rlt_trans pleaf.

Lemma lt_wf_workflow_failed : vpres Rlt (wf_workflow_event_M S_FAILED).
Proof.
  intros c c' a H. unfold wf_workflow_event_M in H.
  destruct (wf_process_workflow_event (c_graph c) (c_ws c) S_FAILED) as [[new unr]|e] eqn:E; inversion H; subst; clear H.
  unfold Rlt; simpl. repeat split; auto.
  unfold wf_process_workflow_event in E. rewrite wf_failed_event_name in E.
  destruct (negb (string_in "workflow_failed" WORKFLOW_EXECUTION_EVENTS)); [discriminate|].
  destruct (tbl_row wf_table (wstatus (c_ws c))) as [row|] eqn:Er; [|discriminate].
  destruct (aget String.eqb "workflow_failed" row) as [n|] eqn:Ea.
  - assert (St : tbl_step wf_table (wstatus (c_ws c)) "workflow_failed" = Some n) by (unfold tbl_step; rewrite Er; exact Ea).
    apply F_wf_failed_target in St; subst n.
    destruct (negb (status_eqb S_FAILED (wstatus (c_ws c))) && status_eqb S_FAILED S_SUCCEEDED) eqn:Eb;
      [rewrite andb_comm in Eb; discriminate Eb|]. inversion E; subst; right; reflexivity.
  - inversion E; subst; left; reflexivity.
Qed.

Lemma lt_log_entry_error : forall m t r tr res, preserves Rlt (log_entry_error m t r tr res).
Proof. intros; unfold log_entry_error; pwalk. Qed.
Hint Resolve lt_log_entry_error : syslt.
Lemma lt_log_error : forall e t r tr, preserves Rlt (log_error e t r tr).
Proof. intros; unfold log_error; auto with syslt. Qed.
Hint Resolve lt_log_error : syslt.
Lemma lt_log_errors : forall es t r tr, preserves Rlt (log_errors es t r tr).
Proof. intros; unfold log_errors; pwalk. Qed.
Hint Resolve lt_log_errors : syslt.
Lemma lt_log_unreachable : forall l, preserves Rlt (log_unreachable l).
Proof. intros; unfold log_unreachable; pwalk. Qed.
Hint Resolve lt_log_unreachable : syslt.
Lemma vlt_log_error : forall e t r tr, vpres Rlt (log_error e t r tr).
Proof. intros; apply vp_of_pres; auto with syslt. Qed.
Lemma vlt_log_errors : forall es t r tr, vpres Rlt (log_errors es t r tr).
Proof. intros; apply vp_of_pres; auto with syslt. Qed.
Lemma vlt_log_unreachable : forall l, vpres Rlt (log_unreachable l).
Proof. intros; apply vp_of_pres; auto with syslt. Qed.
Hint Resolve vlt_log_error vlt_log_errors vlt_log_unreachable : syslt.

Lemma vlt_request_failed : vpres Rlt (request_status_core S_FAILED).
Proof.
  unfold request_status_core.
  apply (vp_bind _ Rlt_trans); [apply (vp_getws _ Rlt_refl)|intro w0]. cbv zeta.
  apply (vp_bind _ Rlt_trans).
  { apply (vp_forM _ Rlt_refl Rlt_trans); intros [i r0].
    apply (vp_bind _ Rlt_trans); [apply (vp_getws _ Rlt_refl)|intro w].
    destruct (nth_error (sequence w) i) as [r|]; [|apply (vp_ret _ Rlt_refl)].
    apply (vp_bind_v _ Rlt_trans _ _ (fun ns => ns = None)).
    - intros c c' ns H. apply lift_res_inv in H; destruct H as [_ H]. eapply tpe_workflow_failed; symmetry; exact H.
    - apply (vp_lift_res _ Rlt_refl).
    - intros ns ->. apply (vp_ret _ Rlt_refl). }
  intros _.
  apply (vp_bind _ Rlt_trans); [apply lt_wf_workflow_failed|intro unr].
  apply (vp_bind _ Rlt_trans); [apply vlt_log_unreachable|intros _].
  apply (vp_bind _ Rlt_trans); [apply (vp_getws _ Rlt_refl)|intro w1].
  repeat match goal with |- vpres _ (if ?b then _ else _) => destruct b end;
    first [apply (vp_ret _ Rlt_refl)|apply vp_bind_raise].
Qed.
Hint Resolve vlt_request_failed : syslt.

Lemma request_failed_fails : forall c c', request_status_core S_FAILED c = (c', Val tt) -> wstatus (c_ws c') = S_FAILED.
Proof.
  intros c c' H. pose proof (vlt_request_failed _ _ _ H) as [_ [_ [_ [_ [_ [Hw _]]]]]].
  destruct Hw as [Hw|Hw]; [|exact Hw].
  (* the status did not move: then the call returns only if it was failed already *)
  unfold request_status_core in H.
  apply bind_val_inv' in H. destruct H as [c0 [w0 [E0 H]]]. inversion E0; subst c0 w0; clear E0. cbv zeta in H.
  apply bind_val_inv' in H. destruct H as [c1 [u1 [E1 H]]].
  assert (S1 : wstatus (c_ws c1) = wstatus (c_ws c)).
  { assert (P : vpres (fun a b => wstatus (c_ws b) = wstatus (c_ws a))
                      (forM_ (ws_tasks_by_status (c_ws c) ACTIVE_STATUSES)
                         (fun '(i, _) => w <- getws ;; match nth_error (sequence w) i with
                            | None => ret tt
                            | Some r => ns <- lift_res (task_process_event w r (EvWorkflow S_FAILED)) ;;
                                        match ns with Some s => set_rec_status i (Some s) | None => ret tt end end))).
    { apply vp_forM; [reflexivity|intros; congruence|]. intros [i r0].
      apply vp_bind; [intros; congruence|apply vp_getws; reflexivity|intro w].
      destruct (nth_error (sequence w) i); [|apply vp_ret; reflexivity].
      apply vp_bind; [intros; congruence|apply vp_lift_res; reflexivity|intros [s|]]; [|apply vp_ret; reflexivity].
      unfold set_rec_status. apply vp_modws. intro x; simpl. apply wstatus_update_rec. }
    exact (P _ _ _ E1). }
  apply bind_val_inv' in H. destruct H as [c2 [unr [E2 H]]].
  apply bind_val_inv' in H. destruct H as [c3 [u3 [E3 H]]].
  assert (S3 : c_ws c3 = c_ws c2).
  { assert (P : vpres (fun a b => c_ws b = c_ws a) (log_unreachable unr)).
    { unfold log_unreachable, log_error, log_entry_error. apply vp_forM; [reflexivity|intros; congruence|]. intro s.
      apply vp_modify. intro x. destruct (existsb _ _); reflexivity. }
    exact (P _ _ _ E3). }
  apply bind_val_inv' in H. destruct H as [c4 [w1 [E4 H]]]. inversion E4; subst c4 w1; clear E4.
  rewrite S3 in H.
  change (status_eqb S_FAILED S_PAUSED) with false in H. change (status_eqb S_FAILED S_CANCELED) with false in H.
  cbn [andb] in H.
  destruct (negb (status_eqb S_FAILED (wstatus (c_ws c))) && status_eqb (wstatus (c_ws c)) (wstatus (c_ws c2))) eqn:Eb.
  - apply bind_val_inv' in H. destruct H as [c5 [u5 [_ H]]]. inversion H.
  - inversion H; subst c'. rewrite S3 in *.
    apply andb_false_iff in Eb. destruct Eb as [Eb|Eb].
    + apply negb_false_iff in Eb. apply status_eqb_eq in Eb. rewrite Hw. symmetry; exact Eb.
    + rewrite Hw in Eb. rewrite status_eqb_refl in Eb. discriminate Eb.
Qed.

Lemma vlt_get_task_context : forall idxs, vpres Rlt (get_task_context idxs).
Proof. intros; unfold get_task_context; walk. Qed.
Hint Resolve vlt_get_task_context : syslt.
Lemma lt_render_vars : forall specs rolling rendered errs, preserves Rlt (render_vars ev specs rolling rendered errs).
Proof. induction specs as [|[n d] specs IH]; intros; simpl; pwalk. Qed.
Hint Resolve lt_render_vars : syslt.
Lemma lt_render_input : forall specs rt rolling errs, preserves Rlt (render_input ev specs rt rolling errs).
Proof. induction specs as [|[n d] specs IH]; intros; simpl; pwalk. Qed.
Hint Resolve lt_render_input : syslt.
Lemma vlt_render_vars : forall specs rolling rendered errs, vpres Rlt (render_vars ev specs rolling rendered errs).
Proof. intros; apply vp_of_pres; auto with syslt. Qed.
Hint Resolve vlt_render_vars : syslt.
Lemma vlt_merge_term_contexts : forall l acc, vpres Rlt (merge_term_contexts l acc).
Proof. induction l as [|[i r] l IH]; intros; simpl; walk. Qed.
Hint Resolve vlt_merge_term_contexts : syslt.

Lemma vlt_render_workflow_output : forall c, c_init c = true -> forall c' a,
  render_workflow_output ev c = (c', Val a) -> Rlt c c'.
Proof.
  intros c Hi c' a H. unfold render_workflow_output in H.
  match type of H with (bind (ensure_ws ev) ?k) c = _ =>
    assert (P : vpres Rlt (k tt)) by (cbv beta; unfold get_workflow_terminal_context; walk) end.
  unfold bind at 1 in H. rewrite (ensure_ws_inited ev c Hi) in H. exact (P _ _ _ H).
Qed.

Lemma lt_get_task_context : forall idxs, preserves Rlt (get_task_context idxs).
Proof. intros; unfold get_task_context; pwalk. Qed.
Hint Resolve lt_get_task_context : syslt.
Lemma lt_setup_retry : forall t idxs, preserves Rlt (setup_retry ev t idxs).
Proof. intros; unfold setup_retry; pwalk. Qed.
Hint Resolve lt_setup_retry : syslt.

Definition new_rec (t : string) (rt : nat) (ins : list nat) (prev : list (trid * nat)) (retry : option retry_rec) : trec :=
  {| r_id := t; r_route := rt; r_in := match ins with [] => [0] | _ => ins end; r_out := None; r_prev := prev;
     r_next := []; r_status := None; r_term := false; r_retry := retry |}.

Lemma add_task_state_eff : forall t rt ins prev c c' idx,
  add_task_state ev t rt ins prev c = (c', Val idx) ->
  exists cm retry, Rlt c cm /\ idx = length (sequence (c_ws cm)) /\
    c' = set_ws cm (ws_set_tasks (ws_set_sequence (c_ws cm) (app (sequence (c_ws cm)) [new_rec t rt ins prev retry]))
                                 (aset tkey_eqb (t, rt) idx (tasks (c_ws cm)))) /\
    (g_task_has_retry (c_graph c) t = false -> retry = None).
Proof.
  intros t rt ins prev c c' idx H. unfold add_task_state in H.
  apply bind_val_inv' in H. destruct H as [c0 [cst [E0 H]]]. inversion E0; subst c0 cst; clear E0.
  destruct (negb (g_has_task (c_graph c) t)); [inversion H|]. cbv zeta in H.
  apply bind_val_inv' in H. destruct H as [cm [retry [Er H]]].
  apply bind_val_inv' in H. destruct H as [c0 [w [E0 H]]]. inversion E0; subst c0 w; clear E0.
  apply bind_val_inv' in H. destruct H as [c1 [u [E1 H]]]. inversion E1; subst c1; clear E1.
  inversion H; subst c' idx; clear H.
  exists cm, retry. split; [|split; [reflexivity|split; [reflexivity|]]].
  - match type of Er with ?m _ = _ => assert (P : vpres Rlt m) by walk end.
    exact (P _ _ _ Er).
  - intro Hn. rewrite Hn in Er. inversion Er; reflexivity.
Qed.

End Light.

Section Frame.
Variable ev : string -> dict -> evalres.

Ltac pleaf :=
  first
    [ apply (preserves_modws Rfr); intro; first [apply Rfr_update_rec; intro; reflexivity | apply Rfr_remove_staged
                                                 | apply Rfr_same_ws; reflexivity | unfold Rfr; simpl; repeat split; auto ]
    | apply (preserves_modify Rfr); intro; first [ apply Rfr_same_ws; reflexivity
        | match goal with |- context [if ?b then _ else _] => destruct b end; apply Rfr_same_ws; reflexivity ]
    | assumption
    | eauto 3 with sysfr ].
Ltac leaf :=
  first
    [ apply (vp_modws Rfr); intro; first [apply Rfr_update_rec; intro; reflexivity | apply Rfr_remove_staged
                                          | apply Rfr_same_ws; reflexivity | unfold Rfr; simpl; repeat split; auto ]
    | apply (vp_modify Rfr); intro; first [ apply Rfr_same_ws; reflexivity
        | match goal with |- context [if ?b then _ else _] => destruct b end; apply Rfr_same_ws; reflexivity ]
    | assumption
    | eauto 3 with sysfr ].
Ltac walk := sw Rfr_refl Rfr_trans pleaf leaf.
Ltac pwalk := pw Rfr_refl Rfr_trans pleaf.

Lemma fr_log_entry_error : forall m t r tr res, preserves Rfr (log_entry_error m t r tr res).
Proof. intros; unfold log_entry_error; pwalk. Qed.
Hint Resolve fr_log_entry_error : sysfr.
Lemma fr_log_error : forall e t r tr, preserves Rfr (log_error e t r tr).
Proof. intros; unfold log_error; auto with sysfr. Qed.
Hint Resolve fr_log_error : sysfr.
Lemma fr_log_errors : forall es t r tr, preserves Rfr (log_errors es t r tr).
Proof. intros; unfold log_errors; pwalk. Qed.
Hint Resolve fr_log_errors : sysfr.
Lemma fr_log_unreachable : forall l, preserves Rfr (log_unreachable l).
Proof. intros; unfold log_unreachable; pwalk. Qed.
Hint Resolve fr_log_unreachable : sysfr.
Lemma vfr_log_entry_error : forall m t r tr res, vpres Rfr (log_entry_error m t r tr res).
Proof. intros; apply vp_of_pres; auto with sysfr. Qed.
Lemma vfr_log_error : forall e t r tr, vpres Rfr (log_error e t r tr).
Proof. intros; apply vp_of_pres; auto with sysfr. Qed.
Lemma vfr_log_errors : forall es t r tr, vpres Rfr (log_errors es t r tr).
Proof. intros; apply vp_of_pres; auto with sysfr. Qed.
Lemma vfr_log_unreachable : forall l, vpres Rfr (log_unreachable l).
Proof. intros; apply vp_of_pres; auto with sysfr. Qed.
Hint Resolve vfr_log_entry_error vfr_log_error vfr_log_errors vfr_log_unreachable : sysfr.

Lemma fr_upd_rec : forall i f, (forall r, sig (f r) = sig r) -> preserves Rfr (upd_rec i f).
Proof. intros i f Hf; unfold upd_rec. apply (preserves_modws Rfr); intro; apply Rfr_update_rec; exact Hf. Qed.
Lemma vfr_upd_rec : forall i f, (forall r, sig (f r) = sig r) -> vpres Rfr (upd_rec i f).
Proof. intros; apply vp_of_pres; apply fr_upd_rec; assumption. Qed.
Lemma fr_get_rec : forall i, preserves Rfr (get_rec i).
Proof. intros; unfold get_rec; pwalk. Qed.
Hint Resolve fr_get_rec : sysfr.
Lemma vfr_get_rec : forall i, vpres Rfr (get_rec i).
Proof. intros; apply vp_of_pres; auto with sysfr. Qed.
Hint Resolve vfr_get_rec : sysfr.

Lemma vfr_request_failed : vpres Rfr (request_status_core S_FAILED).
Proof. intros c c' a H. apply Rlt_Rfr. eapply vlt_request_failed; exact H. Qed.
Hint Resolve vfr_request_failed : sysfr.

Lemma fr_get_task_context : forall idxs, preserves Rfr (get_task_context idxs).
Proof. intros; unfold get_task_context; pwalk. Qed.
Hint Resolve fr_get_task_context : sysfr.
Lemma vfr_get_task_context : forall idxs, vpres Rfr (get_task_context idxs).
Proof. intros; apply vp_of_pres; auto with sysfr. Qed.
Hint Resolve vfr_get_task_context : sysfr.
Lemma fr_render_vars : forall specs rolling rendered errs, preserves Rfr (render_vars ev specs rolling rendered errs).
Proof. induction specs as [|[n d] specs IH]; intros; simpl; pwalk. Qed.
Hint Resolve fr_render_vars : sysfr.
Lemma vfr_render_vars : forall specs rolling rendered errs, vpres Rfr (render_vars ev specs rolling rendered errs).
Proof. intros; apply vp_of_pres; auto with sysfr. Qed.
Hint Resolve vfr_render_vars : sysfr.
Lemma fr_setup_retry : forall t idxs, preserves Rfr (setup_retry ev t idxs).
Proof. intros; unfold setup_retry; pwalk. Qed.
Hint Resolve fr_setup_retry : sysfr.
Lemma fr_evaluate_task_retry : forall r ctx, preserves Rfr (evaluate_task_retry ev r ctx).
Proof. intros; unfold evaluate_task_retry; pwalk. Qed.
Hint Resolve fr_evaluate_task_retry : sysfr.
Lemma vfr_evaluate_route : forall e r, vpres Rfr (evaluate_route e r).
Proof. intros; unfold evaluate_route; walk. Qed.
Hint Resolve vfr_evaluate_route : sysfr.
Lemma vfr_finalize_context : forall ts e ctx, vpres Rfr (finalize_context ev ts e ctx).
Proof. intros; unfold finalize_context; walk. Qed.
Hint Resolve vfr_finalize_context : sysfr.

Lemma vfr_process_transition : forall t route idx ts ctx e, vpres Rfr (process_transition ev t route idx ts ctx e).
Proof.
  intros; unfold process_transition.
  pose proof (fun f H => fr_upd_rec idx f H) as Hu. pose proof (fun f H => vfr_upd_rec idx f H) as Hv.
  walk.
Qed.
Hint Resolve vfr_process_transition : sysfr.

Lemma vfr_unstage : forall t route evt s0, vpres Rfr (uts_unstage t route evt s0).
Proof. intros; unfold uts_unstage; walk. Qed.
Lemma vfr_item : forall t route evt s0, vpres Rfr (uts_item t route evt s0).
Proof. intros; unfold uts_item; walk. Qed.
Lemma vfr_logfail : forall t evt, vpres Rfr (uts_logfail t evt).
Proof. intros; unfold uts_logfail; walk. Qed.
Lemma vfr_retrying : forall t route idx r ns, vpres Rfr (uts_retrying t route idx r ns).
Proof. intros; unfold uts_retrying; walk. Qed.
Lemma vfr_completion : forall t route evt ts idx ns o0, vpres Rfr (uts_completion ev t route evt ts idx ns o0).
Proof. intros; unfold uts_completion; walk. Qed.
Lemma vfr_queue : forall t route idx ts o n compl, vpres Rfr (uts_queue ev t route idx ts o n compl).
Proof. intros; unfold uts_queue; walk. Qed.

(* the part of [Rfr] that the lazy creation keeps as well *)
Definition Rfr0 (c c' : cstate) : Prop :=
  tasks (c_ws c') = tasks (c_ws c) /\ map sig (sequence (c_ws c')) = map sig (sequence (c_ws c)) /\
  (wstatus (c_ws c') = wstatus (c_ws c) \/ wstatus (c_ws c') = S_FAILED).
Lemma Rfr0_refl : forall c, Rfr0 c c.
Proof. intro c; repeat split; auto. Qed.
Lemma Rfr0_trans : forall a b c, Rfr0 a b -> Rfr0 b c -> Rfr0 a c.
Proof.
  intros a b c [A1 [A2 A3]] [B1 [B2 B3]]. repeat split; try congruence.
  destruct B3 as [B3|B3]; [|right; exact B3]. destruct A3 as [A3|A3]; [left|right]; congruence.
Qed.
Lemma Rfr_Rfr0 : forall c c', Rfr c c' -> Rfr0 c c'.
Proof. intros c c' [A1 [A2 [A3 _]]]. repeat split; assumption. Qed.
Lemma Rfr0_same : forall c c', tasks (c_ws c') = tasks (c_ws c) -> sequence (c_ws c') = sequence (c_ws c) ->
  wstatus (c_ws c') = wstatus (c_ws c) -> Rfr0 c c'.
Proof. intros c c' H1 H2 H3. unfold Rfr0. rewrite H1, H2, H3. auto. Qed.

Lemma vfr0_ensure_ws : vpres Rfr0 (ensure_ws ev).
Proof.
  assert (L : forall A (m : M A), vpres Rlt m -> vpres Rfr0 m).
  { intros A m. apply vpres_sub. intros c c' H. apply Rfr_Rfr0. apply Rlt_Rfr. exact H. }
  unfold ensure_ws.
  apply (vp_bind _ Rfr0_trans); [apply (vp_get _ Rfr0_refl)|intro c0]. destruct (c_init c0); [apply (vp_ret _ Rfr0_refl)|].
  apply (vp_bind _ Rfr0_trans); [apply vp_modify; intro; apply Rfr0_same; reflexivity|intros _].
  apply (vp_bind _ Rfr0_trans); [apply L; apply vp_of_pres; apply lt_render_input|intros [rin ierrs]].
  apply (vp_bind _ Rfr0_trans); [apply L; apply vlt_render_vars|intros [rv verrs]].
  apply (vp_bind _ Rfr0_trans).
  { apply L. destruct (app ierrs verrs); [apply (vp_ret _ Rlt_refl)|].
    apply (vp_bind _ Rlt_trans); [apply vlt_log_errors|intros _; apply vlt_request_failed]. }
  intros _. apply (vp_bind _ Rfr0_trans); [apply (vp_getws _ Rfr0_refl)|intro w].
  destruct (status_in (wstatus w) ABENDED_STATUSES); [apply (vp_ret _ Rfr0_refl)|].
  apply (vp_bind _ Rfr0_trans); [apply vp_modws; intro; apply Rfr0_same; reflexivity|intros _].
  apply (vp_forM _ Rfr0_refl Rfr0_trans). intro t0. apply vp_modws. intro c. apply Rfr0_same; reflexivity.
Qed.

End Frame.

Definition key_of (r : trec) : tkey := (r_id r, r_route r).

Definition tasks_ok (w : wstate) : Prop :=
  NoDup (map fst (tasks w)) /\
  forall k i, In (k, i) (tasks w) -> exists r, nth_error (sequence w) i = Some r /\ key_of r = k.

(* no staged entry tracks items, none is marked completed (workflows without with-items tasks) *)
Definition stg_plain (s : stg) : Prop := s_items s = None /\ s_completed s = false.
Definition staged_ok (w : wstate) : Prop := forall s, In s (staged w) -> stg_plain s.

Definition winv (c : cstate) : Prop := tasks_ok (c_ws c) /\ staged_ok (c_ws c).
Definition Rw (c c' : cstate) : Prop := winv c -> winv c'.
Lemma Rw_refl : forall c, Rw c c.
Proof. intros c H; exact H. Qed.
Lemma Rw_trans : forall a b c, Rw a b -> Rw b c -> Rw a c.
Proof. unfold Rw; intros; auto. Qed.

Lemma In_map_fst_aset : forall (d : list (tkey * nat)) k v x, In x (map fst (aset tkey_eqb k v d)) -> x = k \/ In x (map fst d).
Proof.
  intros d k v x H. apply in_map_iff in H. destruct H as [[k' i] [Hk Hin]]. simpl in Hk; subst k'.
  apply (In_aset tkey_eqb tkey_eqb_eq) in Hin. destruct Hin as [Hin|Hin]; [inversion Hin; left; reflexivity|right].
  apply in_map_iff. exists (x, i); split; [reflexivity|exact Hin].
Qed.

Lemma NoDup_aset : forall (d : list (tkey * nat)) k v, NoDup (map fst d) -> NoDup (map fst (aset tkey_eqb k v d)).
Proof.
  induction d as [|[k0 v0] d IH]; simpl; intros k v H; [constructor; [intros []|constructor]|].
  inversion H as [|x xs Hx Hd]; subst.
  destruct (tkey_eqb k k0) eqn:E; simpl; [constructor; assumption|].
  constructor; [|apply IH; exact Hd].
  intro Hin. apply In_map_fst_aset in Hin. destruct Hin as [Hin|Hin]; [|exact (Hx Hin)].
  subst k0. rewrite (proj2 (tkey_eqb_eq k k) eq_refl) in E. discriminate.
Qed.

Lemma In_staged_update : forall f t r l s, In s (staged_update f t r l) -> In s l \/ exists s0, In s0 l /\ s = f s0.
Proof.
  intros f t r l s H. destruct (StateFacts.In_staged_update _ _ _ _ _ H) as [A|[s0 [A [_ B]]]]; [left; exact A|right; exists s0; auto].
Qed.

Lemma staged_remove_task_incl : forall w t r s, In s (staged (ws_remove_staged_task w t r)) -> In s (staged w).
Proof.
  intros w t r s H. unfold ws_remove_staged_task in H. destruct (get_staged_task w t r); [|exact H].
  destruct (items_any_active s0); [exact H|]. simpl in H. eapply In_staged_remove_first; exact H.
Qed.

Lemma winv_update_rec : forall c i f, (forall r, key_of (f r) = key_of r) -> winv c -> winv (set_ws c (ws_update_rec (c_ws c) i f)).
Proof.
  intros c i f Hf [[Hnd Ht] Hs]; split; simpl.
  - split; [rewrite tasks_update_rec; exact Hnd|].
    intros k j Hin. rewrite tasks_update_rec in Hin. destruct (Ht _ _ Hin) as [r [Hr Hk]].
    destruct (Nat.eq_dec i j) as [<-|Hn].
    + exists (f r). split; [apply nth_update_rec_same; exact Hr|rewrite Hf; exact Hk].
    + exists r. split; [rewrite nth_update_rec_other by exact Hn; exact Hr|exact Hk].
  - intros s Hin. apply Hs. unfold ws_update_rec in Hin. destruct (nth_error (sequence (c_ws c)) i); exact Hin.
Qed.

Lemma winv_staged : forall c l, (forall s, In s l -> In s (staged (c_ws c)) \/ stg_plain s) ->
  winv c -> winv (set_ws c (ws_set_staged (c_ws c) l)).
Proof.
  intros c l Hl [Ht Hs]; split; simpl; [exact Ht|]. intros s Hin. destruct (Hl _ Hin) as [A|A]; [apply Hs; exact A|exact A].
Qed.

Lemma winv_staged_update : forall c f t r, (forall s, stg_plain s -> stg_plain (f s)) ->
  winv c -> winv (set_ws c (ws_set_staged (c_ws c) (staged_update f t r (staged (c_ws c))))).
Proof.
  intros c f t r Hf H. apply winv_staged; [|exact H]. intros s Hin.
  destruct (In_staged_update _ _ _ _ _ Hin) as [A|[s0 [A B]]]; [left; exact A|right]. subst s. apply Hf. apply (proj2 H). exact A.
Qed.

Lemma winv_remove_staged : forall c t r, winv c -> winv (set_ws c (ws_remove_staged_task (c_ws c) t r)).
Proof.
  intros c t r [[Hnd Ht] Hs]; split; simpl.
  - split; [rewrite tasks_remove_staged; exact Hnd|].
    intros k i Hin. rewrite tasks_remove_staged in Hin. rewrite seq_remove_staged. apply Ht; exact Hin.
  - intros s Hin. apply Hs. eapply staged_remove_task_incl; exact Hin.
Qed.

Lemma winv_add_staged : forall c s, stg_plain s -> winv c -> winv (set_ws c (ws_add_staged (c_ws c) s)).
Proof.
  intros c s Hp H. unfold ws_add_staged. apply winv_staged; [|exact H]. intros x Hin.
  apply in_app_or in Hin. destruct Hin as [A|[A|[]]]; [left; exact A|right; subst; exact Hp].
Qed.

Lemma winv_same : forall c c', tasks (c_ws c') = tasks (c_ws c) -> sequence (c_ws c') = sequence (c_ws c) ->
  staged (c_ws c') = staged (c_ws c) -> winv c -> winv c'.
Proof. intros c c' H1 H2 H3 [Ht Hs]; split; [unfold tasks_ok; rewrite H1, H2; exact Ht|unfold staged_ok; rewrite H3; exact Hs]. Qed.

Lemma Rlt_winv : forall c c', Rlt c c' -> winv c -> winv c'.
Proof. intros c c' [A1 [A2 [A3 _]]]; apply winv_same; assumption. Qed.

Lemma winv_new_rec : forall c t rt ins prev retry, winv c ->
  winv (set_ws c (ws_set_tasks (ws_set_sequence (c_ws c) (app (sequence (c_ws c)) [new_rec t rt ins prev retry]))
                               (aset tkey_eqb (t, rt) (length (sequence (c_ws c))) (tasks (c_ws c))))).
Proof.
  intros c t rt ins prev retry [[Hnd Ht] Hs]; split; simpl; [|exact Hs].
  split; [simpl; apply NoDup_aset; exact Hnd|].
  intros k i Hin. simpl in Hin. apply (In_aset tkey_eqb tkey_eqb_eq) in Hin. destruct Hin as [Hin|Hin].
  - inversion Hin; subst. eexists; split; [simpl; rewrite nth_error_app2 by apply Nat.le_refl; rewrite Nat.sub_diag; reflexivity|reflexivity].
  - destruct (Ht _ _ Hin) as [r [Hr Hk]]. exists r; split; [|exact Hk]. simpl.
    rewrite nth_error_app1; [exact Hr|]. apply nth_error_Some. rewrite Hr; discriminate.
Qed.

Create HintDb sysw.

Section WellFormed.
Variable ev : string -> dict -> evalres.

Ltac plain := unfold stg_plain; simpl; intuition.
Ltac wleaf0 :=
  first [ apply winv_update_rec; [intro; reflexivity|assumption]
        | apply winv_remove_staged; assumption
        | apply winv_add_staged; [plain|assumption]
        | apply winv_staged_update; [intros ? [? ?]; unfold stg_plain; simpl;
             repeat match goal with |- context [match ?x with _ => _ end] => destruct x end; auto; try (split; congruence) |assumption]
        | eapply winv_same; [| | |eassumption]; reflexivity ].
Ltac pleaf :=
  first
    [ apply (preserves_modws Rw); intros ? ?; wleaf0
    | apply (preserves_modify Rw); intros ? ?; first [ wleaf0
        | match goal with |- context [if ?b then _ else _] => destruct b end; wleaf0 ]
    | assumption
    | eauto 3 with sysw ].
Ltac leaf :=
  first
    [ apply (vp_modws Rw); intros ? ?; wleaf0
    | apply (vp_modify Rw); intros ? ?; first [ wleaf0
        | match goal with |- context [if ?b then _ else _] => destruct b end; wleaf0 ]
    | assumption
    | eauto 3 with sysw ].
Ltac walk := sw Rw_refl Rw_trans pleaf leaf.
Ltac pwalk := pw Rw_refl Rw_trans pleaf.

Lemma vw_of_lt : forall A (m : M A), vpres Rlt m -> vpres Rw m.
Proof. intros A m H c c' a E Hw. eapply Rlt_winv; [eapply H; exact E|exact Hw]. Qed.
Lemma pw_of_lt : forall A (m : M A), preserves Rlt m -> preserves Rw m.
Proof. intros A m H c c' a E Hw. eapply Rlt_winv; [eapply H; exact E|exact Hw]. Qed.

Lemma w_log_entry_error : forall m t r tr res, preserves Rw (log_entry_error m t r tr res).
Proof. intros; apply pw_of_lt; apply lt_log_entry_error. Qed.
Lemma w_log_error : forall e t r tr, preserves Rw (log_error e t r tr).
Proof. intros; apply pw_of_lt; apply lt_log_error. Qed.
Lemma w_log_errors : forall es t r tr, preserves Rw (log_errors es t r tr).
Proof. intros; apply pw_of_lt; apply lt_log_errors. Qed.
Lemma w_log_unreachable : forall l, preserves Rw (log_unreachable l).
Proof. intros; apply pw_of_lt; apply lt_log_unreachable. Qed.
Hint Resolve w_log_entry_error w_log_error w_log_errors w_log_unreachable : sysw.
Lemma vw_log_entry_error : forall m t r tr res, vpres Rw (log_entry_error m t r tr res).
Proof. intros; apply vp_of_pres; auto with sysw. Qed.
Lemma vw_log_error : forall e t r tr, vpres Rw (log_error e t r tr).
Proof. intros; apply vp_of_pres; auto with sysw. Qed.
Lemma vw_log_errors : forall es t r tr, vpres Rw (log_errors es t r tr).
Proof. intros; apply vp_of_pres; auto with sysw. Qed.
Lemma vw_log_unreachable : forall l, vpres Rw (log_unreachable l).
Proof. intros; apply vp_of_pres; auto with sysw. Qed.
Hint Resolve vw_log_entry_error vw_log_error vw_log_errors vw_log_unreachable : sysw.
Lemma vw_request_failed : vpres Rw (request_status_core S_FAILED).
Proof. apply vw_of_lt; apply vlt_request_failed. Qed.
Hint Resolve vw_request_failed : sysw.
Lemma w_get_task_context : forall idxs, preserves Rw (get_task_context idxs).
Proof. intros; apply pw_of_lt; apply lt_get_task_context. Qed.
Hint Resolve w_get_task_context : sysw.
Lemma vw_get_task_context : forall idxs, vpres Rw (get_task_context idxs).
Proof. intros; apply vp_of_pres; auto with sysw. Qed.
Hint Resolve vw_get_task_context : sysw.
Lemma w_render_vars : forall specs rolling rendered errs, preserves Rw (render_vars ev specs rolling rendered errs).
Proof. intros; apply pw_of_lt; apply lt_render_vars. Qed.
Hint Resolve w_render_vars : sysw.
Lemma vw_render_vars : forall specs rolling rendered errs, vpres Rw (render_vars ev specs rolling rendered errs).
Proof. intros; apply vp_of_pres; auto with sysw. Qed.
Hint Resolve vw_render_vars : sysw.
Lemma w_evaluate_task_retry : forall r ctx, preserves Rw (evaluate_task_retry ev r ctx).
Proof. intros; unfold evaluate_task_retry; pwalk. Qed.
Hint Resolve w_evaluate_task_retry : sysw.
Lemma w_get_rec : forall i, preserves Rw (get_rec i).
Proof. intros; unfold get_rec; pwalk. Qed.
Hint Resolve w_get_rec : sysw.
Lemma vw_get_rec : forall i, vpres Rw (get_rec i).
Proof. intros; apply vp_of_pres; auto with sysw. Qed.
Hint Resolve vw_get_rec : sysw.
Lemma w_upd_rec : forall i f, (forall r, key_of (f r) = key_of r) -> preserves Rw (upd_rec i f).
Proof. intros i f Hf; unfold upd_rec. apply (preserves_modws Rw); intros c Hc; apply winv_update_rec; assumption. Qed.
Lemma vw_upd_rec : forall i f, (forall r, key_of (f r) = key_of r) -> vpres Rw (upd_rec i f).
Proof. intros; apply vp_of_pres; apply w_upd_rec; assumption. Qed.
Lemma vw_set_rec_status : forall i s, vpres Rw (set_rec_status i s).
Proof. intros; unfold set_rec_status. apply (vp_modws Rw); intros c Hc; apply winv_update_rec; [intro; reflexivity|assumption]. Qed.
Hint Resolve vw_set_rec_status : sysw.
Lemma vw_wf_task_event : forall t route st, vpres Rw (wf_task_event_M t route st).
Proof.
  intros t route st c c' a H Hw. unfold wf_task_event_M in H.
  destruct (wf_process_task_event (c_graph c) (c_ws c) t route st) as [[new unr]|e]; inversion H; subst.
  eapply winv_same; [| | |exact Hw]; reflexivity.
Qed.
Hint Resolve vw_wf_task_event : sysw.

Lemma vw_add_task_state : forall t rt ins prev, vpres Rw (add_task_state ev t rt ins prev).
Proof.
  intros t rt ins prev c c' idx H Hw.
  destruct (add_task_state_eff ev _ _ _ _ _ _ _ H) as [cm [retry [Hlt [Hi [Hc _]]]]]. subst c' idx.
  apply winv_new_rec. eapply Rlt_winv; eassumption.
Qed.
Hint Resolve vw_add_task_state : sysw.

Lemma vw_evaluate_route : forall e r, vpres Rw (evaluate_route e r).
Proof. intros; unfold evaluate_route; walk. Qed.
Hint Resolve vw_evaluate_route : sysw.
Lemma vw_finalize_context : forall ts e ctx, vpres Rw (finalize_context ev ts e ctx).
Proof. intros; unfold finalize_context; walk. Qed.
Hint Resolve vw_finalize_context : sysw.
Lemma vw_process_transition : forall t route idx ts ctx e, vpres Rw (process_transition ev t route idx ts ctx e).
Proof.
  intros; unfold process_transition.
  pose proof (fun f H => w_upd_rec idx f H) as Hu. pose proof (fun f H => vw_upd_rec idx f H) as Hv.
  walk.
Qed.
Hint Resolve vw_process_transition : sysw.

Lemma vw_sel1 : forall t s0 e0, vpres Rw (uts_sel1 ev t s0 e0).
Proof. intros; unfold uts_sel1, uts_need_staged; walk. Qed.
Lemma vw_sel2 : forall t evt s0 r1 i, vpres Rw (uts_sel2 ev t evt s0 r1 i).
Proof. intros; unfold uts_sel2, uts_need_staged; walk. Qed.
Lemma vw_unstage : forall t route evt s0, vpres Rw (uts_unstage t route evt s0).
Proof. intros; unfold uts_unstage; walk. Qed.
Lemma vw_item : forall t route evt s0, vpres Rw (uts_item t route evt s0).
Proof. intros; unfold uts_item; walk. Qed.
Lemma vw_logfail : forall t evt, vpres Rw (uts_logfail t evt).
Proof. intros; unfold uts_logfail; walk. Qed.
Lemma vw_setst : forall i ns, vpres Rw (uts_setst i ns).
Proof. intros; unfold uts_setst; walk. Qed.
Lemma vw_retrying : forall t route idx r ns, vpres Rw (uts_retrying t route idx r ns).
Proof. intros; unfold uts_retrying. pose proof (fun f H => vw_upd_rec idx f H) as Hv. walk. Qed.
Lemma vw_completion : forall t route evt ts idx ns o0, task_has_items ts = false ->
  vpres Rw (uts_completion ev t route evt ts idx ns o0).
Proof. intros t route evt ts idx ns o0 Hts; unfold uts_completion. rewrite Hts. cbn [andb negb]. walk. Qed.
Lemma vw_queue : forall t route idx ts o n compl, vpres Rw (uts_queue ev t route idx ts o n compl).
Proof.
  intros; unfold uts_queue. pose proof (fun f H => w_upd_rec idx f H) as Hu. pose proof (fun f H => vw_upd_rec idx f H) as Hv.
  walk.
Qed.
Hint Resolve vw_sel1 vw_sel2 vw_unstage vw_item vw_logfail vw_setst vw_retrying vw_queue : sysw.

Lemma vw_tail : forall rec, (forall t route evt, vpres Rw (rec t route evt)) ->
  forall t route ts idx o n compl, vpres Rw (uts_tail ev rec t route ts idx o n compl).
Proof.
  intros rec Hrec t route ts idx o n compl; unfold uts_tail, uts_call.
  pose proof (fun f H => vw_upd_rec idx f H) as Hv. walk.
Qed.

Lemma vw_main : forall rec, (forall t route evt, vpres Rw (rec t route evt)) ->
  forall t route evt ts s0 e0, task_has_items ts = false -> vpres Rw (uts_main ev rec t route evt ts s0 e0).
Proof.
  intros rec Hrec t route evt ts s0 e0 Hts. unfold uts_main, uts_machine.
  pose proof (vw_completion t route evt ts) as Hc. pose proof (vw_tail rec Hrec) as Htl.
  walk.
Qed.

End WellFormed.

Definition Rdef (c c' : cstate) : Prop :=
  c_graph c' = c_graph c /\ c_spec c' = c_spec c /\ (c_init c = true -> c_init c' = true).
Lemma Rdef_refl : forall c, Rdef c c.
Proof. intro; repeat split; auto. Qed.
Lemma Rdef_trans : forall a b c, Rdef a b -> Rdef b c -> Rdef a c.
Proof. unfold Rdef; intros a b c [A1 [A2 A3]] [B1 [B2 B3]]; repeat split; try congruence; auto. Qed.

Create HintDb sysdef.

Section Def.
Variable ev : string -> dict -> evalres.

Ltac leaf :=
  first
    [ solve [apply (preserves_modws Rdef); intro; unfold Rdef; simpl; auto]
    | solve [apply (preserves_modify Rdef); intro; unfold Rdef;
             match goal with |- context [if ?b then _ else _] => destruct b end; simpl; auto]
    | solve [apply (preserves_modify Rdef); intro; unfold Rdef; simpl; auto]
    | assumption
    | match goal with IH : forall _ _ _, preserves _ _ |- _ => apply IH end
    | match goal with IH : forall _ _, preserves _ _ |- _ => apply IH end
    | match goal with IH : forall _ _ _ _, preserves _ _ |- _ => apply IH end
    | eauto 3 with sysdef ].
Ltac walk := pw Rdef_refl Rdef_trans leaf.

Lemma pd_wf_workflow_event : forall st, preserves Rdef (wf_workflow_event_M st).
Proof.
  intros st c c' r H. unfold wf_workflow_event_M in H.
  destruct (wf_process_workflow_event (c_graph c) (c_ws c) st) as [[new unr]|e]; inversion H; subst; unfold Rdef; simpl; auto.
Qed.
Hint Resolve pd_wf_workflow_event : sysdef.
Lemma pd_wf_task_event : forall t route st, preserves Rdef (wf_task_event_M t route st).
Proof.
  intros t route st c c' r H. unfold wf_task_event_M in H.
  destruct (wf_process_task_event (c_graph c) (c_ws c) t route st) as [[new unr]|e]; inversion H; subst; unfold Rdef; simpl; auto.
Qed.
Hint Resolve pd_wf_task_event : sysdef.
Lemma pd_log_entry_error : forall m t r tr res, preserves Rdef (log_entry_error m t r tr res).
Proof. intros; unfold log_entry_error; walk. Qed.
Hint Resolve pd_log_entry_error : sysdef.
Lemma pd_log_error : forall e t r tr, preserves Rdef (log_error e t r tr).
Proof. intros; unfold log_error; auto with sysdef. Qed.
Hint Resolve pd_log_error : sysdef.
Lemma pd_log_errors : forall es t r tr, preserves Rdef (log_errors es t r tr).
Proof. intros; unfold log_errors; walk. Qed.
Hint Resolve pd_log_errors : sysdef.
Lemma pd_log_unreachable : forall l, preserves Rdef (log_unreachable l).
Proof. intros; unfold log_unreachable; walk. Qed.
Hint Resolve pd_log_unreachable : sysdef.
Lemma pd_set_rec_status : forall i s, preserves Rdef (set_rec_status i s).
Proof. intros; unfold set_rec_status; walk. Qed.
Hint Resolve pd_set_rec_status : sysdef.
Lemma pd_upd_rec : forall i f, preserves Rdef (upd_rec i f).
Proof. intros; unfold upd_rec; walk. Qed.
Hint Resolve pd_upd_rec : sysdef.
Lemma pd_get_rec : forall i, preserves Rdef (get_rec i).
Proof. intros; unfold get_rec; walk. Qed.
Hint Resolve pd_get_rec : sysdef.
Lemma pd_request_status_core : forall st, preserves Rdef (request_status_core st).
Proof. intros; unfold request_status_core; walk. Qed.
Hint Resolve pd_request_status_core : sysdef.
Lemma pd_render_input : forall specs rt rolling errs, preserves Rdef (render_input ev specs rt rolling errs).
Proof. induction specs as [|[n d] specs IH]; intros; simpl; walk. Qed.
Hint Resolve pd_render_input : sysdef.
Lemma pd_render_vars : forall specs rolling rendered errs, preserves Rdef (render_vars ev specs rolling rendered errs).
Proof. induction specs as [|[n d] specs IH]; intros; simpl; walk. Qed.
Hint Resolve pd_render_vars : sysdef.
Lemma pd_ensure_ws : preserves Rdef (ensure_ws ev).
Proof. unfold ensure_ws; walk. Qed.
Hint Resolve pd_ensure_ws : sysdef.
Lemma pd_request_workflow_status : forall st, preserves Rdef (request_workflow_status ev st).
Proof. intros; unfold request_workflow_status; walk. Qed.
Lemma pd_get_task_context : forall idxs, preserves Rdef (get_task_context idxs).
Proof. intros; unfold get_task_context; walk. Qed.
Hint Resolve pd_get_task_context : sysdef.
Lemma pd_render_task : forall ts ctx, preserves Rdef (render_task ev ts ctx).
Proof. intros; unfold render_task; walk. Qed.
Hint Resolve pd_render_task : sysdef.
Lemma pd_next_task_for : forall s, preserves Rdef (next_task_for ev s).
Proof. intros; unfold next_task_for; walk. Qed.
Hint Resolve pd_next_task_for : sysdef.
Lemma pd_get_next_tasks : preserves Rdef (get_next_tasks ev).
Proof. unfold get_next_tasks; walk. Qed.
Lemma pd_setup_retry : forall t idxs, preserves Rdef (setup_retry ev t idxs).
Proof. intros; unfold setup_retry; walk. Qed.
Hint Resolve pd_setup_retry : sysdef.
Lemma pd_add_task_state : forall t r i p, preserves Rdef (add_task_state ev t r i p).
Proof. intros; unfold add_task_state; walk. Qed.
Hint Resolve pd_add_task_state : sysdef.
Lemma pd_evaluate_route : forall e r, preserves Rdef (evaluate_route e r).
Proof. intros; unfold evaluate_route; walk. Qed.
Hint Resolve pd_evaluate_route : sysdef.
Lemma pd_evaluate_task_retry : forall r ctx, preserves Rdef (evaluate_task_retry ev r ctx).
Proof. intros; unfold evaluate_task_retry; walk. Qed.
Hint Resolve pd_evaluate_task_retry : sysdef.
Lemma pd_finalize_context : forall ts e ctx, preserves Rdef (finalize_context ev ts e ctx).
Proof. intros; unfold finalize_context; walk. Qed.
Hint Resolve pd_finalize_context : sysdef.
Lemma pd_process_transition : forall t route idx ts ctx e, preserves Rdef (process_transition ev t route idx ts ctx e).
Proof. intros; unfold process_transition; walk. Qed.
Hint Resolve pd_process_transition : sysdef.
Lemma pd_modws : forall f, preserves Rdef (modws f).
Proof. intro f. apply (preserves_modws Rdef). intro c. unfold Rdef. simpl. auto. Qed.
Lemma pd_set_init : preserves Rdef (modify (fun c => set_init c true)).
Proof. apply (preserves_modify Rdef). intro c. unfold Rdef. simpl. auto. Qed.
Hint Resolve pd_modws pd_set_init : sysdef.

Lemma pd_update_task_state : forall t route evt, preserves Rdef (update_task_state ev t route evt).
Proof.
  intros. apply (frame_update_task_state ev Rdef Rdef_refl Rdef_trans); intros; try unfold upd_rec; auto with sysdef.
Qed.
Lemma pd_uts_prefix : forall t route evt, preserves Rdef (uts_prefix ev t route evt).
Proof.
  intros. apply (frame_prefix ev Rdef Rdef_refl Rdef_trans); intros; try unfold upd_rec; auto with sysdef.
Qed.
Lemma pd_merge_term_contexts : forall l acc, preserves Rdef (merge_term_contexts l acc).
Proof. induction l as [|[i r] l IH]; intros; simpl; walk. Qed.
Hint Resolve pd_merge_term_contexts : sysdef.
Lemma pd_render_workflow_output : preserves Rdef (render_workflow_output ev).
Proof. unfold render_workflow_output, get_workflow_terminal_context; walk. Qed.

End Def.

Lemma log_entry_error_eff : forall m t r tr res c c' x, log_entry_error m t r tr res c = (c', x) ->
  x = Val tt /\ c_ws c' = c_ws c /\ c_graph c' = c_graph c /\ c_spec c' = c_spec c /\ c_init c' = c_init c.
Proof.
  intros m t r tr res c c' x H. unfold log_entry_error, modify in H. inversion H; subst; clear H.
  cbv zeta. destruct (existsb _ _); repeat split; reflexivity.
Qed.

Definition not_item (evt : event) : Prop := match evt with EvItem _ _ _ _ => False | _ => True end.

Lemma staged_remove_task_eq : forall w w' t r, staged w' = staged w ->
  staged (ws_remove_staged_task w' t r) = staged (ws_remove_staged_task w t r).
Proof.
  intros w w' t r H. unfold ws_remove_staged_task, get_staged_task. rewrite H.
  destruct (find (stg_matches t r) (staged w)) as [s|]; [|exact H].
  destruct (items_any_active s); [exact H|]. simpl. try rewrite H. reflexivity.
Qed.

Definition cmdb (s : stg) : bool := is_engine_command (s_id s).
Definition ncmd (c : cstate) : nat := length (filter cmdb (staged (c_ws c))).

Lemma ncmd_remove_first_le : forall t r l,
  length (filter cmdb (staged_remove_first t r l)) <= length (filter cmdb l).
Proof.
  induction l as [|a l IH]; simpl; [lia|]. destruct (stg_matches t r a).
  - destruct (cmdb a); simpl; lia.
  - simpl. destruct (cmdb a); simpl; lia.
Qed.

Lemma ncmd_remove_first_cmd : forall t r l s, find (stg_matches t r) l = Some s -> cmdb s = true ->
  length (filter cmdb (staged_remove_first t r l)) + 1 = length (filter cmdb l).
Proof.
  induction l as [|a l IH]; simpl; intros s H Hc; [discriminate|]. destruct (stg_matches t r a).
  - inversion H; subst a. rewrite Hc. simpl. lia.
  - simpl. destruct (cmdb a); simpl; rewrite <- (IH _ H Hc); lia.
Qed.

Lemma filter_cmdb_staged_update : forall f t r l, (forall s, s_id (f s) = s_id s) ->
  length (filter cmdb (staged_update f t r l)) = length (filter cmdb l).
Proof.
  intros f t r l Hf; induction l as [|a l IH]; simpl; [reflexivity|]. destruct (stg_matches t r a); simpl.
  - assert (E : cmdb (f a) = cmdb a) by (unfold cmdb; rewrite Hf; reflexivity).
    rewrite E. destruct (cmdb a); reflexivity.
  - destruct (cmdb a); simpl; rewrite IH; reflexivity.
Qed.

Lemma ncmd_remove_task_le : forall c t r, ncmd (set_ws c (ws_remove_staged_task (c_ws c) t r)) <= ncmd c.
Proof.
  intros c t r. unfold ncmd; simpl. unfold ws_remove_staged_task. destruct (get_staged_task (c_ws c) t r); [|lia].
  destruct (items_any_active s); [lia|]. simpl. apply ncmd_remove_first_le.
Qed.

Definition Rstg (c c' : cstate) : Prop := staged (c_ws c') = staged (c_ws c).
Lemma Rstg_refl : forall c, Rstg c c. Proof. intro; reflexivity. Qed.
Lemma Rstg_trans : forall a b c, Rstg a b -> Rstg b c -> Rstg a c. Proof. unfold Rstg; intros; congruence. Qed.
Definition Rcnt (c c' : cstate) : Prop := ncmd c' <= ncmd c.
Lemma Rcnt_refl : forall c, Rcnt c c. Proof. intro; unfold Rcnt; lia. Qed.
Lemma Rcnt_trans : forall a b c, Rcnt a b -> Rcnt b c -> Rcnt a c. Proof. unfold Rcnt; intros; lia. Qed.
Lemma Rstg_Rcnt : forall c c', Rstg c c' -> Rcnt c c'.
Proof. intros c c' H; unfold Rcnt, ncmd; rewrite H; lia. Qed.
Lemma Rlt_Rstg : forall c c', Rlt c c' -> Rstg c c'.
Proof. intros c c' [_ [_ [H _]]]; exact H. Qed.

Section Effects.
Variable ev : string -> dict -> evalres.

Definition Rsub (c c' : cstate) : Prop := forall s, In s (staged (c_ws c')) -> In s (staged (c_ws c)).
Lemma Rsub_refl : forall c, Rsub c c.
Proof. intros c s H; exact H. Qed.
Lemma Rsub_trans : forall a b c, Rsub a b -> Rsub b c -> Rsub a c.
Proof. unfold Rsub; intros; auto. Qed.
Lemma Rlt_Rsub : forall c c', Rlt c c' -> Rsub c c'.
Proof. intros c c' [_ [_ [H _]]] s Hs. rewrite H in Hs; exact Hs. Qed.

Lemma completion_pres : forall (R : cstate -> cstate -> Prop), (forall c, R c c) -> (forall a b c, R a b -> R b c -> R a c) ->
  (forall c c', Rlt c c' -> R c c') -> (forall c t r, R c (set_ws c (ws_remove_staged_task (c_ws c) t r))) ->
  forall t route evt ts idx ns o0, task_has_items ts = false -> vpres R (uts_completion ev t route evt ts idx ns o0).
Proof.
  intros R Rr Rt Hlt Hrm t route evt ts idx ns o0 Hts. unfold uts_completion. rewrite Hts. cbn [andb negb].
  assert (L : forall A (m : M A), vpres Rlt m -> vpres R m) by (intros A m; apply vpres_sub; exact Hlt).
  pose proof (L _ _ (vlt_request_failed)) as H1.
  pose proof (fun e t r tr => L _ _ (vlt_log_error e t r tr)) as H2.
  pose proof (fun i => L _ _ (vlt_get_task_context i)) as H3.
  assert (H4 : forall i, vpres R (get_rec i)).
  { intros i c c' a E. apply get_rec_state in E. subst. apply Rr. }
  assert (H5 : forall r ctx, preserves R (evaluate_task_retry ev r ctx)).
  { intros r ctx. apply (state_pure_preserves _ Rr). apply evaluate_task_retry_pure. }
  sw Rr Rt ltac:(first [assumption|apply H5|apply (preserves_ret _ Rr)])
     ltac:(first [ assumption | apply H1 | apply H2 | apply H3 | apply H4 | apply (vp_modws R); intro; apply Hrm ]).
Qed.

Lemma sel_eff : forall t route evt c c1 idx1 r1 c2 idx,
  uts_sel1 ev t (get_staged_task (c_ws c) t route) (ws_task_idx (c_ws c) t route) c = (c1, Val idx1) ->
  nth_error (sequence (c_ws c1)) idx1 = Some r1 ->
  uts_sel2 ev t evt (get_staged_task (c_ws c) t route) r1 idx1 c1 = (c2, Val idx) ->
  (ws_task_idx (c_ws c) t route = Some idx /\ is_engine_command t = false /\ c2 = c /\
   (status_in (ev_status evt) STARTING_STATUSES = true ->
    (exists s0, get_staged_task (c_ws c) t route = Some s0 /\ s_completed s0 = false) ->
    forall r, nth_error (sequence (c_ws c)) idx = Some r -> ostatus_in (r_status r) COMPLETED_STATUSES = false)) \/
  (exists s cm retry, get_staged_task (c_ws c) t route = Some s /\ Rlt c cm /\ idx = length (sequence (c_ws cm)) /\
     c2 = set_ws cm (ws_set_tasks (ws_set_sequence (c_ws cm)
                        (app (sequence (c_ws cm)) [new_rec t route (s_in s) (s_prev s) retry]))
                     (aset tkey_eqb (t, route) idx (tasks (c_ws cm)))) /\
     (g_task_has_retry (c_graph c) t = false -> retry = None)).
Proof.
  intros t route evt c c1 idx1 r1 c2 idx E1 Hr1 E2.
  assert (New : forall s ca cb i, get_staged_task (c_ws c) t route = Some s ->
            add_task_state ev t (s_route s) (s_in s) (s_prev s) ca = (cb, Val i) ->
            exists cm retry, Rlt ca cm /\ i = length (sequence (c_ws cm)) /\
              cb = set_ws cm (ws_set_tasks (ws_set_sequence (c_ws cm)
                        (app (sequence (c_ws cm)) [new_rec t route (s_in s) (s_prev s) retry]))
                     (aset tkey_eqb (t, route) i (tasks (c_ws cm)))) /\
              (g_task_has_retry (c_graph ca) t = false -> retry = None)).
  { intros s ca cb i Hs Ha. destruct (get_staged_matches _ _ _ _ Hs) as [_ Hrt]. rewrite Hrt in Ha.
    destruct (add_task_state_eff ev _ _ _ _ _ _ _ Ha) as [cm [retry [A [B [C D]]]]]. exists cm, retry. auto. }
  destruct (sel1_inv ev _ _ _ _ _ _ E1) as [[He [Hc ->]]|[s [Hs Ha]]].
  - destruct (sel2_inv ev _ _ _ _ _ _ _ _ E2) as [[-> ->]|[_ [s [Hs Ha]]]].
    + left. split; [exact He|]. split; [exact Hc|]. split; [reflexivity|].
      intros Hst [s0 [Hs0 Hc0]] r Hr. rewrite Hr in Hr1; inversion Hr1; subst r1.
      destruct (ostatus_in (r_status r) COMPLETED_STATUSES) eqn:Eo; [|reflexivity]. exfalso.
      unfold uts_sel2 in E2. rewrite Eo, Hst, Hs0, Hc0 in E2. cbn [andb negb] in E2.
      apply bind_val_inv' in E2. destruct E2 as [cx [sx [Ex E2]]]. inversion Ex; subst cx sx.
      destruct (add_task_state_eff ev _ _ _ _ _ _ _ E2) as [cm [retry [[Hseq _] [Hidx [Hcc _]]]]].
      (* the call would have changed the state *)
      assert (L : length (sequence (c_ws c)) = S (length (sequence (c_ws cm)))).
      { rewrite Hcc at 1. simpl. rewrite app_length. simpl. lia. }
      rewrite Hseq in L. lia.
    + right. destruct (New _ _ _ _ Hs Ha) as [cm [retry [A [B [C D]]]]]. exists s, cm, retry. auto.
  - destruct (New _ _ _ _ Hs Ha) as [cm [retry [A [B [C D]]]]].
    destruct (sel2_inv ev _ _ _ _ _ _ _ _ E2) as [[-> ->]|[Hcomp _]].
    + right. exists s, cm, retry. auto.
    + exfalso. subst c1 idx1. simpl in Hr1. rewrite nth_error_app2 in Hr1 by apply Nat.le_refl.
      rewrite Nat.sub_diag in Hr1. simpl in Hr1. inversion Hr1; subst r1. discriminate Hcomp.
Qed.

(* the state after the record was selected, the entry unstaged and the failure logged *)
Definition sel_post (t : string) (route : nat) (evt : event) (c c3 : cstate) (idx : nat) : Prop :=
  ((ws_task_idx (c_ws c) t route = Some idx /\ is_engine_command t = false /\
    tasks (c_ws c3) = tasks (c_ws c) /\ sequence (c_ws c3) = sequence (c_ws c) /\
    wstatus (c_ws c3) = wstatus (c_ws c) /\
    (status_in (ev_status evt) STARTING_STATUSES = true ->
     (exists s0, get_staged_task (c_ws c) t route = Some s0 /\ s_completed s0 = false) ->
     forall r, nth_error (sequence (c_ws c)) idx = Some r -> ostatus_in (r_status r) COMPLETED_STATUSES = false))
   \/
   (exists s0 nr, get_staged_task (c_ws c) t route = Some s0 /\ idx = length (sequence (c_ws c)) /\
      tasks (c_ws c3) = aset tkey_eqb (t, route) idx (tasks (c_ws c)) /\
      sequence (c_ws c3) = app (sequence (c_ws c)) [nr] /\ sig nr = (t, route, None) /\ r_next nr = [] /\
      (g_task_has_retry (c_graph c) t = false -> r_retry nr = None) /\
      (wstatus (c_ws c3) = wstatus (c_ws c) \/ wstatus (c_ws c3) = S_FAILED))) /\
  staged (c_ws c3) = staged (ws_remove_staged_task (c_ws c) t route) /\
  contexts (c_ws c3) = contexts (c_ws c) /\ routes (c_ws c3) = routes (c_ws c) /\
  c_graph c3 = c_graph c /\ c_spec c3 = c_spec c /\ c_init c3 = c_init c.

Lemma pre_main_sel : forall t route evt ts c cp p, winv c -> not_item evt ->
  pre_main ev t route evt ts (get_staged_task (c_ws c) t route) (ws_task_idx (c_ws c) t route) c = (cp, Val p) ->
  exists idx c3, sel_post t route evt c c3 idx /\ pre_machine ev t route evt ts idx c3 = (cp, Val p).
Proof.
  intros t route evt ts c cp p Hw Hni H. unfold pre_main in H.
  apply bind_val_inv' in H. destruct H as [c1 [idx1 [E1 H]]].
  apply bind_val_inv' in H. destruct H as [c0 [r1 [E0 H]]]. apply get_rec_inv in E0; destruct E0 as [-> Hr1].
  apply bind_val_inv' in H. destruct H as [c2 [idx [E2 H]]].
  apply bind_val_inv' in H. destruct H as [c3 [u3 [E3 H]]].
  apply bind_val_inv' in H. destruct H as [c4 [u4 [E4 H]]].
  apply bind_val_inv' in H. destruct H as [c5 [u5 [E5 H]]].
  exists idx, c5. split; [|exact H].
  assert (I4 : c4 = c3).
  { unfold uts_item in E4. destruct (get_staged_task (c_ws c) t route); [|inversion E4; reflexivity].
    destruct evt; try (inversion E4; reflexivity). destruct Hni. }
  subst c4.
  assert (I5 : c_ws c5 = c_ws c3 /\ c_graph c5 = c_graph c3 /\ c_spec c5 = c_spec c3 /\ c_init c5 = c_init c3).
  { unfold uts_logfail in E5. destruct (status_eqb (ev_status evt) S_FAILED); [|inversion E5; auto].
    apply log_entry_error_eff in E5. tauto. }
  destruct I5 as [I5a [I5b [I5c I5d]]].
  assert (I3 : staged (c_ws c2) = staged (c_ws c) ->
               c_ws c3 = (match get_staged_task (c_ws c) t route with
                          | Some _ => ws_remove_staged_task (c_ws c2) t route | None => c_ws c2 end) /\
               c_graph c3 = c_graph c2 /\ c_spec c3 = c_spec c2 /\ c_init c3 = c_init c2).
  { intros Hst. unfold uts_unstage in E3. destruct (get_staged_task (c_ws c) t route) as [s|] eqn:Es; [|inversion E3; auto].
    assert (Hp : s_items s = None).
    { apply (proj2 Hw). unfold get_staged_task in Es. apply find_some in Es. tauto. }
    rewrite Hp in E3. destruct evt; try (inversion E3; subst; simpl; auto). destruct Hni. }
  unfold sel_post. rewrite I5a, I5b, I5c, I5d.
  destruct (sel_eff _ _ _ _ _ _ _ _ _ E1 Hr1 E2) as [[He [Hc [-> Hncomp]]]|[s [cm [retry [Hs [Hlt [Hi [-> Hnr]]]]]]]].
  - destruct (I3 eq_refl) as [J1 [J2 [J3 J4]]]. rewrite J1, J2, J3, J4.
    split; [left|].
    + split; [exact He|]. split; [exact Hc|].
      destruct (get_staged_task (c_ws c) t route); [|auto].
      rewrite tasks_remove_staged, seq_remove_staged, wstatus_remove_staged. auto.
    + split; [destruct (get_staged_task (c_ws c) t route) eqn:Es; [reflexivity|];
               unfold ws_remove_staged_task; rewrite Es; reflexivity|].
      assert (X : forall w, contexts (ws_remove_staged_task w t route) = contexts w /\ routes (ws_remove_staged_task w t route) = routes w).
      { intro w; unfold ws_remove_staged_task. destruct (get_staged_task w t route); [|auto]. destruct (items_any_active s); auto. }
      destruct (get_staged_task (c_ws c) t route); [destruct (X (c_ws c)) as [X1 X2]; rewrite X1, X2|]; auto.
  - destruct Hlt as [L1 [L2 [L3 [L4 [L5 [L6 [L7 [L8 L9]]]]]]]].
    match type of I3 with staged (c_ws ?x) = _ -> _ => assert (Hst : staged (c_ws x) = staged (c_ws c)) by (simpl; exact L3) end.
    destruct (I3 Hst) as [J1 [J2 [J3 J4]]]. rewrite J1, J2, J3, J4. rewrite Hs. simpl.
    rewrite tasks_remove_staged, seq_remove_staged, wstatus_remove_staged. simpl.
    split; [right|].
    + exists s, (new_rec t route (s_in s) (s_prev s) retry). rewrite <- L1, <- L2.
      split; [reflexivity|]. split; [exact Hi|]. split; [rewrite Hi; reflexivity|]. split; [reflexivity|].
      split; [reflexivity|]. split; [reflexivity|]. split; [|exact L6].
      intro Hn. simpl. apply Hnr; exact Hn.
    + split.
      * rewrite (staged_remove_task_eq (c_ws c)); [reflexivity|]. simpl. exact L3.
      * assert (X : forall w, contexts (ws_remove_staged_task w t route) = contexts w /\ routes (ws_remove_staged_task w t route) = routes w).
        { intro w; unfold ws_remove_staged_task. destruct (get_staged_task w t route); [|auto]. destruct (items_any_active s0); auto. }
        match goal with |- contexts (ws_remove_staged_task ?w _ _) = _ /\ _ => destruct (X w) as [X1 X2]; rewrite X1, X2 end.
        simpl. auto.
Qed.

Lemma list_set_nth_same : forall A (l : list A) i x, nth_error l i = Some x -> list_set_nth i x l = l.
Proof. induction l as [|a l IH]; intros [|i] x H; simpl in *; try discriminate; [inversion H; reflexivity|f_equal; apply IH; exact H]. Qed.

Lemma retrying_eff : forall t route idx r st c c', uts_retrying t route idx r st c = (c', Val tt) ->
  Rfr c c' /\
  (st <> S_RETRYING -> c' = c) /\
  (st = S_RETRYING ->
     (forall s, In s (staged (c_ws c')) -> In s (staged (c_ws c)) \/
                                          (stg_matches t route s = true /\ s_ready s = true /\ stg_plain s)) /\
     (exists s, In s (staged (c_ws c')) /\ stg_matches t route s = true /\ s_ready s = true /\ stg_plain s)) /\
  (is_engine_command t = false -> ncmd c' <= ncmd c).
Proof.
  intros t route idx r st c c' H. split; [eapply vfr_retrying; exact H|].
  assert (Hcnt : is_engine_command t = false -> ncmd c' <= ncmd c).
  { intro Hc. unfold uts_retrying in H. destruct (status_eqb st S_RETRYING); [|inversion H; unfold ncmd; lia].
       destruct (r_retry r) as [rr|]; [|inversion H].
       apply bind_val_inv' in H. destruct H as [c1 [u1 [E1 H]]]. unfold upd_rec, modws in E1. inversion E1; subst c1; clear E1.
       apply bind_val_inv' in H. destruct H as [c2 [u2 [E2 H]]]. unfold modws in E2. inversion E2; subst c2; clear E2.
       unfold modws in H. inversion H; subst c'; clear H. unfold ncmd at 1; simpl.
       rewrite filter_app, app_length. simpl. unfold cmdb at 2; simpl. rewrite Hc. simpl. rewrite Nat.add_0_r.
       match goal with |- length (filter cmdb (staged (ws_remove_staged_task ?w _ _))) <= _ =>
         pose proof (ncmd_remove_task_le (set_ws c w) t route) as L; unfold ncmd in L; simpl in L end.
       unfold ncmd. rewrite staged_update_rec in L. exact L. }
  match goal with |- ?A /\ ?B /\ _ => cut (A /\ B); [tauto|] end.
  unfold uts_retrying in H. destruct (status_eqb st S_RETRYING) eqn:Es.
  - apply status_eqb_eq in Es. split; [intro Hn; contradiction|intros _].
    destruct (r_retry r) as [rr|]; [|inversion H].
    apply bind_val_inv' in H. destruct H as [c1 [u1 [E1 H]]]. unfold upd_rec, modws in E1. inversion E1; subst c1; clear E1.
    apply bind_val_inv' in H. destruct H as [c2 [u2 [E2 H]]]. unfold modws in E2. inversion E2; subst c2; clear E2.
    unfold modws in H. inversion H; subst c'; clear H. simpl.
    assert (M : stg_matches t route (mk_staged t route (r_in r) (r_prev r) true
              (Some {| rr_when := rr_when rr; rr_count := rr_count rr; rr_delay := rr_delay rr; rr_tally := S (rr_tally rr) |})) = true).
    { unfold stg_matches, mk_staged; simpl. rewrite String.eqb_refl, Nat.eqb_refl; reflexivity. }
    split.
    + intros s Hin. apply in_app_or in Hin. destruct Hin as [Hin|[Hin|[]]].
      * left. apply staged_remove_task_incl in Hin. unfold ws_update_rec in Hin.
        destruct (nth_error (sequence (c_ws c)) idx); exact Hin.
      * right. subst s. split; [exact M|]. split; [reflexivity|split; reflexivity].
    + eexists. split; [apply in_or_app; right; left; reflexivity|]. split; [exact M|]. split; [reflexivity|split; reflexivity].
  - split; [intros _; inversion H; reflexivity|]. intro E; subst st. rewrite status_eqb_refl in Es; discriminate.
Qed.

Lemma setst_eff : forall idx ns c c' r, uts_setst idx ns c = (c', Val tt) -> nth_error (sequence (c_ws c)) idx = Some r ->
  sequence (c_ws c') = list_set_nth idx (stepped r ns) (sequence (c_ws c)) /\ tasks (c_ws c') = tasks (c_ws c) /\
  staged (c_ws c') = staged (c_ws c) /\ wstatus (c_ws c') = wstatus (c_ws c) /\
  contexts (c_ws c') = contexts (c_ws c) /\ routes (c_ws c') = routes (c_ws c) /\
  c_graph c' = c_graph c /\ c_spec c' = c_spec c /\ c_init c' = c_init c.
Proof.
  intros idx ns c c' r H Hr. unfold uts_setst in H. destruct ns as [s|].
  - unfold set_rec_status, modws in H. inversion H; subst c'; clear H. simpl.
    unfold ws_update_rec. rewrite Hr. simpl. repeat split; reflexivity.
  - inversion H; subst c'. simpl. rewrite (list_set_nth_same _ _ _ _ Hr). repeat split; reflexivity.
Qed.

(* the machine step, the re-staging for a retry and the completion step.  Proofs take the 19 conjuncts by position
   (after the witnesses r, ns): 1 record, 2 machine result, 3-5 po_idx / po_old / po_new, 6 tasks, 7 map sig, 8 wstatus,
   9-11 graph / spec / init, 12-13 staging (M12, M13), 14-16 po_compl (M14-M16), 17-18 ncmd (M17, M18), 19 staging kept (M19) *)
Definition machine_post (t : string) (route : nat) (evt : event) (c3 cp : cstate) (p : pre_out) (idx : nat) : Prop :=
  exists r ns,
    nth_error (sequence (c_ws c3)) idx = Some r /\ task_process_event (c_ws c3) r evt = Val ns /\
    po_idx p = idx /\ po_old p = rstatus r /\ po_new p = rstatus (stepped r ns) /\
    tasks (c_ws cp) = tasks (c_ws c3) /\
    map sig (sequence (c_ws cp)) = map sig (list_set_nth idx (stepped r ns) (sequence (c_ws c3))) /\
    (wstatus (c_ws cp) = wstatus (c_ws c3) \/ wstatus (c_ws cp) = S_FAILED) /\
    c_graph cp = c_graph c3 /\ c_spec cp = c_spec c3 /\ c_init cp = c_init c3 /\
    (forall s, In s (staged (c_ws cp)) -> In s (staged (c_ws c3)) \/
        (po_new p = S_RETRYING /\ stg_matches t route s = true /\ s_ready s = true /\ stg_plain s)) /\
    (po_new p = S_RETRYING -> exists s, In s (staged (c_ws cp)) /\ stg_matches t route s = true /\ s_ready s = true /\ stg_plain s) /\
    (status_in (po_new p) COMPLETED_STATUSES = false -> po_compl p = None) /\
    (status_in (po_new p) COMPLETED_STATUSES = true -> exists ctx b, po_compl p = Some (ctx, b)) /\
    (forall ctx, po_compl p = Some (ctx, true) -> tbl_transition_valid task_table (po_new p) S_RETRYING = true) /\
    (po_new p <> S_RETRYING -> ncmd cp <= ncmd c3) /\ (is_engine_command t = false -> ncmd cp <= ncmd c3) /\
    (status_in (po_new p) COMPLETED_STATUSES = false -> po_new p <> S_RETRYING -> staged (c_ws cp) = staged (c_ws c3)).

Lemma pre_machine_eff : forall t route evt ts idx c3 cp p, task_has_items ts = false ->
  pre_machine ev t route evt ts idx c3 = (cp, Val p) -> machine_post t route evt c3 cp p idx.
Proof.
  intros t route evt ts idx c3 cp p Hts H.
  destruct (pre_machine_inv ev _ _ _ _ _ _ _ _ H) as [r [ns [c1 [c2 [Hr [Ens [Est [Hn1 [_ [_ [Ert [Ec [_ [Hpi [Hpo Hpn]]]]]]]]]]]]]]].
  destruct (setst_eff _ _ _ _ _ Est Hr) as [S1 [S2 [S3 [S4 [S5 [S6 [S7 [S8 S9]]]]]]]].
  destruct (retrying_eff _ _ _ _ _ _ _ Ert) as [F2 [R1 [R2 R3]]].
  pose proof (vfr_completion ev _ _ _ _ _ _ _ _ _ _ Ec) as F3.
  pose proof (completion_pres Rsub Rsub_refl Rsub_trans Rlt_Rsub
                (fun c t r s Hs => staged_remove_task_incl _ _ _ _ Hs) _ _ _ _ _ _ _ Hts _ _ _ Ec) as U3.
  pose proof (completion_pres Rcnt Rcnt_refl Rcnt_trans (fun c c' H => Rstg_Rcnt _ _ (Rlt_Rstg _ _ H))
                ncmd_remove_task_le _ _ _ _ _ _ _ Hts _ _ _ Ec) as N3. unfold Rcnt in N3.
  assert (N1 : ncmd c1 = ncmd c3) by (unfold ncmd; rewrite S3; reflexivity).
  destruct (Rfr_trans _ _ _ F2 F3) as [T1 [T2 [T3 [T4 [T5 T6]]]]].
  exists r, ns. split; [exact Hr|]. split; [exact Ens|]. split; [exact Hpi|]. split; [exact Hpo|]. split; [exact Hpn|].
  split; [congruence|]. split; [rewrite T2, S1; reflexivity|]. split; [rewrite <- S4; exact T3|].
  split; [congruence|]. split; [congruence|]. split; [congruence|].
  destruct (completion_inv ev _ _ _ _ _ _ _ _ _ _ Ec) as [[Hnc [Hcn Hcc]]|[Hcomp [c6 [r6 [ctx [b [K6 [G6 [Hr6 [Hc6 [Hb6 Hn6]]]]]]]]]]].
  - subst cp. split.
    { intros s Hin. destruct (status_eqb (rstatus (stepped r ns)) S_RETRYING) eqn:Es.
      - apply status_eqb_eq in Es. destruct (R2 Es) as [R2a _]. destruct (R2a _ Hin) as [A|A].
        + left. rewrite <- S3; exact A.
        + right. rewrite Hpn. split; [exact Es|exact A].
      - assert (Hne : rstatus (stepped r ns) <> S_RETRYING) by (intro E; rewrite E in Es; discriminate).
        rewrite (R1 Hne) in Hin. left. rewrite <- S3; exact Hin. }
    split.
    { intro Hret. rewrite Hpn in Hret. destruct (R2 Hret) as [_ R2b]. exact R2b. }
    split; [intros _; exact Hcn|]. split; [rewrite Hpn, Hnc; discriminate|].
    split; [intros ctx Hc; rewrite Hcn in Hc; discriminate|].
    split; [intro Hne; rewrite Hpn in Hne; rewrite (R1 Hne); lia|].
    split; [intro Hc; specialize (R3 Hc); lia|].
    intros _ Hne. rewrite Hpn in Hne. rewrite (R1 Hne). exact S3.
  - (* completed: not retrying, so the re-staging did nothing; the completion step only removes *)
    assert (Hne : rstatus (stepped r ns) <> S_RETRYING) by (intro E; rewrite E in Hcomp; discriminate).
    rewrite (R1 Hne) in *. split.
    { intros s Hin. left. rewrite <- S3. apply U3. exact Hin. }
    split; [intro Hret; rewrite Hpn in Hret; contradiction|].
    split; [rewrite Hpn, Hcomp; discriminate|]. split; [intros _; exists ctx, b; exact Hc6|].
    split.
    { intros ctx' Hc. rewrite Hc6 in Hc. inversion Hc; subst. destruct (Hb6 eq_refl) as [_ [Hv _]]. rewrite Hpn. exact Hv. }
    split; [intros _; lia|]. split; [intros _; lia|]. intro X. rewrite Hpn, Hcomp in X. discriminate.
Qed.

End Effects.

Definition pstat (c : cstate) (k : tkey) : option (option status) :=
  match aget tkey_eqb k (tasks (c_ws c)) with
  | Some i => match nth_error (sequence (c_ws c)) i with Some r => Some (r_status r) | None => None end
  | None => None
  end.

Lemma nth_error_map_sig : forall l l' i, map sig l' = map sig l ->
  match nth_error l' i with Some r => Some (r_status r) | None => None end =
  match nth_error l i with Some r => Some (r_status r) | None => None end.
Proof.
  intros l l' i H.
  assert (E : nth_error (map sig l') i = nth_error (map sig l) i) by (rewrite H; reflexivity).
  rewrite !nth_error_map in E. destruct (nth_error l' i), (nth_error l i); simpl in E; try discriminate; [|reflexivity].
  inversion E; reflexivity.
Qed.

Lemma pstat_same : forall c c', tasks (c_ws c') = tasks (c_ws c) ->
  map sig (sequence (c_ws c')) = map sig (sequence (c_ws c)) -> forall k, pstat c' k = pstat c k.
Proof.
  intros c c' Ht Hs k. unfold pstat. rewrite Ht. destruct (aget tkey_eqb k (tasks (c_ws c))); [|reflexivity].
  apply nth_error_map_sig; exact Hs.
Qed.

Lemma pstat_Rfr : forall c c', Rfr c c' -> forall k, pstat c' k = pstat c k.
Proof. intros c c' [H1 [H2 _]]; apply pstat_same; assumption. Qed.

Lemma pstat_some : forall c k x, pstat c k = Some x ->
  exists i r, aget tkey_eqb k (tasks (c_ws c)) = Some i /\ nth_error (sequence (c_ws c)) i = Some r /\ r_status r = x.
Proof.
  intros c k x H. unfold pstat in H. destruct (aget tkey_eqb k (tasks (c_ws c))) as [i|]; [|discriminate].
  destruct (nth_error (sequence (c_ws c)) i) as [r|] eqn:E; [|discriminate]. inversion H. exists i, r; auto.
Qed.

Definition act (c : cstate) : Prop :=
  exists k s, pstat c k = Some (Some s) /\ status_in s ACTIVE_STATUSES = true.

Lemma In_enumerate_from_nth : forall A (l : list A) n i x, nth_error l i = Some x -> In (n + i, x) (enumerate_from n l).
Proof.
  induction l as [|a l IH]; intros n [|i] x H; simpl in *; try discriminate.
  - inversion H; subst. rewrite Nat.add_0_r. left; reflexivity.
  - right. replace (n + S i) with (S n + i) by lia. apply IH; exact H.
Qed.

Lemma tasks_by_status_intro : forall w l i r, nth_error (sequence w) i = Some r -> ostatus_in (r_status r) l = true ->
  ws_pointed w i = true -> In (i, r) (ws_tasks_by_status w l).
Proof.
  intros w l i r Hn Hs Hp. unfold ws_tasks_by_status. apply filter_In. split.
  - unfold enumerate. apply (In_enumerate_from_nth _ _ 0 i r Hn).
  - rewrite Hs, Hp; reflexivity.
Qed.

Lemma ws_pointed_iff : forall w i, ws_pointed w i = true <-> exists k, In (k, i) (tasks w).
Proof.
  intros w i; unfold ws_pointed; rewrite existsb_exists; split.
  - intros [[k j] [Hin He]]. apply Nat.eqb_eq in He; subst j. exists k; exact Hin.
  - intros [k Hin]. exists (k, i); split; [exact Hin|apply Nat.eqb_refl].
Qed.

Lemma tasks_by_status_iff : forall c l, winv c ->
  (ws_tasks_by_status (c_ws c) l <> [] <-> exists k s, pstat c k = Some (Some s) /\ status_in s l = true).
Proof.
  intros c l [[Hnd Ht] _]; split.
  - intro H. destruct (ws_tasks_by_status (c_ws c) l) as [|[i r] rest] eqn:E; [contradiction|].
    assert (Hin : In (i, r) (ws_tasks_by_status (c_ws c) l)) by (rewrite E; left; reflexivity).
    destruct (tasks_by_status_In _ _ _ _ Hin) as [Hn Hs].
    unfold ws_tasks_by_status in Hin. apply filter_In in Hin. destruct Hin as [_ Hf]. apply andb_prop in Hf. destruct Hf as [_ Hp].
    apply ws_pointed_iff in Hp. destruct Hp as [k Hk].
    destruct (r_status r) as [s|] eqn:Er; [|discriminate]. exists k, s. split; [|exact Hs].
    unfold pstat. rewrite (In_aget tkey_eqb tkey_eqb_eq _ _ _ Hnd Hk), Hn, Er. reflexivity.
  - intros [k [s [Hp Hs]]] E. destruct (pstat_some _ _ _ Hp) as [i [r [Ha [Hn Hr]]]].
    assert (Hin : In (i, r) (ws_tasks_by_status (c_ws c) l)).
    { apply tasks_by_status_intro; [exact Hn|rewrite Hr; exact Hs|]. apply ws_pointed_iff. exists k. apply (aget_in tkey_eqb tkey_eqb_eq); exact Ha. }
    rewrite E in Hin. destruct Hin.
Qed.

Lemma has_active_iff : forall c, winv c -> (has_active_tasks (c_ws c) = true <-> act c).
Proof.
  intros c Hw. unfold has_active_tasks, act. rewrite <- (tasks_by_status_iff c ACTIVE_STATUSES Hw).
  destruct (ws_tasks_by_status (c_ws c) ACTIVE_STATUSES); split; intro H; try discriminate; try reflexivity.
  exfalso; apply H; reflexivity.
Qed.

Lemma has_active_false_iff : forall c, winv c -> (has_active_tasks (c_ws c) = false <-> ~ act c).
Proof.
  intros c Hw. rewrite <- (has_active_iff c Hw). destruct (has_active_tasks (c_ws c)); split; intro H;
    first [reflexivity | discriminate | (exfalso; apply H; reflexivity) | (intro; discriminate)].
Qed.

Lemma pstat_sig : forall c k, pstat c k =
  match aget tkey_eqb k (tasks (c_ws c)) with
  | Some i => option_map (fun x : string * nat * option status => snd x) (nth_error (map sig (sequence (c_ws c))) i)
  | None => None end.
Proof.
  intros c k; unfold pstat. destruct (aget tkey_eqb k (tasks (c_ws c))) as [i|]; [|reflexivity].
  rewrite nth_error_map. destruct (nth_error (sequence (c_ws c)) i); reflexivity.
Qed.

Lemma map_sig_set_nth_other : forall l i j (x : trec), i <> j ->
  nth_error (map sig (list_set_nth i x l)) j = nth_error (map sig l) j.
Proof. intros. rewrite !nth_error_map, nth_error_set_nth_other by assumption. reflexivity. Qed.

Lemma aget_aset_same_tkey : forall (d : list (tkey * nat)) k v, aget tkey_eqb k (aset tkey_eqb k v d) = Some v.
Proof. intros; apply aget_aset_same. apply tkey_eqb_refl. Qed.

Lemma prefix_pstat : forall t route evt c c3 cp p idx, winv c ->
  sel_post t route evt c c3 idx -> machine_post t route evt c3 cp p idx ->
  (forall k', k' <> (t, route) -> pstat cp k' = pstat c k') /\
  exists r ns, nth_error (sequence (c_ws c3)) idx = Some r /\ task_process_event (c_ws c3) r evt = Val ns /\
    pstat cp (t, route) = Some (r_status (stepped r ns)) /\
    aget tkey_eqb (t, route) (tasks (c_ws cp)) = Some idx /\
    po_new p = rstatus (stepped r ns) /\ po_old p = rstatus r /\
    ((pstat c (t, route) = Some (r_status r) /\ is_engine_command t = false /\ key_of r = (t, route) /\
      (status_in (ev_status evt) STARTING_STATUSES = true ->
       (exists s0, get_staged_task (c_ws c) t route = Some s0 /\ s_completed s0 = false) ->
       ostatus_in (r_status r) COMPLETED_STATUSES = false)) \/
     (r_status r = None /\ r_next r = [] /\ (g_task_has_retry (c_graph c) t = false -> r_retry r = None) /\
      exists s0, get_staged_task (c_ws c) t route = Some s0)).
Proof.
  intros t route evt c c3 cp p idx [[Hnd Ht] Hs] [Hsel _] [r [ns [Hr [Ens [_ [Hpo [Hpn [T1 [T2 _]]]]]]]]].
  assert (Hself : (pstat cp (t, route) = Some (r_status (stepped r ns)) /\
                   aget tkey_eqb (t, route) (tasks (c_ws cp)) = Some idx) /\
                  forall k', k' <> (t, route) -> pstat cp k' = pstat c k').
  { destruct Hsel as [[He [Hc [A1 [A2 [A3 A3x]]]]]|[s0 [nr [Hs0 [Hi [A1 [A2 [A3 [A3' [A4 A5]]]]]]]]]].
    - unfold ws_task_idx in He. split.
      + split; [|rewrite T1, A1; exact He].
        rewrite pstat_sig, T1, A1, He, T2. rewrite nth_error_map.
        rewrite (nth_error_set_nth_same _ _ _ _ _ Hr). reflexivity.
      + intros k' Hk. rewrite !pstat_sig, T1, A1, T2.
        destruct (aget tkey_eqb k' (tasks (c_ws c))) as [i|] eqn:Ek; [|reflexivity].
        assert (Hne : idx <> i).
        { intro E; subst i. destruct (Ht _ _ (aget_in tkey_eqb tkey_eqb_eq _ _ _ Ek)) as [r1 [Hr1 Hk1]].
          destruct (Ht _ _ (aget_in tkey_eqb tkey_eqb_eq _ _ _ He)) as [r2 [Hr2 Hk2]]. rewrite Hr1 in Hr2; inversion Hr2; subst. congruence. }
        rewrite map_sig_set_nth_other by exact Hne. rewrite A2. reflexivity.
    - split.
      + split; [|rewrite T1, A1; apply aget_aset_same_tkey].
        rewrite pstat_sig, T1, A1, aget_aset_same_tkey, T2. rewrite nth_error_map.
        rewrite (nth_error_set_nth_same _ _ _ _ _ Hr). reflexivity.
      + intros k' Hk. rewrite !pstat_sig, T1, A1, T2, (aget_aset_other tkey_eqb tkey_eqb_eq) by exact Hk.
        destruct (aget tkey_eqb k' (tasks (c_ws c))) as [i|] eqn:Ek; [|reflexivity].
        destruct (Ht _ _ (aget_in tkey_eqb tkey_eqb_eq _ _ _ Ek)) as [r1 [Hr1 _]].
        assert (Hlt : i < length (sequence (c_ws c))) by (apply nth_error_Some; rewrite Hr1; discriminate).
        rewrite map_sig_set_nth_other by lia. rewrite A2, !nth_error_map, nth_error_app1 by exact Hlt. reflexivity. }
  destruct Hself as [[H1 H1'] H2]. split; [exact H2|].
  exists r, ns. split; [exact Hr|]. split; [exact Ens|]. split; [exact H1|]. split; [exact H1'|]. split; [exact Hpn|]. split; [exact Hpo|].
  destruct Hsel as [[He [Hc [A1 [A2 [A3 A3x]]]]]|[s0 [nr [Hs0 [Hi [A1 [A2 [A3 [A3' [A4 A5]]]]]]]]]].
  - left. unfold ws_task_idx in He. rewrite A2 in Hr. split; [unfold pstat; rewrite He, Hr; reflexivity|]. split; [exact Hc|].
    split; [destruct (Ht _ _ (aget_in tkey_eqb tkey_eqb_eq _ _ _ He)) as [r2 [Hr2 Hk2]]; rewrite Hr in Hr2; inversion Hr2; subst; exact Hk2|].
    intros X Y. exact (A3x X Y _ Hr).
  - right. rewrite A2, Hi in Hr. rewrite nth_error_app2 in Hr by apply Nat.le_refl. rewrite Nat.sub_diag in Hr.
    simpl in Hr. inversion Hr; subst r. assert (Hst : r_status nr = None) by (unfold sig in A3; congruence).
    split; [exact Hst|]. split; [exact A3'|]. split; [exact A4|exists s0; exact Hs0].
Qed.

Lemma spec_no_items : forall sp t ts, no_items sp = true -> spec_get_task sp t = Some ts -> task_has_items ts = false.
Proof.
  intros sp t ts Hn H. unfold spec_get_task in H. destruct (string_in t RESERVED_TASK_NAMES).
  - inversion H; reflexivity.
  - apply aget_In in H. unfold no_items in Hn. rewrite forallb_forall in Hn. specialize (Hn _ H).
    apply negb_true_iff in Hn. exact Hn.
Qed.

(* everything but the record flags and the error log is as before *)
Definition Rflag (c c' : cstate) : Prop :=
  Rfr c c' /\ staged (c_ws c') = staged (c_ws c) /\ wstatus (c_ws c') = wstatus (c_ws c).

Section Spine.
Variable ev : string -> dict -> evalres.

Lemma prefix_open : forall t route evt c cp p, c_init c = true -> uts_prefix ev t route evt c = (cp, Val p) ->
  exists ts, g_has_task (c_graph c) t = true /\ spec_get_task (c_spec c) t = Some ts /\
    pre_main ev t route evt ts (get_staged_task (c_ws c) t route) (ws_task_idx (c_ws c) t route) c = (cp, Val p).
Proof.
  intros t route evt c cp p Hi H. unfold uts_prefix in H.
  unfold bind at 1 in H. rewrite (ensure_ws_inited ev c Hi) in H.
  unfold bind at 1 in H. unfold get at 1 in H.
  destruct (negb (g_has_task (c_graph c) t)) eqn:Eg; [inversion H|]. apply negb_false_iff in Eg. cbv zeta in H.
  apply bind_val_inv' in H. destruct H as [c2 [ts [E2 H]]].
  destruct (spec_get_task (c_spec c) t) as [ts'|] eqn:Ets; [|inversion E2]. inversion E2; subst c2 ts'; clear E2.
  exists ts. split; [exact Eg|]. split; [reflexivity|].
  destruct (get_staged_task (c_ws c) t route), (ws_task_idx (c_ws c) t route); try exact H. inversion H.
Qed.

Lemma body_open : forall rec t route evt c c', c_init c = true -> uts_body ev rec t route evt c = (c', Val tt) ->
  exists ts cp p, g_has_task (c_graph c) t = true /\ spec_get_task (c_spec c) t = Some ts /\
    pre_main ev t route evt ts (get_staged_task (c_ws c) t route) (ws_task_idx (c_ws c) t route) c = (cp, Val p) /\
    tail_of ev rec t route p cp = (c', Val tt).
Proof.
  intros rec t route evt c c' Hi H. rewrite body_eq in H. apply bind_val_inv' in H. destruct H as [cp [p [Ep Htl]]].
  destruct (prefix_open _ _ _ _ _ _ Hi Ep) as [ts [Hg [Hts Hm]]]. exists ts, cp, p. auto.
Qed.

Lemma pre_main_open : forall t route evt ts s0 e0 c cp p, pre_main ev t route evt ts s0 e0 c = (cp, Val p) ->
  exists c1 idx1 r1 c2 idx ca cb c3,
    uts_sel1 ev t s0 e0 c = (c1, Val idx1) /\ nth_error (sequence (c_ws c1)) idx1 = Some r1 /\
    uts_sel2 ev t evt s0 r1 idx1 c1 = (c2, Val idx) /\ uts_unstage t route evt s0 c2 = (ca, Val tt) /\
    uts_item t route evt s0 ca = (cb, Val tt) /\ uts_logfail t evt cb = (c3, Val tt) /\
    pre_machine ev t route evt ts idx c3 = (cp, Val p).
Proof.
  intros t route evt ts s0 e0 c cp p H. unfold pre_main in H.
  apply bind_val_inv' in H. destruct H as [c1 [idx1 [E1 H]]].
  apply bind_val_inv' in H. destruct H as [c0 [r1 [E0 H]]]. apply get_rec_inv in E0; destruct E0 as [-> Hr1].
  apply bind_val_inv' in H. destruct H as [c2 [idx [E2 H]]].
  apply bind_val_inv' in H. destruct H as [ca [[] [E3 H]]].
  apply bind_val_inv' in H. destruct H as [cb [[] [E4 H]]].
  apply bind_val_inv' in H. destruct H as [c3 [[] [E5 H]]].
  exists c1, idx1, r1, c2, idx, ca, cb, c3. auto 8.
Qed.

Lemma prefix_eff : forall t route evt c cp p, winv c -> c_init c = true -> no_items (c_spec c) = true -> not_item evt ->
  uts_prefix ev t route evt c = (cp, Val p) ->
  exists idx c3, sel_post t route evt c c3 idx /\ machine_post t route evt c3 cp p idx /\
    spec_get_task (c_spec c) t = Some (po_ts p) /\ task_has_items (po_ts p) = false /\
    g_has_task (c_graph c) t = true.
Proof.
  intros t route evt c cp p Hw Hi Hn Hni H. destruct (prefix_open _ _ _ _ _ _ Hi H) as [ts [Eg [Ets Hm]]].
  pose proof (spec_no_items _ _ _ Hn Ets) as Hts.
  destruct (pre_main_sel ev _ _ _ _ _ _ _ Hw Hni Hm) as [idx [c3 [Hsel Hpm]]].
  assert (Hpts : po_ts p = ts).
  { destruct (pre_machine_inv ev _ _ _ _ _ _ _ _ Hpm) as [r [ns [c1 [c4 [_ [_ [_ [_ [_ [_ [_ [_ [Hp _]]]]]]]]]]]]]. exact Hp. }
  exists idx, c3. split; [exact Hsel|]. split; [apply (pre_machine_eff ev _ _ _ ts); assumption|].
  rewrite Hpts. auto.
Qed.

Lemma tail_inv : forall rec t route ts idx old new compl cp c',
  uts_tail ev rec t route ts idx old new compl cp = (c', Val tt) -> (forall ctx, compl <> Some (ctx, true)) ->
  exists queue cq r st unr cw cl cn,
    uts_queue ev t route idx ts old new compl cp = (cq, Val queue) /\
    nth_error (sequence (c_ws cq)) idx = Some r /\ r_status r = Some st /\
    wf_task_event_M t route st cq = (cw, Val unr) /\
    log_unreachable unr cw = (cl, Val tt) /\ c_ws cl = c_ws cw /\
    forM_ queue (uts_call rec) cl = (cn, Val tt) /\
    Rflag cn c'.
Proof.
  intros rec t route ts idx old new compl cp c' H Hc. unfold uts_tail in H.
  assert (H' : (queue <- uts_queue ev t route idx ts old new compl ;;
                r <- get_rec idx ;;
                st <- match r_status r with Some s => ret s | None => raise (exn_key "status") end ;;
                unreachable <- wf_task_event_M t route st ;;
                log_unreachable unreachable ;;;
                forM_ queue (uts_call rec) ;;;
                (w <- getws ;; (if status_in (wstatus w) COMPLETED_STATUSES then upd_rec idx (fun r0 => r_set_term r0 true) else ret tt)))
               cp = (c', Val tt)).
  { destruct compl as [[ctx [|]]|]; [exfalso; exact (Hc ctx eq_refl)|exact H|exact H]. }
  clear H. rename H' into H.
  apply bind_val_inv' in H. destruct H as [cq [queue [Eq H]]].
  apply bind_val_inv' in H. destruct H as [c0 [r [E0 H]]]. apply get_rec_inv in E0; destruct E0 as [-> Hr].
  apply bind_val_inv' in H. destruct H as [c0 [st [E0 H]]].
  destruct (r_status r) as [st'|] eqn:Est; [|inversion E0]. inversion E0; subst c0 st'; clear E0.
  apply bind_val_inv' in H. destruct H as [cw [unr [Ew H]]].
  apply bind_val_inv' in H. destruct H as [cl [[] [El H]]].
  apply bind_val_inv' in H. destruct H as [cn [[] [En H]]].
  exists queue, cq, r, st, unr, cw, cl, cn.
  split; [exact Eq|]. split; [exact Hr|]. split; [exact Est|]. split; [exact Ew|]. split; [exact El|].
  split; [destruct (log_unreachable_run unr cw) as [c2 [E2 W2]]; rewrite E2 in El; inversion El; subst; exact W2|].
  split; [exact En|].
  apply bind_val_inv' in H. destruct H as [c0 [w [E0 H]]]. inversion E0; subst c0 w; clear E0.
  destruct (status_in (wstatus (c_ws cn)) COMPLETED_STATUSES).
  - unfold upd_rec, modws in H. inversion H; subst c'. split; [apply Rfr_update_rec; intro; reflexivity|].
    simpl. rewrite wstatus_update_rec. split; [|reflexivity].
    unfold ws_update_rec. destruct (nth_error (sequence (c_ws cn)) idx); reflexivity.
  - inversion H; subst. split; [apply Rfr_refl|split; reflexivity].
Qed.

End Spine.

Section Counting.
Variable ev : string -> dict -> evalres.

Lemma vs_of_lt : forall A (m : M A), vpres Rlt m -> vpres Rstg m.
Proof. intros A m H c c' a E; apply Rlt_Rstg; eapply H; exact E. Qed.
Lemma ps_of_lt : forall A (m : M A), preserves Rlt m -> preserves Rstg m.
Proof. intros A m H c c' a E; apply Rlt_Rstg; eapply H; exact E. Qed.

Ltac sleaf0 := first [ apply staged_update_rec | reflexivity ].
Ltac pleaf :=
  first [ solve [apply (preserves_modws Rstg); intro; unfold Rstg; simpl; sleaf0]
        | solve [apply (preserves_modify Rstg); intro; unfold Rstg; simpl; sleaf0]
        | assumption
        | solve [apply ps_of_lt; first [apply lt_log_error|apply lt_log_errors|apply lt_get_task_context|apply lt_render_vars|apply lt_log_entry_error]] ].
Ltac leaf :=
  first [ solve [apply (vp_modws Rstg); intro; unfold Rstg; simpl; sleaf0]
        | solve [apply (vp_modify Rstg); intro; unfold Rstg; simpl; sleaf0]
        | assumption
        | solve [apply vs_of_lt; first [apply vlt_request_failed|apply vlt_log_error|apply vlt_log_errors|apply vlt_get_task_context
                                        |apply vlt_render_vars|apply vlt_log_unreachable]] ].
Ltac walk := sw Rstg_refl Rstg_trans pleaf leaf.

Lemma vs_get_rec : forall i, vpres Rstg (get_rec i).
Proof. intros; unfold get_rec; walk. Qed.
Lemma vs_upd_rec : forall i f, vpres Rstg (upd_rec i f).
Proof. intros; unfold upd_rec; walk. Qed.
Lemma ps_upd_rec : forall i f, preserves Rstg (upd_rec i f).
Proof. intros; unfold upd_rec. apply (preserves_modws Rstg); intro; unfold Rstg; simpl; apply staged_update_rec. Qed.
Lemma vs_evaluate_route : forall e r, vpres Rstg (evaluate_route e r).
Proof. intros; unfold evaluate_route; walk. Qed.
Lemma vs_finalize_context : forall ts e ctx, vpres Rstg (finalize_context ev ts e ctx).
Proof. intros; unfold finalize_context; walk. Qed.

Lemma process_transition_count : forall t route idx ts ctx e c c' res,
  process_transition ev t route idx ts ctx e c = (c', Val res) ->
  ncmd c' <= ncmd c + match fst res with Some _ => 1 | None => 0 end.
Proof.
  intros t route idx ts ctx e c c' res H.
  assert (Z : forall cx n, staged (c_ws cx) = staged (c_ws c) -> ncmd cx <= ncmd c + n) by (intros cx n Hx; unfold ncmd; rewrite Hx; lia).
  assert (F : forall ca cb cd es, staged (c_ws ca) = staged (c_ws c) -> log_errors es (Some t) (Some route) (Some (e_dst e, e_key e)) ca = (cb, Val tt) ->
              request_status_core S_FAILED cb = (cd, Val tt) -> staged (c_ws cd) = staged (c_ws c)).
  { intros ca cb cd es Ha E3 E4. pose proof (vs_of_lt _ _ (vlt_log_errors _ _ _ _) _ _ _ E3) as S3.
    pose proof (vs_of_lt _ _ vlt_request_failed _ _ _ E4) as S4. unfold Rstg in *. congruence. }
  destruct (process_transition_val_inv ev _ _ _ _ _ _ _ _ _ H) as [rv [_ Hrv]]. destruct rv as [vs|x].
  2: { destruct Hrv as [-> [c1 [E1 E2]]]. apply Z. exact (F c c1 c' [x] eq_refl E1 E2). }
  assert (S1 : staged (c_ws (pt_decided idx e vs c)) = staged (c_ws c)) by (unfold pt_decided; simpl; apply staged_update_rec).
  destruct (forallb truthy vs); [|destruct Hrv as [-> ->]; apply Z; exact S1].
  destruct Hrv as (cf & new_ctx & errors & Ef & Hrv). pose proof (vs_finalize_context _ _ _ _ _ _ Ef) as Sf. unfold Rstg in Sf.
  destruct errors as [|e1 errs]; [|destruct Hrv as [-> [c3 [E3 E4]]]; apply Z; apply (F cf c3 c' (e1 :: errs)); [congruence|exact E3|exact E4]].
  destruct Hrv as (r & c3 & nr & c4 & _ & Er & Ea & -> & ->).
  pose proof (vs_evaluate_route _ _ _ _ _ Er) as Sr. unfold Rstg in Sr.
  assert (Sp : staged (c_ws (published idx e new_ctx cf)) = staged (c_ws cf)).
  { unfold published. destruct new_ctx; [reflexivity|]. simpl. rewrite staged_update_rec. reflexivity. }
  assert (N3 : ncmd c3 = ncmd c) by (unfold ncmd; congruence).
  assert (N4 : ncmd c4 <= ncmd c3 + (if is_engine_command (e_dst e) then 1 else 0)).
  { unfold arrived in Ea. destruct (get_staged_task (c_ws c3) (e_dst e) nr).
    - destruct (nat_remove_first 0 _); inversion Ea; subst c4. unfold ncmd; simpl.
      rewrite filter_cmdb_staged_update by (intro; reflexivity). lia.
    - inversion Ea; subst c4. unfold ncmd; simpl. unfold ws_add_staged; simpl.
      rewrite filter_app, app_length. simpl. unfold cmdb at 2. simpl. destruct (is_engine_command (e_dst e)); simpl; lia. }
  assert (N5 : ncmd (flagged route e nr c4) = ncmd c4).
  { unfold flagged, ncmd; simpl. apply filter_cmdb_staged_update. intro; reflexivity. }
  unfold pt_result. destruct (is_engine_command (e_dst e)); [simpl; lia|].
  destruct (target_ready route e c4); simpl; lia.
Qed.

Lemma mapM_transitions_count : forall t route idx ts ctx l c c' rs,
  mapM (process_transition ev t route idx ts ctx) l c = (c', Val rs) ->
  ncmd c' <= ncmd c + length (flat_map (fun '(q, _) => match q with Some x => [x] | None => [] end) rs).
Proof.
  intros t route idx ts ctx; induction l as [|e l IH]; intros c c' rs H; simpl in H.
  - inversion H; subst; simpl; lia.
  - apply bind_val_inv' in H. destruct H as [c1 [res [E1 H]]].
    apply bind_val_inv' in H. destruct H as [c2 [rs' [E2 H]]]. inversion H; subst; clear H.
    pose proof (process_transition_count _ _ _ _ _ _ _ _ _ E1) as N1. pose proof (IH _ _ _ E2) as N2.
    simpl. rewrite app_length. destruct res as [[x|] q]; simpl in *; lia.
Qed.

End Counting.

(* ---- relations that read only the staging ----
   A task event writes the staging in six ways: it removes the first entry of its own key, records an item status
   in it, marks it completed, stages its own key again for a retry, updates an entry of any key without giving it an
   item table, adds an entry without item table; and it calls itself for engine commands.  A family [Q k] of
   relations on staging lists closed under these is kept by the whole call. *)
Definition keeps_key (f : stg -> stg) : Prop := forall s, s_id (f s) = s_id s /\ s_route (f s) = s_route s.
Definition items_fade (f : stg -> stg) : Prop :=
  keeps_key f /\ forall s, s_items (f s) = s_items s \/ s_items (f s) = None.
(* what uts_item writes; the body of ProviderSysItems.record_item *)
Definition item_write (i : nat) (st : status) (e : stg) : stg :=
  s_set_items e (match s_items e with Some l => Some (list_set_nth i st l) | None => None end).

Section StagingWalk.
Variable ev : string -> dict -> evalres.
Variable Q : string * nat -> list stg -> list stg -> Prop.
Hypothesis Q_refl : forall k l, Q k l l.
Hypothesis Q_trans : forall k a b c, Q k a b -> Q k b c -> Q k a c.
Hypothesis Q_rm : forall t r l, Q (t, r) l (staged_remove_first t r l).
Hypothesis Q_item : forall t r i st l, Q (t, r) l (staged_update (item_write i st) t r l).
Hypothesis Q_done : forall t r l, Q (t, r) l (staged_update (fun s => s_set_completed s true) t r l).
Hypothesis Q_again : forall t r x l, stg_matches t r x = true -> s_items x = None -> Q (t, r) l (app l [x]).
Hypothesis Q_fade : forall k f nt nr l, items_fade f -> Q k l (staged_update f nt nr l).
Hypothesis Q_add : forall k x l, s_items x = None -> Q k l (app l [x]).
Hypothesis Q_cmd : forall k n rt l l', is_engine_command n = true -> Q (n, rt) l l' -> Q k l l'.

Definition RQ (k : string * nat) (c c' : cstate) : Prop := Q k (staged (c_ws c)) (staged (c_ws c')).
Lemma RQ_refl : forall k c, RQ k c c. Proof. intros; apply Q_refl. Qed.
Lemma RQ_trans : forall k a b c, RQ k a b -> RQ k b c -> RQ k a c. Proof. unfold RQ; intros; eapply Q_trans; eassumption. Qed.
Lemma RQ_stg : forall k c c', Rstg c c' -> RQ k c c'.
Proof. intros k c c' H. unfold RQ. rewrite H. apply Q_refl. Qed.
Lemma sq_of_stg : forall k A (m : M A), vpres Rstg m -> vpres (RQ k) m.
Proof. intros k A m. apply vpres_sub. apply RQ_stg. Qed.
Lemma sq_of_lt : forall k A (m : M A), vpres Rlt m -> vpres (RQ k) m.
Proof. intros k A m H. apply sq_of_stg. exact (vs_of_lt _ _ H). Qed.

Lemma RQ_remove : forall t r c, RQ (t, r) c (set_ws c (ws_remove_staged_task (c_ws c) t r)).
Proof.
  intros t r c. unfold RQ. simpl. unfold ws_remove_staged_task. destruct (get_staged_task (c_ws c) t r); [|apply Q_refl].
  destruct (items_any_active s); [apply Q_refl|apply Q_rm].
Qed.

Lemma vs_add_task_state : forall t rt ins prev, vpres Rstg (add_task_state ev t rt ins prev).
Proof.
  intros t rt ins prev c c' idx H. destruct (add_task_state_eff ev _ _ _ _ _ _ _ H) as [cm [retry [L [_ [-> _]]]]].
  unfold Rstg. simpl. apply L.
Qed.
Lemma vs_sel1 : forall t s0 e0, vpres Rstg (uts_sel1 ev t s0 e0).
Proof.
  intros t s0 e0. unfold uts_sel1, uts_need_staged.
  destruct e0; [destruct (is_engine_command t); [|apply (vp_ret _ Rstg_refl)]|];
    (apply (vp_bind _ Rstg_trans); [destruct s0; [apply (vp_ret _ Rstg_refl)|apply vp_raise]|intro; apply vs_add_task_state]).
Qed.
Lemma vs_sel2 : forall t evt s0 r1 i, vpres Rstg (uts_sel2 ev t evt s0 r1 i).
Proof.
  intros t evt s0 r1 i. unfold uts_sel2, uts_need_staged. destruct (_ && _ && _); [|apply (vp_ret _ Rstg_refl)].
  apply (vp_bind _ Rstg_trans); [destruct s0; [apply (vp_ret _ Rstg_refl)|apply vp_raise]|intro; apply vs_add_task_state].
Qed.
Lemma vs_logfail : forall t evt, vpres Rstg (uts_logfail t evt).
Proof.
  intros t evt c c' a H. unfold uts_logfail in H. destruct (status_eqb (ev_status evt) S_FAILED); [|inversion H; reflexivity].
  apply log_entry_error_eff in H. destruct H as [_ [W _]]. unfold Rstg. rewrite W. reflexivity.
Qed.
Lemma vs_setst : forall i ns, vpres Rstg (uts_setst i ns).
Proof.
  intros i ns. unfold uts_setst, set_rec_status. destruct ns; [|apply (vp_ret _ Rstg_refl)].
  apply vp_modws. intro; unfold Rstg; simpl; apply staged_update_rec.
Qed.
Lemma vs_wf_task_event : forall t route st, vpres Rstg (wf_task_event_M t route st).
Proof.
  intros t route st c c' a H. unfold wf_task_event_M in H.
  destruct (wf_process_task_event (c_graph c) (c_ws c) t route st) as [[new unr]|e]; inversion H; subst. reflexivity.
Qed.

Lemma sq_unstage : forall t route evt s0, vpres (RQ (t, route)) (uts_unstage t route evt s0).
Proof.
  intros t route evt s0. unfold uts_unstage. destruct s0 as [s|]; [|apply (vp_ret _ (RQ_refl _))].
  destruct (s_items s); [apply (vp_ret _ (RQ_refl _))|].
  destruct evt; try (apply vp_modws; intro; apply RQ_remove). apply (vp_ret _ (RQ_refl _)).
Qed.
Lemma sq_item : forall t route evt s0, vpres (RQ (t, route)) (uts_item t route evt s0).
Proof.
  intros t route evt s0. unfold uts_item. destruct s0 as [s|]; [|apply (vp_ret _ (RQ_refl _))].
  destruct evt; try apply (vp_ret _ (RQ_refl _)). destruct (s_items s); [|apply (vp_ret _ (RQ_refl _))].
  destruct (Nat.ltb item (length l)); [|apply vp_raise]. apply vp_modws. intro c. apply Q_item.
Qed.
Lemma sq_item_not : forall k t route evt s0, not_item evt -> vpres (RQ k) (uts_item t route evt s0).
Proof.
  intros k t route evt s0 Hn. unfold uts_item. destruct s0; [|apply (vp_ret _ (RQ_refl _))].
  destruct evt; try apply (vp_ret _ (RQ_refl _)). destruct Hn.
Qed.
Lemma sq_retrying : forall t route idx r ns, vpres (RQ (t, route)) (uts_retrying t route idx r ns).
Proof.
  intros t route idx r ns. unfold uts_retrying. destruct (status_eqb ns S_RETRYING); [|apply (vp_ret _ (RQ_refl _))].
  destruct (r_retry r) as [rr|]; [|apply vp_raise].
  apply (vp_bind _ (RQ_trans _)); [apply sq_of_stg; apply vs_upd_rec|intros _].
  apply (vp_bind _ (RQ_trans _)); [apply vp_modws; intro; apply RQ_remove|intros _].
  apply vp_modws. intro c. apply Q_again; [apply stg_matches_refl|reflexivity].
Qed.
Lemma sq_completion : forall t route evt ts idx ns o0, vpres (RQ (t, route)) (uts_completion ev t route evt ts idx ns o0).
Proof.
  intros t route evt ts idx ns o0. unfold uts_completion.
  destruct (status_in ns COMPLETED_STATUSES); [|apply (vp_ret _ (RQ_refl _))].
  apply (vp_bind _ (RQ_trans _)).
  { destruct (negb _); [apply vp_modws; intro; apply RQ_remove|].
    apply (vp_bind _ (RQ_trans _)); [apply (vp_getws _ (RQ_refl _))|intro w].
    destruct (get_staged_task w t route); [|apply vp_raise]. apply vp_modws. intro c. apply Q_done. }
  intros _. apply sq_of_stg.
  apply (vp_bind _ Rstg_trans); [apply vs_get_rec|intro r].
  apply (vp_bind _ Rstg_trans); [apply vs_of_lt; apply vlt_get_task_context|intro ctx].
  apply (vp_bind _ Rstg_trans); [apply (vp_getws _ Rstg_refl)|intro w].
  apply (vp_bind _ Rstg_trans); [|intro; apply (vp_ret _ Rstg_refl)].
  apply (vp_try_catch _ Rstg_trans).
  - destruct (_ && _ && _); [|apply (preserves_ret _ Rstg_refl)].
    apply (state_pure_preserves _ Rstg_refl). apply evaluate_task_retry_pure.
  - intro x. apply (vp_bind _ Rstg_trans); [apply vs_of_lt; apply vlt_log_error|intros _].
    apply (vp_bind _ Rstg_trans); [apply vs_of_lt; apply vlt_request_failed|intros _; apply (vp_ret _ Rstg_refl)].
Qed.

Lemma fade_ready : forall b, items_fade (fun s => s_set_ready s b).
Proof. intro b. split; [intro; split; reflexivity|intro; left; reflexivity]. Qed.
Lemma fade_run_on_fail : forall b, items_fade (fun s => s_set_run_on_fail s b).
Proof. intro b. split; [intro; split; reflexivity|intro; left; reflexivity]. Qed.

Lemma sq_process_transition : forall k t route idx ts ctx e, vpres (RQ k) (process_transition ev t route idx ts ctx e).
Proof.
  intros k t route idx ts ctx e. unfold process_transition.
  apply (vp_bind _ (RQ_trans _)).
  { apply sq_of_stg. apply (vp_try_catch _ Rstg_trans).
    - apply (preserves_bind _ Rstg_trans); [apply (preserves_mapM _ Rstg_refl Rstg_trans); intro;
        apply (state_pure_preserves _ Rstg_refl); apply evaluate_pure|intro vs].
      apply (preserves_bind _ Rstg_trans); [apply ps_upd_rec|intros _; apply (preserves_ret _ Rstg_refl)].
    - intro x. apply (vp_bind _ Rstg_trans); [apply vs_of_lt; apply vlt_log_error|intros _].
      apply (vp_bind _ Rstg_trans); [apply vs_of_lt; apply vlt_request_failed|intros _; apply (vp_ret _ Rstg_refl)]. }
  intros [[|]|]; try apply (vp_ret _ (RQ_refl _)).
  apply (vp_bind _ (RQ_trans _)); [apply sq_of_stg; apply vs_finalize_context|intros [new_ctx errors]].
  destruct errors as [|e1 errs].
  2: { apply sq_of_stg. apply (vp_bind _ Rstg_trans); [apply vs_of_lt; apply vlt_log_errors|intros _].
       apply (vp_bind _ Rstg_trans); [apply vs_of_lt; apply vlt_request_failed|intros _; apply (vp_ret _ Rstg_refl)]. }
  apply (vp_bind _ (RQ_trans _)); [apply sq_of_stg; apply vs_get_rec|intro r].
  apply (vp_bind _ (RQ_trans _)); [apply (vp_getws _ (RQ_refl _))|intro w].
  apply (vp_bind _ (RQ_trans _)).
  { apply sq_of_stg. destruct new_ctx; [apply (vp_ret _ Rstg_refl)|].
    apply (vp_bind _ Rstg_trans); [apply vp_modws; intro; reflexivity|intros _].
    apply (vp_bind _ Rstg_trans); [apply vs_upd_rec|intros _; apply (vp_ret _ Rstg_refl)]. }
  intro out_idxs. apply (vp_bind _ (RQ_trans _)); [apply sq_of_stg; apply vs_evaluate_route|intro next_route].
  apply (vp_bind _ (RQ_trans _)); [apply (vp_getws _ (RQ_refl _))|intro w2].
  apply (vp_bind _ (RQ_trans _)).
  { destruct (get_staged_task w2 (e_dst e) next_route).
    - destruct (nat_remove_first 0 out_idxs); [|apply vp_raise]. apply vp_modws. intro c. apply Q_fade.
      split; [intro; split; reflexivity|intro; right; reflexivity].
    - apply vp_modws. intro c. apply Q_add. reflexivity. }
  intros _. apply (vp_bind _ (RQ_trans _)); [apply (vp_get _ (RQ_refl _))|intro c0].
  apply (vp_bind _ (RQ_trans _)); [apply vp_modws; intro c; apply Q_fade; apply fade_ready|intros _].
  destruct (is_engine_command (e_dst e)); [apply (vp_ret _ (RQ_refl _))|].
  destruct (inbound_eqb _ _); apply (vp_ret _ (RQ_refl _)).
Qed.

Lemma sq_queue : forall k t route idx ts o n compl, vpres (RQ k) (uts_queue ev t route idx ts o n compl).
Proof.
  intros k t route idx ts o n compl. unfold uts_queue. destruct compl as [[ctx b]|]; [|apply (vp_ret _ (RQ_refl _))].
  destruct (negb (status_eqb n o)); [|apply (vp_ret _ (RQ_refl _))].
  apply (vp_bind _ (RQ_trans _)); [apply (vp_get _ (RQ_refl _))|intro c0]. cbv zeta.
  apply (vp_bind _ (RQ_trans _)); [destruct (g_next_transitions _ _); [apply sq_of_stg; apply vs_upd_rec|apply (vp_ret _ (RQ_refl _))]|intros _].
  apply (vp_bind _ (RQ_trans _)); [apply (vp_mapM _ (RQ_refl _) (RQ_trans _)); intro; apply sq_process_transition|intro rs].
  apply (vp_bind _ (RQ_trans _)).
  { destruct (existsb _ _); [|apply (vp_ret _ (RQ_refl _))]. apply (vp_forM _ (RQ_refl _) (RQ_trans _)). intros [nn rt].
    apply vp_modws. intro c. apply Q_fade. apply fade_run_on_fail. }
  intros _. apply (vp_bind _ (RQ_trans _)); [apply sq_of_stg; apply vs_get_rec|intro r].
  apply (vp_bind _ (RQ_trans _)); [|intros _; apply (vp_ret _ (RQ_refl _))].
  destruct (g_next_transitions _ _); [apply (vp_ret _ (RQ_refl _))|].
  destruct (existsb _ _); [apply (vp_ret _ (RQ_refl _))|apply sq_of_stg; apply vs_upd_rec].
Qed.

Lemma sq_ensure_ws : forall k, vpres (RQ k) (ensure_ws ev).
Proof.
  intro k. unfold ensure_ws.
  apply (vp_bind _ (RQ_trans _)); [apply (vp_get _ (RQ_refl _))|intro c0]. destruct (c_init c0); [apply (vp_ret _ (RQ_refl _))|].
  apply (vp_bind _ (RQ_trans _)); [apply vp_modify; intro; apply Q_refl|intros _].
  apply (vp_bind _ (RQ_trans _)); [apply sq_of_lt; apply vp_of_pres; apply lt_render_input|intros [rin ierrs]].
  apply (vp_bind _ (RQ_trans _)); [apply sq_of_lt; apply vlt_render_vars|intros [rv verrs]].
  apply (vp_bind _ (RQ_trans _)).
  { apply sq_of_lt. destruct (app ierrs verrs); [apply (vp_ret _ Rlt_refl)|].
    apply (vp_bind _ Rlt_trans); [apply vlt_log_errors|intros _; apply vlt_request_failed]. }
  intros _. apply (vp_bind _ (RQ_trans _)); [apply (vp_getws _ (RQ_refl _))|intro w].
  destruct (status_in (wstatus w) ABENDED_STATUSES); [apply (vp_ret _ (RQ_refl _))|].
  apply (vp_bind _ (RQ_trans _)); [apply vp_modws; intro; apply Q_refl|intros _].
  apply (vp_forM _ (RQ_refl _) (RQ_trans _)). intro t0. apply vp_modws. intro c. apply Q_add. reflexivity.
Qed.

Lemma sq_pre_machine : forall t route evt ts idx, vpres (RQ (t, route)) (pre_machine ev t route evt ts idx).
Proof.
  intros t route evt ts idx. unfold pre_machine.
  apply (vp_bind _ (RQ_trans _)); [apply sq_of_stg; apply vs_get_rec|intro r].
  apply (vp_bind _ (RQ_trans _)); [apply (vp_getws _ (RQ_refl _))|intro w].
  apply (vp_bind _ (RQ_trans _)); [apply (vp_lift_res _ (RQ_refl _))|intro ns].
  apply (vp_bind _ (RQ_trans _)); [apply sq_of_stg; apply vs_setst|intros _].
  apply (vp_bind _ (RQ_trans _)); [apply sq_of_stg; apply vs_get_rec|intro r'].
  apply (vp_bind _ (RQ_trans _)); [apply sq_retrying|intros _].
  apply (vp_bind _ (RQ_trans _)); [apply sq_completion|intro compl; apply (vp_ret _ (RQ_refl _))].
Qed.

Lemma sq_pre_main : forall t route evt ts s0 e0, vpres (RQ (t, route)) (uts_item t route evt s0) ->
  vpres (RQ (t, route)) (pre_main ev t route evt ts s0 e0).
Proof.
  intros t route evt ts s0 e0 Hitem. unfold pre_main.
  apply (vp_bind _ (RQ_trans _)); [apply sq_of_stg; apply vs_sel1|intro idx1].
  apply (vp_bind _ (RQ_trans _)); [apply sq_of_stg; apply vs_get_rec|intro r1].
  apply (vp_bind _ (RQ_trans _)); [apply sq_of_stg; apply vs_sel2|intro idx].
  apply (vp_bind _ (RQ_trans _)); [apply sq_unstage|intros _].
  apply (vp_bind _ (RQ_trans _)); [exact Hitem|intros _].
  apply (vp_bind _ (RQ_trans _)); [apply sq_of_stg; apply vs_logfail|intros _; apply sq_pre_machine].
Qed.

Section WithRec.
Variable rec : string -> nat -> event -> M unit.
Hypothesis Hrec : forall t r e, not_item e -> vpres (RQ (t, r)) (rec t r e).

Lemma sq_tail : forall t route p, vpres (RQ (t, route)) (tail_of ev rec t route p).
Proof.
  intros t route p. unfold tail_of, uts_tail. set (compl := po_compl p).
  assert (G : vpres (RQ (t, route))
            (queue <- uts_queue ev t route (po_idx p) (po_ts p) (po_old p) (po_new p) compl ;;
             r <- get_rec (po_idx p) ;;
             st <- match r_status r with Some s => ret s | None => raise (exn_key "status") end ;;
             unreachable <- wf_task_event_M t route st ;;
             log_unreachable unreachable ;;;
             forM_ queue (uts_call rec) ;;;
             (w <- getws ;; (if status_in (wstatus w) COMPLETED_STATUSES then upd_rec (po_idx p) (fun r0 => r_set_term r0 true) else ret tt)))).
  { apply (vp_bind_v _ (RQ_trans _) _ _ (Forall cmd_pair)); [apply queue_cmds|apply sq_queue|intros queue Hq].
    apply (vp_bind _ (RQ_trans _)); [apply sq_of_stg; apply vs_get_rec|intro r].
    apply (vp_bind _ (RQ_trans _)); [destruct (r_status r); [apply (vp_ret _ (RQ_refl _))|apply vp_raise]|intro st].
    apply (vp_bind _ (RQ_trans _)); [apply sq_of_stg; apply vs_wf_task_event|intro unr].
    apply (vp_bind _ (RQ_trans _)); [apply sq_of_lt; apply vlt_log_unreachable|intros _].
    apply (vp_bind _ (RQ_trans _)).
    - apply (vp_forM_In _ (RQ_refl _) (RQ_trans _)). intros [n rt] Hp. unfold uts_call.
      destruct (engine_event n) as [e|] eqn:E; [|apply vp_raise].
      rewrite Forall_forall in Hq. specialize (Hq _ Hp). intros c c' a H.
      apply (Q_cmd (t, route) n rt); [exact Hq|]. refine (Hrec n rt e _ _ _ _ H).
      unfold engine_event in E. destruct (aget String.eqb n ENGINE_EVENT_MAP) as [[nm st0]|]; inversion E; exact I.
    - intros _. apply (vp_bind _ (RQ_trans _)); [apply (vp_getws _ (RQ_refl _))|intro w].
      destruct (status_in (wstatus w) COMPLETED_STATUSES); [apply sq_of_stg; apply vs_upd_rec|apply (vp_ret _ (RQ_refl _))]. }
  destruct compl as [[ctx [|]]|]; [apply Hrec; exact I|exact G|exact G].
Qed.

Lemma sq_body : forall t route evt, (forall s0, vpres (RQ (t, route)) (uts_item t route evt s0)) ->
  vpres (RQ (t, route)) (uts_body ev rec t route evt).
Proof.
  intros t route evt Hitem c c' a H. rewrite body_eq in H. revert c c' a H.
  apply (vp_bind _ (RQ_trans _)); [|intro p; apply sq_tail].
  unfold uts_prefix.
  apply (vp_bind _ (RQ_trans _)); [apply sq_ensure_ws|intros _].
  apply (vp_bind _ (RQ_trans _)); [apply (vp_get _ (RQ_refl _))|intro c0].
  destruct (negb (g_has_task (c_graph c0) t)); [apply vp_raise|]. cbv zeta.
  apply (vp_bind _ (RQ_trans _)); [destruct (spec_get_task (c_spec c0) t); [apply (vp_ret _ (RQ_refl _))|apply vp_raise]|intro ts].
  destruct (get_staged_task (c_ws c0) t route), (ws_task_idx (c_ws c0) t route); try (apply sq_pre_main; apply Hitem). apply vp_raise.
Qed.
End WithRec.

Lemma stg_walk_not_item : forall fuel t route evt, not_item evt ->
  vpres (RQ (t, route)) (update_task_state_fuel ev fuel t route evt).
Proof.
  induction fuel as [|fuel IH]; intros t route evt Hn; [apply vp_raise|]. rewrite uts_unfold.
  apply sq_body; [exact IH|]. intro s0. apply sq_item_not. exact Hn.
Qed.

Theorem stg_walk : forall fuel t route evt, vpres (RQ (t, route)) (update_task_state_fuel ev fuel t route evt).
Proof.
  intros [|fuel] t route evt; [apply vp_raise|]. rewrite uts_unfold.
  apply sq_body; [intros; apply stg_walk_not_item; assumption|]. intro s0. apply sq_item.
Qed.

End StagingWalk.

(* ---- relations that read the records ----
   Apart from the lazy creation, a task event writes the records in three ways: it appends a new record
   ([add_task_state]), it sets the status the task machine gives for the event on the record it addresses, and the
   workflow machine moves the workflow status; everything else keeps pointers, keys and statuses ([Rfr]).  A relation
   closed under these is kept by the whole call, for every event that is [ok] (engine commands and the retry event,
   which the call sends to itself, must be). *)
Section RecWalk.
Variable ev : string -> dict -> evalres.
Variable R : cstate -> cstate -> Prop.
Variable ok : string -> nat -> event -> Prop.
Hypothesis R_refl : forall c, R c c.
Hypothesis R_trans : forall a b c, R a b -> R b c -> R a c.
Hypothesis R_fr : forall c c', Rfr c c' -> R c c'.
Hypothesis R_ensure : vpres R (ensure_ws ev).
Hypothesis R_new : forall t rt ins prev, vpres R (add_task_state ev t rt ins prev).
Hypothesis R_wf : forall t route st, vpres R (wf_task_event_M t route st).
Hypothesis R_set : forall t route e idx c r ns c', ok t route e ->
  nth_error (sequence (c_ws c)) idx = Some r -> task_process_event (c_ws c) r e = Val ns ->
  uts_setst idx ns c = (c', Val tt) -> R c c'.
Hypothesis ok_cmd : forall n rt e, engine_event n = Some e -> ok n rt e.
Hypothesis ok_retry : forall t route e, ok t route e -> ok t route retry_event.

Lemma rw_of_fr : forall A (m : M A), vpres Rfr m -> vpres R m.
Proof. intros A m. apply vpres_sub. exact R_fr. Qed.

Lemma rw_sel1 : forall t s0 e0, vpres R (uts_sel1 ev t s0 e0).
Proof.
  intros t s0 e0. unfold uts_sel1, uts_need_staged.
  destruct e0; [destruct (is_engine_command t); [|apply (vp_ret _ R_refl)]|];
    (apply (vp_bind _ R_trans); [destruct s0; [apply (vp_ret _ R_refl)|apply vp_raise]|intro; apply R_new]).
Qed.
Lemma rw_sel2 : forall t evt s0 r1 i, vpres R (uts_sel2 ev t evt s0 r1 i).
Proof.
  intros t evt s0 r1 i. unfold uts_sel2, uts_need_staged. destruct (_ && _ && _); [|apply (vp_ret _ R_refl)].
  apply (vp_bind _ R_trans); [destruct s0; [apply (vp_ret _ R_refl)|apply vp_raise]|intro; apply R_new].
Qed.

Lemma rw_pre_machine : forall t route evt ts idx, ok t route evt -> vpres R (pre_machine ev t route evt ts idx).
Proof.
  intros t route evt ts idx Hok c c' p H. unfold pre_machine in H.
  apply bind_val_inv' in H. destruct H as [c0 [r [E0 H]]]. apply get_rec_inv in E0. destruct E0 as [-> Hr].
  apply bind_val_inv' in H. destruct H as [c0 [w [E0 H]]]. inversion E0; subst c0 w; clear E0.
  apply bind_val_inv' in H. destruct H as [c0 [ns [E0 H]]]. apply lift_res_inv in E0. destruct E0 as [-> Ens].
  apply bind_val_inv' in H. destruct H as [c1 [[] [E1 H]]].
  apply (R_trans _ c1); [exact (R_set _ _ _ _ _ _ _ _ Hok Hr (eq_sym Ens) E1)|]. clear E1 Hr. revert c1 c' p H.
  apply (vp_bind _ R_trans); [apply rw_of_fr; apply vfr_get_rec|intro r'].
  apply (vp_bind _ R_trans); [apply rw_of_fr; apply vfr_retrying|intros _].
  apply (vp_bind _ R_trans); [apply rw_of_fr; apply vfr_completion|intro compl; apply (vp_ret _ R_refl)].
Qed.

Lemma rw_pre_main : forall t route evt ts s0 e0, ok t route evt -> vpres R (pre_main ev t route evt ts s0 e0).
Proof.
  intros t route evt ts s0 e0 Hok. unfold pre_main.
  apply (vp_bind _ R_trans); [apply rw_sel1|intro idx1].
  apply (vp_bind _ R_trans); [apply rw_of_fr; apply vfr_get_rec|intro r1].
  apply (vp_bind _ R_trans); [apply rw_sel2|intro idx].
  apply (vp_bind _ R_trans); [apply rw_of_fr; apply vfr_unstage|intros _].
  apply (vp_bind _ R_trans); [apply rw_of_fr; apply vfr_item|intros _].
  apply (vp_bind _ R_trans); [apply rw_of_fr; apply vfr_logfail|intros _; apply rw_pre_machine; exact Hok].
Qed.

Lemma rw_prefix : forall t route evt, ok t route evt -> vpres R (uts_prefix ev t route evt).
Proof.
  intros t route evt Hok. unfold uts_prefix.
  apply (vp_bind _ R_trans); [exact R_ensure|intros _].
  apply (vp_bind _ R_trans); [apply (vp_get _ R_refl)|intro c0].
  destruct (negb (g_has_task (c_graph c0) t)); [apply vp_raise|]. cbv zeta.
  apply (vp_bind _ R_trans); [destruct (spec_get_task (c_spec c0) t); [apply (vp_ret _ R_refl)|apply vp_raise]|intro ts].
  destruct (get_staged_task (c_ws c0) t route), (ws_task_idx (c_ws c0) t route); try (apply rw_pre_main; exact Hok). apply vp_raise.
Qed.

Lemma rw_tail : forall rec, (forall t r e, ok t r e -> vpres R (rec t r e)) ->
  forall t route evt p, ok t route evt -> vpres R (tail_of ev rec t route p).
Proof.
  intros rec Hrec t route evt p Hok. unfold tail_of, uts_tail.
  assert (G : vpres R
            (queue <- uts_queue ev t route (po_idx p) (po_ts p) (po_old p) (po_new p) (po_compl p) ;;
             r <- get_rec (po_idx p) ;;
             st <- match r_status r with Some s => ret s | None => raise (exn_key "status") end ;;
             unreachable <- wf_task_event_M t route st ;;
             log_unreachable unreachable ;;;
             forM_ queue (uts_call rec) ;;;
             (w <- getws ;; (if status_in (wstatus w) COMPLETED_STATUSES then upd_rec (po_idx p) (fun r0 => r_set_term r0 true) else ret tt)))).
  { apply (vp_bind _ R_trans); [apply rw_of_fr; apply vfr_queue|intro queue].
    apply (vp_bind _ R_trans); [apply rw_of_fr; apply vfr_get_rec|intro r].
    apply (vp_bind _ R_trans); [destruct (r_status r); [apply (vp_ret _ R_refl)|apply vp_raise]|intro st].
    apply (vp_bind _ R_trans); [apply R_wf|intro unr].
    apply (vp_bind _ R_trans); [apply rw_of_fr; apply vfr_log_unreachable|intros _].
    apply (vp_bind _ R_trans).
    - apply (vp_forM _ R_refl R_trans). intros [n rt]. unfold uts_call.
      destruct (engine_event n) as [e|] eqn:E; [|apply vp_raise]. apply Hrec. exact (ok_cmd _ _ _ E).
    - intros _. apply (vp_bind _ R_trans); [apply (vp_getws _ R_refl)|intro w].
      destruct (status_in (wstatus w) COMPLETED_STATUSES); [|apply (vp_ret _ R_refl)].
      apply rw_of_fr. apply vfr_upd_rec. intro; reflexivity. }
  destruct (po_compl p) as [[ctx [|]]|]; [apply Hrec; exact (ok_retry _ _ _ Hok)|exact G|exact G].
Qed.

Theorem rec_walk : forall fuel t route evt, ok t route evt -> vpres R (update_task_state_fuel ev fuel t route evt).
Proof.
  induction fuel as [|fuel IH]; intros t route evt Hok; [apply vp_raise|]. rewrite uts_unfold.
  intros c c' a H. rewrite body_eq in H. revert c c' a H.
  apply (vp_bind _ R_trans); [apply rw_prefix; exact Hok|intro p]. exact (rw_tail _ IH _ _ _ _ Hok).
Qed.

End RecWalk.

Section BodyInv.
Variable ev : string -> dict -> evalres.

Lemma select_points : forall t route evt c c2 idx,
  uts_select ev t evt (get_staged_task (c_ws c) t route) (ws_task_idx (c_ws c) t route) c = (c2, Val idx) ->
  ws_task_idx (c_ws c2) t route = Some idx /\ exists r, nth_error (sequence (c_ws c2)) idx = Some r.
Proof.
  intros t route evt c c2 idx H. destruct (select_run ev _ _ _ _ _ _ _ H) as [[i [Ep [_ [-> Hi]]]]|[Ea _]].
  - destruct (nth_error (sequence (c_ws c)) i) as [r1|] eqn:Hr1; [|discriminate Hi]. destruct Hi as [_ Hi]. inversion Hi; subst i.
    split; [exact Ep|exists r1; exact Hr1].
  - rewrite add_from_staged_run in Ea. destruct (get_staged_task (c_ws c) t route) as [s|] eqn:Hs; [|discriminate Ea].
    destruct (add_task_state_inv ev _ _ _ _ _ _ _ Ea) as [r [Hr [_ [_ [_ Hp]]]]].
    rewrite (proj2 (get_staged_matches _ _ _ _ Hs)) in Hp. split; [exact Hp|exists r; exact Hr].
Qed.

Lemma body_inv : forall rec t route evt c c', uts_body ev rec t route evt c = (c', Val tt) ->
  exists c0 ts c2 idx ca cb c3 r ns c4 c5 c6 compl,
    ensure_ws ev c = (c0, Val tt) /\
    uts_select ev t evt (get_staged_task (c_ws c0) t route) (ws_task_idx (c_ws c0) t route) c0 = (c2, Val idx) /\
    uts_unstage t route evt (get_staged_task (c_ws c0) t route) c2 = (ca, Val tt) /\
    uts_item t route evt (get_staged_task (c_ws c0) t route) ca = (cb, Val tt) /\
    uts_logfail t evt cb = (c3, Val tt) /\
    ws_task_idx (c_ws c3) t route = Some idx /\ nth_error (sequence (c_ws c3)) idx = Some r /\
    task_process_event (c_ws c3) r evt = Val ns /\
    uts_setst idx ns c3 = (c4, Val tt) /\ nth_error (sequence (c_ws c4)) idx = Some (stepped r ns) /\
    uts_retrying t route idx (stepped r ns) (rstatus (stepped r ns)) c4 = (c5, Val tt) /\
    uts_completion ev t route evt ts idx (rstatus (stepped r ns)) (rstatus r) c5 = (c6, Val compl) /\
    uts_tail ev rec t route ts idx (rstatus r) (rstatus (stepped r ns)) compl c6 = (c', Val tt).
Proof.
  intros rec t route evt c c' H. rewrite body_eq in H. apply bind_val_inv' in H. destruct H as [c6 [p [Hpre Htl]]].
  destruct (prefix_inv ev _ _ _ _ _ _ Hpre) as [c0 [ts [E0 H]]]. rewrite pre_main_eq in H.
  apply bind_val_inv' in H. destruct H as [c2 [idx [Es H]]]. unfold uts_before in H.
  apply bind_val_inv' in H. destruct H as [c3 [[] [Eb H]]].
  apply bind_val_inv' in Eb. destruct Eb as [ca [[] [Eu Eb]]].
  apply bind_val_inv' in Eb. destruct Eb as [cb [[] [Ei El]]].
  destruct (select_points _ _ _ _ _ _ Es) as [Hp [r2 Hr2]].
  assert (K : Rk c2 c3).
  { eapply Rk_trans; [eapply pk_unstage; exact Eu|]. eapply Rk_trans; [eapply pk_item; exact Ei|eapply pk_logfail; exact El]. }
  destruct K as [Ks Kt].
  destruct (pre_machine_inv ev _ _ _ _ _ _ _ _ H) as (r & ns & c4 & c5 & Hr & Ens & Est & Hn & _ & _ & Er & Ec & Hts & Hidx & Hold & Hnew).
  unfold tail_of in Htl. rewrite Hts, Hidx, Hold, Hnew in Htl.
  exists c0, ts, c2, idx, ca, cb, c3, r, ns, c4, c5, c6, (po_compl p).
  split; [exact E0|]. split; [exact Es|]. split; [exact Eu|]. split; [exact Ei|]. split; [exact El|].
  split; [unfold ws_task_idx in *; rewrite Kt; exact Hp|]. auto 10.
Qed.

End BodyInv.

(* [R] relates the states before and after every returning call of update_task_state whose key and event are [ok],
   as soon as it holds across three things: a step that keeps pointers, keys and statuses; a new record for an
   [ok] key; the status the task machine writes into the record an [ok] key points to *)
Section KeyWalk.
Variable ev : string -> dict -> evalres.
Variable R : cstate -> cstate -> Prop.
Variable ok : string -> nat -> event -> Prop.
Hypothesis R_refl : forall c, R c c.
Hypothesis R_trans : forall a b c, R a b -> R b c -> R a c.
Hypothesis R_same : forall c c', tasks (c_ws c') = tasks (c_ws c) ->
  map sig (sequence (c_ws c')) = map sig (sequence (c_ws c)) -> (c_init c = true -> c_init c' = true) -> R c c'.
Hypothesis R_new : forall t rt e ins prev, ok t rt e -> vpres R (add_task_state ev t rt ins prev).
Hypothesis R_set : forall t route e c idx r ns c', ok t route e -> ws_task_idx (c_ws c) t route = Some idx ->
  nth_error (sequence (c_ws c)) idx = Some r -> task_process_event (c_ws c) r e = Val ns ->
  uts_setst idx ns c = (c', Val tt) -> R c c'.
Hypothesis ok_cmd : forall n rt e, engine_event n = Some e -> ok n rt e.
Hypothesis ok_retry : forall t r e, ok t r e -> ok t r retry_event.

Lemma kw_fr : forall A (m : M A), vpres Rfr m -> vpres R m.
Proof. intros A m H c c' a E. destruct (H _ _ _ E) as [T [S [_ [_ [_ I]]]]]. apply R_same; [exact T|exact S|congruence]. Qed.

Lemma kw_wf_task_event : forall t route st, vpres R (wf_task_event_M t route st).
Proof.
  intros t route st c c' a H. unfold wf_task_event_M in H.
  destruct (wf_process_task_event (c_graph c) (c_ws c) t route st) as [[new unr]|e]; inversion H; subst. apply R_same; auto.
Qed.

Section WithRec.
Variable rec : string -> nat -> event -> M unit.
Hypothesis Hrec : forall t r e, ok t r e -> vpres R (rec t r e).

Lemma kw_tail : forall t route ts idx o n compl, (forall ctx, compl = Some (ctx, true) -> ok t route retry_event) ->
  vpres R (uts_tail ev rec t route ts idx o n compl).
Proof.
  intros t route ts idx o n compl Hre. unfold uts_tail.
  destruct compl as [[ctx [|]]|]; [apply Hrec; exact (Hre ctx eq_refl)|..].
  all: apply (vp_bind _ R_trans); [apply kw_fr; apply vfr_queue|intro queue].
  all: apply (vp_bind _ R_trans); [apply kw_fr; apply vfr_get_rec|intro r].
  all: apply (vp_bind _ R_trans); [destruct (r_status r); [apply (vp_ret _ R_refl)|apply vp_raise]|intro st].
  all: apply (vp_bind _ R_trans); [apply kw_wf_task_event|intro unr].
  all: apply (vp_bind _ R_trans); [apply kw_fr; apply vfr_log_unreachable|intros _].
  all: apply (vp_bind _ R_trans); [|intros _; apply (vp_bind _ R_trans); [apply (vp_getws _ R_refl)|intro w]].
  1, 3: apply (vp_forM _ R_refl R_trans); intros [nn rt]; unfold uts_call;
    destruct (engine_event nn) as [e|] eqn:E; [apply Hrec; eapply ok_cmd; exact E|apply vp_raise].
  all: destruct (status_in (wstatus w) COMPLETED_STATUSES); [apply kw_fr; apply vfr_upd_rec; intro; reflexivity|apply (vp_ret _ R_refl)].
Qed.

Lemma kw_body : forall t route evt, ok t route evt -> vpres R (uts_body ev rec t route evt).
Proof.
  intros t route evt Hok c c' [] H.
  destruct (body_inv ev _ _ _ _ _ _ H) as (c0 & ts & c2 & idx & ca & cb & c3 & r & ns & c4 & c5 & c6 & compl &
    E0 & E1 & Eu & Ei & El & Hp & Hr & Ens & Es & _ & Er & Ec & Htl).
  assert (S0 : R c c0).
  { destruct (vfr0_ensure_ws ev _ _ _ E0) as [A [B _]]. apply R_same; [exact A|exact B|].
    intros _. eapply ensure_ws_init_after; exact E0. }
  assert (S2 : R c0 c2).
  { destruct (select_run ev _ _ _ _ _ _ _ E1) as [[i [_ [_ [-> _]]]]|[Ea _]]; [apply R_refl|].
    rewrite add_from_staged_run in Ea. destruct (get_staged_task (c_ws c0) t route) as [s|] eqn:Hs; [|discriminate Ea].
    rewrite (proj2 (get_staged_matches _ _ _ _ Hs)) in Ea. exact (R_new _ _ _ _ _ Hok _ _ _ Ea). }
  pose proof (kw_fr _ _ (vfr_unstage _ _ _ _) _ _ _ Eu) as S3.
  pose proof (kw_fr _ _ (vfr_item _ _ _ _) _ _ _ Ei) as S4.
  pose proof (kw_fr _ _ (vfr_logfail _ _) _ _ _ El) as S5.
  pose proof (R_set _ _ _ _ _ _ _ _ Hok Hp Hr Ens Es) as S6.
  pose proof (kw_fr _ _ (vfr_retrying _ _ _ _ _) _ _ _ Er) as S7.
  pose proof (kw_fr _ _ (vfr_completion ev _ _ _ _ _ _ _) _ _ _ Ec) as S8.
  assert (S9 : R c6 c') by (eapply kw_tail; [intros; eapply ok_retry; exact Hok|exact Htl]).
  eauto 12.
Qed.

End WithRec.

Theorem key_walk : forall fuel t route evt, ok t route evt -> vpres R (update_task_state_fuel ev fuel t route evt).
Proof.
  induction fuel as [|fuel IH]; intros t route evt Hok; [apply vp_raise|]. rewrite uts_unfold.
  apply kw_body; [exact IH|exact Hok].
Qed.

End KeyWalk.

Section QueueFacts.
Variable ev : string -> dict -> evalres.

Lemma Rflag_refl : forall c, Rflag c c.
Proof. intro c; split; [apply Rfr_refl|split; reflexivity]. Qed.
Lemma Rflag_trans : forall a b c, Rflag a b -> Rflag b c -> Rflag a c.
Proof. intros a b c [A1 [A2 A3]] [B1 [B2 B3]]; split; [eapply Rfr_trans; eassumption|split; congruence]. Qed.
Lemma Rflag_upd_rec : forall c i f, (forall r, sig (f r) = sig r) -> Rflag c (set_ws c (ws_update_rec (c_ws c) i f)).
Proof.
  intros c i f Hf. split; [apply Rfr_update_rec; exact Hf|]. simpl. rewrite staged_update_rec, wstatus_update_rec. split; reflexivity.
Qed.

Lemma queue_nil_flag : forall t route idx ts old new compl c c' q,
  uts_queue ev t route idx ts old new compl c = (c', Val q) -> g_next_transitions (c_graph c) t = [] ->
  q = [] /\ Rflag c c'.
Proof.
  intros t route idx ts old new compl c c' q H Hc.
  destruct (uts_queue_inv ev _ _ _ _ _ _ _ _ _ _ H) as [[-> [-> _]]|(ctx & b & c1 & c2 & rs & c3 & r4 & _ & E1 & E2 & E3 & _ & E5 & ->)];
    [split; [reflexivity|apply Rflag_refl]|].
  rewrite Hc in E1, E2, E5. simpl in E2. inversion E2; subst c2 rs; clear E2. simpl in E3. inversion E3; subst c3; clear E3.
  inversion E5; subst c'; clear E5. unfold upd_rec, modws in E1. inversion E1; subst c1.
  split; [reflexivity|]. apply Rflag_upd_rec. intro; reflexivity.
Qed.

Lemma queue_count : forall t route idx ts old new compl c c' q,
  uts_queue ev t route idx ts old new compl c = (c', Val q) -> ncmd c' <= ncmd c + length q.
Proof.
  intros t route idx ts old new compl c c' q H.
  destruct (uts_queue_inv ev _ _ _ _ _ _ _ _ _ _ H) as [[-> [-> _]]|(ctx & b & c1 & c2 & rs & c3 & r4 & _ & E1 & E2 & E3 & _ & E5 & ->)];
    [simpl; lia|].
  assert (U : forall (b0 : bool) (ca cb : cstate), (if b0 then upd_rec idx (fun r => r_set_term r true) else ret tt) ca = (cb, Val tt) -> ncmd cb = ncmd ca).
  { intros b0 ca cb E. destruct b0; [|inversion E; reflexivity].
    unfold upd_rec, modws in E. inversion E; subst cb. unfold ncmd; simpl. rewrite staged_update_rec; reflexivity. }
  assert (N1 : ncmd c1 = ncmd c) by (revert E1; destruct (g_next_transitions (c_graph c) t); intro E1; [exact (U true _ _ E1)|exact (U false _ _ E1)]).
  pose proof (mapM_transitions_count ev _ _ _ _ _ _ _ _ _ E2) as N2. fold (cmds_of rs) in N2.
  assert (N3 : ncmd c3 = ncmd c2).
  { revert E3. match goal with |- ?m _ = _ -> _ => assert (P : vpres (fun a b => ncmd b = ncmd a) m) end; [|exact (P _ _ _)].
    match goal with |- vpres _ (if ?b0 then _ else _) => destruct b0 end; [|apply vp_ret; reflexivity].
    apply vp_forM; [reflexivity|intros; congruence|]. intros [n rt]. apply vp_modws. intro x. unfold ncmd; simpl.
    apply filter_cmdb_staged_update. intro; reflexivity. }
  assert (N5 : ncmd c' = ncmd c3).
  { revert E5. destruct (g_next_transitions (c_graph c) t); [exact (U false _ _)|].
    destruct (existsb _ (r_next r4)); [exact (U false _ _)|exact (U true _ _)]. }
  lia.
Qed.

End QueueFacts.

Definition simple (c : cstate) : Prop :=
  forall k x, pstat c k = Some x -> exists s, x = Some s /\ In s simple_statuses.

Lemma active_simple_running : forall s, In s simple_statuses -> status_in s ACTIVE_STATUSES = true -> s = S_RUNNING.
Proof. intros s [H|[H|[H|[H|[H|[]]]]]] Ha; subst; try reflexivity; discriminate. Qed.

Definition npause (c : cstate) : Prop :=
  In (wstatus (c_ws c)) sys_wf_statuses /\ ~ In (wstatus (c_ws c)) [S_PAUSING; S_PAUSED].

Lemma npause_weaken : forall c c', npause c -> (wstatus (c_ws c') = wstatus (c_ws c) \/ wstatus (c_ws c') = S_FAILED) -> npause c'.
Proof.
  intros c c' [H1 H2] [E|E]; unfold npause; rewrite E; [split; assumption|].
  split; [simpl; tauto|]. simpl. intuition discriminate.
Qed.

Lemma simple_update : forall c c' k, (forall k', k' <> k -> pstat c' k' = pstat c k') -> simple c ->
  (forall x, pstat c' k = Some x -> exists s, x = Some s /\ In s simple_statuses) -> simple c'.
Proof.
  intros c c' k H Hs Hk k' x Hp. destruct (tkey_eqb k' k) eqn:E.
  - apply tkey_eqb_eq in E; subst k'. apply Hk; exact Hp.
  - rewrite H in Hp; [exact (Hs _ _ Hp)|]. intro X; subst k'. rewrite tkey_eqb_refl in E. discriminate.
Qed.

Lemma simple_same : forall c c', (forall k, pstat c' k = pstat c k) -> simple c -> simple c'.
Proof. intros c c' H Hs k x Hp. rewrite H in Hp. exact (Hs _ _ Hp). Qed.

Lemma no_pause_flags : forall c, winv c -> simple c ->
  has_pausing_tasks (c_ws c) || has_paused_tasks (c_ws c) = false.
Proof.
  intros c Hw Hs.
  assert (X : forall l, (forall s, In s simple_statuses -> status_in s l = false) -> ws_tasks_by_status (c_ws c) l = []).
  { intros l Hl. destruct (ws_tasks_by_status (c_ws c) l) eqn:E; [reflexivity|exfalso].
    assert (Y : ws_tasks_by_status (c_ws c) l <> []) by (rewrite E; discriminate).
    apply (tasks_by_status_iff c _ Hw) in Y. destruct Y as [k [s [Hp Hin]]].
    destruct (Hs _ _ Hp) as [s' [Hx Hss]]. inversion Hx; subst s'. rewrite (Hl _ Hss) in Hin. discriminate. }
  unfold has_pausing_tasks, has_paused_tasks.
  rewrite (X [S_PAUSING]), (X [S_PAUSED; S_PENDING]); [reflexivity| |];
    intros s [H|[H|[H|[H|[H|[]]]]]]; subst s; reflexivity.
Qed.

Definition stgb (c : cstate) : bool := has_staged_tasks (c_ws c).

Definition kinv (c : cstate) : Prop :=
  let s := wstatus (c_ws c) in
  In s sys_wf_statuses /\
  (In s [S_PAUSED; S_CANCELED; S_SUCCEEDED] -> ~ act c) /\
  (s = S_SUCCEEDED -> stgb c = false) /\
  (In s [S_PAUSING; S_CANCELING] -> act c) /\
  (In s [S_RUNNING; S_RESUMING] -> act c \/ stgb c = true).

(* its resting clauses only (what is known in the middle of a task event) *)
Definition kpre (c : cstate) : Prop :=
  let s := wstatus (c_ws c) in
  In s sys_wf_statuses /\ s <> S_UNSET /\
  (In s [S_PAUSED; S_CANCELED; S_SUCCEEDED] -> ~ act c) /\
  (s = S_SUCCEEDED -> stgb c = false).

Lemma kinv_kpre : forall c, kinv c -> wstatus (c_ws c) <> S_UNSET -> kpre c.
Proof. intros c [K1 [K2 [K3 _]]] Hn; repeat split; assumption. Qed.

Lemma act_same : forall c c', (forall k, pstat c' k = pstat c k) -> (act c' <-> act c).
Proof.
  intros c c' H; unfold act; split; intros [k [s [Hp Hs]]]; exists k, s; split; try exact Hs; [rewrite <- H|rewrite H]; exact Hp.
Qed.

Lemma wf_task_event_eff : forall t route st c c' unr, wf_task_event_M t route st c = (c', Val unr) ->
  exists n, c' = set_ws c (ws_set_status (c_ws c) n) /\
    (n = S_FAILED \/ n = step_or_stay (wstatus (c_ws c)) (wf_task_event_name (c_graph c) (c_ws c) t route st)).
Proof.
  intros t route st c c' unr H.
  pose proof (wf_task_event_M_spec _ _ _ _ _ _ H) as [[e [He _]]|[u [Hu Hspec]]]; [discriminate|].
  unfold wf_task_event_M in H.
  destruct (wf_process_task_event (c_graph c) (c_ws c) t route st) as [[new unr']|e]; inversion H; subst; clear H.
  exists new. split; [reflexivity|]. cbv zeta in Hspec. simpl in Hspec. unfold step_or_stay.
  destruct (tbl_step wf_table (wstatus (c_ws c)) (wf_task_event_name (c_graph c) (c_ws c) t route st)) as [n|].
  - destruct Hspec as [E|[E _]]; [right; exact E|left; exact E].
  - right; exact Hspec.
Qed.

Lemma pstat_set_status : forall c n k, pstat (set_ws c (ws_set_status (c_ws c) n)) k = pstat c k.
Proof. intros; reflexivity. Qed.

Lemma kinv_failed : forall c, wstatus (c_ws c) = S_FAILED -> kinv c.
Proof.
  intros c H. unfold kinv. rewrite H. split; [simpl; tauto|]. repeat split; intro X; simpl in X; intuition discriminate.
Qed.

Lemma kinv_of_state : forall c s, winv c -> kinv_of s (has_active_tasks (c_ws c)) (stgb c) ->
  In s sys_wf_statuses /\ (In s [S_PAUSED; S_CANCELED; S_SUCCEEDED] -> ~ act c) /\ (s = S_SUCCEEDED -> stgb c = false) /\
  (In s [S_PAUSING; S_CANCELING] -> act c) /\ (In s [S_RUNNING; S_RESUMING] -> act c \/ stgb c = true).
Proof.
  intros c s Hw [K1 [K2 [K3 [K4 K5]]]]. pose proof (has_active_iff c Hw) as A. pose proof (has_active_false_iff c Hw) as A'.
  split; [exact K1|]. split; [intro X; apply A'; exact (K2 X)|]. split; [exact K3|]. split; [intro X; apply A; exact (K4 X)|].
  intro X. destruct (K5 X) as [Y|Y]; [left; apply A; exact Y|right; exact Y].
Qed.

Lemma kinv_state_of : forall c, winv c -> kinv c -> kinv_of (wstatus (c_ws c)) (has_active_tasks (c_ws c)) (stgb c).
Proof.
  intros c Hw [K1 [K2 [K3 [K4 K5]]]]. pose proof (has_active_iff c Hw) as A. pose proof (has_active_false_iff c Hw) as A'.
  split; [exact K1|]. split; [intro X; apply A'; exact (K2 X)|]. split; [exact K3|]. split; [intro X; apply A; exact (K4 X)|].
  intro X. destruct (K5 X) as [Y|Y]; [left; apply A; exact Y|right; exact Y].
Qed.

Lemma wf_event_kinv : forall t route st c c' unr,
  winv c -> kpre c -> wf_task_event_M t route st c = (c', Val unr) -> In st simple_statuses ->
  (st = S_RUNNING -> act c) -> (st = S_RETRYING -> stgb c = true) ->
  (In (wstatus (c_ws c)) [S_RUNNING; S_RESUMING; S_PAUSING; S_CANCELING] ->
   has_next_tasks (c_graph c) (c_ws c) t route = true -> act c \/ stgb c = true) ->
  kinv c' /\ wstatus (c_ws c') <> S_UNSET.
Proof.
  intros t route st c c' unr Hw [P1 [P2 [P3 P4]]] H Hst Hrun Hret Hnt.
  destruct (wf_task_event_eff _ _ _ _ _ _ H) as [n [-> Hn]].
  destruct Hn as [->|Hn]; [split; [apply kinv_failed; reflexivity|discriminate]|].
  pose proof (has_active_iff c Hw) as A. pose proof (has_active_false_iff c Hw) as A'.
  destruct (F_task_event_kinv (wstatus (c_ws c)) st
              (has_next_tasks (c_graph c) (c_ws c) t route || has_barrier_next (c_graph c) (c_ws c) t route)
              (has_active_tasks (c_ws c)) (has_canceling_tasks (c_ws c) || has_canceled_tasks (c_ws c))
              (has_pausing_tasks (c_ws c) || has_paused_tasks (c_ws c)) (stgb c)
              (has_next_tasks (c_graph c) (c_ws c) t route) P1 P2 Hst) as [K U].
  - intro X. apply A'. exact (P3 X).
  - exact P4.
  - intro X. apply A. exact (Hrun X).
  - exact Hret.
  - intros X Y. destruct (Hnt X Y) as [Z|Z]; [left; apply A; exact Z|right; exact Z].
  - unfold wf_task_event_name in Hn. fold (stgb c) in Hn. rewrite <- Hn in K, U. split; [|exact U].
    exact (kinv_of_state c n Hw K).
Qed.

Lemma np_of_event : forall c t route st n, winv c -> simple c -> npause c -> In st simple_statuses ->
  (n = S_FAILED \/ n = step_or_stay (wstatus (c_ws c)) (wf_task_event_name (c_graph c) (c_ws c) t route st)) ->
  In n sys_wf_statuses /\ ~ In n [S_PAUSING; S_PAUSED].
Proof.
  intros c t route st n Hw Hs [N1 N2] Hst [-> | ->]; [split; [simpl; tauto|simpl; intuition discriminate]|].
  unfold wf_task_event_name. rewrite (no_pause_flags c Hw Hs). apply F_np_task_event; assumption.
Qed.

Lemma has_staged_iff : forall w, has_staged_tasks w = true <-> exists s, In s (staged w) /\ s_ready s = true /\ s_completed s = false.
Proof.
  intro w. unfold has_staged_tasks, staged_filtered. split.
  - intro H. destruct (filter _ (staged w)) as [|s l] eqn:E; [discriminate|].
    assert (Hin : In s (filter (fun s => s_ready s && negb (s_completed s)) (staged w))) by (rewrite E; left; reflexivity).
    apply filter_In in Hin. destruct Hin as [Hin Hb]. apply andb_prop in Hb. destruct Hb as [Hb1 Hb2].
    apply negb_true_iff in Hb2. exists s; auto.
  - intros [s [Hin [Hr Hc]]].
    assert (Hf : In s (filter (fun s => s_ready s && negb (s_completed s)) (staged w))).
    { apply filter_In. split; [exact Hin|]. rewrite Hr, Hc. reflexivity. }
    destruct (filter _ (staged w)); [destruct Hf|reflexivity].
Qed.

Lemma has_staged_incl : forall w w', (forall s, In s (staged w') -> In s (staged w)) ->
  has_staged_tasks w' = true -> has_staged_tasks w = true.
Proof.
  intros w w' H Hs. apply has_staged_iff in Hs. destruct Hs as [s [Hin Hp]]. apply has_staged_iff. exists s; split; [apply H; exact Hin|exact Hp].
Qed.

Lemma has_staged_same : forall w w', staged w' = staged w -> has_staged_tasks w' = has_staged_tasks w.
Proof. intros w w' H. unfold has_staged_tasks, staged_filtered. rewrite H. reflexivity. Qed.

Lemma kinv_transport : forall c c', wstatus (c_ws c') = wstatus (c_ws c) -> (forall k, pstat c' k = pstat c k) ->
  stgb c' = stgb c -> kinv c -> kinv c'.
Proof.
  intros c c' Hw Hp Hs [K1 [K2 [K3 [K4 K5]]]]. pose proof (act_same c c' Hp) as E.
  unfold kinv. rewrite Hw, Hs. repeat split; auto.
  - intros X Y. apply E in Y. exact (K2 X Y).
  - intro X. apply E. exact (K4 X).
  - intro X. destruct (K5 X) as [Y|Y]; [left; apply E; exact Y|right; exact Y].
Qed.

Lemma kinv_Rflag : forall c c', Rflag c c' -> kinv c -> kinv c'.
Proof.
  intros c c' [F [S W]] K. apply (kinv_transport c c'); [exact W|apply pstat_Rfr; exact F| |exact K].
  unfold stgb. apply has_staged_same; exact S.
Qed.

Lemma kinv_same_ws : forall c c', c_ws c' = c_ws c -> kinv c -> kinv c'.
Proof.
  intros c c' H K. apply (kinv_transport c c'); [rewrite H; reflexivity| |unfold stgb; rewrite H; reflexivity|exact K].
  intro k. unfold pstat. rewrite H. reflexivity.
Qed.

Lemma winv_same_ws : forall c c', c_ws c' = c_ws c -> winv c -> winv c'.
Proof. intros c c' H. apply winv_same; rewrite H; reflexivity. Qed.

Lemma Rfr_winv_tasks : forall c c', Rfr c c' -> tasks_ok (c_ws c) -> tasks_ok (c_ws c').
Proof.
  intros c c' [T [S _]] [Hnd Ht]. split; [rewrite T; exact Hnd|]. intros k i Hin. rewrite T in Hin.
  destruct (Ht _ _ Hin) as [r [Hr Hk]].
  assert (E : nth_error (map sig (sequence (c_ws c'))) i = nth_error (map sig (sequence (c_ws c))) i) by (rewrite S; reflexivity).
  rewrite !nth_error_map, Hr in E. destruct (nth_error (sequence (c_ws c')) i) as [r'|]; [|discriminate].
  exists r'; split; [reflexivity|]. simpl in E. unfold sig in E. inversion E. unfold key_of in *. congruence.
Qed.

Section Calls.
Variable ev : string -> dict -> evalres.

Lemma vw_pre_main : forall t route evt ts s0 e0, task_has_items ts = false ->
  vpres Rw (pre_main ev t route evt ts s0 e0).
Proof.
  intros t route evt ts s0 e0 Hts. unfold pre_main, pre_machine.
  pose proof (vw_sel1 ev) as H1. pose proof (vw_sel2 ev) as H2. pose proof vw_unstage as H3. pose proof vw_item as H4.
  pose proof vw_logfail as H5. pose proof vw_setst as H6. pose proof (vw_retrying ev) as H7.
  pose proof (vw_completion ev t route evt ts) as H8. pose proof w_get_rec as H9. pose proof vw_get_rec as H10.
  sw Rw_refl Rw_trans ltac:(first [assumption|apply H9]) ltac:(first [assumption|apply H1|apply H2|apply H3|apply H4|apply H5|apply H6|apply H7|apply H8; assumption|apply H10]).
Qed.

Lemma prefix_winv : forall t route evt c cp p, winv c -> c_init c = true -> no_items (c_spec c) = true ->
  uts_prefix ev t route evt c = (cp, Val p) -> winv cp.
Proof.
  intros t route evt c cp p Hw Hi Hn H. destruct (prefix_open ev _ _ _ _ _ _ Hi H) as [ts [_ [Ets Hm]]].
  exact (vw_pre_main _ _ _ _ _ _ (spec_no_items _ _ _ Hn Ets) _ _ _ Hm Hw).
Qed.

Lemma prefix_def : forall t route evt c cp p, uts_prefix ev t route evt c = (cp, Val p) -> Rdef c cp.
Proof. intros t route evt c cp p H. exact (pd_uts_prefix ev t route evt _ _ _ H). Qed.

Lemma sel_staged_incl : forall t route evt c c3 idx, sel_post t route evt c c3 idx ->
  forall s, In s (staged (c_ws c3)) -> In s (staged (c_ws c)).
Proof. intros t route evt c c3 idx [_ [H _]] s Hin. rewrite H in Hin. eapply staged_remove_task_incl; exact Hin. Qed.

Lemma sel_ncmd_le : forall t route evt c c3 idx, sel_post t route evt c c3 idx -> ncmd c3 <= ncmd c.
Proof.
  intros t route evt c c3 idx [_ [H _]]. unfold ncmd at 1. rewrite H.
  pose proof (ncmd_remove_task_le c t route) as L. unfold ncmd in L at 1. simpl in L. exact L.
Qed.

Lemma sel_wstatus : forall t route evt c c3 idx, sel_post t route evt c c3 idx ->
  wstatus (c_ws c3) = wstatus (c_ws c) \/ wstatus (c_ws c3) = S_FAILED.
Proof.
  intros t route evt c c3 idx [[[_ [_ [_ [_ [A _]]]]]|[_ [_ [_ [_ [_ [_ [_ [_ [_ A]]]]]]]]]] _]; [left; exact A|exact A].
Qed.

Lemma machine_wstatus : forall t route evt c3 cp p idx, machine_post t route evt c3 cp p idx ->
  wstatus (c_ws cp) = wstatus (c_ws c3) \/ wstatus (c_ws cp) = S_FAILED.
Proof. intros t route evt c3 cp p idx (r & ns & _ & _ & _ & _ & _ & _ & _ & W & _). exact W. Qed.

Lemma wstatus_chain : forall (a b c : status), (b = a \/ b = S_FAILED) -> (c = b \/ c = S_FAILED) -> (c = a \/ c = S_FAILED).
Proof. intros a b c [H1|H1] [H2|H2]; subst; auto. Qed.

(* a returning call: the prefix, what it leaves of the records, and the tail that remains to run *)
Lemma call_open : forall rec t route evt c c', winv c -> c_init c = true -> no_items (c_spec c) = true -> not_item evt ->
  uts_body ev rec t route evt c = (c', Val tt) ->
  exists cp p idx c3,
    uts_prefix ev t route evt c = (cp, Val p) /\ sel_post t route evt c c3 idx /\ machine_post t route evt c3 cp p idx /\
    winv cp /\ Rdef c cp /\ (wstatus (c_ws cp) = wstatus (c_ws c) \/ wstatus (c_ws cp) = S_FAILED) /\
    uts_tail ev rec t route (po_ts p) idx (po_old p) (po_new p) (po_compl p) cp = (c', Val tt).
Proof.
  intros rec t route evt c c' Hw Hi Hn Hni H.
  rewrite body_eq in H. apply bind_val_inv' in H. destruct H as [cp [p [Ep Htl]]]. unfold tail_of in Htl.
  destruct (prefix_eff ev t route evt c cp p Hw Hi Hn Hni Ep) as [idx [c3 [Hsel [Hmach _]]]].
  assert (Hpi : po_idx p = idx) by (destruct Hmach as [? [? [_ [_ [X _]]]]]; exact X). rewrite Hpi in Htl.
  exists cp, p, idx, c3. split; [exact Ep|]. split; [exact Hsel|]. split; [exact Hmach|].
  split; [exact (prefix_winv _ _ _ _ _ _ Hw Hi Hn Ep)|]. split; [exact (prefix_def _ _ _ _ _ _ Ep)|]. split; [|exact Htl].
  eapply wstatus_chain; [eapply sel_wstatus; exact Hsel|eapply machine_wstatus; exact Hmach].
Qed.

Definition nonactive (x : option (option status)) : Prop :=
  forall s, x = Some (Some s) -> status_in s ACTIVE_STATUSES = false.

Lemma act_change_one : forall c c' k, (forall k', k' <> k -> pstat c' k' = pstat c k') ->
  nonactive (pstat c k) -> nonactive (pstat c' k) -> (act c' <-> act c).
Proof.
  intros c c' k H N N'. unfold act. split; intros [k0 [s [Hp Hs]]].
  - destruct (tkey_eqb k0 k) eqn:E.
    + apply tkey_eqb_eq in E; subst k0. rewrite (N' _ Hp) in Hs; discriminate.
    + assert (Hne : k0 <> k) by (intro X; subst; rewrite tkey_eqb_refl in E; discriminate).
      exists k0, s. rewrite <- (H _ Hne). auto.
  - destruct (tkey_eqb k0 k) eqn:E.
    + apply tkey_eqb_eq in E; subst k0. rewrite (N _ Hp) in Hs; discriminate.
    + assert (Hne : k0 <> k) by (intro X; subst; rewrite tkey_eqb_refl in E; discriminate).
      exists k0, s. rewrite (H _ Hne). auto.
Qed.

Lemma kpre_weaken : forall c c', kpre c -> (wstatus (c_ws c') = wstatus (c_ws c) \/ wstatus (c_ws c') = S_FAILED) ->
  (act c' -> act c) -> (stgb c' = true -> stgb c = true) -> kpre c'.
Proof.
  intros c c' [P1 [P2 [P3 P4]]] [Hw|Hw] Ha Hs; unfold kpre; rewrite Hw.
  - repeat split; auto.
    + intros X Y. exact (P3 X (Ha Y)).
    + intro X. specialize (P4 X). destruct (stgb c') eqn:E; [rewrite (Hs eq_refl) in P4; discriminate|reflexivity].
  - split; [simpl; tauto|]. split; [discriminate|]. split; [intro X; simpl in X; intuition discriminate|discriminate].
Qed.

Lemma has_next_nil : forall g w t route b, g_next_transitions g t = [] -> has_next g w t route b = false.
Proof.
  intros g w t route b H. unfold has_next. destruct (ws_task_entry w t route); [|reflexivity].
  destruct (negb _); [reflexivity|]. rewrite H. reflexivity.
Qed.

Definition krun (c : cstate) : Prop :=
  In (wstatus (c_ws c)) [S_RUNNING; S_RESUMING; S_PAUSING; S_CANCELING; S_FAILED].

Lemma krun_kpre : forall c, krun c -> kpre c.
Proof.
  intros c H. unfold krun in H. unfold kpre.
  cbv [In S_RUNNING S_RESUMING S_PAUSING S_PAUSED S_CANCELING S_CANCELED S_SUCCEEDED S_FAILED S_UNSET sys_wf_statuses] in *.
  repeat split; try (intuition congruence).
Qed.

Lemma krun_weaken : forall c c', krun c -> (wstatus (c_ws c') = wstatus (c_ws c) \/ wstatus (c_ws c') = S_FAILED) -> krun c'.
Proof. intros c c' H [E|E]; unfold krun; rewrite E; [exact H|simpl; tauto]. Qed.

Lemma has_next_not_completed : forall g c t route b x, pstat c (t, route) = Some x ->
  ostatus_in x COMPLETED_STATUSES = false -> has_next g (c_ws c) t route b = false.
Proof.
  intros g c t route b x Hp Hx. destruct (pstat_some _ _ _ Hp) as [i [r [Ha [Hn Hr]]]].
  unfold has_next, ws_task_entry, ws_task_idx. simpl in Ha. rewrite Ha, Hn, Hr, Hx. reflexivity.
Qed.

Lemma log_unreachable_def : forall unr c c' x, log_unreachable unr c = (c', x) ->
  c_graph c' = c_graph c /\ c_spec c' = c_spec c /\ c_init c' = c_init c.
Proof.
  intros unr c c' x H. destruct (lt_log_unreachable unr _ _ _ H) as [_ [_ [_ [_ [_ [_ [Y1 [Y2 Y3]]]]]]]]. auto.
Qed.

Lemma winv_Rflag : forall c c', Rflag c c' -> winv c -> winv c'.
Proof.
  intros c c' [F [S _]] W. split; [eapply Rfr_winv_tasks; [exact F|exact (proj1 W)]|]. intros s Hin. rewrite S in Hin. exact (proj2 W _ Hin).
Qed.

(* the tail of a call that does not re-enter for a retry: the queue step, then the workflow machine on the status of
   the record (state cl), then the queued engine commands (state cn), then the terminal flag *)
Lemma tail_post : forall rec t route ts idx old new compl cp c',
  winv cp -> aget tkey_eqb (t, route) (tasks (c_ws cp)) = Some idx -> (forall ctx, compl <> Some (ctx, true)) ->
  uts_tail ev rec t route ts idx old new compl cp = (c', Val tt) ->
  exists queue cq cl cn st,
    uts_queue ev t route idx ts old new compl cp = (cq, Val queue) /\ winv cq /\ pstat cq (t, route) = Some (Some st) /\
    winv cl /\ (forall k, pstat cl k = pstat cq k) /\ staged (c_ws cl) = staged (c_ws cq) /\
    c_graph cl = c_graph cq /\ c_spec cl = c_spec cq /\ c_init cl = c_init cq /\
    (wstatus (c_ws cl) = S_FAILED \/
     wstatus (c_ws cl) = step_or_stay (wstatus (c_ws cq)) (wf_task_event_name (c_graph cq) (c_ws cq) t route st)) /\
    (kpre cq -> In st simple_statuses -> (st = S_RUNNING -> act cq) -> (st = S_RETRYING -> stgb cq = true) ->
     (In (wstatus (c_ws cq)) [S_RUNNING; S_RESUMING; S_PAUSING; S_CANCELING] ->
      has_next_tasks (c_graph cq) (c_ws cq) t route = true -> act cq \/ stgb cq = true) ->
     kinv cl /\ wstatus (c_ws cl) <> S_UNSET) /\
    forM_ queue (uts_call rec) cl = (cn, Val tt) /\ Rflag cn c'.
Proof.
  intros rec t route ts idx old new compl cp c' Hw Hptr Hc H.
  destruct (tail_inv ev _ _ _ _ _ _ _ _ _ _ H Hc) as [queue [cq [r [st [unr [cw [cl [cn [Eq [Hr [Hst [Ew [El [Wl [En Hfl]]]]]]]]]]]]]]].
  pose proof (vw_queue ev _ _ _ _ _ _ _ _ _ _ Eq Hw) as Wq. pose proof (vfr_queue ev _ _ _ _ _ _ _ _ _ _ Eq) as [Tq _].
  exists queue, cq, cl, cn, st. split; [exact Eq|]. split; [exact Wq|].
  split; [unfold pstat; rewrite Tq, Hptr, Hr, Hst; reflexivity|].
  destruct (wf_task_event_eff _ _ _ _ _ _ Ew) as [nw [Ecw Hnw]].
  destruct (log_unreachable_def _ _ _ _ El) as [G1 [G2 G3]].
  split. { apply (winv_same_ws cw); [exact Wl|]. subst cw. eapply winv_same; [| | |exact Wq]; reflexivity. }
  split. { intro k. unfold pstat. rewrite Wl. subst cw. reflexivity. }
  split. { rewrite Wl. subst cw. reflexivity. }
  split; [rewrite G1; subst cw; reflexivity|]. split; [rewrite G2; subst cw; reflexivity|]. split; [rewrite G3; subst cw; reflexivity|].
  split. { rewrite Wl. subst cw. simpl. destruct Hnw as [X|X]; [left|right]; exact X. }
  split; [|split; [exact En|exact Hfl]].
  intros Hk Hs Hrun Hret Hnt. destruct (wf_event_kinv t route st cq cw unr Wq Hk Ew Hs Hrun Hret Hnt) as [K1 K2].
  split; [apply (kinv_same_ws _ cl Wl); exact K1|rewrite Wl; exact K2].
Qed.

Lemma tail_none_post : forall rec t route ts idx old new cp c',
  winv cp -> aget tkey_eqb (t, route) (tasks (c_ws cp)) = Some idx ->
  uts_tail ev rec t route ts idx old new None cp = (c', Val tt) ->
  exists st, pstat cp (t, route) = Some (Some st) /\ winv c' /\
    (forall k, pstat c' k = pstat cp k) /\ staged (c_ws c') = staged (c_ws cp) /\
    c_graph c' = c_graph cp /\ c_spec c' = c_spec cp /\ c_init c' = c_init cp /\
    (wstatus (c_ws c') = S_FAILED \/
     wstatus (c_ws c') = step_or_stay (wstatus (c_ws cp)) (wf_task_event_name (c_graph cp) (c_ws cp) t route st)) /\
    (kpre cp -> In st simple_statuses -> (st = S_RUNNING -> act cp) -> (st = S_RETRYING -> stgb cp = true) ->
     (In (wstatus (c_ws cp)) [S_RUNNING; S_RESUMING; S_PAUSING; S_CANCELING] ->
      has_next_tasks (c_graph cp) (c_ws cp) t route = true -> act cp \/ stgb cp = true) ->
     kinv c' /\ wstatus (c_ws c') <> S_UNSET).
Proof.
  intros rec t route ts idx old new cp c' Hw Hptr H.
  destruct (tail_post _ _ _ _ _ _ _ None _ _ Hw Hptr ltac:(discriminate) H)
    as (queue & cq & cl & cn & st & Eq & _ & Hp & Wl & Pl & Sl & G1 & G2 & G3 & Hws & Hk & En & Hfl).
  unfold uts_queue in Eq. inversion Eq; subst cq queue; clear Eq. simpl in En. inversion En; subst cn; clear En.
  exists st. split; [exact Hp|]. split; [exact (winv_Rflag _ _ Hfl Wl)|].
  destruct Hfl as [Ffl [Sfl Wfl]].
  split; [intro k; rewrite (pstat_Rfr _ _ Ffl); apply Pl|]. split; [rewrite Sfl; exact Sl|].
  pose proof Ffl as [_ [_ [_ [F1 [F2 F3]]]]].
  split; [congruence|]. split; [congruence|]. split; [congruence|]. split; [rewrite Wfl; exact Hws|].
  intros A B C D E. destruct (Hk A B C D E) as [K1 K2].
  split; [apply (kinv_Rflag cl c'); [split; [exact Ffl|split; assumption]|exact K1]|rewrite Wfl; exact K2].
Qed.

Lemma tail_nil_eq : forall rec t route ts idx old new compl cp cq,
  uts_queue ev t route idx ts old new compl cp = (cq, Val []) -> (forall ctx, compl <> Some (ctx, true)) ->
  uts_tail ev rec t route ts idx old new compl cp = uts_tail ev rec t route ts idx old new None cq.
Proof.
  intros rec t route ts idx old new compl cp cq H Hc. unfold uts_tail.
  destruct compl as [[ctx [|]]|]; [exfalso; exact (Hc ctx eq_refl)|..]; unfold bind at 1; rewrite H; reflexivity.
Qed.

Lemma cmd_call : forall rec n rt name st c c',
  winv c -> c_init c = true -> no_items (c_spec c) = true -> graph_commands_inert (c_graph c) ->
  aget String.eqb n ENGINE_EVENT_MAP = Some (name, st) ->
  uts_body ev rec n rt (EvEngine name st) c = (c', Val tt) ->
  winv c' /\ Rdef c c' /\
  (forall k', k' <> (n, rt) -> pstat c' k' = pstat c k') /\
  (pstat c' (n, rt) = Some (Some S_SUCCEEDED) \/ pstat c' (n, rt) = Some (Some S_FAILED)) /\
  (forall s, In s (staged (c_ws c')) -> In s (staged (c_ws c))) /\
  ncmd c' + 1 <= ncmd c /\
  (kpre c -> nonactive (pstat c (n, rt)) -> kinv c' /\ wstatus (c_ws c') <> S_UNSET) /\
  (simple c -> npause c -> npause c').
Proof.
  intros rec n rt name st c c' Hw Hi Hn Hg Hmap H.
  assert (Hcmd : is_engine_command n = true) by (unfold is_engine_command, ahas; rewrite Hmap; reflexivity).
  destruct (Hg n Hcmd) as [Hnt Hnr].
  destruct (call_open rec n rt (EvEngine name st) c c' Hw Hi Hn I H) as (cp & p & idx & c3 & Ep & Hsel & Hmach & Hwp & [Dg [Ds Di]] & Hwcp & Htl).
  destruct (prefix_pstat _ _ _ _ _ _ _ _ Hw Hsel Hmach) as [Hother [r [ns [Hr [Ens [Hself [Hptr [Hpn [Hpo Hcase]]]]]]]]].
  destruct Hcase as [[_ [Hc _]]|[Hrs [_ [_ [s0 Hs0]]]]]; [congruence|].
  assert (Hnotrue : forall ctx, po_compl p <> Some (ctx, true)).
  { intros ctx Hc. pose proof (prefix_cmd_no_retry ev _ _ _ _ _ _ Hcmd Hnr Ep _ _ Hc). discriminate. }
  (* no transition leaves a command: the queue step only sets the terminal flag, and the tail is that of a call
     without completion *)
  destruct (tail_inv ev _ _ _ _ _ _ _ _ _ _ Htl Hnotrue) as [queue [cq [_ [_ [_ [_ [_ [_ [Eq _]]]]]]]]].
  assert (Hntp : g_next_transitions (c_graph cp) n = []) by (rewrite Dg; exact Hnt).
  destruct (queue_nil_flag ev _ _ _ _ _ _ _ _ _ _ Eq Hntp) as [-> [Fq [Sq Wq]]].
  rewrite (tail_nil_eq _ _ _ _ _ _ _ _ _ _ Eq Hnotrue) in Htl.
  pose proof (vw_queue ev _ _ _ _ _ _ _ _ _ _ Eq Hwp) as Wcq.
  assert (Hptrq : aget tkey_eqb (n, rt) (tasks (c_ws cq)) = Some idx) by (destruct Fq as [Tq _]; rewrite Tq; exact Hptr).
  destruct (tail_none_post _ _ _ _ _ _ _ _ _ Wcq Hptrq Htl) as [st' [Hpst [Hw' [Hp' [Hs' [G1 [G2 [G3 [Hws' Hk']]]]]]]]].
  pose proof (pstat_Rfr _ _ Fq) as Pq. rewrite Pq, Hself in Hpst.
  assert (Hns : ns = Some st' /\ (st' = S_SUCCEEDED \/ st' = S_FAILED)).
  { inversion Hpst as [Hx]. apply tpe_engine in Ens. unfold rstatus in Ens. rewrite Hrs in Ens.
    destruct ns as [x|]; simpl in Hx; [|rewrite Hrs in Hx; discriminate]. inversion Hx; subst x. split; [reflexivity|].
    destruct (F_engine_on_unset _ _ _ Hmap) as [F|[F|F]]; rewrite F in Ens; inversion Ens; auto. }
  destruct Hns as [-> Hst2]. simpl in Hself, Hpn.
  assert (Hst'' : In st' simple_statuses) by (destruct Hst2; subst; simpl; auto).
  destruct Hmach as (r0 & ns0 & _ & _ & _ & _ & _ & _ & _ & Wm & _ & _ & _ & Hsub & _ & _ & _ & _ & Hcnt & _ & _).
  assert (Hnr' : po_new p <> S_RETRYING) by (rewrite Hpn; destruct Hst2; subst; discriminate).
  pose proof Hsel as [_ [Hstg3 _]].
  assert (Hs0p : s_items s0 = None /\ s_id s0 = n).
  { split; [apply (proj2 Hw); unfold get_staged_task in Hs0; apply find_some in Hs0; tauto|].
    apply get_staged_matches in Hs0; tauto. }
  assert (Hrm : staged (ws_remove_staged_task (c_ws c) n rt) = staged_remove_first n rt (staged (c_ws c))).
  { unfold ws_remove_staged_task. rewrite Hs0. unfold items_any_active. rewrite (proj1 Hs0p). reflexivity. }
  assert (Hsub' : forall s, In s (staged (c_ws c')) -> In s (staged (c_ws c))).
  { intros s Hin. rewrite Hs', Sq in Hin. destruct (Hsub _ Hin) as [A|[A _]]; [|contradiction].
    rewrite Hstg3, Hrm in A. eapply In_staged_remove_first; exact A. }
  assert (Hoq : forall k', k' <> (n, rt) -> pstat cq k' = pstat c k') by (intros k0 Hk0; rewrite Pq; apply Hother; exact Hk0).
  assert (Hwsq : wstatus (c_ws cq) = wstatus (c_ws c) \/ wstatus (c_ws cq) = S_FAILED).
  { rewrite Wq. exact Hwcp. }
  split; [exact Hw'|].
  split; [destruct Fq as [_ [_ [_ [Q1 [Q2 Q3]]]]]; unfold Rdef; repeat split; try congruence; intro X; rewrite G3, Q3; exact (Di X)|].
  split; [intros k' Hk; rewrite Hp'; apply Hoq; exact Hk|].
  split; [rewrite Hp', Pq, Hself; destruct Hst2; subst; auto|].
  split; [exact Hsub'|].
  split.
  { specialize (Hcnt Hnr'). unfold ncmd at 1. rewrite Hs', Sq. fold (ncmd cp).
    assert (N3 : ncmd c3 + 1 = ncmd c).
    { unfold ncmd. rewrite Hstg3, Hrm. apply (ncmd_remove_first_cmd _ _ _ s0); [exact Hs0|].
      unfold cmdb. rewrite (proj2 Hs0p). exact Hcmd. }
    lia. }
  assert (Hselfq : pstat cq (n, rt) = Some (Some st')) by (rewrite Pq; exact Hself).
  split.
  2: { intros Hsim Hnp. unfold npause.
       apply (np_of_event cq n rt st' (wstatus (c_ws c')) Wcq); [|exact (npause_weaken _ _ Hnp Hwsq)|exact Hst''|exact Hws'].
       apply (simple_update c cq (n, rt) Hoq Hsim). intros x Hx. rewrite Hselfq in Hx. inversion Hx; subst x. exists st'; auto. }
  intros Hk Hna. apply Hk'; [|exact Hst''|intro X; destruct Hst2; subst; discriminate|intro X; destruct Hst2; subst; discriminate|].
  - apply (kpre_weaken c cq Hk Hwsq).
    + apply (act_change_one c cq (n, rt) Hoq Hna). intros s Hs. rewrite Hselfq in Hs. inversion Hs; subst. destruct Hst2; subst; reflexivity.
    + unfold stgb. apply has_staged_incl. intros s Hin. apply Hsub'. rewrite Hs'. exact Hin.
  - intros _ X. unfold has_next_tasks in X. rewrite has_next_nil in X; [discriminate|].
    destruct Fq as [_ [_ [_ [Q1 _]]]]. rewrite Q1. exact Hntp.
Qed.

Lemma retry_call : forall rec t route s0 c c',
  winv c -> c_init c = true -> no_items (c_spec c) = true -> is_engine_command t = false ->
  pstat c (t, route) = Some (Some s0) -> In s0 COMPLETED_STATUSES ->
  tbl_transition_valid task_table s0 S_RETRYING = true -> krun c ->
  uts_body ev rec t route retry_event c = (c', Val tt) ->
  winv c' /\ Rdef c c' /\ (forall k', k' <> (t, route) -> pstat c' k' = pstat c k') /\
  pstat c' (t, route) = Some (Some S_RETRYING) /\
  (forall s, In s (staged (c_ws c')) -> In s (staged (c_ws c)) \/ stg_matches t route s = true) /\
  ncmd c' <= ncmd c /\ (kinv c' /\ wstatus (c_ws c') <> S_UNSET) /\
  (simple c -> npause c -> npause c').
Proof.
  intros rec t route s0 c c' Hw Hi Hn Hcmd Hps Hcomp Hvalid Hkr H.
  destruct (call_open rec t route retry_event c c' Hw Hi Hn I H) as (cp & p & idx & c3 & Ep & Hsel & Hmach & Hwp & [Dg [Ds Di]] & Hwcp & Htl).
  destruct (prefix_pstat _ _ _ _ _ _ _ _ Hw Hsel Hmach) as [Hother [r [ns [Hr [Ens [Hself [Hptr [Hpn [Hpo Hcase]]]]]]]]].
  apply tpe_engine in Ens.
  assert (Hns : ns = Some S_RETRYING \/ (r_status r = None /\ ns = None)).
  { destruct Hcase as [[Hpc _]|[Hrs _]].
    - left. rewrite Hps in Hpc. inversion Hpc as [Hx]. unfold rstatus in Ens. rewrite <- Hx in Ens.
      destruct (F_task_retry_valid _ Hvalid) as [E|E]; [|rewrite E in Ens; symmetry; exact Ens].
      subst s0. simpl in Hcomp. intuition discriminate.
    - right. split; [exact Hrs|]. unfold rstatus in Ens. rewrite Hrs, F_retry_on_unset in Ens. symmetry; exact Ens. }
  assert (Hcn : po_compl p = None).
  { destruct Hmach as (r0 & ns0 & _ & _ & _ & _ & _ & _ & _ & _ & _ & _ & _ & _ & _ & M14 & _).
    apply M14. rewrite Hpn. destruct Hns as [->|[Hrs ->]]; [reflexivity|]. unfold rstatus; simpl. rewrite Hrs. reflexivity. }
  rewrite Hcn in Htl.
  destruct (tail_none_post _ _ _ _ _ _ _ _ _ Hwp Hptr Htl) as [st [Hpst [Hw' [Hp' [Hs' [G1 [G2 [G3 [Hws' Hk']]]]]]]]].
  rewrite Hself in Hpst.
  destruct Hns as [->|[Hrs ->]]; [|simpl in Hpst; rewrite Hrs in Hpst; discriminate].
  simpl in Hpst. inversion Hpst; subst st. simpl in Hself.
  assert (Hpnr : po_new p = S_RETRYING) by (rewrite Hpn; reflexivity).
  destruct Hmach as (r0 & ns0 & _ & _ & _ & _ & _ & _ & _ & Wm & _ & _ & _ & M12 & M13 & _ & _ & _ & _ & M18 & _).
  assert (Hkrp : krun cp).
  { apply (krun_weaken c cp Hkr). exact Hwcp. }
  split; [exact Hw'|]. split; [unfold Rdef; rewrite G1, G2, G3; auto|].
  split; [intros k' Hk0; rewrite Hp'; apply Hother; exact Hk0|].
  split; [rewrite Hp'; exact Hself|].
  split.
  { intros s Hin. rewrite Hs' in Hin. destruct (M12 _ Hin) as [A|[_ [A _]]]; [left; eapply sel_staged_incl; eassumption|right; exact A]. }
  split.
  { unfold ncmd at 1. rewrite Hs'. fold (ncmd cp). specialize (M18 Hcmd). pose proof (sel_ncmd_le _ _ _ _ _ _ Hsel). lia. }
  split.
  2: { intros Hsim Hnp.
       assert (Hsimp : simple cp).
       { apply (simple_update c cp (t, route) Hother Hsim). intros x Hx. rewrite Hself in Hx. inversion Hx; subst x.
         exists S_RETRYING. split; [reflexivity|simpl; auto 6]. }
       assert (Hnpp : npause cp).
       { apply (npause_weaken c cp Hnp). exact Hwcp. }
       unfold npause. apply (np_of_event cp t route S_RETRYING (wstatus (c_ws c')) Hwp Hsimp Hnpp); [simpl; auto 6|exact Hws']. }
  apply Hk'.
  - apply krun_kpre; exact Hkrp.
  - simpl; auto 6.
  - discriminate.
  - intros _. destruct (M13 Hpnr) as [s [Hin [_ [Hrd [_ Hc]]]]]. unfold stgb. apply has_staged_iff. exists s; auto.
  - intros _ X. unfold has_next_tasks in X. rewrite (has_next_not_completed _ cp t route true (Some S_RETRYING)) in X; [discriminate|exact Hself|reflexivity].
Qed.

Lemma tpe_action : forall w r st res ns, task_process_event w r (EvAction st res) = Val ns ->
  tbl_step task_table (rstatus r) (action_event_name st) = ns.
Proof.
  intros w r st res ns H. unfold task_process_event in H. cbn [ev_name] in H.
  destruct (negb (string_in (ACTION_EVENT_PREFIX ++ status_name st) (app ACTION_EXECUTION_EVENTS ENGINE_OPERATION_EVENTS)));
    [discriminate|]. apply task_table_step_val; exact H.
Qed.

Lemma ack_call : forall rec t route c c',
  winv c -> c_init c = true -> no_items (c_spec c) = true -> is_engine_command t = false ->
  ((exists s0, get_staged_task (c_ws c) t route = Some s0) \/ pstat c (t, route) = Some (Some S_RUNNING)) ->
  (forall x, pstat c (t, route) = Some x -> exists s, x = Some s /\ In s simple_statuses) ->
  In (wstatus (c_ws c)) [S_RUNNING; S_RESUMING; S_FAILED] ->
  uts_body ev rec t route ack_event c = (c', Val tt) ->
  winv c' /\ Rdef c c' /\ (forall k', k' <> (t, route) -> pstat c' k' = pstat c k') /\
  pstat c' (t, route) = Some (Some S_RUNNING) /\
  staged (c_ws c') = staged (ws_remove_staged_task (c_ws c) t route) /\
  ncmd c' <= ncmd c /\ kinv c' /\ In (wstatus (c_ws c')) [S_RUNNING; S_RESUMING; S_FAILED].
Proof.
  intros rec t route c c' Hw Hi Hn Hcmd Hoff Hsimple Hst H.
  destruct (call_open rec t route ack_event c c' Hw Hi Hn I H) as (cp & p & idx & c3 & Ep & Hsel & Hmach & Hwp & [Dg [Ds Di]] & Hwcp & Htl).
  destruct (prefix_pstat _ _ _ _ _ _ _ _ Hw Hsel Hmach) as [Hother [r [ns [Hr [Ens [Hself [Hptr [Hpn [Hpo Hcase]]]]]]]]].
  apply tpe_action in Ens.
  assert (Hns : ns = Some S_RUNNING).
  { destruct Hcase as [[Hpc [_ [_ Hnc]]]|[Hrs _]].
    - destruct (Hsimple _ Hpc) as [x [Hx Hxs]].
      assert (Hnc' : ostatus_in (r_status r) COMPLETED_STATUSES = false).
      { destruct Hoff as [[s0 Hs0]|Hrunning].
        - apply Hnc; [reflexivity|]. exists s0; split; [exact Hs0|].
          apply (proj2 Hw). unfold get_staged_task in Hs0. apply find_some in Hs0. tauto.
        - rewrite Hrunning in Hpc. inversion Hpc as [Hy]. reflexivity. }
      unfold rstatus in Ens. rewrite Hx in Ens, Hnc'. simpl in Hnc'.
      assert (Hx' : In x [S_UNSET; S_RETRYING; S_RUNNING]).
      { destruct Hxs as [E|[E|[E|[E|[E|[]]]]]]; subst x; simpl; auto; discriminate Hnc'. }
      rewrite (F_ack_step _ Hx') in Ens. symmetry; exact Ens.
    - unfold rstatus in Ens. rewrite Hrs in Ens. rewrite (F_ack_step S_UNSET) in Ens by (simpl; auto). symmetry; exact Ens. }
  rewrite Hns in Hself, Hpn. simpl in Hself, Hpn. clear Ens.
  destruct Hmach as (r0 & ns0 & _ & _ & _ & _ & _ & _ & _ & Wm & _ & _ & _ & M12 & _ & M14 & _ & _ & M17 & _ & M19).
  assert (Hcn : po_compl p = None) by (apply M14; rewrite Hpn; reflexivity).
  rewrite Hcn in Htl.
  destruct (tail_none_post _ _ _ _ _ _ _ _ _ Hwp Hptr Htl) as [st [Hpst [Hw' [Hp' [Hs' [G1 [G2 [G3 [Hws' Hk']]]]]]]]].
  rewrite Hself in Hpst. inversion Hpst; subst st.
  assert (Hstp : In (wstatus (c_ws cp)) [S_RUNNING; S_RESUMING; S_FAILED]).
  { destruct Hwcp as [E|E]; rewrite E; [exact Hst|simpl; auto]. }
  assert (Hactp : act cp) by (exists (t, route), S_RUNNING; split; [exact Hself|reflexivity]).
  split; [exact Hw'|]. split; [unfold Rdef; rewrite G1, G2, G3; auto|].
  split; [intros k' Hk0; rewrite Hp'; apply Hother; exact Hk0|].
  split; [rewrite Hp'; exact Hself|].
  assert (Hnr : po_new p <> S_RETRYING) by (rewrite Hpn; discriminate).
  split.
  { rewrite Hs', M19; [destruct Hsel as [_ [X _]]; exact X|rewrite Hpn; reflexivity|exact Hnr]. }
  split.
  { unfold ncmd at 1. rewrite Hs'. fold (ncmd cp). specialize (M17 Hnr). pose proof (sel_ncmd_le _ _ _ _ _ _ Hsel). lia. }
  split.
  - apply Hk'.
    + apply krun_kpre. unfold krun. clear - Hstp. simpl in Hstp. simpl. tauto.
    + simpl; auto.
    + intros _; exact Hactp.
    + discriminate.
    + intros _ _. left; exact Hactp.
  - destruct Hws' as [E|E]; [rewrite E; simpl; auto|]. rewrite E. unfold wf_task_event_name. apply F_ack_wf. exact Hstp.
Qed.

Lemma nonactive_done : forall x, x = Some (Some S_SUCCEEDED) \/ x = Some (Some S_FAILED) -> nonactive x.
Proof. intros x [-> | ->] s H; inversion H; reflexivity. Qed.

Lemma cmds_run : forall f queue c c',
  Forall cmd_pair queue -> winv c -> c_init c = true -> no_items (c_spec c) = true -> graph_commands_inert (c_graph c) ->
  forM_ queue (uts_call (update_task_state_fuel ev (S f))) c = (c', Val tt) ->
  winv c' /\ Rdef c c' /\
  (forall k', is_engine_command (fst k') = false -> pstat c' k' = pstat c k') /\
  (forall k', is_engine_command (fst k') = true ->
     pstat c' k' = pstat c k' \/ pstat c' k' = Some (Some S_SUCCEEDED) \/ pstat c' k' = Some (Some S_FAILED)) /\
  (forall s, In s (staged (c_ws c')) -> In s (staged (c_ws c))) /\
  ncmd c' + length queue <= ncmd c /\
  (kinv c -> wstatus (c_ws c) <> S_UNSET -> (forall k', is_engine_command (fst k') = true -> nonactive (pstat c k')) ->
   kinv c' /\ wstatus (c_ws c') <> S_UNSET) /\
  (simple c -> npause c -> npause c').
Proof.
  intros f queue; induction queue as [|[n rt] queue IH]; intros c c' Hq Hw Hi Hn Hg H.
  - simpl in H. inversion H; subst c'. split; [exact Hw|]. split; [apply Rdef_refl|].
    split; [reflexivity|]. split; [left; reflexivity|]. split; [auto|]. split; [simpl; lia|]. split; auto.
  - inversion Hq as [|x xs Hc Hq']; subst. unfold cmd_pair in Hc. simpl in Hc.
    cbn [forM_] in H. apply bind_val_inv' in H. destruct H as [c1 [[] [E1 H]]].
    unfold uts_call in E1. unfold engine_event in E1. unfold is_engine_command, ahas in Hc.
    destruct (aget String.eqb n ENGINE_EVENT_MAP) as [[name st]|] eqn:Emap; [|discriminate].
    rewrite uts_unfold in E1.
    destruct (cmd_call _ _ _ _ _ _ _ Hw Hi Hn Hg Emap E1) as [W1 [[D1 [D2 D3]] [P1 [P2 [S1 [N1 [K1 NP1]]]]]]].
    assert (Hg1 : graph_commands_inert (c_graph c1)) by (rewrite D1; exact Hg).
    assert (Hn1 : no_items (c_spec c1) = true) by (rewrite D2; exact Hn).
    destruct (IH _ _ Hq' W1 (D3 Hi) Hn1 Hg1 H) as [W2 [[E1' [E2' E3']] [Q1 [Q2 [S2 [N2 [K2 NP2]]]]]]].
    assert (Hcmdn : is_engine_command n = true) by (unfold is_engine_command, ahas; rewrite Emap; reflexivity).
    split; [exact W2|]. split; [unfold Rdef; repeat split; try congruence; auto|].
    split.
    { intros k' Hk. rewrite (Q1 _ Hk). apply P1. intro E; subst k'. simpl in Hk. congruence. }
    split.
    { intros k' Hk. destruct (Q2 _ Hk) as [A|A]; [|right; exact A]. rewrite A.
      destruct (tkey_eqb k' (n, rt)) eqn:E.
      - apply tkey_eqb_eq in E; subst k'. right. exact P2.
      - left. apply P1. intro X; subst k'. rewrite tkey_eqb_refl in E. discriminate. }
    split; [intros s Hin; apply S1; apply S2; exact Hin|].
    split; [simpl; lia|].
    split.
    2: { intros Hsim Hnp. apply NP2; [|apply NP1; assumption].
         apply (simple_update c c1 (n, rt) P1 Hsim). intros x Hx.
         destruct P2 as [P2|P2]; rewrite P2 in Hx; inversion Hx; subst x; eexists; split; try reflexivity; simpl; auto. }
    intros Kc Hu Hna.
    destruct (K1 (kinv_kpre _ Kc Hu) (Hna (n, rt) Hcmdn)) as [Kc1 Hu1].
    apply K2; [exact Kc1|exact Hu1|].
    intros k' Hk. destruct (tkey_eqb k' (n, rt)) eqn:E.
    + apply tkey_eqb_eq in E; subst k'. apply nonactive_done. exact P2.
    + rewrite P1; [apply Hna; exact Hk|]. intro X; subst k'. rewrite tkey_eqb_refl in E. discriminate.
Qed.

(* what the queue step must guarantee for the "nothing is stuck" clause: a satisfied next task is waiting
   in staging (SysNextProofs.queue_hnt, from the uniqueness of edge keys) *)
Definition queue_hnt_prop (g : graph) : Prop := forall t route idx ts old new ctx cp cq q,
  c_graph cp = g -> winv cp -> aget tkey_eqb (t, route) (tasks (c_ws cp)) = Some idx ->
  uts_queue ev t route idx ts old new (Some (ctx, false)) cp = (cq, Val q) -> new <> old ->
  In (wstatus (c_ws cq)) [S_RUNNING; S_RESUMING; S_PAUSING; S_CANCELING] ->
  has_next_tasks (c_graph cq) (c_ws cq) t route = true -> act cq \/ stgb cq = true.

Lemma report_call : forall f t route st res c c',
  winv c -> c_init c = true -> no_items (c_spec c) = true -> graph_commands_inert (c_graph c) ->
  queue_hnt_prop (c_graph c) ->
  pstat c (t, route) = Some (Some S_RUNNING) -> is_engine_command t = false -> In st COMPLETED_STATUSES ->
  (forall k', is_engine_command (fst k') = true -> nonactive (pstat c k')) ->
  krun c ->
  uts_body ev (update_task_state_fuel ev (S f)) t route (EvAction st res) c = (c', Val tt) ->
  winv c' /\ Rdef c c' /\
  (forall k', k' <> (t, route) -> is_engine_command (fst k') = false -> pstat c' k' = pstat c k') /\
  (forall k', is_engine_command (fst k') = true ->
     pstat c' k' = pstat c k' \/ pstat c' k' = Some (Some S_SUCCEEDED) \/ pstat c' k' = Some (Some S_FAILED)) /\
  (exists x, pstat c' (t, route) = Some (Some x) /\ In x [S_SUCCEEDED; S_FAILED; S_CANCELED; S_RETRYING]) /\
  ncmd c' <= ncmd c /\ (kinv c' /\ wstatus (c_ws c') <> S_UNSET) /\
  (simple c -> npause c -> npause c').
Proof.
  intros f t route st res c c' Hw Hi Hn Hg Hhnt Hps Hcmd Hstc Hna Hkr H.
  destruct (call_open _ t route (EvAction st res) c c' Hw Hi Hn I H) as (cp & p & idx & c3 & Ep & Hsel & Hmach & Hwp & [Dg [Ds Di]] & Hwcp & Htl).
  specialize (Di Hi).
  destruct (prefix_pstat _ _ _ _ _ _ _ _ Hw Hsel Hmach) as [Hother [r [ns [Hr [Ens [Hself [Hptr [Hpn [Hpo Hcase]]]]]]]]].
  apply tpe_action in Ens.
  pose proof Hmach as Hmach0.
  destruct Hmach as (r0 & ns0 & _ & _ & _ & _ & _ & _ & _ & Wm & _ & _ & _ & M12 & M13 & M14 & M15 & M16 & M17 & M18 & _).
  assert (Hkrp : krun cp).
  { apply (krun_weaken c cp Hkr). exact Hwcp. }
  assert (Hcp3 : ncmd cp <= ncmd c) by (specialize (M18 Hcmd); pose proof (sel_ncmd_le _ _ _ _ _ _ Hsel); lia).
  assert (Hns : exists n, ns = Some n /\ In n [S_SUCCEEDED; S_FAILED; S_CANCELED] /\ rstatus r = S_RUNNING).
  { destruct Hcase as [[Hpc _]|[Hrs _]].
    - rewrite Hps in Hpc. inversion Hpc as [Hx]. unfold rstatus in *. rewrite <- Hx in *.
      destruct (F_report_step _ Hstc) as [n [Hn1 Hn2]]. rewrite Hn1 in Ens. exists n. auto.
    - exfalso. unfold rstatus in Ens. rewrite Hrs, (F_report_on_unset _ Hstc) in Ens. subst ns.
      assert (Hcn : po_compl p = None) by (apply M14; rewrite Hpn; unfold rstatus; simpl; rewrite Hrs; reflexivity).
      rewrite Hcn in Htl.
      destruct (tail_none_post _ _ _ _ _ _ _ _ _ Hwp Hptr Htl) as [st' [Hpst _]].
      rewrite Hself in Hpst. simpl in Hpst. rewrite Hrs in Hpst. discriminate. }
  destruct Hns as [n [-> [Hn3 Hrun]]]. rewrite Hrun in Hpo.
  assert (Hpn' : po_new p = n) by (rewrite Hpn; reflexivity). clear Hpn; rename Hpn' into Hpn.
  assert (Hself' : pstat cp (t, route) = Some (Some n)) by (rewrite Hself; reflexivity). clear Hself; rename Hself' into Hself.
  assert (Hncomp : status_in n COMPLETED_STATUSES = true) by (destruct Hn3 as [E|[E|[E|[]]]]; subst n; reflexivity).
  assert (Hnne : n <> S_RUNNING) by (destruct Hn3 as [E|[E|[E|[]]]]; subst n; discriminate).
  assert (Hnnr : po_new p <> S_RETRYING) by (rewrite Hpn; destruct Hn3 as [E|[E|[E|[]]]]; subst n; discriminate).
  assert (Hcmdp : forall k', is_engine_command (fst k') = true -> pstat cp k' = pstat c k').
  { intros k' Hk. apply Hother. intro E; subst k'. simpl in Hk. congruence. }
  destruct (M15 (eq_ind_r (fun x => status_in x COMPLETED_STATUSES = true) Hncomp Hpn)) as [ctx [b Hcompl]].
  rewrite Hcompl in Htl. destruct b.
  - unfold uts_tail in Htl. rewrite uts_unfold in Htl.
    assert (Hvalid : tbl_transition_valid task_table n S_RETRYING = true) by (rewrite <- Hpn; eapply M16; exact Hcompl).
    assert (Hnp : no_items (c_spec cp) = true) by (rewrite Ds; exact Hn).
    assert (Hnc : In n COMPLETED_STATUSES) by (apply status_in_In; exact Hncomp).
    destruct (retry_call _ _ _ _ _ _ Hwp Di Hnp Hcmd Hself Hnc Hvalid Hkrp Htl) as [W' [[E1 [E2 E3]] [P1 [P2 [S1 [N1 [K12 NP]]]]]]].
    split; [exact W'|]. split; [unfold Rdef; repeat split; try congruence; auto|].
    split; [intros k' Hk _; rewrite (P1 _ Hk); apply Hother; exact Hk|].
    split; [intros k' Hk; left; rewrite P1; [apply Hcmdp; exact Hk|intro E; subst k'; simpl in Hk; congruence]|].
    split; [exists S_RETRYING; split; [exact P2|simpl; auto]|].
    split; [lia|]. split; [exact K12|].
    intros Hsim Hnpa. apply NP.
    + apply (simple_update c cp (t, route) Hother Hsim). intros x Hx. rewrite Hself in Hx. inversion Hx; subst x.
      exists n. split; [reflexivity|]. destruct Hn3 as [E|[E|[E|[]]]]; subst n; simpl; auto.
    + apply (npause_weaken c cp Hnpa). exact Hwcp.
  - assert (Hnt : forall ctx0 : dict, Some (ctx, false) <> Some (ctx0, true)) by (intros ctx0 X; inversion X).
    destruct (tail_post _ _ _ _ _ _ _ _ _ _ Hwp Hptr Hnt Htl)
      as (queue & cq & cl & cn & st' & Eq & Wq & Hst' & Wcl & Pcl & Scl & L1 & L2 & L3 & Hws & Hkl & En & Hfl).
    pose proof (vfr_queue ev _ _ _ _ _ _ _ _ _ _ Eq) as Fq.
    pose proof (queue_cmds ev _ _ _ _ _ _ _ _ _ _ Eq) as Hqc.
    pose proof (queue_count ev _ _ _ _ _ _ _ _ _ _ Eq) as Nq.
    assert (Hpq : forall k, pstat cq k = pstat cp k) by (apply pstat_Rfr; exact Fq).
    rewrite Hpq, Hself in Hst'. inversion Hst'; subst st'.
    assert (Hkrq : krun cq) by (apply (krun_weaken cp cq Hkrp); destruct Fq as [_ [_ [X _]]]; exact X).
    assert (Gq : c_graph cq = c_graph c /\ c_spec cq = c_spec c /\ c_init cq = true).
    { destruct Fq as [_ [_ [_ [X1 [X2 X3]]]]]. repeat split; congruence. }
    destruct Gq as [Gq1 [Gq2 Gq3]].
    assert (Hsimple : In n simple_statuses) by (destruct Hn3 as [E|[E|[E|[]]]]; subst n; simpl; auto).
    destruct (Hkl (krun_kpre _ Hkrq) Hsimple) as [Kcl Ucl].
    + intro X; contradiction.
    + intro X; destruct Hn3 as [E|[E|[E|[]]]]; subst n; discriminate.
    + intros Hrunning Hh. rewrite Hpo, Hpn in Eq.
      apply (Hhnt t route idx (po_ts p) S_RUNNING n ctx cp cq queue); auto.
    + assert (Hgl : graph_commands_inert (c_graph cl)) by (rewrite L1, Gq1; exact Hg).
      assert (Hnl : no_items (c_spec cl) = true) by (rewrite L2, Gq2; exact Hn).
      assert (Gl3 : c_init cl = true) by (rewrite L3; exact Gq3).
      destruct (cmds_run _ _ _ _ Hqc Wcl Gl3 Hnl Hgl En) as [Wn [[E1 [E2 E3]] [Q1 [Q2 [S2 [N2 [K2 NP2]]]]]]].
      pose proof (pstat_Rfr _ _ (proj1 Hfl)) as Pc'. destruct Hfl as [Ffl [Sfl Wfl]].
      pose proof Ffl as [_ [_ [_ [F1 [F2 F3]]]]].
      split; [exact (winv_Rflag cn c' (conj Ffl (conj Sfl Wfl)) Wn)|].
      split; [unfold Rdef; split; [congruence|split; [congruence|intro; rewrite F3; apply E3; exact Gl3]]|].
      split.
      { intros k' Hk Hc. rewrite Pc', (Q1 _ Hc), Pcl, Hpq. apply Hother; exact Hk. }
      split.
      { intros k' Hk. rewrite Pc'. destruct (Q2 _ Hk) as [A|A]; [left|right; exact A].
        rewrite A, Pcl, Hpq. apply Hcmdp; exact Hk. }
      split.
      { exists n. split; [rewrite Pc', (Q1 (t, route) Hcmd), Pcl, Hpq; exact Hself|]. clear - Hn3. simpl in Hn3. simpl. tauto. }
      split.
      { unfold ncmd at 1. rewrite Sfl. fold (ncmd cn).
        assert (X : ncmd cl = ncmd cq) by (unfold ncmd; rewrite Scl; reflexivity). lia. }
      assert (Hnal : forall k', is_engine_command (fst k') = true -> nonactive (pstat cl k')).
      { intros k' Hk. rewrite Pcl, Hpq, (Hcmdp _ Hk). apply Hna; exact Hk. }
      destruct (K2 Kcl Ucl Hnal) as [Kn Un].
      split.
      { split; [apply (kinv_Rflag cn c'); [split; [exact Ffl|split; assumption]|exact Kn]|rewrite Wfl; exact Un]. }
      intros Hsim Hnpa.
      assert (Hsimq : simple cq).
      { apply (simple_same cp cq Hpq). apply (simple_update c cp (t, route) Hother Hsim). intros x Hx. rewrite Hself in Hx.
        inversion Hx; subst x. exists n. split; [reflexivity|exact Hsimple]. }
      assert (Hnpq : npause cq).
      { apply (npause_weaken c cq Hnpa). eapply wstatus_chain; [exact Hwcp|]. destruct Fq as [_ [_ [X _]]]; exact X. }
      assert (Hnpl : npause cl) by (exact (np_of_event cq t route n _ Wq Hsimq Hnpq Hsimple Hws)).
      assert (Hsiml : simple cl) by (apply (simple_same cq cl Pcl); exact Hsimq).
      pose proof (NP2 Hsiml Hnpl) as [X1 X2]. unfold npause. rewrite Wfl. split; assumption.
Qed.

End Calls.

Section Offers.
Variable ev : string -> dict -> evalres.

Lemma state_pure_get_task_context : forall idxs, state_pure (get_task_context idxs).
Proof.
  intros idxs c. unfold get_task_context, bind, getws. destruct (get_task_context_from _ _ _); reflexivity.
Qed.

Lemma state_pure_get : forall A (k : cstate -> M A), (forall c, fst (k c c) = c) -> state_pure (bind get k).
Proof. intros A k H c. unfold bind, get. apply H. Qed.

Lemma bind_pure_inv : forall A B (m : M A) (f : A -> M B) c c' r, state_pure m -> bind m f c = (c', r) ->
  (exists a, m c = (c, Val a) /\ f a c = (c', r)) \/ (exists e, m c = (c, Exc e) /\ c' = c /\ r = Exc e).
Proof.
  intros A B m f c c' r Hp H. unfold bind in H. pose proof (Hp c) as Hc.
  destruct (m c) as [c1 [a|e]] eqn:E; simpl in Hc; subst c1.
  - left; exists a; auto.
  - right; exists e. inversion H; subst; auto.
Qed.

Lemma next_task_for_plain : forall s c c' r, no_items (c_spec c) = true -> next_task_for ev s c = (c', r) ->
  c' = c /\ forall o, r = Val o -> o <> None.
Proof.
  intros s c c' r Hn H. unfold next_task_for in H. unfold bind at 1 in H. unfold get at 1 in H.
  apply bind_pure_inv in H.
  2: { destruct (get_staged_task (c_ws c) (s_id s) (s_route s)); [apply state_pure_get_task_context|].
       destruct (ws_task_entry (c_ws c) (s_id s) (s_route s)); [apply state_pure_get_task_context|].
       destruct (nth_error (contexts (c_ws c)) 0); [apply state_pure_ret|apply state_pure_raise]. }
  destruct H as [[ctx0 [_ H]]|[e [_ [-> ->]]]]; [|split; [reflexivity|discriminate]].
  cbv zeta in H.
  destruct (spec_get_task (c_spec c) (s_id s)) as [ts|] eqn:Ets; [|inversion H; subst; split; [reflexivity|discriminate]].
  unfold bind at 1 in H. unfold ret at 1 in H.
  pose proof (spec_no_items _ _ _ Hn Ets) as Hts. unfold task_has_items in Hts.
  destruct (ts_with ts) eqn:Ew; [discriminate|].
  apply bind_pure_inv in H.
  2: { unfold render_task. rewrite Ew.
       apply state_pure_bind; [apply evaluate_pure|intro]. apply state_pure_bind; [apply evaluate_pure|intro]. apply state_pure_ret. }
  destruct H as [[acts [Ea H]]|[e [_ [-> ->]]]]; [|split; [reflexivity|discriminate]].
  assert (Hacts : acts <> []).
  { unfold render_task in Ea. rewrite Ew in Ea.
    assert (V : vpost (fun l : list action_spec => l <> []) (a <- evaluate ev (ts_action ts) (merge_dicts (dset "__current_task" (current_task_json (s_id s) (s_route s) None) ctx0) (state_ctx (c_ws c))) ;;
                  i <- evaluate ev (ts_input ts) (merge_dicts (dset "__current_task" (current_task_json (s_id s) (s_route s) None) ctx0) (state_ctx (c_ws c))) ;;
                  ret [{| a_action := a; a_input := i; a_item := None |}])).
    { apply vpost_bind; intro. apply vpost_bind; intro. apply vpost_ret. discriminate. }
    exact (V _ _ _ Ea). }
  apply bind_pure_inv in H.
  2: { destruct (truthy (ts_delay ts)); [|apply state_pure_ret].
       apply state_pure_bind; [destruct (ts_delay ts); first [apply evaluate_pure|apply state_pure_ret]|intro d].
       destruct (py_is_int d); [apply state_pure_ret|apply state_pure_raise]. }
  destruct H as [[dl [_ H]]|[e [_ [-> ->]]]]; [|split; [reflexivity|discriminate]].
  inversion H; subst. split; [reflexivity|]. intros o Ho. inversion Ho; subst.
  destruct acts; [contradiction|discriminate].
Qed.

Definition only_errors (c c1 : cstate) : Prop :=
  c_ws c1 = c_ws c /\ c_graph c1 = c_graph c /\ c_spec c1 = c_spec c /\ c_init c1 = c_init c.

Definition offer_try (s : stg) : M (option offer * bool) :=
  try_catch (o <- next_task_for ev s ;; ret (o, false))
            (fun e => log_error e (Some (s_id s)) (Some (s_route s)) None ;;; ret (None, true)).

Lemma offer_try_eff : forall s c c1 r, no_items (c_spec c) = true -> offer_try s c = (c1, Val r) ->
  only_errors c c1 /\ (snd r = false -> c1 = c /\ fst r <> None).
Proof.
  intros s c c1 r Hn H. unfold offer_try, try_catch in H.
  destruct ((o <- next_task_for ev s ;; ret (o, false)) c) as [c2 [x|e]] eqn:E.
  - inversion H; subst c2 x; clear H. apply bind_val_inv' in E. destruct E as [c3 [o [E1 E2]]].
    destruct (next_task_for_plain _ _ _ _ Hn E1) as [-> Ho]. inversion E2; subst. simpl.
    split; [repeat split; reflexivity|]. intros _. split; [reflexivity|apply Ho; reflexivity].
  - unfold bind in E. destruct (next_task_for ev s c) as [c3 [o|e']] eqn:E1; [inversion E|]. inversion E; subst c3 e'; clear E.
    destruct (next_task_for_plain _ _ _ _ Hn E1) as [-> _].
    apply bind_val_inv' in H. destruct H as [c4 [u [E4 H]]]. inversion H; subst. simpl.
    unfold log_error in E4. apply log_entry_error_eff in E4. split; [unfold only_errors; tauto|discriminate].
Qed.

Lemma offers_mapM : forall l c c1 rs, no_items (c_spec c) = true -> mapM offer_try l c = (c1, Val rs) ->
  only_errors c c1 /\ length rs = length l /\ (existsb snd rs = false -> c1 = c /\ Forall (fun r => fst r <> None) rs).
Proof.
  induction l as [|s l IH]; intros c c1 rs Hn H; simpl in H.
  - inversion H; subst. split; [repeat split; reflexivity|]. split; [reflexivity|]. intros _; split; [reflexivity|constructor].
  - apply bind_val_inv' in H. destruct H as [c2 [r [E1 H]]].
    apply bind_val_inv' in H. destruct H as [c3 [rs' [E2 H]]]. inversion H; subst; clear H.
    destruct (offer_try_eff _ _ _ _ Hn E1) as [[A1 [A2 [A3 A4]]] A5].
    assert (Hn2 : no_items (c_spec c2) = true) by (rewrite A3; exact Hn).
    destruct (IH _ _ _ Hn2 E2) as [[B1 [B2 [B3 B4]]] [B5 B6]].
    split; [unfold only_errors; repeat split; congruence|]. split; [simpl; rewrite B5; reflexivity|].
    simpl. intro Hx. apply orb_false_elim in Hx. destruct Hx as [Hx1 Hx2].
    destruct (A5 Hx1) as [-> A6]. destruct (B6 Hx2) as [-> B7]. split; [reflexivity|constructor; assumption].
Qed.

Lemma get_next_eff : forall c c1 offers, c_init c = true -> no_items (c_spec c) = true ->
  get_next_tasks ev c = (c1, Val offers) ->
  Rlt c c1 /\
  (offers <> [] -> c1 = c /\ (status_in (wstatus (c_ws c)) RUNNING_STATUSES = true \/ wstatus (c_ws c) = S_FAILED)) /\
  (offers = [] -> status_in (wstatus (c_ws c)) RUNNING_STATUSES = true -> stgb c = true -> wstatus (c_ws c1) = S_FAILED).
Proof.
  intros c c1 offers Hi Hn H. unfold get_next_tasks in H.
  unfold bind at 1 in H. rewrite (ensure_ws_inited ev c Hi) in H.
  unfold bind at 1 in H. unfold getws at 1 in H. cbv zeta in H.
  set (w := c_ws c) in *. set (stasks := staged_filtered w) in *.
  set (rem := if status_eqb (wstatus w) S_FAILED then filter s_run_on_fail stasks else []) in *.
  destruct (negb (status_in (wstatus w) RUNNING_STATUSES) && match rem with [] => true | _ => false end) eqn:Eg.
  { inversion H; subst. split; [apply Rlt_refl|]. split; [intro X; contradiction|].
    intros _ Hr _. rewrite Hr in Eg. discriminate. }
  set (todo := match rem with [] => stasks | _ => rem end) in *.
  apply bind_val_inv' in H. destruct H as [c2 [rs [E2 H]]].
  change (mapM offer_try todo c = (c2, Val rs)) in E2.
  destruct (offers_mapM _ _ _ _ Hn E2) as [[A1 [A2 [A3 A4]]] [A5 A6]].
  assert (Hst : status_in (wstatus w) RUNNING_STATUSES = true \/ wstatus w = S_FAILED).
  { destruct (status_in (wstatus w) RUNNING_STATUSES) eqn:Er; [left; reflexivity|right]. cbn [negb andb] in Eg.
    unfold rem in Eg. destruct (status_eqb (wstatus w) S_FAILED) eqn:Ef; [apply status_eqb_eq; exact Ef|discriminate]. }
  destruct (existsb snd rs) eqn:Ee.
  - apply bind_val_inv' in H. destruct H as [c3 [u [E3 H]]]. inversion H; subst c3 offers; clear H. destruct u.
    pose proof (vlt_request_failed _ _ _ E3) as L. pose proof (request_failed_fails _ _ E3) as F.
    split.
    { apply (Rlt_trans c c2 c1); [|exact L]. apply Rlt_same_ws; assumption. }
    split; [intro X; contradiction|]. intros _ _ _. exact F.
  - destruct (A6 eq_refl) as [-> A7]. inversion H; subst c1 offers; clear H.
    split; [apply Rlt_refl|]. split; [intros _; split; [reflexivity|exact Hst]|].
    intros Hoff Hr Hs. exfalso.
    (* something is ready, so todo is not empty and every try yields an offer *)
    assert (Htodo : todo <> []).
    { unfold todo. destruct rem eqn:Er; [|discriminate]. unfold stasks. unfold stgb, has_staged_tasks in Hs. fold w in Hs.
      destruct (staged_filtered w); [discriminate|discriminate]. }
    destruct todo as [|s0 todo']; [contradiction|]. destruct rs as [|[o b] rs']; [discriminate A5|].
    inversion A7 as [|x xs Hx Hxs]; subst. simpl in Hx. destruct o as [o|]; [|contradiction].
    simpl in Hoff.
    assert (X : In o (sort_by offer_leb (o :: flat_map (fun '(o0, _) => match o0 with Some x => [x] | None => [] end) rs'))).
    { unfold sort_by. 
      assert (G : forall (l acc : list offer) x, In x acc \/ In x l -> In x (fold_left (fun acc y => insert_sorted offer_leb y acc) l acc)).
      { induction l as [|y l IHl]; intros acc x [Hx'|Hx']; simpl; auto; try contradiction.
        - apply IHl. left. clear -Hx'. induction acc as [|z acc IHa]; simpl; [destruct Hx'|].
          destruct (offer_leb z y); simpl; destruct Hx' as [->|Hx']; auto.
        - destruct Hx' as [->|Hx']; [apply IHl; left|apply IHl; right; exact Hx'].
          clear. induction acc as [|z acc IHa]; simpl; [left; reflexivity|]. destruct (offer_leb z x); simpl; auto. }
      apply G. right. left. reflexivity. }
    rewrite Hoff in X. destruct X.
Qed.

End Offers.

Section Fresh.
Variable ev : string -> dict -> evalres.

Definition root_entry (t : string) : stg := mk_staged t 0 [0] [] true None.

Lemma forM_add_roots : forall l c,
  forM_ l (fun t => modws (fun w => ws_add_staged w (root_entry t))) c =
  (set_ws c (ws_set_staged (c_ws c) (app (staged (c_ws c)) (map root_entry l))), Val tt).
Proof.
  induction l as [|t l IH]; intro c; simpl.
  - rewrite app_nil_r. destruct c as [sp g inp par ini w er lg out]; destruct w; reflexivity.
  - unfold bind, modws at 1. rewrite IH. simpl. unfold ws_add_staged. simpl. rewrite <- app_assoc. reflexivity.
Qed.

Lemma ensure_fresh : forall c c1, c_init c = false -> c_ws c = empty_ws -> ensure_ws ev c = (c1, Val tt) ->
  c_init c1 = true /\ c_graph c1 = c_graph c /\ c_spec c1 = c_spec c /\
  sequence (c_ws c1) = [] /\ tasks (c_ws c1) = [] /\
  ((wstatus (c_ws c1) = S_FAILED /\ staged (c_ws c1) = []) \/
   (wstatus (c_ws c1) = S_UNSET /\ staged (c_ws c1) = map root_entry (g_roots (c_graph c)))).
Proof.
  intros c c1 Hi Hw H. unfold ensure_ws in H. unfold bind at 1 in H. unfold get at 1 in H. rewrite Hi in H.
  apply bind_val_inv' in H. destruct H as [c2 [u2 [E2 H]]]. unfold modify in E2. inversion E2; subst c2; clear E2.
  apply bind_val_inv' in H. destruct H as [c3 [[rin ierrs] [E3 H]]].
  pose proof (lt_render_input ev _ _ _ _ _ _ _ E3) as L3.
  apply bind_val_inv' in H. destruct H as [c4 [[rv verrs] [E4 H]]].
  pose proof (lt_render_vars ev _ _ _ _ _ _ _ E4) as L4.
  apply bind_val_inv' in H. destruct H as [c5 [u5 [E5 H]]].
  assert (L5 : Rlt c4 c5 /\ (app ierrs verrs <> [] -> wstatus (c_ws c5) = S_FAILED)).
  { destruct (app ierrs verrs) as [|e0 es]; [inversion E5; subst; split; [apply Rlt_refl|intro X; contradiction]|].
    apply bind_val_inv' in E5. destruct E5 as [c6 [u6 [E6 E5]]]. destruct u5.
    split; [eapply Rlt_trans; [eapply vlt_log_errors; exact E6|eapply vlt_request_failed; exact E5]|].
    intros _. eapply request_failed_fails; exact E5. }
  destruct L5 as [L5 F5].
  pose proof (Rlt_trans _ _ _ (Rlt_trans _ _ _ L3 L4) L5) as [A1 [A2 [A3 [A4 [A5 [A6 [A7 [A8 A9]]]]]]]].
  simpl in A1, A2, A3, A4, A5, A6, A7, A8, A9. rewrite Hw in A1, A2, A3, A6. simpl in A1, A2, A3, A6.
  apply bind_val_inv' in H. destruct H as [c6 [w6 [E6 H]]]. inversion E6; subst c6 w6; clear E6.
  destruct (status_in (wstatus (c_ws c5)) ABENDED_STATUSES) eqn:Eab.
  - inversion H; subst c1. repeat split; try assumption. left.
    destruct A6 as [A6|A6]; [rewrite A6 in Eab; discriminate|]. split; assumption.
  - apply bind_val_inv' in H. destruct H as [c7 [u7 [E7 H]]]. unfold modws in E7. inversion E7; subst c7; clear E7.
    rewrite forM_add_roots in H. inversion H; subst c1; clear H. simpl.
    repeat split; try assumption. right.
    destruct A6 as [A6|A6]; [|rewrite A6 in Eab; discriminate]. split; [exact A6|]. rewrite A3. reflexivity.
Qed.

Lemma ensure_then : forall A (k : unit -> M A) c c1, ensure_ws ev c = (c1, Val tt) -> c_init c1 = true ->
  bind (ensure_ws ev) k c = bind (ensure_ws ev) k c1.
Proof. intros A k c c1 H Hi. unfold bind. rewrite H, (ensure_ws_inited ev c1 Hi). reflexivity. Qed.

(* every API function begins with the lazy creation: a call is the creation, and, when that returns, the same call on
   the state it leaves (which is initialised) *)
Lemma bind_ensure : forall A (k : unit -> M A) c c1 r, ensure_ws ev c = (c1, r) ->
  match r with
  | Val _ => bind (ensure_ws ev) k c = bind (ensure_ws ev) k c1
  | Exc e => bind (ensure_ws ev) k c = (c1, Exc e)
  end.
Proof.
  intros A k c c1 [[]|e] H.
  - apply ensure_then; [exact H|]. exact (ensure_ws_init_after ev _ _ _ H).
  - unfold bind. rewrite H. reflexivity.
Qed.

Lemma get_next_ensure : forall c c1 r, ensure_ws ev c = (c1, r) ->
  match r with
  | Val _ => get_next_tasks ev c = get_next_tasks ev c1
  | Exc e => get_next_tasks ev c = (c1, Exc e)
  end.
Proof. intros c c1 r H. unfold get_next_tasks. exact (bind_ensure _ _ _ _ _ H). Qed.

Lemma api_exec_ensure : forall op c c1 r, ensure_ws ev c = (c1, r) ->
  match r with
  | Val _ => api_exec ev op c = api_exec ev op c1
  | Exc e => api_exec ev op c = (c1, Exc e)
  end.
Proof.
  intros op c c1 r H.
  assert (G : forall A B (k : unit -> M A) (b : A -> M B),
            match r with
            | Val _ => bind (bind (ensure_ws ev) k) b c = bind (bind (ensure_ws ev) k) b c1
            | Exc e => bind (bind (ensure_ws ev) k) b c = (c1, Exc e)
            end).
  { intros A B k b. rewrite !bind_assoc_pt. exact (bind_ensure _ _ _ _ _ H). }
  destruct op; cbn [api_exec]; unfold request_workflow_status, get_next_tasks, update_task_state, render_workflow_output,
    request_workflow_rerun, persist; try rewrite !uts_unfold; try unfold uts_body; first [apply G | exact (bind_ensure _ _ _ _ _ H)].
Qed.

End Fresh.

Lemma tpe_request_noop : forall c r st, winv c -> r_status r = Some S_RUNNING -> wev_in_vocab st = true ->
  task_process_event (c_ws c) r (EvWorkflow st) = Val None.
Proof.
  intros c r st [_ Hs] Hr Hv. unfold task_process_event. unfold wev_in_vocab in Hv. cbn [ev_name]. rewrite Hv. cbn [negb].
  unfold rstatus. rewrite Hr.
  assert (Hname : task_workflow_event_name (c_ws c) (r_id r) (r_route r) st = workflow_event_name st).
  { unfold task_workflow_event_name, workflow_event_name.
    destruct (status_in st (app PAUSE_STATUSES CANCEL_STATUSES)); [|reflexivity].
    destruct (get_staged_task (c_ws c) (r_id r) (r_route r)) as [s|] eqn:E; [|reflexivity].
    assert (Hp : s_items s = None) by (apply Hs; unfold get_staged_task in E; apply find_some in E; tauto).
    rewrite Hp. reflexivity. }
  rewrite Hname, task_table_step_running, F_request_keeps_running. reflexivity.
Qed.

Lemma push_loop_noop : forall c st, winv c -> simple c -> wev_in_vocab st = true ->
  forall l, (forall i r, In (i, r) l -> In (i, r) (ws_tasks_by_status (c_ws c) ACTIVE_STATUSES)) ->
  forM_ l (push_body st) c = (c, Val tt).
Proof.
  intros c st Hw Hs Hv. induction l as [|[i r0] l IH]; intro Hl; [reflexivity|].
  cbn [forM_]. unfold bind.
  assert (Hin : In (i, r0) (ws_tasks_by_status (c_ws c) ACTIVE_STATUSES)) by (apply Hl; left; reflexivity).
  destruct (tasks_by_status_In _ _ _ _ Hin) as [Hn Ha].
  assert (Hrun : r_status r0 = Some S_RUNNING).
  { unfold ws_tasks_by_status in Hin. apply filter_In in Hin. destruct Hin as [_ Hf]. apply andb_prop in Hf. destruct Hf as [_ Hp].
    apply ws_pointed_iff in Hp. destruct Hp as [k Hk].
    assert (Hps : pstat c k = Some (r_status r0)).
    { unfold pstat. rewrite (In_aget tkey_eqb tkey_eqb_eq _ _ _ (proj1 (proj1 Hw)) Hk), Hn. reflexivity. }
    destruct (Hs _ _ Hps) as [s [Hx Hss]]. rewrite Hx in Ha. simpl in Ha. rewrite Hx.
    rewrite (active_simple_running _ Hss Ha). reflexivity. }
  rewrite (push_body_run st i r0 c r0 None Hn (tpe_request_noop _ _ _ Hw Hrun Hv)). rewrite with_seq_same.
  apply IH. intros j r Hj. apply Hl. right; exact Hj.
Qed.

Lemma wf_workflow_event_eff : forall st c c' unr, wf_workflow_event_M st c = (c', Val unr) ->
  exists n, c' = set_ws c (ws_set_status (c_ws c) n) /\
    (n = S_FAILED \/ n = step_or_stay (wstatus (c_ws c)) (wf_workflow_event_name (c_ws c) st)).
Proof.
  intros st c c' unr H. unfold wf_workflow_event_M in H.
  destruct (wf_process_workflow_event (c_graph c) (c_ws c) st) as [[new unr']|e] eqn:E; inversion H; subst; clear H.
  exists new. split; [reflexivity|]. unfold wf_process_workflow_event in E.
  destruct (negb (string_in (wf_workflow_event_name (c_ws c) st) WORKFLOW_EXECUTION_EVENTS)); [discriminate|].
  unfold step_or_stay, tbl_step.
  destruct (tbl_row wf_table (wstatus (c_ws c))) as [row|]; [|discriminate].
  destruct (aget String.eqb (wf_workflow_event_name (c_ws c) st) row) as [n|].
  - destruct (negb (status_eqb n (wstatus (c_ws c))) && status_eqb n S_SUCCEEDED).
    + unfold fail_on_unreachable in E. destruct (get_unreachable_barriers _ _); inversion E; subst; [right; reflexivity|left; reflexivity].
    + inversion E; subst. right; reflexivity.
  - inversion E; subst. right; reflexivity.
Qed.

Lemma wf_workflow_event_name_eq : forall w st,
  wf_workflow_event_name w st =
  request_event_name_of st (has_active_tasks w)
    (status_eqb (wstatus w) S_PAUSED && status_in st [S_RUNNING; S_RESUMING]
     && negb (has_active_tasks w) && negb (has_staged_tasks w) && negb (has_paused_tasks w)).
Proof. intros; reflexivity. Qed.

Section Requests.
Variable ev : string -> dict -> evalres.

Lemma request_eff : forall c c' st, winv c -> simple c -> wev_in_vocab st = true ->
  request_status_core st c = (c', Val tt) ->
  exists n, c_ws c' = ws_set_status (c_ws c) n /\ c_graph c' = c_graph c /\ c_spec c' = c_spec c /\ c_init c' = c_init c /\
    (n = S_FAILED \/ n = step_or_stay (wstatus (c_ws c)) (wf_workflow_event_name (c_ws c) st)).
Proof.
  intros c c' st Hw Hs Hv H. rewrite request_status_core_eq in H. unfold bind at 1 in H.
  rewrite (push_loop_noop c st Hw Hs Hv) in H by auto.
  unfold request_tail in H.
  apply bind_val_inv' in H. destruct H as [c2 [unr [E2 H]]].
  destruct (wf_workflow_event_eff _ _ _ _ E2) as [n [-> Hn]].
  apply bind_val_inv' in H. destruct H as [c3 [u3 [E3 H]]].
  destruct (log_unreachable_run unr (set_ws c (ws_set_status (c_ws c) n))) as [c3' [E3' W3]].
  rewrite E3' in E3. inversion E3; subst c3'; clear E3.
  destruct (log_unreachable_def _ _ _ _ E3') as [G1 [G2 G3]]. simpl in G1, G2, G3.
  apply bind_val_inv' in H. destruct H as [c4 [w4 [E4 H]]]. inversion E4; subst c4 w4; clear E4.
  assert (Hc : c' = c3).
  { repeat match type of H with (if ?b then _ else _) _ = _ => destruct b end; try (inversion H; reflexivity).
    apply bind_val_inv' in H. destruct H as [c5 [u5 [_ H]]]. inversion H. }
  subst c'. exists n. rewrite W3. simpl. auto.
Qed.

End Requests.

Lemma akey_eqb_eq : forall a b : akey, akey_eqb a b = true <-> a = b.
Proof. intros a b. apply (tkey_eqb_eq a b). Qed.
Lemma akey_in_iff : forall k l, akey_in k l = true <-> In k l.
Proof.
  intros k l; unfold akey_in; rewrite existsb_exists; split.
  - intros [x [Hin He]]. apply akey_eqb_eq in He; subst; exact Hin.
  - intro H; exists k; split; [exact H|apply akey_eqb_eq; reflexivity].
Qed.
Lemma In_akey_add : forall k k0 l, In k (akey_add k0 l) <-> k = k0 \/ In k l.
Proof.
  intros k k0 l; unfold akey_add. destruct (akey_in k0 l) eqn:E.
  - apply akey_in_iff in E. split; [auto|intros [->|H]; assumption].
  - rewrite in_app_iff. simpl. split; [intros [H|[H|[]]]; auto|intros [->|H]; auto].
Qed.
Lemma In_akey_remove : forall k k0 l, In k (akey_remove k0 l) <-> In k l /\ k <> k0.
Proof.
  intros k k0 l; unfold akey_remove. rewrite filter_In. split.
  - intros [H1 H2]. split; [exact H1|]. intro E; subst. apply negb_true_iff in H2.
    rewrite (proj2 (akey_eqb_eq k0 k0) eq_refl) in H2. discriminate.
  - intros [H1 H2]. split; [exact H1|]. apply negb_true_iff. destruct (akey_eqb k0 k) eqn:E; [|reflexivity].
    apply akey_eqb_eq in E. congruence.
Qed.

Definition with_c (s : sys) (c : cstate) : sys := {| s_c := c; s_inflight := s_inflight s; s_fault := s_fault s |}.

Section StepForm.
Variable ev : string -> dict -> evalres.

Lemma sys_step_ensure : forall s op c1 r, ensure_ws ev (s_c s) = (c1, r) ->
  sys_step ev s op = s \/
  match r with
  | Val _ => sys_step ev s op = sys_step ev (with_c s c1) op
  | Exc _ => s_fault (sys_step ev s op) = true
  end.
Proof.
  intros s op c1 r H.
  assert (I1 : ensure_ws ev c1 = (c1, Val tt)) by (apply ensure_ws_inited; exact (ensure_ws_init_after ev _ _ _ H)).
  assert (Call : forall o, match r with
                           | Val _ => sys_call ev s o = sys_call ev (with_c s c1) o
                           | Exc _ => s_fault (sys_call ev s o) = true end).
  { intro o. unfold sys_call. cbn [with_c s_c s_inflight s_fault]. pose proof (api_exec_ensure ev o _ _ _ H) as E.
    destruct r as [u|e]; rewrite E; [reflexivity|]. cbn [s_fault is_exc]. apply orb_true_r. }
  assert (Req : forall st, sys_request ev s st = s \/ match r with
                           | Val _ => sys_request ev s st = sys_request ev (with_c s c1) st
                           | Exc _ => s_fault (sys_request ev s st) = true end).
  { intro st. unfold sys_request. destruct (status_in st request_statuses); [right|left; reflexivity].
    cbn [with_c s_c s_inflight s_fault]. pose proof (api_exec_ensure ev (OpRequest st) _ _ _ H) as E. rewrite H, I1.
    destruct r as [u|e]; rewrite E; [reflexivity|]. cbn [s_fault snd is_exc]. apply orb_true_r. }
  destruct op; cbn [sys_step].
  - apply Req.
  - right. unfold sys_poll. cbn [with_c s_c s_inflight s_fault]. pose proof (get_next_ensure ev _ _ _ H) as E.
    destruct r as [u|e]; rewrite E; reflexivity.
  - unfold sys_report. cbn [with_c s_c s_inflight s_fault].
    destruct (akey_in (t, route) (s_inflight s) && status_in st report_statuses); [right|left; reflexivity].
    pose proof (api_exec_ensure ev (OpEvent t route (EvAction st result)) _ _ _ H) as E.
    destruct r as [u|e]; rewrite E; [reflexivity|]. cbn [s_fault is_exc]. apply orb_true_r.
  - apply Req.
  - right. apply Call.
  - right. apply Call.
Qed.

End StepForm.

Section System.
Variable ev : string -> dict -> evalres.
Variable sp : wf_spec.
Variable g : graph.
Variables inputs parent : dict.
Hypothesis Hni : no_items sp = true.
Hypothesis Hinert : graph_commands_inert g.
Hypothesis Hroots_cmd : forall t, In t (g_roots g) -> is_engine_command t = false.
Hypothesis Hroots : g_roots g <> [].
Hypothesis Hhnt : queue_hnt_prop ev g.

(* proofs take the 11 conjuncts by position: I1 spec, I2 graph, I3 init, I4 winv, I5 simple, I6 ncmd, I7 kinv, I8 unset,
   I9 in flight => running, I10 running => in flight, I11 no command in flight *)
Definition cinv (c : cstate) (F : list akey) : Prop :=
  c_spec c = sp /\ c_graph c = g /\ c_init c = true /\
  winv c /\ simple c /\ ncmd c = 0 /\ kinv c /\
  (wstatus (c_ws c) = S_UNSET -> (forall k, pstat c k = None) /\ stgb c = true) /\
  (forall k, In k F -> pstat c k = Some (Some S_RUNNING)) /\
  (forall k, pstat c k = Some (Some S_RUNNING) -> In k F) /\
  (forall k, In k F -> is_engine_command (fst k) = false).

Definition sys_inv (s : sys) : Prop :=
  s_fault s = false ->
  (s_c s = init_cstate sp g inputs parent /\ s_inflight s = []) \/ cinv (s_c s) (s_inflight s).

Lemma cinv_Rlt : forall c c1 F, cinv c F -> Rlt c c1 -> cinv c1 F.
Proof.
  intros c c1 F (I1 & I2 & I3 & I4 & I5 & I6 & I7 & I8 & I9 & I10 & I11) L.
  pose proof (Rlt_winv _ _ L I4) as W. pose proof (pstat_Rfr _ _ (Rlt_Rfr _ _ L)) as P.
  destruct L as [A1 [A2 [A3 [A4 [A5 [A6 [A7 [A8 A9]]]]]]]].
  assert (S1 : stgb c1 = stgb c) by (unfold stgb; apply has_staged_same; exact A3).
  unfold cinv. split; [congruence|]. split; [congruence|]. split; [congruence|]. split; [exact W|].
  split; [intros k x Hk; rewrite P in Hk; exact (I5 _ _ Hk)|].
  split; [unfold ncmd; rewrite A3; exact I6|].
  split; [destruct A6 as [E|E]; [apply (kinv_transport c c1 E P S1 I7)|apply kinv_failed; exact E]|].
  split.
  { intro U. destruct A6 as [E|E]; [|rewrite E in U; discriminate]. rewrite E in U. destruct (I8 U) as [X Y].
    split; [intro k; rewrite P; apply X|rewrite S1; exact Y]. }
  split; [intros k Hk; rewrite P; apply I9; exact Hk|]. split; [intros k Hk; rewrite P in Hk; apply I10; exact Hk|exact I11].
Qed.

Lemma winv_fresh : forall c, sequence (c_ws c) = [] -> tasks (c_ws c) = [] ->
  (forall s, In s (staged (c_ws c)) -> stg_plain s) -> winv c.
Proof.
  intros c Hs Ht Hp. split; [|exact Hp]. split; [rewrite Ht; constructor|]. intros k i Hin. rewrite Ht in Hin. destruct Hin.
Qed.

Lemma pstat_no_tasks : forall c k, tasks (c_ws c) = [] -> pstat c k = None.
Proof. intros c k H. unfold pstat. rewrite H. reflexivity. Qed.

Lemma fresh_cinv : forall c1, ensure_ws ev (init_cstate sp g inputs parent) = (c1, Val tt) -> cinv c1 [].
Proof.
  intros c1 H. destruct (ensure_fresh ev (init_cstate sp g inputs parent) c1 eq_refl eq_refl H) as [E1 [E2 [E3 [E4 [E5 E6]]]]]. simpl in E2, E3.
  assert (Hp : forall k, pstat c1 k = None) by (intro k; apply pstat_no_tasks; exact E5).
  assert (Hplain : forall s, In s (staged (c_ws c1)) -> stg_plain s /\ is_engine_command (s_id s) = false /\ s_ready s = true).
  { intros s Hin. destruct E6 as [[_ E6]|[_ E6]]; rewrite E6 in Hin; [destruct Hin|].
    simpl in Hin. apply in_map_iff in Hin. destruct Hin as [t [<- Ht]]. split; [split; reflexivity|]. split; [apply Hroots_cmd; exact Ht|reflexivity]. }
  unfold cinv. split; [exact E3|]. split; [exact E2|]. split; [exact E1|].
  split; [apply winv_fresh; [exact E4|exact E5|intros s Hs; apply (Hplain s Hs)]|].
  split; [intros k x Hk; rewrite Hp in Hk; discriminate|].
  split.
  { unfold ncmd. assert (X : forall l, (forall s, In s l -> cmdb s = false) -> filter cmdb l = []).
    { induction l as [|a l IH]; intro Hl; [reflexivity|]. simpl. rewrite (Hl a (or_introl eq_refl)). apply IH. intros s Hs; apply Hl; right; exact Hs. }
    rewrite X; [reflexivity|]. intros s Hs. apply (Hplain s Hs). }
  split.
  { destruct E6 as [[E6 _]|[E6 _]]; [apply kinv_failed; exact E6|]. unfold kinv. rewrite E6.
    split; [simpl; tauto|]. repeat split; intro X; simpl in X; intuition discriminate. }
  split.
  { intro U. split; [exact Hp|]. destruct E6 as [[E6 _]|[_ E6]]; [rewrite E6 in U; discriminate|].
    unfold stgb. apply has_staged_iff. destruct (g_roots g) as [|t0 l] eqn:Er; [contradiction|].
    exists (root_entry t0). rewrite E6. simpl. rewrite Er. simpl. auto. }
  split; [intros k []|]. split; [intros k Hk; rewrite Hp in Hk; discriminate|intros k []].
Qed.

Lemma sys_statuses_lifecycle : forall s, In s sys_wf_statuses -> In s wf_statuses.
Proof. intros s H. simpl in *. intuition. Qed.

Lemma no_paused_tasks : forall c, winv c -> simple c -> has_paused_tasks (c_ws c) = false.
Proof.
  intros c Hw Hs. unfold has_paused_tasks.
  destruct (ws_tasks_by_status (c_ws c) [S_PAUSED; S_PENDING]) eqn:E; [reflexivity|exfalso].
  assert (X : ws_tasks_by_status (c_ws c) [S_PAUSED; S_PENDING] <> []) by (rewrite E; discriminate).
  apply (tasks_by_status_iff c _ Hw) in X. destruct X as [k [s [Hp Hin]]].
  destruct (Hs _ _ Hp) as [s' [Hx Hss]]. inversion Hx; subst s'.
  destruct Hss as [H|[H|[H|[H|[H|[]]]]]]; subst s; discriminate Hin.
Qed.

Lemma request_statuses_vocab : forall st, status_in st request_statuses = true -> wev_in_vocab st = true.
Proof.
  intros st H. apply status_in_In in H. simpl in H.
  destruct H as [H|[H|[H|[H|[H|[H|[H|[]]]]]]]]; subst st; vm_compute; reflexivity.
Qed.

Lemma step_request_core : forall c F st c' r, cinv c F -> status_in st request_statuses = true ->
  request_status_core st c = (c', r) -> cinv c' F.
Proof.
  intros c F st c' r I Hst H. pose proof I as (I1 & I2 & I3 & I4 & I5 & I6 & I7 & I8 & I9 & I10 & I11).
  destruct r as [[]|e].
  2: { assert (Hrow : workflow_status_has_row c).
       { apply lifecycle_status_has_row. apply sys_statuses_lifecycle. exact (proj1 I7). }
       rewrite (rejected_core_is_inert _ _ _ _ Hrow H). exact I. }
  destruct (request_eff _ _ _ I4 I5 (request_statuses_vocab _ Hst) H) as [n [W [G1 [G2 [G3 Hn]]]]].
  assert (P : forall k, pstat c' k = pstat c k) by (intro k; unfold pstat; rewrite W; reflexivity).
  assert (S1 : stgb c' = stgb c) by (unfold stgb; rewrite W; reflexivity).
  assert (Wn : wstatus (c_ws c') = n) by (rewrite W; reflexivity).
  assert (W' : winv c') by (eapply winv_same; [| | |exact I4]; rewrite W; reflexivity).
  assert (Ea : act c' <-> act c) by (apply act_same; exact P).
  unfold cinv. split; [congruence|]. split; [congruence|]. split; [congruence|]. split; [exact W'|].
  split; [intros k x Hk; rewrite P in Hk; exact (I5 _ _ Hk)|].
  split; [unfold ncmd; rewrite W; exact I6|].
  assert (Rest : (forall k, In k F -> pstat c' k = Some (Some S_RUNNING)) /\
                 (forall k, pstat c' k = Some (Some S_RUNNING) -> In k F) /\
                 (forall k, In k F -> is_engine_command (fst k) = false)).
  { split; [intros k Hk; rewrite P; apply I9; exact Hk|]. split; [intros k Hk; rewrite P in Hk; apply I10; exact Hk|exact I11]. }
  destruct Hn as [Hn|Hn].
  { split; [apply kinv_failed; rewrite Wn; exact Hn|]. split; [intro U; rewrite Wn, Hn in U; discriminate|exact Rest]. }
  rewrite wf_workflow_event_name_eq, (no_paused_tasks c I4 I5) in Hn. cbn [negb] in Hn. rewrite andb_true_r in Hn. fold (stgb c) in Hn.
  destruct (F_request_kinv (wstatus (c_ws c)) st (has_active_tasks (c_ws c)) (stgb c) (kinv_state_of c I4 I7)) as [K U].
  - intro E. destruct (I8 E) as [X Y]. split; [|exact Y]. apply (has_active_false_iff c I4).
    intros [k [x [Hp _]]]. rewrite X in Hp. discriminate Hp.
  - apply status_in_In in Hst. exact Hst.
  - rewrite <- Hn in K, U. split; [exact (kinv_transport (set_ws c (ws_set_status (c_ws c) n)) c' Wn P S1 (kinv_of_state c n I4 K))|]. split; [|exact Rest].
    intro E. rewrite Wn in E. destruct (I8 (U E)) as [X Y]. split; [intro k; rewrite P; apply X|rewrite S1; exact Y].
Qed.

Lemma cinv_cmd_nonactive : forall c F, cinv c F -> forall k', is_engine_command (fst k') = true -> nonactive (pstat c k').
Proof.
  intros c F (I1 & I2 & I3 & I4 & I5 & I6 & I7 & I8 & I9 & I10 & I11) k' Hk s Hp.
  destruct (I5 _ _ Hp) as [s' [Hx Hs]]. inversion Hx; subst s'.
  destruct (status_in s ACTIVE_STATUSES) eqn:Ea; [|reflexivity]. exfalso.
  rewrite (active_simple_running _ Hs Ea) in Hp. specialize (I11 _ (I10 _ Hp)). congruence.
Qed.

Lemma cinv_act_krun : forall c F, cinv c F -> act c -> krun c.
Proof.
  intros c F (I1 & I2 & I3 & I4 & I5 & I6 & I7 & I8 & I9 & I10 & I11) Ha.
  destruct I7 as [K1 [K2 _]]. unfold krun.
  assert (U : wstatus (c_ws c) <> S_UNSET).
  { intro X. destruct (I8 X) as [Y _]. destruct Ha as [k [s [Hp _]]]. rewrite Y in Hp. discriminate. }
  clear - K1 K2 U Ha.
  cbv [In sys_wf_statuses S_RUNNING S_RESUMING S_PAUSING S_PAUSED S_CANCELING S_CANCELED S_SUCCEEDED S_FAILED S_UNSET] in *.
  intuition.
Qed.

Lemma step_report_call : forall c F t route st res c', cinv c F -> In (t, route) F -> In st COMPLETED_STATUSES ->
  update_task_state ev t route (EvAction st res) c = (c', Val tt) -> cinv c' (akey_remove (t, route) F).
Proof.
  intros c F t route st res c' I Hin Hst H.
  pose proof I as (I1 & I2 & I3 & I4 & I5 & I6 & I7 & I8 & I9 & I10 & I11).
  assert (Hps : pstat c (t, route) = Some (Some S_RUNNING)) by (apply I9; exact Hin).
  assert (Hcmd : is_engine_command t = false) by (apply (I11 _ Hin)).
  assert (Hact : act c) by (exists (t, route), S_RUNNING; split; [exact Hps|reflexivity]).
  unfold update_task_state in H. rewrite uts_unfold in H.
  assert (Hn' : no_items (c_spec c) = true) by (rewrite I1; exact Hni).
  assert (Hg' : graph_commands_inert (c_graph c)) by (rewrite I2; exact Hinert).
  assert (Hh' : queue_hnt_prop ev (c_graph c)) by (rewrite I2; exact Hhnt).
  destruct (report_call ev 1 t route st res c c' I4 I3 Hn' Hg' Hh' Hps Hcmd Hst (cinv_cmd_nonactive _ _ I) (cinv_act_krun _ _ I Hact) H)
    as [W' [[D1 [D2 D3]] [P1 [P2 [[x [P3 P3']] [N' [[K' U'] _]]]]]]].
  unfold cinv. split; [congruence|]. split; [congruence|]. split; [exact (D3 I3)|]. split; [exact W'|].
  split.
  { intros k y Hk. destruct (tkey_eqb k (t, route)) eqn:E.
    - apply tkey_eqb_eq in E; subst k. rewrite P3 in Hk. inversion Hk; subst y. exists x. split; [reflexivity|].
      simpl in P3'. simpl. intuition.
    - assert (Hne : k <> (t, route)) by (intro X; subst; rewrite tkey_eqb_refl in E; discriminate).
      destruct (is_engine_command (fst k)) eqn:Ec.
      + destruct (P2 _ Ec) as [A|[A|A]]; rewrite A in Hk; [exact (I5 _ _ Hk)| |]; inversion Hk; subst y; eexists; split; try reflexivity; simpl; auto.
      + rewrite (P1 _ Hne Ec) in Hk. exact (I5 _ _ Hk). }
  split; [lia|]. split; [exact K'|]. split; [intro X; contradiction|].
  split.
  { intros k Hk. apply In_akey_remove in Hk. destruct Hk as [Hk Hne]. rewrite (P1 _ Hne (I11 _ Hk)). apply I9; exact Hk. }
  split; [|intros k Hk; apply In_akey_remove in Hk; apply I11; tauto].
  intros k Hk. apply In_akey_remove.
  destruct (tkey_eqb k (t, route)) eqn:E.
  - apply tkey_eqb_eq in E; subst k. rewrite P3 in Hk. inversion Hk; subst x. simpl in P3'. intuition discriminate.
  - assert (Hne : k <> (t, route)) by (intro X; subst; rewrite tkey_eqb_refl in E; discriminate).
    split; [|exact Hne]. destruct (is_engine_command (fst k)) eqn:Ec.
    + destruct (P2 _ Ec) as [A|[A|A]]; rewrite A in Hk; [|discriminate|discriminate].
      specialize (I11 _ (I10 _ Hk)). congruence.
    + rewrite (P1 _ Hne Ec) in Hk. apply I10; exact Hk.
Qed.

Lemma find_remove_first_other : forall t r t' r' l, (t', r') <> (t, r) ->
  find (stg_matches t' r') (staged_remove_first t r l) = find (stg_matches t' r') l.
Proof.
  intros t r t' r' l Hne; induction l as [|a l IH]; simpl; [reflexivity|].
  destruct (stg_matches t r a) eqn:E.
  - destruct (stg_matches t' r' a) eqn:E'; [|reflexivity]. exfalso. apply Hne.
    unfold stg_matches in E, E'. apply andb_prop in E; apply andb_prop in E'. destruct E as [A B], E' as [A' B'].
    apply String.eqb_eq in A, A'. apply Nat.eqb_eq in B, B'. congruence.
  - simpl. destruct (stg_matches t' r' a); [reflexivity|exact IH].
Qed.

Lemma get_staged_after_remove : forall w w' t r t' r', (t', r') <> (t, r) ->
  staged w' = staged (ws_remove_staged_task w t r) -> get_staged_task w' t' r' = get_staged_task w t' r'.
Proof.
  intros w w' t r t' r' Hne H. unfold get_staged_task. rewrite H. unfold ws_remove_staged_task.
  destruct (get_staged_task w t r); [|reflexivity]. destruct (items_any_active s); [reflexivity|]. simpl.
  apply find_remove_first_other; exact Hne.
Qed.

Lemma step_ack_call : forall c F t route c', cinv c F -> is_engine_command t = false ->
  ((exists s0, get_staged_task (c_ws c) t route = Some s0) \/ pstat c (t, route) = Some (Some S_RUNNING)) ->
  In (wstatus (c_ws c)) [S_RUNNING; S_RESUMING; S_FAILED] ->
  update_task_state ev t route ack_event c = (c', Val tt) ->
  cinv c' (akey_add (t, route) F) /\ In (wstatus (c_ws c')) [S_RUNNING; S_RESUMING; S_FAILED] /\
  pstat c' (t, route) = Some (Some S_RUNNING) /\
  (forall t' r', (t', r') <> (t, route) -> get_staged_task (c_ws c') t' r' = get_staged_task (c_ws c) t' r') /\
  (forall k', k' <> (t, route) -> pstat c' k' = pstat c k').
Proof.
  intros c F t route c' I Hcmd Hoff Hst H.
  pose proof I as (I1 & I2 & I3 & I4 & I5 & I6 & I7 & I8 & I9 & I10 & I11).
  unfold update_task_state in H. rewrite uts_unfold in H.
  assert (Hn' : no_items (c_spec c) = true) by (rewrite I1; exact Hni).
  destruct (ack_call ev _ t route c c' I4 I3 Hn' Hcmd Hoff (I5 (t, route)) Hst H)
    as [W' [[D1 [D2 D3]] [P1 [P2 [S' [N' [K' St']]]]]]].
  split; [|split; [exact St'|split; [exact P2|split; [|exact P1]]]].
  2: { intros t' r' Hne. eapply get_staged_after_remove; [exact Hne|exact S']. }
  unfold cinv. split; [congruence|]. split; [congruence|]. split; [exact (D3 I3)|]. split; [exact W'|].
  split.
  { intros k y Hk. destruct (tkey_eqb k (t, route)) eqn:E.
    - apply tkey_eqb_eq in E; subst k. rewrite P2 in Hk. inversion Hk; subst y. exists S_RUNNING; split; [reflexivity|simpl; auto].
    - assert (Hne : k <> (t, route)) by (intro X; subst; rewrite tkey_eqb_refl in E; discriminate).
      rewrite (P1 _ Hne) in Hk. exact (I5 _ _ Hk). }
  split; [lia|]. split; [exact K'|].
  split; [intro X; rewrite X in St'; simpl in St'; intuition discriminate|].
  split.
  { intros k Hk. apply In_akey_add in Hk. destruct (tkey_eqb k (t, route)) eqn:E.
    - apply tkey_eqb_eq in E; subst k. exact P2.
    - assert (Hne : k <> (t, route)) by (intro X; subst; rewrite tkey_eqb_refl in E; discriminate).
      rewrite (P1 _ Hne). apply I9. destruct Hk as [Hk|Hk]; [contradiction|exact Hk]. }
  split.
  { intros k Hk. apply In_akey_add. destruct (tkey_eqb k (t, route)) eqn:E.
    - apply tkey_eqb_eq in E; left; exact E.
    - assert (Hne : k <> (t, route)) by (intro X; subst; rewrite tkey_eqb_refl in E; discriminate).
      right. apply I10. rewrite <- (P1 _ Hne). exact Hk. }
  intros k Hk. apply In_akey_add in Hk. destruct Hk as [->|Hk]; [exact Hcmd|apply I11; exact Hk].
Qed.

Lemma then_ret_inv : forall A (m : M unit) (a : A) c c' x, (m ;;; ret a) c = (c', x) ->
  (x = Val a /\ m c = (c', Val tt)) \/ (exists e, x = Exc e /\ m c = (c', Exc e)).
Proof.
  intros A m a c c' x H. unfold bind in H. destruct (m c) as [c1 [[]|e]]; inversion H; subst; [left|right; exists e]; auto.
Qed.

Lemma orb_false_l_r : forall a b, a || b = false -> a = false /\ b = false.
Proof. intros [] []; simpl; auto. Qed.

Lemma ncmd_zero : forall c, ncmd c = 0 -> forall s, In s (staged (c_ws c)) -> is_engine_command (s_id s) = false.
Proof.
  intros c H s Hin. unfold ncmd in H. destruct (is_engine_command (s_id s)) eqn:E; [|reflexivity]. exfalso.
  assert (X : In s (filter cmdb (staged (c_ws c)))) by (apply filter_In; split; [exact Hin|exact E]).
  destruct (filter cmdb (staged (c_ws c))); [destruct X|discriminate].
Qed.

Lemma find_exists : forall A (f : A -> bool) l x, In x l -> f x = true -> exists y, find f l = Some y.
Proof.
  intros A f l; induction l as [|a l IH]; intros x Hin Hf; [destruct Hin|]. simpl. destruct (f a) eqn:E; [exists a; reflexivity|].
  destruct Hin as [->|Hin]; [congruence|]. eapply IH; eassumption.
Qed.

Lemma sys_request_val : forall s st, c_init (s_c s) = true -> status_in st request_statuses = true ->
  exists c' r, request_status_core st (s_c s) = (c', r) /\
    sys_request ev s st = {| s_c := c'; s_inflight := s_inflight s; s_fault := s_fault s |}.
Proof.
  intros s st Hi Hst. destruct (request_status_core st (s_c s)) as [c' r] eqn:E. exists c', r. split; [reflexivity|].
  unfold sys_request. rewrite Hst. cbn [api_exec]. unfold request_workflow_status, bind.
  rewrite (ensure_ws_inited ev _ Hi), E. cbn [snd is_exc]. rewrite orb_false_r. destruct r; reflexivity.
Qed.

Lemma sys_event_val : forall t route e c c' x, (update_task_state ev t route e ;;; ret RUnit) c = (c', x) -> is_exc x = false ->
  update_task_state ev t route e c = (c', Val tt).
Proof. intros t route e c c' x E Hx. destruct (then_ret_inv _ _ _ _ _ _ E) as [[_ X]|[e0 [X _]]]; [exact X|rewrite X in Hx; discriminate Hx]. Qed.

Lemma sys_ack_val : forall s t route, s_fault (sys_ack ev s (t, route)) = false ->
  exists c', update_task_state ev t route ack_event (s_c s) = (c', Val tt) /\ s_fault s = false /\
    sys_ack ev s (t, route) = {| s_c := c'; s_inflight := akey_add (t, route) (s_inflight s); s_fault := false |}.
Proof.
  intros s t route Hf. unfold sys_ack in *. cbn [fst snd api_exec] in *.
  destruct ((update_task_state ev t route ack_event ;;; ret RUnit) (s_c s)) as [c' x] eqn:E. cbn [s_fault] in Hf.
  apply orb_false_l_r in Hf. destruct Hf as [Hf1 Hf2]. exists c'. rewrite Hf1, Hf2. split; [|auto]. exact (sys_event_val _ _ _ _ _ _ E Hf2).
Qed.

Lemma sys_report_val : forall s t route st res, akey_in (t, route) (s_inflight s) && status_in st report_statuses = true ->
  s_fault (sys_report ev s t route st res) = false ->
  exists c', update_task_state ev t route (EvAction st res) (s_c s) = (c', Val tt) /\ s_fault s = false /\
    sys_report ev s t route st res = {| s_c := c'; s_inflight := akey_remove (t, route) (s_inflight s); s_fault := false |}.
Proof.
  intros s t route st res Hen Hf. unfold sys_report in *. rewrite Hen in *. cbn [api_exec] in *.
  destruct ((update_task_state ev t route (EvAction st res) ;;; ret RUnit) (s_c s)) as [c' x] eqn:E. cbn [s_fault] in Hf.
  apply orb_false_l_r in Hf. destruct Hf as [Hf1 Hf2]. exists c'. rewrite Hf1, Hf2. split; [|auto]. exact (sys_event_val _ _ _ _ _ _ E Hf2).
Qed.

Lemma sys_call_val : forall s op, s_fault (sys_call ev s op) = false ->
  exists c' a, api_exec ev op (s_c s) = (c', Val a) /\ s_fault s = false /\
    sys_call ev s op = {| s_c := c'; s_inflight := s_inflight s; s_fault := false |}.
Proof.
  intros s op Hf. unfold sys_call in *. destruct (api_exec ev op (s_c s)) as [c' [a|e]]; cbn [s_fault is_exc] in Hf;
    apply orb_false_l_r in Hf; destruct Hf as [Hf1 Hf2]; [|discriminate Hf2]. exists c', a. rewrite Hf1. auto.
Qed.

Lemma sys_ack_fault : forall keys s, s_fault s = true -> s_fault (fold_left (sys_ack ev) keys s) = true.
Proof.
  induction keys as [|k keys IH]; intros s H; [exact H|]. simpl. apply IH. unfold sys_ack.
  destruct (api_exec ev _ (s_c s)). simpl. rewrite H. reflexivity.
Qed.

Lemma sys_step_fault : forall s op, s_fault s = true -> s_fault (sys_step ev s op) = true.
Proof.
  intros s op H.
  assert (R : forall st, s_fault (sys_request ev s st) = true).
  { intro st. unfold sys_request. destruct (status_in st request_statuses); [|exact H]. destruct (api_exec ev _ (s_c s)). cbn [s_fault]. rewrite H. reflexivity. }
  assert (C : forall o, s_fault (sys_call ev s o) = true).
  { intro o. unfold sys_call. destruct (api_exec ev o (s_c s)). cbn [s_fault]. rewrite H. reflexivity. }
  destruct op; cbn [sys_step]; auto.
  - unfold sys_poll. destruct (get_next_tasks ev (s_c s)) as [c1 [offers|e]]; [apply sys_ack_fault; exact H|reflexivity].
  - unfold sys_report. destruct (_ && _); [|exact H]. destruct (api_exec ev _ (s_c s)). cbn [s_fault]. rewrite H. reflexivity.
Qed.

Definition not_offering (c : cstate) : Prop := ~ In (wstatus (c_ws c)) [S_RUNNING; S_RESUMING; S_FAILED].

Definition offered (c : cstate) (k : akey) : Prop :=
  is_engine_command (fst k) = false /\
  ((exists s0, get_staged_task (c_ws c) (fst k) (snd k) = Some s0) \/ pstat c k = Some (Some S_RUNNING)).

Lemma sys_ack_loop : forall keys c F f,
  cinv c F -> In (wstatus (c_ws c)) [S_RUNNING; S_RESUMING; S_FAILED] -> (forall k, In k keys -> offered c k) ->
  let s' := fold_left (sys_ack ev) keys {| s_c := c; s_inflight := F; s_fault := f |} in
  s_fault s' = false -> cinv (s_c s') (s_inflight s') /\ In (wstatus (c_ws (s_c s'))) [S_RUNNING; S_RESUMING; S_FAILED].
Proof.
  induction keys as [|[t route] keys IH]; intros c F f I Hst Hk s' Hf; [split; assumption|].
  subst s'. cbn [fold_left] in *.
  assert (Hf1 : s_fault (sys_ack ev {| s_c := c; s_inflight := F; s_fault := f |} (t, route)) = false).
  { destruct (s_fault (sys_ack ev _ (t, route))) eqn:E; [|reflexivity]. rewrite (sys_ack_fault _ _ E) in Hf. discriminate Hf. }
  destruct (sys_ack_val _ _ _ Hf1) as [c' [X [_ Es]]]. cbn [s_c s_inflight] in X, Es. rewrite Es in Hf |- *. clear Es Hf1.
  destruct (Hk (t, route) (or_introl eq_refl)) as [Hc Ho]. cbn [fst snd] in Hc, Ho.
  destruct (step_ack_call _ _ _ _ _ I Hc Ho Hst X) as [I' [Hst' [Pk [Sk Po]]]].
  apply (IH c' _ false I' Hst'); [|exact Hf].
  intros k2 Hk2. destruct (Hk k2 (or_intror Hk2)) as [Hc2 Ho2]. split; [exact Hc2|].
  destruct (tkey_eqb k2 (t, route)) eqn:E2.
  - apply tkey_eqb_eq in E2. right. rewrite E2. exact Pk.
  - assert (Hne : k2 <> (t, route)) by (intro Y; rewrite Y in E2; rewrite tkey_eqb_refl in E2; discriminate).
    destruct Ho2 as [[s0 Hs0]|Hr]; [left; exists s0; rewrite Sk; [exact Hs0|destruct k2; exact Hne]|right; rewrite (Po _ Hne); exact Hr].
Qed.

Lemma sys_poll_cinv : forall s, cinv (s_c s) (s_inflight s) -> s_fault (sys_poll ev s) = false ->
  cinv (s_c (sys_poll ev s)) (s_inflight (sys_poll ev s)) /\
  (not_offering (s_c (sys_poll ev s)) -> exists c1, Rlt (s_c s) c1 /\ s_c (sys_poll ev s) = c1).
Proof.
  intros s I0 Hf. unfold sys_poll in *. destruct (get_next_tasks ev (s_c s)) as [c1 [offers|e]] eqn:E0; [|discriminate Hf].
  pose proof I0 as (I1 & I2 & I3 & I4 & I5 & I6 & I7 & I8 & I9 & I10 & I11).
  assert (Hn' : no_items (c_spec (s_c s)) = true) by (rewrite I1; exact Hni).
  destruct (get_next_eff ev _ _ _ I3 Hn' E0) as [L [Hne Hnil]].
  pose proof (cinv_Rlt _ _ _ I0 L) as I1'.
  destruct offers as [|o offers'].
  { cbn [map fold_left s_c s_inflight]. split; [exact I1'|]. intros _. exists c1. auto. }
  assert (X : o :: offers' <> []) by discriminate. destruct (Hne X) as [-> Hst].
  assert (Hoff : In (wstatus (c_ws (s_c s))) [S_RUNNING; S_RESUMING; S_FAILED]).
  { destruct I7 as [K1 _]. destruct Hst as [Hst|Hst]; [|rewrite Hst; simpl; auto]. clear - K1 Hst.
    cbv [In sys_wf_statuses S_RUNNING S_RESUMING S_PAUSING S_PAUSED S_CANCELING S_CANCELED S_SUCCEEDED S_FAILED S_UNSET] in *.
    destruct K1 as [K|[K|[K|[K|[K|[K|[K|[K|[K|[]]]]]]]]]]; rewrite <- K in *; try discriminate Hst; auto. }
  destruct (sys_ack_loop (map offer_key (o :: offers')) (s_c s) (s_inflight s) (s_fault s) I0 Hoff) as [A B]; [|exact Hf|].
  - intros k Hk. apply in_map_iff in Hk. destruct Hk as [o' [<- Ho']].
    destruct (offers_are_staged ev _ _ _ I3 E0 _ Ho') as [s0 [Hin [Hr [Hc [Hid Hrt]]]]].
    unfold offered, offer_key. cbn [fst snd]. rewrite Hid, Hrt. split; [apply (ncmd_zero _ I6 _ Hin)|]. left.
    unfold get_staged_task. apply (find_exists _ _ _ s0 Hin). apply stg_matches_refl.
  - split; [exact A|]. intro Hno. exfalso. exact (Hno B).
Qed.

Lemma sys_call_Rlt : forall c op c' a, (op = OpRender \/ op = OpPersist) -> c_init c = true ->
  api_exec ev op c = (c', Val a) -> Rlt c c'.
Proof.
  intros c op c' a Hop Hi E. destruct Hop as [-> | ->]; cbn [api_exec] in E;
    destruct (then_ret_inv _ _ _ _ _ _ E) as [[_ X]|[e [Y _]]]; try discriminate Y.
  - exact (vlt_render_workflow_output ev c Hi _ _ X).
  - rewrite (persist_identity ev c Hi) in X. inversion X; subst. apply Rlt_refl.
Qed.

Lemma cinv_step : forall s op, cinv (s_c s) (s_inflight s) -> s_fault (sys_step ev s op) = false ->
  cinv (s_c (sys_step ev s op)) (s_inflight (sys_step ev s op)).
Proof.
  intros s op I Hf. pose proof I as (_ & _ & I3 & _).
  assert (Req : forall st, cinv (s_c (sys_request ev s st)) (s_inflight (sys_request ev s st))).
  { intro st. destruct (status_in st request_statuses) eqn:Est; [|unfold sys_request; rewrite Est; exact I].
    destruct (sys_request_val s st I3 Est) as [c' [r [E ->]]]. exact (step_request_core _ _ _ _ _ I Est E). }
  assert (Call : forall o, o = OpRender \/ o = OpPersist -> s_fault (sys_call ev s o) = false ->
                 cinv (s_c (sys_call ev s o)) (s_inflight (sys_call ev s o))).
  { intros o Ho Hfo. destruct (sys_call_val s o Hfo) as [c' [a [E [_ ->]]]]. exact (cinv_Rlt _ _ _ I (sys_call_Rlt _ _ _ _ Ho I3 E)). }
  destruct op; cbn [sys_step] in *.
  - apply Req.
  - exact (proj1 (sys_poll_cinv s I Hf)).
  - unfold sys_report in *. destruct (akey_in (t, route) (s_inflight s) && status_in st report_statuses) eqn:Ep; [|exact I].
    fold (sys_report ev s t route st result) in Hf. assert (Ep' := Ep). apply andb_prop in Ep'. destruct Ep' as [Ep1 Ep2].
    apply akey_in_iff in Ep1. apply status_in_In in Ep2.
    assert (Hf' : s_fault (sys_report ev s t route st result) = false) by (unfold sys_report; rewrite Ep; exact Hf).
    destruct (sys_report_val s t route st result Ep Hf') as [c' [X [_ Es]]]. unfold sys_report in Es. rewrite Ep in Es. rewrite Es.
    exact (step_report_call _ _ _ _ _ _ _ I Ep1 Ep2 X).
  - apply Req.
  - apply Call; [left; reflexivity|exact Hf].
  - apply Call; [right; reflexivity|exact Hf].
Qed.

(* ---- from the initialised conductor to every history: a property kept by every step on an initialised
   conductor and established by the lazy creation holds after every fault-free history ---- *)
Section Reach.
Variable P : cstate -> list akey -> Prop.
Variable good : sys_op -> bool.
Definition sys_sat (s : sys) : Prop :=
  s_fault s = false -> (s_c s = init_cstate sp g inputs parent /\ s_inflight s = []) \/ (cinv (s_c s) (s_inflight s) /\ P (s_c s) (s_inflight s)).
Hypothesis P_born : forall c1, ensure_ws ev (init_cstate sp g inputs parent) = (c1, Val tt) -> P c1 [].
Hypothesis P_step : forall s op, good op = true -> cinv (s_c s) (s_inflight s) -> P (s_c s) (s_inflight s) ->
  s_fault (sys_step ev s op) = false -> P (s_c (sys_step ev s op)) (s_inflight (sys_step ev s op)).

Lemma sys_sat_step : forall s op, good op = true -> sys_sat s -> sys_sat (sys_step ev s op).
Proof.
  intros s op Hg Hs Hf.
  assert (Hf0 : s_fault s = false) by (destruct (s_fault s) eqn:E; [rewrite (sys_step_fault s op E) in Hf; discriminate Hf|reflexivity]).
  destruct (Hs Hf0) as [[Hc HF]|[I Hp]]; [|right; split; [exact (cinv_step s op I Hf)|exact (P_step s op Hg I Hp Hf)]].
  destruct (ensure_ws ev (s_c s)) as [c1 r] eqn:E. destruct (sys_step_ensure ev s op c1 r E) as [Es|Es]; [rewrite Es; left; auto|].
  destruct r as [[]|e]; [|rewrite Es in Hf; discriminate Hf]. rewrite Hc in E. rewrite Es in Hf |- *.
  assert (I : cinv (s_c (with_c s c1)) (s_inflight (with_c s c1))) by (cbn [with_c s_c s_inflight]; rewrite HF; exact (fresh_cinv _ E)).
  assert (Hp : P (s_c (with_c s c1)) (s_inflight (with_c s c1))) by (cbn [with_c s_c s_inflight]; rewrite HF; exact (P_born _ E)).
  right. split; [exact (cinv_step _ op I Hf)|exact (P_step _ op Hg I Hp Hf)].
Qed.

Lemma sys_sat_run : forall ops s, forallb good ops = true -> sys_sat s -> sys_sat (sys_run ev ops s).
Proof.
  induction ops as [|op ops IH]; intros s Hg Hs; [exact Hs|]. simpl in Hg. apply andb_prop in Hg. destruct Hg as [G1 G2].
  simpl. apply IH; [exact G2|]. apply sys_sat_step; assumption.
Qed.

End Reach.

Theorem sys_step_inv : forall s op, sys_inv s -> sys_inv (sys_step ev s op).
Proof.
  intros s op Hs Hf.
  destruct (sys_sat_step (fun _ _ => True) (fun _ => true) (fun _ _ => I) (fun _ _ _ _ _ _ => I) s op eq_refl) as [A|[A _]]; [|exact Hf|left; exact A|right; exact A].
  intro Hf0. destruct (Hs Hf0) as [A|A]; [left; exact A|right; split; [exact A|exact I]].
Qed.

Theorem sys_run_inv : forall ops s, sys_inv s -> sys_inv (sys_run ev ops s).
Proof.
  induction ops as [|op ops IH]; intros s Hs; [exact Hs|]. simpl. apply IH. apply sys_step_inv; exact Hs.
Qed.

Lemma sys_init_inv : sys_inv (sys_init sp g inputs parent).
Proof. intros _. left. split; reflexivity. Qed.

Theorem sys_reachable_inv : forall ops, sys_inv (sys_run ev ops (sys_init sp g inputs parent)).
Proof. intro ops. apply sys_run_inv. apply sys_init_inv. Qed.

Definition pause_request (op : sys_op) : bool :=
  match op with Request st => status_in st [S_PAUSING; S_PAUSED] | _ => false end.

Definition not_pausing (c : cstate) : Prop := ~ In (wstatus (c_ws c)) [S_PAUSING; S_PAUSED].
Definition sys_np (s : sys) : Prop := s_fault s = false -> not_pausing (s_c s).

Lemma cinv_npause : forall c F, cinv c F -> not_pausing c -> npause c.
Proof. intros c F (_ & _ & _ & _ & _ & _ & K & _) H. split; [exact (proj1 K)|exact H]. Qed.

Lemma not_pausing_Rlt : forall c c1, Rlt c c1 -> not_pausing c -> not_pausing c1.
Proof.
  intros c c1 [_ [_ [_ [_ [_ [W _]]]]]] H. unfold not_pausing. destruct W as [E|E]; rewrite E; [exact H|simpl; intuition discriminate].
Qed.

Lemma step_request_core_np : forall c F st c' r, cinv c F -> status_in st request_statuses = true ->
  status_in st [S_PAUSING; S_PAUSED] = false -> request_status_core st c = (c', r) -> not_pausing c -> not_pausing c'.
Proof.
  intros c F st c' r I Hst Hnps H Hnp. pose proof I as (I1 & I2 & I3 & I4 & I5 & I6 & I7 & _).
  destruct r as [[]|e].
  2: { assert (Hrow : workflow_status_has_row c).
       { apply lifecycle_status_has_row. apply sys_statuses_lifecycle. exact (proj1 I7). }
       rewrite (rejected_core_is_inert _ _ _ _ Hrow H). exact Hnp. }
  destruct (request_eff _ _ _ I4 I5 (request_statuses_vocab _ Hst) H) as [n [W [_ [_ [_ Hn]]]]].
  unfold not_pausing. rewrite W. simpl. destruct Hn as [-> | ->]; [simpl; intuition discriminate|].
  rewrite wf_workflow_event_name_eq. apply F_np_request; [exact (proj1 I7)|exact Hnp|].
  apply status_in_In in Hst. simpl in Hst. simpl.
  destruct Hst as [E|[E|[E|[E|[E|[E|[E|[]]]]]]]]; subst st; try discriminate Hnps; tauto.
Qed.

Lemma np_step : forall s op, pause_request op = false -> cinv (s_c s) (s_inflight s) -> not_pausing (s_c s) ->
  s_fault (sys_step ev s op) = false -> not_pausing (s_c (sys_step ev s op)).
Proof.
  intros s op Hop I Hnp Hf. pose proof I as (I1 & I2 & I3 & I4 & I5 & I6 & I7 & I8 & I9 & I10 & I11).
  assert (Req : forall st, status_in st [S_PAUSING; S_PAUSED] = false -> not_pausing (s_c (sys_request ev s st))).
  { intros st Hps. destruct (status_in st request_statuses) eqn:Est; [|unfold sys_request; rewrite Est; exact Hnp].
    destruct (sys_request_val s st I3 Est) as [c' [r [E ->]]]. exact (step_request_core_np _ _ _ _ _ I Est Hps E Hnp). }
  assert (Call : forall o, o = OpRender \/ o = OpPersist -> s_fault (sys_call ev s o) = false -> not_pausing (s_c (sys_call ev s o))).
  { intros o Ho Hfo. destruct (sys_call_val s o Hfo) as [c' [a [E [_ ->]]]]. exact (not_pausing_Rlt _ _ (sys_call_Rlt _ _ _ _ Ho I3 E) Hnp). }
  destruct op; cbn [sys_step pause_request] in *.
  - apply Req. reflexivity.
  - destruct (sys_poll_cinv s I Hf) as [_ B]. unfold not_pausing. intro X.
    assert (Hno : not_offering (s_c (sys_poll ev s))).
    { intro Y. clear - X Y. simpl in X, Y. destruct Y as [Y|[Y|[Y|[]]]]; rewrite <- Y in X; intuition discriminate. }
    destruct (B Hno) as [c1 [L E]]. rewrite E in X. exact (not_pausing_Rlt _ _ L Hnp X).
  - destruct (akey_in (t, route) (s_inflight s) && status_in st report_statuses) eqn:Ep; [|unfold sys_report; rewrite Ep; exact Hnp].
    assert (Ep' := Ep). apply andb_prop in Ep'. destruct Ep' as [Ep1 Ep2]. apply akey_in_iff in Ep1. apply status_in_In in Ep2.
    destruct (sys_report_val s t route st result Ep Hf) as [c' [X [_ ->]]]. cbn [s_c].
    assert (Hps : pstat (s_c s) (t, route) = Some (Some S_RUNNING)) by (apply I9; exact Ep1).
    assert (Hact : act (s_c s)) by (exists (t, route), S_RUNNING; split; [exact Hps|reflexivity]).
    unfold update_task_state in X. rewrite uts_unfold in X.
    assert (Hn' : no_items (c_spec (s_c s)) = true) by (rewrite I1; exact Hni).
    assert (Hg' : graph_commands_inert (c_graph (s_c s))) by (rewrite I2; exact Hinert).
    assert (Hh' : queue_hnt_prop ev (c_graph (s_c s))) by (rewrite I2; exact Hhnt).
    destruct (report_call ev 1 t route st result (s_c s) c' I4 I3 Hn' Hg' Hh' Hps (I11 _ Ep1) Ep2
                (cinv_cmd_nonactive _ _ I) (cinv_act_krun _ _ I Hact) X) as [_ [_ [_ [_ [_ [_ [_ NP]]]]]]].
    apply (NP I5 (cinv_npause _ _ I Hnp)).
  - apply Req. exact Hop.
  - apply Call; [left; reflexivity|exact Hf].
  - apply Call; [right; reflexivity|exact Hf].
Qed.

Theorem sys_run_np : forall ops s, forallb (fun op => negb (pause_request op)) ops = true ->
  sys_inv s -> sys_np s -> sys_np (sys_run ev ops s).
Proof.
  intros ops s Hops Hs Hnp Hf.
  destruct (sys_sat_run (fun c _ => not_pausing c) (fun op => negb (pause_request op))) with (ops := ops) (s := s) as [[A _]|[_ A]];
    [| |exact Hops| |exact Hf|rewrite A; unfold not_pausing; simpl; intuition discriminate|exact A].
  - intros c1 E. destruct (ensure_fresh ev (init_cstate sp g inputs parent) c1 eq_refl eq_refl E) as [_ [_ [_ [_ [_ [[W _]|[W _]]]]]]];
      unfold not_pausing; rewrite W; simpl; intuition discriminate.
  - intros s0 op Hg. apply np_step. apply negb_true_iff. exact Hg.
  - intro Hf0. destruct (Hs Hf0) as [A|A]; [left; exact A|right; split; [exact A|exact (Hnp Hf0)]].
Qed.

Theorem sys_reachable_np : forall ops, forallb (fun op => negb (pause_request op)) ops = true ->
  sys_np (sys_run ev ops (sys_init sp g inputs parent)).
Proof.
  intros ops H. apply sys_run_np; [exact H|apply sys_init_inv|]. intros _. unfold not_pausing. simpl. intuition discriminate.
Qed.

End System.
