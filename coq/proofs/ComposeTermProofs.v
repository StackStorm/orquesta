(* ComposeTermProofs.v -- the composer's worklist terminates.
   Measure.  Let N = number of names (declared tasks + engine commands), E = spec_size (number of
   transition triples, a bound on every out-degree), Wt 0 = 1, Wt (S j) = 1 + E * Wt j.
   Every queued item (t, splits) is given a ghost path: the tasks through which it was reached since
   the last task that lies on a cycle (or the start task).  A task for which tasks.in_cycle answers
   True is put on the queue only while it is not yet a node, hence once; a task for which it answers
   False is not reachable from itself (the breadth-first search is complete), so ghost paths never
   repeat a name and are no longer than N.  The potential
       sum over queued items of Wt (N - |path|)  +  Wt N * #(in-cycle names that are not nodes yet)
   drops by at least one with every dequeue: the item of weight Wt (N - k) = 1 + E * Wt (N - k - 1)
   is replaced by at most E items of weight Wt (N - k - 1), and an in-cycle child (weight Wt (N - 1))
   is paid for by the reserve.  Split tracking only prunes, so it is not needed for the bound. *)
From Coq Require Import String List Bool ZArith Arith Lia Permutation.
From Orq Require Import GenSpecMeta Base State Composer ListFacts C14Proofs.
Import ListNotations.
Open Scope string_scope.

Definition link (sp : wf_spec) (a b : string) : Prop :=
  exists w i, In (b, w, i) (spec_next_tasks sp a).

Inductive lstar (sp : wf_spec) : string -> string -> Prop :=
  | ls_refl : forall x, lstar sp x x
  | ls_step : forall x y z, link sp x y -> lstar sp y z -> lstar sp x z.

Lemma lstar_snoc : forall sp x y z, lstar sp x y -> link sp y z -> lstar sp x z.
Proof.
  intros sp x y z H L. induction H as [x|x y0 y L0 H IH].
  - eapply ls_step; [exact L|apply ls_refl].
  - eapply ls_step; [exact L0|apply IH; exact L].
Qed.

Lemma link_iff : forall sp x y, link sp x y <-> In y (map nt_name (spec_next_sorted sp x)).
Proof.
  intros sp x y. unfold link. rewrite in_map_iff. split.
  - intros [w [i H]]. exists (y, w, i). split; [reflexivity|]. apply in_next_sorted. exact H.
  - intros [[[d w] i] [E H]]. apply in_next_sorted in H. unfold nt_name in E. simpl in E. subst d. eauto.
Qed.

Lemma in_cycle_loop_false : forall sp t fuel q trav,
  in_cycle_loop sp t fuel q trav = Some false -> ~ In t trav ->
  (forall x y, In x trav -> link sp x y -> In y trav \/ In y q) ->
  exists T, incl trav T /\ incl q T /\ ~ In t T /\ (forall x y, In x T -> link sp x y -> In y T).
Proof.
  intros sp t fuel. induction fuel as [|f IH]; intros q trav H Ht Hc; destruct q as [|n q]; simpl in H; try discriminate.
  - exists trav. split; [apply incl_refl|]. split; [intros x []|]. split; [exact Ht|].
    intros x y Hx L. destruct (Hc x y Hx L) as [A|[]]. exact A.
  - exists trav. split; [apply incl_refl|]. split; [intros x []|]. split; [exact Ht|].
    intros x y Hx L. destruct (Hc x y Hx L) as [A|[]]. exact A.
  - destruct (String.eqb n t) eqn:En; [discriminate|].
    destruct (string_in n trav) eqn:Es.
    + assert (Hn : In n trav) by (apply string_in_iff; exact Es).
      destruct (IH q trav H Ht) as [T [A [B [C D]]]].
      { intros x y Hx L. destruct (Hc x y Hx L) as [X|[X|X]]; [auto|subst y; auto|auto]. }
      exists T. split; [exact A|]. split; [|auto]. intros z [Hz|Hz]; [subst z; apply A, Hn|apply B, Hz].
    + destruct (IH _ _ H) as [T [A [B [C D]]]].
      { intros [X|X]; [subst n; rewrite String.eqb_refl in En; discriminate|contradiction]. }
      { intros x y [Hx|Hx] L.
        - subst x. right. apply in_or_app. right. apply link_iff. exact L.
        - destruct (Hc x y Hx L) as [X|[X|X]]; [left; right; exact X|subst y; left; left; reflexivity|].
          right. apply in_or_app. left. exact X. }
      exists T. split; [intros z Hz; apply A; right; exact Hz|]. split; [|auto].
      intros z [Hz|Hz]; [subst z; apply A; left; reflexivity|apply B, in_or_app; left; exact Hz].
Qed.

Lemma lstar_closed : forall sp (T : list string), (forall x y, In x T -> link sp x y -> In y T) ->
  forall y d, lstar sp y d -> In y T -> In d T.
Proof.
  intros sp T D y d S. induction S as [x|x y0 z L0 S IH]; intro Hy; [exact Hy|]. apply IH. eapply D; eauto.
Qed.

Lemma in_cycle_false_no_cycle : forall sp d, spec_in_cycle sp d = Some false ->
  forall y, link sp d y -> lstar sp y d -> False.
Proof.
  intros sp d H y L S. unfold spec_in_cycle in H.
  destruct (in_cycle_loop_false sp d _ _ [] H) as [T [_ [B [C D]]]].
  - intros [].
  - intros x z [].
  - apply C. apply (lstar_closed sp T D y d S). apply B, link_iff. exact L.
Qed.

(* p = [t_k; ...; t_1]: t_1 -> t_2 -> ... -> t_k, most recent first *)
Inductive rpath (sp : wf_spec) : list string -> Prop :=
  | rp_one : forall t, rpath sp [t]
  | rp_cons : forall d t p, rpath sp (t :: p) -> link sp t d -> rpath sp (d :: t :: p).

Lemma rpath_star : forall sp p, rpath sp p -> forall t p0 x, p = t :: p0 -> In x p -> lstar sp x t.
Proof.
  intros sp p H. induction H as [t|d t p H IH L]; intros t' p0 x E Hx.
  - injection E as E1 E2. subst t' p0. destruct Hx as [Hx|[]]. subst x. apply ls_refl.
  - injection E as E1 E2. subst t' p0. destruct Hx as [Hx|Hx]; [subst x; apply ls_refl|].
    eapply lstar_snoc; [apply (IH t p x eq_refl Hx)|exact L].
Qed.

Lemma lstar_close_cycle : forall sp d t, lstar sp d t -> link sp t d -> exists y, link sp d y /\ lstar sp y d.
Proof.
  intros sp d t S L. destruct S as [x|x y z L0 S0].
  - exists x. split; [exact L|apply ls_refl].
  - exists y. split; [exact L0|eapply lstar_snoc; eauto].
Qed.

Lemma fresh_on_path : forall sp t p0 d, rpath sp (t :: p0) -> link sp t d ->
  spec_in_cycle sp d = Some false -> ~ In d (t :: p0).
Proof.
  intros sp t p0 d R L Hc Hin.
  pose proof (rpath_star sp _ R t p0 d eq_refl Hin) as S.
  destruct (lstar_close_cycle sp d t S L) as [y [L0 S0]].
  exact (in_cycle_false_no_cycle sp d Hc y L0 S0).
Qed.

Definition names (sp : wf_spec) : list string := app (map fst (wf_tasks sp)) RESERVED_TASK_NAMES.
Definition NN (sp : wf_spec) : nat := length (names sp).

Fixpoint Wt (E j : nat) : nat := match j with O => 1 | S j' => 1 + E * Wt E j' end.

Lemma Wt_pos : forall E j, 1 <= Wt E j.
Proof. intros E j; destruct j; simpl; lia. Qed.

Lemma Wt_mono : forall E i j, i <= j -> Wt E i <= Wt E j.
Proof.
  intros E i j H. induction H as [|j H IH]; [lia|]. simpl.
  destruct i; simpl in *; [pose proof (Wt_pos E j); nia|]. 
  assert (Wt E j <= 1 + E * Wt E j).
  { clear. induction j as [|j IH]; simpl; [lia|]. nia. }
  lia.
Qed.

Definition cycb (sp : wf_spec) (x : string) : bool :=
  match spec_in_cycle sp x with Some true => true | _ => false end.

(* names on a cycle that are not nodes yet: each can still be queued once *)
Definition pending (sp : wf_spec) (ns : list gnode) : list string :=
  filter (fun x => cycb sp x && negb (has_node x ns)) (names sp).

Definition reserve (sp : wf_spec) (ns : list gnode) : nat :=
  length (pending sp ns) * Wt (spec_size sp) (NN sp).

Definition pw (sp : wf_spec) (p : list string) : nat := Wt (spec_size sp) (NN sp - length p).
Definition psum (sp : wf_spec) (ps : list (list string)) : nat := list_sum (map (pw sp) ps).

Definition child_w (sp : wf_spec) (p : list string) : nat :=
  if Nat.leb (S (length p)) (NN sp) then Wt (spec_size sp) (NN sp - S (length p)) else 0.

Lemma pw_child : forall sp p, 1 + spec_size sp * child_w sp p <= pw sp p.
Proof.
  intros sp p. unfold child_w, pw. destruct (Nat.leb (S (length p)) (NN sp)) eqn:E.
  - apply Nat.leb_le in E. replace (NN sp - length p) with (S (NN sp - S (length p))) by lia. simpl. lia.
  - pose proof (Wt_pos (spec_size sp) (NN sp - length p)). lia.
Qed.

Lemma psum_app : forall sp a b, psum sp (app a b) = psum sp a + psum sp b.
Proof. intros sp a b. unfold psum. rewrite map_app, list_sum_app. reflexivity. Qed.

Lemma filter_len_mono : forall A (f g : A -> bool) l,
  (forall x, In x l -> f x = true -> g x = true) -> length (filter f l) <= length (filter g l).
Proof.
  intros A f g l. induction l as [|x l IH]; intro H; simpl; [lia|].
  assert (IH' : length (filter f l) <= length (filter g l)) by (apply IH; intros y Hy; apply H; right; exact Hy).
  destruct (f x) eqn:Ef.
  - rewrite (H x (or_introl eq_refl) Ef). simpl. lia.
  - destruct (g x); simpl; lia.
Qed.

Lemma filter_len_strict : forall A (f g : A -> bool) l d,
  (forall x, In x l -> f x = true -> g x = true) -> In d l -> f d = false -> g d = true ->
  S (length (filter f l)) <= length (filter g l).
Proof.
  intros A f g l d. induction l as [|x l IH]; intros H Hd Hf Hg; [contradiction|]. simpl.
  assert (M : length (filter f l) <= length (filter g l)) by (apply filter_len_mono; intros y Hy; apply H; right; exact Hy).
  destruct Hd as [Hd|Hd].
  - subst x. rewrite Hf, Hg. simpl. lia.
  - assert (IH' : S (length (filter f l)) <= length (filter g l)) by (apply IH; auto; intros y Hy; apply H; right; exact Hy).
    destruct (f x) eqn:Ef.
    + rewrite (H x (or_introl eq_refl) Ef). simpl. lia.
    + destruct (g x); simpl; lia.
Qed.

Lemma reserve_mono : forall sp ns ns', (forall x, In x (ids ns) -> In x (ids ns')) ->
  reserve sp ns' <= reserve sp ns.
Proof.
  intros sp ns ns' H. unfold reserve, pending. apply Nat.mul_le_mono_r. apply filter_len_mono.
  intros x _ Hx. apply andb_true_iff in Hx. destruct Hx as [H1 H2]. rewrite H1. simpl.
  apply negb_true_iff in H2. apply negb_true_iff. apply has_node_false. apply has_node_false in H2.
  intro C. apply H2. apply H. exact C.
Qed.

Lemma reserve_strict : forall sp ns ns' d, (forall x, In x (ids ns) -> In x (ids ns')) ->
  In d (names sp) -> cycb sp d = true -> ~ In d (ids ns) -> In d (ids ns') ->
  reserve sp ns' + Wt (spec_size sp) (NN sp) <= reserve sp ns.
Proof.
  intros sp ns ns' d H Hd Hc Hn Hn'. unfold reserve, pending.
  assert (S (length (filter (fun x => cycb sp x && negb (has_node x ns')) (names sp)))
          <= length (filter (fun x => cycb sp x && negb (has_node x ns)) (names sp))) as L.
  { apply (filter_len_strict _ _ _ _ d); [|exact Hd| |].
    - intros x _ Hx. apply andb_true_iff in Hx. destruct Hx as [H1 H2]. rewrite H1. simpl.
      apply negb_true_iff in H2. apply negb_true_iff. apply has_node_false. apply has_node_false in H2.
      intro C. apply H2. apply H. exact C.
    - apply has_node_in in Hn'. rewrite Hn', Hc. reflexivity.
    - apply has_node_false in Hn. rewrite Hn, Hc. reflexivity. }
  nia.
Qed.

Lemma reserve_le_total : forall sp ns, reserve sp ns <= NN sp * Wt (spec_size sp) (NN sp).
Proof.
  intros sp ns. unfold reserve, pending, NN. apply Nat.mul_le_mono_r. apply filter_len_le.
Qed.

Definition ok (sp : wf_spec) (it : qitem) (p : list string) : Prop :=
  hd_error p = Some (fst it) /\ rpath sp p /\ NoDup p /\ incl p (names sp).

Lemma get_task_named : forall sp t, spec_get_task sp t <> None -> In t (names sp).
Proof.
  intros sp t H. unfold names. apply in_or_app. unfold spec_get_task in H.
  destruct (string_in t RESERVED_TASK_NAMES) eqn:E.
  - right. apply string_in_iff. exact E.
  - left. destruct (aget String.eqb t (wf_tasks sp)) as [ts|] eqn:Ea; [|contradiction].
    apply (aget_in String.eqb String.eqb_eq) in Ea. apply in_map_iff. exists (t, ts). auto.
Qed.

Lemma next_len_le_size : forall sp t, length (spec_next_tasks sp t) <= spec_size sp.
Proof.
  intros sp t. destruct (spec_next_tasks sp t) as [|x l] eqn:E; [simpl; lia|].
  assert (Ht : In t (map fst (wf_tasks sp))) by (apply (next_tasks_declared sp t x); rewrite E; left; reflexivity).
  rewrite <- E. unfold spec_size. clear E x l. induction (wf_tasks sp) as [|[n ts] tl IH]; [contradiction|].
  simpl. rewrite app_length. destruct Ht as [Ht|Ht]; [simpl in Ht; subst n; lia|]. specialize (IH Ht). lia.
Qed.

Section Term.
  Variable sp : wf_spec.
  Hypothesis Hnd : NoDup (map fst (wf_tasks sp)).
  Hypothesis Hdef : forall t, reach sp t -> spec_get_task sp t <> None.

  Lemma step_term : forall t p0 splits w nx w',
    Core sp w -> In t (ids (w_nodes w)) -> reach sp t -> In nx (spec_next_tasks sp t) ->
    rpath sp (t :: p0) -> NoDup (t :: p0) -> incl (t :: p0) (names sp) ->
    step_next sp t splits (Val w) nx = Val w' ->
    exists items qs, w_queue w' = app (w_queue w) items /\ Forall2 (ok sp) items qs /\
      psum sp qs + reserve sp (w_nodes w') <= reserve sp (w_nodes w) + child_w sp (t :: p0).
  Proof.
    intros t p0 splits w nx w' C Ht Hr Hnx R ND IN H.
    destruct (step_next_core sp t splits w nx w' C Ht Hr Hnx H) as [_ [_ Sub]].
    destruct (step_next_cases _ _ _ _ _ _ H) as [[_ ->] | [Hnr [skip [Hsk [Es ->]]]]].
    - exists [], []. split; [simpl; rewrite app_nil_r; reflexivity|].
      split; [constructor|]. pose proof (reserve_mono sp _ _ Sub). simpl in *. lia.
    - destruct nx as [[d cond] idx]. unfold nt_name in *. cbn [fst snd] in *.
      assert (Hd : reach sp d) by (eapply reach_step; eauto).
      assert (Hdn : In d (names sp)) by (apply get_task_named, Hdef, Hd).
      assert (L : link sp t d) by (exists cond, idx; exact Hnx).
      unfold in_cycle_r in Es. pose proof (spec_in_cycle_total sp d Hnd) as Tot.
      destruct (spec_in_cycle sp d) as [b|] eqn:Ec; [|contradiction].
      destruct (target_frame w d splits skip) as [N1 _].
      destruct (target_core sp w d splits skip C Hd Hsk) as [C1 _].
      set (w1 := if skip then w else enqueue w d splits) in *.
      destruct (add_transition_spec w1 t d (crta_of cond) idx) as [_ [Eq [_ Hc]]].
      pose proof (reserve_mono sp _ _ Sub) as RM.
      assert (Q : w_queue w1 = w_queue w \/ (skip = false /\ w_queue w1 = app (w_queue w) [(d, splits)])).
      { unfold w1. destruct skip; [left; reflexivity|].
        destruct (enqueue_spec w d splits) as [_ [_ [_ [[A _]|[A _]]]]]; [left; exact A|right; auto]. }
      destruct Q as [Q|[Sk Q]].
      + exists [], []. split; [rewrite Eq, Q, app_nil_r; reflexivity|]. split; [constructor|]. simpl. lia.
      + destruct b.
        * (* d lies on a cycle: it is queued because it is not a node yet, and becomes one now *)
          assert (Hn : ~ In d (ids (w_nodes w))).
          { subst skip. destruct (has_node d (w_nodes w)) eqn:Eh; [discriminate|]. apply has_node_false. exact Eh. }
          assert (Hn' : In d (ids (w_nodes (add_transition w1 t d (crta_of cond) idx)))).
          { destruct Hc as [[_ [_ [e [He Hm]]]]|[En _]].
            - exfalso. apply Hn. rewrite <- N1. apply edge_matches_iff in Hm. destruct Hm as [_ [M2 _]].
              destruct (co_sound sp w1 C1 e He) as [_ [_ X]]. rewrite M2 in X. exact X.
            - rewrite En. apply in_ids_add_node. left. reflexivity. }
          assert (Hcb : cycb sp d = true) by (unfold cycb; rewrite Ec; reflexivity).
          pose proof (reserve_strict sp _ _ d Sub Hdn Hcb Hn Hn') as RS.
          exists [(d, splits)], [[d]]. split; [rewrite Eq, Q; reflexivity|]. split.
          { constructor; [|constructor]. split; [reflexivity|]. split; [apply rp_one|].
            split; [constructor; [intros []|constructor]|]. intros x [Hx|[]]. subst x. exact Hdn. }
          unfold psum, pw. simpl.
          pose proof (Wt_mono (spec_size sp) (NN sp - 1) (NN sp)) as WM. lia.
        * (* d does not lie on a cycle: its path extends the path of t *)
          assert (Fr : ~ In d (t :: p0)) by (apply (fresh_on_path sp t p0 d R L Ec)).
          assert (ND' : NoDup (d :: t :: p0)) by (constructor; assumption).
          assert (IN' : incl (d :: t :: p0) (names sp)).
          { intros x [Hx|Hx]; [subst x; exact Hdn|apply IN; exact Hx]. }
          pose proof (NoDup_incl_length ND' IN') as Len. simpl in Len.
          exists [(d, splits)], [d :: t :: p0]. split; [rewrite Eq, Q; reflexivity|]. split.
          { constructor; [|constructor]. split; [reflexivity|]. split; [apply rp_cons; assumption|]. split; assumption. }
          unfold psum, pw, child_w. simpl length.
          assert (Le : Nat.leb (S (S (length p0))) (NN sp) = true) by (apply Nat.leb_le; unfold NN; lia).
          rewrite Le. simpl. lia.
  Qed.

  Lemma fold_term : forall t p0 splits l w w',
    Core sp w -> In t (ids (w_nodes w)) -> reach sp t -> (forall nx, In nx l -> In nx (spec_next_tasks sp t)) ->
    rpath sp (t :: p0) -> NoDup (t :: p0) -> incl (t :: p0) (names sp) ->
    fold_left (step_next sp t splits) l (Val w) = Val w' ->
    exists items qs, w_queue w' = app (w_queue w) items /\ Forall2 (ok sp) items qs /\
      psum sp qs + reserve sp (w_nodes w') <= reserve sp (w_nodes w) + length l * child_w sp (t :: p0).
  Proof.
    intros t p0 splits l w w' C Ht Hr Hl R ND IN H.
    apply (fold_step_inv sp t splits
             (fun pre w1 => exists items qs, w_queue w1 = app (w_queue w) items /\ Forall2 (ok sp) items qs /\
                psum sp qs + reserve sp (w_nodes w1)
                <= reserve sp (w_nodes w) + length pre * child_w sp (t :: p0)) l w w' C Ht Hr Hl); [| |exact H].
    - exists [], []. split; [rewrite app_nil_r; reflexivity|]. split; [constructor|]. simpl. lia.
    - intros pre nx w1 w2 Hnx C1 Ht1 _ [it1 [qs1 [Q1 [F1 B1]]]] E.
      destruct (step_term t p0 splits w1 nx w2 C1 Ht1 Hr (Hl nx Hnx) R ND IN E) as [it2 [qs2 [Q2 [F2 B2]]]].
      exists (app it1 it2), (app qs1 qs2). split; [rewrite Q2, Q1, app_assoc; reflexivity|].
      split; [apply Forall2_app; assumption|]. rewrite psum_app, app_length. simpl length. lia.
  Qed.

  Lemma process_term : forall rt w t splits q' p w1,
    Core sp w -> w_queue w = (t, splits) :: q' -> ok sp (t, splits) p ->
    process sp rt (popped w q') t splits = Val w1 ->
    exists items qs, w_queue w1 = app q' items /\ Forall2 (ok sp) items qs /\
      psum sp qs + reserve sp (w_nodes w1) + 1 <= pw sp p + reserve sp (w_nodes w).
  Proof.
    intros rt w t splits q' p w1 C Hq [Hh [R [ND IN]]] H.
    destruct p as [|t0 p0]; [discriminate|]. simpl in Hh. injection Hh as Hh. subst t0.
    destruct (process_shape sp rt (popped w q') t splits w1 H) as [ts [F [splits' [_ [HF [_ [_ Hfold]]]]]]].
    set (w0 := started (popped w q') t F) in *.
    assert (C0 : Core sp w0) by (eapply pop_core; eauto).
    assert (Hi : In t (ids (w_nodes w0))).
    { simpl. rewrite ids_upd_node by exact HF. apply in_ids_add_node. auto. }
    pose proof (head_reach sp w t splits q' C Hq) as Hr.
    pose proof (fun nx => proj1 (in_next_sorted sp t nx)) as Hl.
    destruct (fold_term t p0 splits' _ w0 w1 C0 Hi Hr Hl R ND IN Hfold) as [items [qs [Q [Fa B]]]].
    exists items, qs. split; [exact Q|]. split; [exact Fa|].
    assert (R0 : reserve sp (w_nodes w0) <= reserve sp (w_nodes w)).
    { apply reserve_mono. intros x Hx. simpl. rewrite ids_upd_node by exact HF. apply in_ids_add_node. auto. }
    assert (Len : length (spec_next_sorted sp t) <= spec_size sp).
    { unfold spec_next_sorted. rewrite length_sort_by. apply (next_len_le_size sp). }
    pose proof (pw_child sp (t :: p0)) as PC.
    assert (length (spec_next_sorted sp t) * child_w sp (t :: p0) <= spec_size sp * child_w sp (t :: p0))
      by (apply Nat.mul_le_mono_r; exact Len).
    lia.
  Qed.

  Lemma loop_term : forall rt fuel w ps,
    Core sp w -> DoneOk sp rt [] w -> Forall2 (ok sp) (w_queue w) ps ->
    psum sp ps + reserve sp (w_nodes w) <= fuel ->
    exists w', compose_loop sp rt fuel w = Val w'.
  Proof.
    intros rt fuel. induction fuel as [|f IH]; intros w ps C D Fa B.
    - simpl. destruct (w_queue w) as [|[t s] q'] eqn:Eq; [eauto|].
      inversion Fa as [|it p its ps' Ok Fa']; subst. unfold psum in B. simpl in B.
      pose proof (Wt_pos (spec_size sp) (NN sp - length p)). unfold pw in B. lia.
    - simpl. destruct (w_queue w) as [|[t s] q'] eqn:Eq; [eauto|].
      inversion Fa as [|it p its ps' Ok Fa']; subst.
      pose proof (head_reach sp w t s q' C Eq) as Hr.
      destruct (process_val sp Hnd rt (popped w q') t s (Hdef t Hr)) as [w1 H1].
      pose proof H1 as H1'. unfold popped in H1'. rewrite H1'.
      destruct (process_inv sp rt w t s q' w1 C D Eq H1) as [C1 D1].
      destruct (process_term rt w t s q' p w1 C Eq Ok H1) as [items [qs [Q [Fq Bq]]]].
      apply (IH w1 (app ps' qs) C1 D1).
      + rewrite Q. apply Forall2_app; assumption.
      + rewrite psum_app. unfold psum in *. simpl in B. lia.
  Qed.

  (* dequeues that always suffice *)
  Definition compose_fuel : nat :=
    (length (spec_start_tasks sp) + NN sp) * Wt (spec_size sp) (NN sp).

  Lemma init_paths : forall l, (forall t, In t l -> In t (names sp)) ->
    Forall2 (ok sp) (map (fun t => (t, @nil string)) l) (map (fun t => [t]) l).
  Proof.
    induction l as [|t l IH]; intro H; simpl; constructor.
    - split; [reflexivity|]. split; [apply rp_one|]. split; [constructor; [intros []|constructor]|].
      intros x [Hx|[]]. subst x. apply H. left. reflexivity.
    - apply IH. intros x Hx. apply H. right. exact Hx.
  Qed.

  Theorem compose_work_total : forall rt, exists w, compose_work sp rt compose_fuel = Val w.
  Proof.
    intro rt. unfold compose_work.
    apply (loop_term rt compose_fuel (compose_init sp) (map (fun t => [t]) (spec_start_tasks sp))
             (init_core sp) (init_doneok sp rt)).
    - simpl. apply init_paths. intros t Ht. unfold names. apply in_or_app. left.
      apply in_start_tasks in Ht. apply Ht.
    - simpl. pose proof (reserve_le_total sp []) as RT.
      assert (P : psum sp (map (fun t => [t]) (spec_start_tasks sp))
                  <= length (spec_start_tasks sp) * Wt (spec_size sp) (NN sp)).
      { unfold psum. induction (spec_start_tasks sp) as [|t l IH]; simpl; [lia|].
        unfold pw at 1. simpl length. pose proof (Wt_mono (spec_size sp) (NN sp - 1) (NN sp)). lia. }
      unfold compose_fuel. lia.
  Qed.

  Theorem compose_total : forall rt, exists g, compose sp rt compose_fuel = Val g.
  Proof.
    intro rt. destruct (compose_work_total rt) as [w H]. unfold compose. rewrite H. eauto.
  Qed.

  Theorem compose_total_more : forall rt g, compose sp rt compose_fuel = Val g ->
    forall k, compose sp rt (compose_fuel + k) = Val g.
  Proof.
    intros rt g H k. unfold compose, compose_work in *.
    destruct (compose_loop sp rt compose_fuel (compose_init sp)) as [w|] eqn:E; [|discriminate].
    rewrite (compose_loop_more_fuel sp rt _ _ w E k). exact H.
  Qed.
End Term.

(* task names unique; every task reachable from a start task is declared or an engine command
   (what inspect() guarantees: C15_semantics_accepted) *)
Definition composable (sp : wf_spec) : Prop :=
  NoDup (map fst (wf_tasks sp)) /\ forall t, reach sp t -> spec_get_task sp t <> None.

Lemma targets_defined_composable : forall sp, NoDup (map fst (wf_tasks sp)) -> targets_defined sp -> composable sp.
Proof. intros sp Hnd Hw. split; [exact Hnd|]. intros t Hr. apply reach_defined; assumption. Qed.

Definition empty_graph : graph := {| g_nodes := []; g_edges := [] |}.

(* WorkflowComposer.compose(spec) without a fuel argument *)
Definition compose_graph (sp : wf_spec) (rt : list (string * json)) : graph :=
  match compose sp rt (compose_fuel sp) with Val g => g | Exc _ => empty_graph end.

Theorem compose_graph_spec : forall sp rt, composable sp ->
  compose sp rt (compose_fuel sp) = Val (compose_graph sp rt).
Proof.
  intros sp rt [Hnd Hdef]. unfold compose_graph.
  destruct (compose_total sp Hnd Hdef rt) as [g H]. rewrite H. reflexivity.
Qed.

Theorem compose_graph_more_fuel : forall sp rt k, composable sp ->
  compose sp rt (compose_fuel sp + k) = Val (compose_graph sp rt).
Proof.
  intros sp rt k Hc. apply compose_total_more. apply compose_graph_spec. exact Hc.
Qed.

Theorem compose_graph_unique : forall sp rt f g, composable sp ->
  compose sp rt f = Val g -> g = compose_graph sp rt.
Proof.
  intros sp rt f g Hc H. apply (compose_fuel_irrelevant sp rt f (compose_fuel sp)); [exact H|].
  apply compose_graph_spec. exact Hc.
Qed.

Theorem compose_enough_fuel : forall sp rt f, composable sp -> compose_fuel sp <= f ->
  compose sp rt f = Val (compose_graph sp rt).
Proof.
  intros sp rt f Hc Hf. replace f with (compose_fuel sp + (f - compose_fuel sp)) by lia.
  apply compose_graph_more_fuel. exact Hc.
Qed.

Lemma compose_fuel_eq : forall sp,
  compose_fuel sp = (length (spec_start_tasks sp) + NN sp) * Wt (spec_size sp) (NN sp).
Proof. reflexivity. Qed.

Lemma ex_composable : composable ex_spec.
Proof. apply targets_defined_composable; [exact ex_nodup|exact ex_targets_defined]. Qed.

Lemma ex_compose_graph : compose_graph ex_spec ex_rt = ex_graph.
Proof. symmetry. apply (compose_graph_unique ex_spec ex_rt 20 ex_graph ex_composable ex_compose). Qed.
