(* ListFacts.v -- facts about lists, strings, association lists, the insertion sort and json values
   of Base.v that do not mention the model. *)
From Coq Require Import String Ascii List Bool ZArith Arith Lia Permutation Sorted OrderedTypeEx.
From Orq Require Import Base.
Import ListNotations.
Open Scope string_scope.

Lemma in_insert_sorted : forall A (leb : A -> A -> bool) x y l,
  In x (insert_sorted leb y l) <-> x = y \/ In x l.
Proof.
  intros A leb x y l; induction l as [|z l IH]; simpl.
  - intuition.
  - destruct (leb z y); simpl; rewrite ?IH; intuition.
Qed.

Lemma in_sort_by : forall A (leb : A -> A -> bool) x l, In x (sort_by leb l) <-> In x l.
Proof.
  intros A leb x l; unfold sort_by.
  assert (H : forall acc, In x (fold_left (fun acc x => insert_sorted leb x acc) l acc) <-> In x acc \/ In x l).
  { induction l as [|y l IH]; intro acc; simpl; [intuition|].
    rewrite IH, in_insert_sorted. intuition. }
  rewrite H; simpl; intuition.
Qed.


Lemma NoDup_snoc : forall A (x : A) l, NoDup l -> ~ In x l -> NoDup (app l [x]).
Proof.
  intros A x l H Hx. apply (Permutation_NoDup (Permutation_cons_append l x)). constructor; assumption.
Qed.

Lemma perm_filter : forall A (p : A -> bool) l1 l2, Permutation l1 l2 -> Permutation (filter p l1) (filter p l2).
Proof.
  intros A p l1 l2 P. induction P as [|x l1 l2 P IH|x y l|l1 l2 l3 P1 IH1 P2 IH2]; simpl.
  - constructor.
  - destruct (p x); [apply perm_skip|]; exact IH.
  - destruct (p x); destruct (p y); try apply Permutation_refl. apply perm_swap.
  - eapply Permutation_trans; eauto.
Qed.

Lemma fold_left_nested : forall A B C S (f : A -> S -> B -> S) (h : A -> list B) (g : A -> B -> C)
    (step : S -> C -> S), (forall a s b, step s (g a b) = f a s b) ->
  forall l s, fold_left (fun s a => fold_left (f a) (h a) s) l s
              = fold_left step (flat_map (fun a => map (g a) (h a)) l) s.
Proof.
  intros A B C S f h g step H. induction l as [|a l IH]; intro s; simpl; [reflexivity|].
  rewrite fold_left_app, IH. f_equal. generalize (h a) s.
  induction l0 as [|b l0 IHb]; intro s0; simpl; [reflexivity | now rewrite H].
Qed.

Lemma fold_left_ext_all : forall A B (f g : A -> B -> A) l a, (forall a b, f a b = g a b) -> fold_left f l a = fold_left g l a.
Proof. intros A B f g l. induction l as [|x l IH]; intros a H; simpl; [reflexivity|rewrite H; apply IH; exact H]. Qed.

Lemma nodup_app_intro : forall A (l1 l2 : list A),
  NoDup l1 -> NoDup l2 -> (forall x, In x l1 -> ~ In x l2) -> NoDup (app l1 l2).
Proof.
  intros A l1 l2 H1 H2 Hd. induction H1 as [|x l Hx Hl IH]; simpl; [exact H2|].
  constructor.
  - intro Hin. apply in_app_or in Hin. destruct Hin as [Hin|Hin]; [contradiction|].
    apply (Hd x); [left; reflexivity|exact Hin].
  - apply IH. intros y Hy. apply Hd. right. exact Hy.
Qed.

Lemma nodup_map_filter : forall A B (f : A -> B) p l, NoDup (map f l) -> NoDup (map f (filter p l)).
Proof.
  intros A B f p l. induction l as [|x l IH]; simpl; intro H; [constructor|].
  inversion H as [|y m Hy Hm]; subst. destruct (p x); simpl; [|apply IH; exact Hm].
  constructor; [|apply IH; exact Hm]. intro Hin. apply Hy. apply in_map_iff in Hin.
  destruct Hin as [z [Hz Hin]]. apply filter_In in Hin. apply in_map_iff. exists z. tauto.
Qed.

Lemma combine_map_self : forall A B (f : A -> B) l, combine l (map f l) = map (fun x => (x, f x)) l.
Proof. intros A B f l; induction l as [|x l IH]; simpl; [reflexivity|rewrite IH; reflexivity]. Qed.

Lemma string_leb_iff : forall a b, String.leb a b = true <-> a = b \/ String_as_OT.lt a b.
Proof.
  intros a b. unfold String.leb.
  pose proof (String_as_OT.cmp_eq a b) as He. pose proof (String_as_OT.cmp_lt a b) as Hl.
  unfold String_as_OT.cmp in *. destruct (String.compare a b) eqn:E; split; intro H; try reflexivity; try discriminate.
  - left. apply He. reflexivity.
  - right. apply Hl. reflexivity.
  - destruct H as [H|H]; [apply He in H; discriminate|apply Hl in H; discriminate].
Qed.

Lemma string_leb_trans : forall a b c, String.leb a b = true -> String.leb b c = true -> String.leb a c = true.
Proof.
  intros a b c H1 H2. apply string_leb_iff in H1. apply string_leb_iff in H2. apply string_leb_iff.
  destruct H1 as [H1|H1]; [subst; exact H2|]. destruct H2 as [H2|H2]; [subst; right; exact H1|].
  right. eapply String_as_OT.lt_trans; eauto.
Qed.

Lemma string_leb_refl : forall a, String.leb a a = true.
Proof. intro a. apply string_leb_iff. left. reflexivity. Qed.

Section SortFacts.
  Context {A : Type} (leb : A -> A -> bool).
  Hypothesis leb_total : forall a b, leb a b = true \/ leb b a = true.
  Hypothesis leb_trans : forall a b c, leb a b = true -> leb b c = true -> leb a c = true.

  Definition lesorted : list A -> Prop := StronglySorted (fun a b => leb a b = true).

  Lemma insert_sorted_lesorted : forall x l, lesorted l -> lesorted (insert_sorted leb x l).
  Proof.
    intros x l H. induction H as [|y l Hl IH Hy]; simpl.
    - constructor; constructor.
    - destruct (leb y x) eqn:E.
      + constructor; [exact IH|]. apply Forall_forall. intros z Hz. apply in_insert_sorted in Hz.
        destruct Hz as [Hz|Hz]; [subst; exact E|]. rewrite Forall_forall in Hy. apply Hy. exact Hz.
      + assert (Hxy : leb x y = true) by (destruct (leb_total x y) as [T|T]; [exact T|congruence]).
        constructor; [constructor; assumption|]. constructor; [exact Hxy|].
        apply Forall_forall. intros z Hz. rewrite Forall_forall in Hy. eapply leb_trans; [exact Hxy|apply Hy; exact Hz].
  Qed.

  Lemma sort_by_lesorted : forall l, lesorted (sort_by leb l).
  Proof.
    intro l. unfold sort_by.
    assert (H : forall acc, lesorted acc -> lesorted (fold_left (fun acc x => insert_sorted leb x acc) l acc)).
    { induction l as [|x l IH]; intros acc Ha; simpl; [exact Ha|]. apply IH. apply insert_sorted_lesorted. exact Ha. }
    apply H. constructor.
  Qed.

  (* the weaker [Sorted] needs totality only *)
  Lemma insert_sorted_Sorted : forall x l,
    Sorted (fun a b => leb a b = true) l -> Sorted (fun a b => leb a b = true) (insert_sorted leb x l).
  Proof.
    intros x l H; induction H as [|y l Hl IH Hd]; simpl.
    - constructor; constructor.
    - destruct (leb y x) eqn:E.
      + constructor; [exact IH|].
        destruct l as [|z l]; simpl.
        * constructor; exact E.
        * destruct (leb z x); constructor; [inversion Hd; assumption|exact E].
      + constructor; [constructor; assumption|]. constructor.
        destruct (leb_total x y) as [T|T]; [exact T|congruence].
  Qed.

  Lemma sort_by_Sorted : forall l, Sorted (fun a b => leb a b = true) (sort_by leb l).
  Proof.
    intro l. unfold sort_by.
    assert (G : forall acc, Sorted (fun a b => leb a b = true) acc ->
                Sorted (fun a b => leb a b = true) (fold_left (fun acc x => insert_sorted leb x acc) l acc)).
    { induction l as [|x l IH]; intros acc H; simpl; [exact H|]. apply IH. apply insert_sorted_Sorted; exact H. }
    apply G; constructor.
  Qed.

  Lemma insert_at_end : forall x l, (forall y, In y l -> leb y x = true) -> insert_sorted leb x l = app l [x].
  Proof.
    intros x l. induction l as [|y l IH]; intro H; simpl; [reflexivity|].
    rewrite (H y (or_introl eq_refl)). rewrite IH; [reflexivity|]. intros z Hz. apply H. right. exact Hz.
  Qed.

  Lemma lesorted_app_elim : forall l1 l2, lesorted (app l1 l2) -> forall x y, In x l1 -> In y l2 -> leb x y = true.
  Proof.
    induction l1 as [|a l1 IH]; intros l2 H x y Hx Hy; [contradiction|].
    simpl in H. inversion H as [|b m Hm Hb]; subst. destruct Hx as [Hx|Hx].
    - subst. rewrite Forall_forall in Hb. apply Hb. apply in_or_app. right. exact Hy.
    - eapply IH; eauto.
  Qed.

  Lemma sort_by_lesorted_id : forall l, lesorted l -> sort_by leb l = l.
  Proof.
    intros l H. unfold sort_by.
    assert (G : forall l acc, lesorted (app acc l) ->
                fold_left (fun acc x => insert_sorted leb x acc) l acc = app acc l).
    { clear l H. induction l as [|x l IH]; intros acc Ha; simpl; [symmetry; apply app_nil_r|].
      rewrite insert_at_end.
      - rewrite IH; rewrite <- app_assoc; [reflexivity|exact Ha].
      - intros y Hy. apply (lesorted_app_elim acc (x :: l) Ha y x Hy). left. reflexivity. }
    apply (G l []). exact H.
  Qed.

  Lemma sort_by_idem : forall l, sort_by leb (sort_by leb l) = sort_by leb l.
  Proof. intro l. apply sort_by_lesorted_id, sort_by_lesorted. Qed.

  Lemma perm_insert_sorted : forall x l, Permutation (insert_sorted leb x l) (x :: l).
  Proof.
    intros x l. induction l as [|y l IH]; simpl; [apply Permutation_refl|].
    destruct (leb y x); [|apply Permutation_refl].
    eapply Permutation_trans; [apply perm_skip; exact IH|apply perm_swap].
  Qed.

  Lemma perm_sort_by : forall l, Permutation (sort_by leb l) l.
  Proof.
    intro l. unfold sort_by.
    assert (H : forall acc, Permutation (fold_left (fun acc x => insert_sorted leb x acc) l acc) (app acc l)).
    { induction l as [|x l IH]; intro acc; simpl; [rewrite app_nil_r; apply Permutation_refl|].
      eapply Permutation_trans; [apply IH|]. eapply Permutation_trans; [apply Permutation_app_tail, perm_insert_sorted|].
      simpl. apply Permutation_middle. }
    apply (H []).
  Qed.

  Hypothesis leb_antisym : forall a b, leb a b = true -> leb b a = true -> a = b.

  Lemma lesorted_perm_eq : forall l1 l2, lesorted l1 -> lesorted l2 -> Permutation l1 l2 -> l1 = l2.
  Proof.
    induction l1 as [|a l1 IH]; intros l2 H1 H2 P.
    - apply Permutation_nil in P. subst. reflexivity.
    - destruct l2 as [|b l2]; [apply Permutation_sym, Permutation_nil in P; discriminate|].
      inversion H1 as [|x m Hm Ha]; subst. inversion H2 as [|x m Hm2 Hb]; subst.
      rewrite Forall_forall in Ha, Hb.
      assert (Hab : a = b).
      { assert (Ia : In a (b :: l2)) by (eapply Permutation_in; [exact P|left; reflexivity]).
        assert (Ib : In b (a :: l1)) by (eapply Permutation_in; [apply Permutation_sym; exact P|left; reflexivity]).
        destruct Ia as [Ia|Ia]; [auto|]. destruct Ib as [Ib|Ib]; [auto|].
        apply leb_antisym; [apply Ha; exact Ib|apply Hb; exact Ia]. }
      subst b. f_equal. apply IH; [assumption|assumption|]. eapply Permutation_cons_inv. exact P.
  Qed.

  Lemma sort_by_perm : forall l1 l2, Permutation l1 l2 -> sort_by leb l1 = sort_by leb l2.
  Proof.
    intros l1 l2 P. apply lesorted_perm_eq; try apply sort_by_lesorted.
    eapply Permutation_trans; [apply perm_sort_by|]. eapply Permutation_trans; [exact P|].
    apply Permutation_sym, perm_sort_by.
  Qed.
End SortFacts.

Lemma length_sort_by : forall A (leb : A -> A -> bool) l, length (sort_by leb l) = length l.
Proof. intros A leb l. apply Permutation_length, perm_sort_by. Qed.


Lemma aget_aset_same : forall K V (keqb : K -> K -> bool) k (v : V) d,
  keqb k k = true -> aget keqb k (aset keqb k v d) = Some v.
Proof.
  intros K V keqb k v d Hk; induction d as [|[k' v'] d IH]; simpl.
  - rewrite Hk; reflexivity.
  - destruct (keqb k k') eqn:E; simpl; rewrite E; [reflexivity|exact IH].
Qed.

Section AssocFacts.
  Context {K V : Type} (keqb : K -> K -> bool).
  Hypothesis keqb_eq : forall a b, keqb a b = true <-> a = b.

  Lemma keqb_refl : forall k, keqb k k = true.
  Proof. intro k. now apply keqb_eq. Qed.

  Lemma keqb_neq : forall a b, a <> b -> keqb a b = false.
  Proof. intros a b H. destruct (keqb a b) eqn:E; [apply keqb_eq in E; contradiction | reflexivity]. Qed.

  Lemma aget_aset_other : forall k k' (v : V) d, k' <> k -> aget keqb k' (aset keqb k v d) = aget keqb k' d.
  Proof.
    intros k k' v d Hn; induction d as [|[k1 v1] d IH]; simpl.
    - now rewrite (keqb_neq k' k Hn).
    - destruct (keqb k k1) eqn:E1; simpl.
      + apply keqb_eq in E1; subst k1. now rewrite (keqb_neq k' k Hn).
      + destruct (keqb k' k1); [reflexivity|exact IH].
  Qed.

  Lemma aget_aset : forall k k' (v : V) d,
    aget keqb k' (aset keqb k v d) = if keqb k' k then Some v else aget keqb k' d.
  Proof.
    intros k k' v d. destruct (keqb k' k) eqn:E.
    - apply keqb_eq in E; subst k'. apply aget_aset_same, keqb_refl.
    - apply aget_aset_other. intros ->. now rewrite keqb_refl in E.
  Qed.

  Lemma aget_in : forall k (l : list (K * V)) v, aget keqb k l = Some v -> In (k, v) l.
  Proof.
    intros k l v. induction l as [|[k' v'] l IH]; simpl; [discriminate|].
    destruct (keqb k k') eqn:E.
    - intro H. injection H as H. subst. apply keqb_eq in E. subst. left. reflexivity.
    - intro H. right. apply IH. exact H.
  Qed.

  Lemma aget_none_iff : forall k (l : list (K * V)), aget keqb k l = None <-> ~ In k (map fst l).
  Proof.
    intros k l; induction l as [|[k' v'] l IH]; simpl; [tauto|].
    destruct (keqb k k') eqn:E.
    - apply keqb_eq in E; subst. split; [discriminate|intro H; exfalso; apply H; left; reflexivity].
    - rewrite IH. split; intro H.
      + intros [H1|H1]; [subst; now rewrite keqb_refl in E | now apply H].
      + intro H1; apply H; right; exact H1.
  Qed.

  Lemma aget_of_in : forall k (l : list (K * V)), In k (map fst l) -> aget keqb k l <> None.
  Proof. intros k l H E. now apply aget_none_iff in E. Qed.

  Lemma In_aget : forall k (l : list (K * V)) v, NoDup (map fst l) -> In (k, v) l -> aget keqb k l = Some v.
  Proof.
    intros k l v. induction l as [|[k' v'] l IH]; simpl; intros Hnd Hin; [contradiction|].
    inversion Hnd as [|x xs Hx Hnd']; subst. destruct Hin as [E|Hin].
    - injection E as -> ->. now rewrite keqb_refl.
    - destruct (keqb k k') eqn:E; [|now apply IH].
      apply keqb_eq in E; subst. exfalso. apply Hx. apply in_map_iff. exists (k', v). auto.
  Qed.

  Lemma aget_app : forall k (d1 d2 : list (K * V)),
    aget keqb k (app d1 d2) = match aget keqb k d1 with Some x => Some x | None => aget keqb k d2 end.
  Proof.
    intros k d1 d2; induction d1 as [|[k' v'] d1 IH]; simpl; [reflexivity|].
    destruct (keqb k k'); [reflexivity|exact IH].
  Qed.

  Lemma aget_perm : forall k (l1 l2 : list (K * V)),
    Permutation l1 l2 -> NoDup (map fst l1) -> aget keqb k l1 = aget keqb k l2.
  Proof.
    intros k l1 l2 P. induction P as [|[k1 v1] l1 l2 P IH|[k1 v1] [k2 v2] l|l1 l2 l3 P1 IH1 P2 IH2]; intro Hnd.
    - reflexivity.
    - simpl. simpl in Hnd. inversion Hnd; subst. rewrite IH by assumption. reflexivity.
    - simpl. simpl in Hnd. inversion Hnd as [|x m Hx Hm]; subst.
      destruct (keqb k k1) eqn:E1; destruct (keqb k k2) eqn:E2; try reflexivity.
      exfalso. apply keqb_eq in E1. apply keqb_eq in E2. subst. apply Hx. left. reflexivity.
    - rewrite IH1 by exact Hnd. apply IH2. eapply Permutation_NoDup; [apply Permutation_map; exact P1|exact Hnd].
  Qed.

  Lemma In_aset : forall k (v : V) d p, In p (aset keqb k v d) -> p = (k, v) \/ In p d.
  Proof.
    intros k v d p; induction d as [|[k1 v1] d IH]; simpl; intro H.
    - destruct H as [H|[]]; left; symmetry; exact H.
    - destruct (keqb k k1) eqn:E.
      + apply keqb_eq in E; subst k1. destruct H as [H|H]; [left; symmetry; exact H|right; right; exact H].
      + destruct H as [H|H]; [right; left; exact H|]. destruct (IH H); [left|right; right]; assumption.
  Qed.

  Lemma aset_fresh : forall k (v : V) d, ~ In k (map fst d) -> aset keqb k v d = app d [(k, v)].
  Proof.
    intros k v d; induction d as [|[k' v'] d IH]; intro H; [reflexivity|].
    simpl. destruct (keqb k k') eqn:E.
    - apply keqb_eq in E; subst. exfalso; apply H; left; reflexivity.
    - f_equal. apply IH. intro Hi; apply H; right; exact Hi.
  Qed.

  Lemma map_fst_aset_present : forall k (v : V) d, In k (map fst d) -> map fst (aset keqb k v d) = map fst d.
  Proof.
    intros k v d; induction d as [|[k' v'] d IH]; intro H; [destruct H|].
    simpl. destruct (keqb k k') eqn:E; simpl; [reflexivity|].
    f_equal. apply IH. destruct H as [H|H]; [|exact H].
    simpl in H; subst k'. now rewrite keqb_refl in E.
  Qed.

  Lemma ahas_in : forall k (d : list (K * V)), ahas keqb k d = true <-> In k (map fst d).
  Proof.
    intros k d. unfold ahas. destruct (aget keqb k d) eqn:E.
    - split; [intros _|reflexivity]. apply aget_in in E. apply in_map_iff. exists (k, v). auto.
    - split; [discriminate|]. intro H. now apply aget_none_iff in E.
  Qed.
End AssocFacts.

Lemma dhas_dget : forall k d, dhas k d = match dget k d with Some _ => true | None => false end.
Proof. reflexivity. Qed.

Lemma dget_cons : forall k k0 v0 d, dget k ((k0, v0) :: d) = if String.eqb k k0 then Some v0 else dget k d.
Proof. reflexivity. Qed.

Lemma dget_app : forall k d1 d2,
  dget k (app d1 d2) = match dget k d1 with Some x => Some x | None => dget k d2 end.
Proof. exact (aget_app String.eqb). Qed.

Lemma dget_none_notin : forall k d, dget k d = None <-> ~ In k (map fst d).
Proof. exact (aget_none_iff String.eqb String.eqb_eq). Qed.

Lemma dget_some_in : forall k d v, dget k d = Some v -> In k (map fst d).
Proof. intros k d v H. apply (aget_in String.eqb String.eqb_eq) in H. apply in_map_iff. exists (k, v). auto. Qed.

Lemma dhas_in : forall k d, dhas k d = true <-> In k (map fst d).
Proof. exact (ahas_in String.eqb String.eqb_eq). Qed.

Lemma dget_dset_same : forall k v d, dget k (dset k v d) = Some v.
Proof. intros. apply aget_aset_same, String.eqb_refl. Qed.

Lemma dget_dset_other : forall k k' v d, k <> k' -> dget k (dset k' v d) = dget k d.
Proof. intros k k' v d. exact (aget_aset_other String.eqb String.eqb_eq k' k v d). Qed.

Lemma dhas_dset_other : forall k k0 v d, k <> k0 -> dhas k (dset k0 v d) = dhas k d.
Proof. intros k k0 v d Hne. now rewrite !dhas_dget, (dget_dset_other k k0 v d Hne). Qed.

Lemma dset_fresh : forall k v d, ~ In k (map fst d) -> dset k v d = app d [(k, v)].
Proof. exact (aset_fresh String.eqb String.eqb_eq). Qed.

Lemma map_fst_dset : forall k v d,
  map fst (dset k v d) = if dhas k d then map fst d else app (map fst d) [k].
Proof.
  intros k v d. destruct (dhas k d) eqn:E.
  - apply (map_fst_aset_present String.eqb String.eqb_eq). now apply dhas_in.
  - assert (Hn : ~ In k (map fst d)) by (intro Hi; apply dhas_in in Hi; congruence).
    rewrite (dset_fresh _ _ _ Hn), map_app. reflexivity.
Qed.

Lemma NoDup_dset : forall k v d, NoDup (map fst d) -> NoDup (map fst (dset k v d)).
Proof.
  intros k v d H. rewrite map_fst_dset. destruct (dhas k d) eqn:E; [exact H|].
  apply NoDup_snoc; [exact H|]. intro Hi; apply dhas_in in Hi; congruence.
Qed.

Lemma string_in_iff : forall k l, string_in k l = true <-> In k l.
Proof.
  intros k l. unfold string_in. rewrite existsb_exists. split.
  - intros [x [Hx E]]. apply String.eqb_eq in E. subst. exact Hx.
  - intro H. exists k. split; [exact H|apply String.eqb_refl].
Qed.

Lemma string_in_false : forall k l, string_in k l = false <-> ~ In k l.
Proof.
  intros k l. rewrite <- string_in_iff. destruct (string_in k l); split; intro H; try discriminate; auto.
  exfalso. apply H. reflexivity.
Qed.

Lemma app_assoc_s : forall a b c : string, (a ++ b) ++ c = a ++ b ++ c.
Proof. induction a; simpl; intros; [reflexivity | now rewrite IHa]. Qed.

Lemma app_nil_r_s : forall a : string, a ++ "" = a.
Proof. induction a; simpl; [reflexivity | now rewrite IHa]. Qed.

Lemma length_app_s : forall a b : string, String.length (a ++ b) = String.length a + String.length b.
Proof. induction a; simpl; intros; [reflexivity | now rewrite IHa]. Qed.

Lemma prefix_app : forall p s, String.prefix p (p ++ s) = true.
Proof.
  induction p as [|a p IH]; intro s; [destruct s; reflexivity|].
  simpl. destruct (ascii_dec a a) as [_|N]; [apply IH|contradiction].
Qed.

Lemma In_dedup_by : forall (l : list string) x, In x l -> In x (dedup_by String.eqb l).
Proof.
  intros l x H. unfold dedup_by.
  assert (G : forall l acc, In x acc \/ In x l ->
            In x (fold_left (fun acc y => if existsb (String.eqb y) acc then acc else app acc [y]) l acc)).
  { induction l0 as [|y l0 IH]; intros acc [Ha|Hl]; simpl; auto; try contradiction.
    - apply IH. left. destruct (existsb (String.eqb y) acc); [exact Ha|apply in_or_app; left; exact Ha].
    - destruct Hl as [->|Hl]; [|apply IH; right; exact Hl]. apply IH. left.
      destruct (existsb (String.eqb x) acc) eqn:E; [|apply in_or_app; right; left; reflexivity].
      apply existsb_exists in E. destruct E as [z [Hz Ez]]. apply String.eqb_eq in Ez. subst; exact Hz. }
  apply G. right; exact H.
Qed.

Lemma nth_error_set_nth_same : forall A (l : list A) i x y, nth_error l i = Some y ->
  nth_error (list_set_nth i x l) i = Some x.
Proof. induction l as [|a l IH]; intros [|i] x y H; simpl in *; try discriminate; eauto. Qed.

Lemma nth_error_set_nth_other : forall A (l : list A) i j x, i <> j ->
  nth_error (list_set_nth i x l) j = nth_error l j.
Proof. induction l as [|a l IH]; intros [|i] [|j] x H; simpl; auto; try congruence. Qed.

Lemma length_set_nth : forall A (l : list A) i x, length (list_set_nth i x l) = length l.
Proof. induction l as [|a l IH]; intros [|i] x; simpl; auto. Qed.

Lemma del_set_nth : forall A (l : list A) i x, list_del_nth i (list_set_nth i x l) = list_del_nth i l.
Proof. intros A l; induction l as [|h l IH]; intros [|i] x; simpl; try reflexivity. rewrite IH. reflexivity. Qed.

Lemma In_set_nth : forall A (l : list A) i x y, In x (list_set_nth i y l) -> x = y \/ In x l.
Proof.
  induction l as [|a l IH]; intros [|i] x y H; simpl in *; try tauto.
  - destruct H as [H|H]; [left; symmetry; exact H|right; right; exact H].
  - destruct H as [H|H]; [right; left; exact H|]. destruct (IH _ _ _ H); [left|right; right]; assumption.
Qed.

Lemma nat_remove_first_In : forall n l l' x, nat_remove_first n l = Some l' -> In x l' -> In x l.
Proof.
  intros n l; induction l as [|m l IH]; intros l' x H Hx; simpl in H; [discriminate|].
  destruct (Nat.eqb n m); [inversion H; subst; right; exact Hx|].
  destruct (nat_remove_first n l) as [l0|]; [|discriminate]. inversion H; subst.
  destruct Hx as [<-|Hx]; [left; reflexivity|right; eapply IH; [reflexivity|exact Hx]].
Qed.

Lemma nat_remove_first_in : forall n l, In n l -> exists l', nat_remove_first n l = Some l' /\ forall i, In i l' -> In i l.
Proof.
  intros n l H. assert (E : exists l', nat_remove_first n l = Some l').
  { induction l as [|m l IH]; simpl; [contradiction|]. destruct (Nat.eqb n m) eqn:E; [eexists; reflexivity|].
    destruct H as [H|H]; [subst; rewrite Nat.eqb_refl in E; discriminate|]. destruct (IH H) as [l' ->]. eexists; reflexivity. }
  destruct E as [l' E]. exists l'. split; [exact E|intro i; exact (nat_remove_first_In _ _ _ i E)].
Qed.

Lemma find_app_last : forall A (p : A -> bool) l x, find p l = None -> p x = true -> find p (app l [x]) = Some x.
Proof.
  intros A p l x; induction l as [|a l IH]; simpl; intros H Hx; [rewrite Hx; reflexivity|].
  destruct (p a); [discriminate|apply IH; assumption].
Qed.

Lemma find_app_some : forall A (p : A -> bool) l x, p x = true -> find p (app l [x]) <> None.
Proof.
  intros A p l x Hx; induction l as [|a l IH]; simpl; [rewrite Hx; discriminate|].
  destruct (p a); [discriminate|exact IH].
Qed.

Lemma find_app_present : forall A (P : A -> bool) l x, find P l <> None -> find P (app l x) <> None.
Proof. intros A P l x; induction l as [|a l IH]; simpl; [congruence|]. destruct (P a); [congruence|exact IH]. Qed.

Lemma find_app_snoc : forall A (p : A -> bool) l x s', find p (app l [x]) = Some s' ->
  find p l = Some s' \/ (find p l = None /\ s' = x).
Proof.
  induction l as [|a l IH]; simpl; intros x s' H.
  - destruct (p x); inversion H; auto.
  - destruct (p a); [left; exact H|apply IH; exact H].
Qed.

Lemma filter_len_le : forall A (f : A -> bool) l, length (filter f l) <= length l.
Proof. intros A f l. induction l as [|x l IH]; simpl; [lia|]. destruct (f x); simpl; lia. Qed.

Section JsonInd.
  Variable P : json -> Prop.
  Hypothesis Hnull : P JNull.
  Hypothesis Hbool : forall b, P (JBool b).
  Hypothesis Hint : forall z, P (JInt z).
  Hypothesis Hfloat : forall h, P (JFloat h).
  Hypothesis Hstr : forall s, P (JStr s).
  Hypothesis Hlist : forall l, Forall P l -> P (JList l).
  Hypothesis Hdict : forall kv, Forall (fun p => P (snd p)) kv -> P (JDict kv).
  Fixpoint json_ind' (j : json) : P j :=
    match j with
    | JNull => Hnull
    | JBool b => Hbool b
    | JInt z => Hint z
    | JFloat h => Hfloat h
    | JStr s => Hstr s
    | JList l => Hlist l ((fix go (l : list json) : Forall P l :=
                             match l with
                             | [] => Forall_nil _
                             | x :: l' => Forall_cons _ (json_ind' x) (go l')
                             end) l)
    | JDict kv => Hdict kv ((fix go (l : list (string * json)) : Forall (fun p => P (snd p)) l :=
                               match l with
                               | [] => Forall_nil _
                               | x :: l' => Forall_cons _ (json_ind' (snd x)) (go l')
                               end) kv)
    end.
End JsonInd.

Lemma json_eqb_refl : forall a, json_eqb a a = true.
Proof.
  induction a as [| b | z | h | s | l IH | kv IH] using json_ind'; simpl.
  - reflexivity.
  - destruct b; reflexivity.
  - apply Z.eqb_refl.
  - apply String.eqb_refl.
  - apply String.eqb_refl.
  - induction IH as [|x l Hx Hl IHl]; [reflexivity|]. rewrite Hx, IHl. reflexivity.
  - induction IH as [|[k x] l Hx Hl IHl]; [reflexivity|]. simpl in Hx. rewrite String.eqb_refl, Hx, IHl. reflexivity.
Qed.

Lemma json_eqb_true : forall a b, json_eqb a b = true -> a = b.
Proof.
  induction a as [| b | z | h | s | l IH | kv IH] using json_ind'; intros b' H; destruct b'; simpl in H; try discriminate.
  - reflexivity.
  - f_equal. apply Bool.eqb_prop. exact H.
  - f_equal. apply Z.eqb_eq. exact H.
  - f_equal. apply String.eqb_eq. exact H.
  - f_equal. apply String.eqb_eq. exact H.
  - f_equal. revert l0 H. induction IH as [|x l Hx Hl IHl]; intros ys H; destruct ys as [|y ys]; try discriminate; [reflexivity|].
    apply andb_prop in H. destruct H as [H1 H2]. f_equal; [apply Hx; exact H1|apply IHl; exact H2].
  - f_equal. revert kv0 H. induction IH as [|[k x] l Hx Hl IHl]; intros ys H; destruct ys as [|[k' y] ys]; try discriminate; [reflexivity|].
    apply andb_prop in H. destruct H as [H1 H2]. apply andb_prop in H1. destruct H1 as [H0 H1].
    simpl in Hx. f_equal; [f_equal; [apply String.eqb_eq; exact H0|apply Hx; exact H1]|apply IHl; exact H2].
Qed.

Lemma Forall2_refl : forall A (R : A -> A -> Prop), (forall x, R x x) -> forall l, Forall2 R l l.
Proof. intros A R H l; induction l; constructor; auto. Qed.
Lemma Forall2_sym : forall A (R : A -> A -> Prop), (forall x y, R x y -> R y x) -> forall l l', Forall2 R l l' -> Forall2 R l' l.
Proof. intros A R H l l' F; induction F; constructor; auto. Qed.
Lemma Forall2_trans : forall A (R : A -> A -> Prop), (forall x y z, R x y -> R y z -> R x z) ->
  forall a b c, Forall2 R a b -> Forall2 R b c -> Forall2 R a c.
Proof.
  intros A R Ht a b c H; revert c; induction H as [|x y l l' Hxy Hl IH]; intros c Hc; inversion Hc; subst; constructor; eauto.
Qed.
