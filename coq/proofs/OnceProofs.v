(* C01, second sentence, the staging half: what one followed transition does to the staged list, exactly. *)
From Coq Require Import String List Bool ZArith Arith Lia.
From Orq Require Import GenStatuses GenEvents GenTables Base State Machines Conductor Api.
From Orq Require Import F_tables Hoare Frame ValuePost StatusReach C04Proofs C05Proofs InertProofs RetryProofs FrozenProofs NoInternalProofs RerunProofs StateFacts ListFacts.
Import ListNotations.
Open Scope string_scope.
Open Scope monad_scope.

Definition skey (s : stg) : string * nat := (s_id s, s_route s).

Lemma keys_staged_update : forall f n r l, (forall s, s_id (f s) = s_id s /\ s_route (f s) = s_route s) ->
  map skey (staged_update f n r l) = map skey l.
Proof.
  intros f n r l Hf; induction l as [|s l IH]; simpl; [reflexivity|].
  destruct (stg_matches n r s); simpl; [|rewrite IH; reflexivity].
  unfold skey at 1. destruct (Hf s) as [-> ->]. reflexivity.
Qed.
Lemma find_existsb : forall A (P : A -> bool) l, existsb P l = match find P l with Some _ => true | None => false end.
Proof. intros A P l; induction l as [|a l IH]; simpl; [reflexivity|]. destruct (P a); [reflexivity|exact IH]. Qed.

Section WithEval.
Variable ev : string -> dict -> evalres.

(* ONE followed transition and the staged list.  Either nothing is staged (the condition is false or failed to
   evaluate, or the publish failed), or the target is staged under the route nr that evaluate_route answers -- the
   task's own route, or the route just opened -- and then the list of staged KEYS is the old one, with (target, nr)
   appended at the end if and only if no entry with that key was staged before (otherwise the existing entry is
   updated in place: one staged entry, whatever the number of satisfied transitions that reached it) *)
Theorem pt_staging_keys : forall t route idx ts ctx e c c' v,
  process_transition ev t route idx ts ctx e c = (c', Val v) ->
  (staged (c_ws c') = staged (c_ws c) /\ v = (None, None)) \/
  exists nr,
    (nr = route \/ nr = length (routes (c_ws c))) /\
    map skey (staged (c_ws c')) =
      (if existsb (stg_matches (e_dst e) nr) (staged (c_ws c)) then map skey (staged (c_ws c))
       else app (map skey (staged (c_ws c))) [(e_dst e, nr)]) /\
    get_staged_task (c_ws c') (e_dst e) nr <> None /\
    (is_engine_command (e_dst e) = true -> v = (Some (e_dst e, nr), None)) /\
    (is_engine_command (e_dst e) = false -> fst v = None).
Proof.
  intros t route idx ts ctx e c c' v H.
  destruct (process_transition_val_inv ev _ _ _ _ _ _ _ _ _ H) as [rv [_ Hv]]. clear H. destruct rv as [vs|x].
  2: { destruct Hv as [-> [c1 [E1 E2]]]. left. split; [|reflexivity].
       destruct (pst_log_error _ _ _ _ _ _ _ E1) as [S1 _]. destruct (pst_request_status_core _ _ _ _ E2) as [S2 _]. congruence. }
  assert (S1 : staged (c_ws (pt_decided idx e vs c)) = staged (c_ws c)) by apply staged_update_rec.
  assert (O1 : routes (c_ws (pt_decided idx e vs c)) = routes (c_ws c)) by apply routes_update_rec.
  destruct (forallb truthy vs); [|destruct Hv as [-> ->]; left; split; [exact S1|reflexivity]].
  destruct Hv as [cf [new_ctx [errors [E2 Hv]]]].
  destruct (pst_finalize_context ev _ _ _ _ _ _ E2) as [S2 _].
  destruct (pw_finalize_context ev _ _ _ _ _ _ E2) as [_ [_ [_ [O2 _]]]].
  destruct errors as [|x xs].
  2: { destruct Hv as [-> [c3 [E3 E4]]]. left. split; [|reflexivity].
       destruct (pst_log_errors _ _ _ _ _ _ _ E3) as [S3 _]. destruct (pst_request_status_core _ _ _ _ E4) as [S4 _]. congruence. }
  destruct Hv as [r [c3 [nr [c4 [_ [E4 [Ea [-> ->]]]]]]]].
  assert (K3 : staged (c_ws (published idx e new_ctx cf)) = staged (c_ws cf) /\
               routes (c_ws (published idx e new_ctx cf)) = routes (c_ws cf)).
  { destruct new_ctx; [split; reflexivity|]. unfold published. cbn [c_ws set_ws]. rewrite staged_update_rec, routes_update_rec. split; reflexivity. }
  destruct K3 as [S3 O3].
  assert (K4 : staged (c_ws c3) = staged (c_ws (published idx e new_ctx cf)) /\
               (nr = route \/ nr = length (routes (c_ws (published idx e new_ctx cf))))).
  { unfold evaluate_route in E4. apply bind_val_inv' in E4. destruct E4 as [c0 [cst [E0 E4]]]. inversion E0; subst c0 cst; clear E0.
    destruct (negb _ || _); [inversion E4; subst; split; [reflexivity|left; reflexivity]|].
    destruct (nth_error (routes (c_ws (published idx e new_ctx cf))) route) as [old|]; [|inversion E4].
    destruct (existsb _ old); [inversion E4; subst; split; [reflexivity|left; reflexivity]|].
    unfold bind, modws, ret in E4. inversion E4; subst. split; [reflexivity|right; reflexivity]. }
  destruct K4 as [S4 Hnr].
  assert (Sall : staged (c_ws c3) = staged (c_ws c)) by congruence.
  right. exists nr. split; [rewrite O3, O2, O1 in Hnr; exact Hnr|].
  assert (K5 : map skey (staged (c_ws c4)) =
               (if existsb (stg_matches (e_dst e) nr) (staged (c_ws c)) then map skey (staged (c_ws c))
                else app (map skey (staged (c_ws c))) [(e_dst e, nr)]) /\ get_staged_task (c_ws c4) (e_dst e) nr <> None).
  { rewrite find_existsb. unfold arrived, get_staged_task in Ea. rewrite Sall in Ea.
    destruct (find (stg_matches (e_dst e) nr) (staged (c_ws c))) as [s0|] eqn:Ef.
    - destruct (nat_remove_first 0 _) as [out'|]; [|discriminate]. inversion Ea; subst c4. cbn [c_ws set_ws staged ws_set_staged].
      split; [apply keys_staged_update; intro; split; reflexivity|].
      unfold get_staged_task. cbn [staged ws_set_staged]. apply find_staged_update_present; [intro; split; reflexivity|rewrite Ef; discriminate].
    - inversion Ea; subst c4. unfold ws_add_staged. cbn [c_ws set_ws staged ws_set_staged]. rewrite Sall, map_app.
      split; [reflexivity|]. unfold get_staged_task. cbn [staged ws_set_staged]. apply find_app_some.
      unfold stg_matches, mk_staged; simpl. rewrite String.eqb_refl, Nat.eqb_refl; reflexivity. }
  destruct K5 as [K5 P5]. unfold flagged, pt_result. cbn [c_ws set_ws staged ws_set_staged].
  split; [rewrite keys_staged_update by (intro; split; reflexivity); exact K5|].
  split; [unfold get_staged_task; cbn [staged ws_set_staged]; apply find_staged_update_present; [intro; split; reflexivity|exact P5]|].
  destruct (is_engine_command (e_dst e)); [split; [reflexivity|discriminate]|].
  split; [discriminate|destruct (target_ready _ _ _); reflexivity].
Qed.

Definition Rlt (c c' : cstate) : Prop :=
  length (sequence (c_ws c')) = length (sequence (c_ws c)) /\ tasks (c_ws c') = tasks (c_ws c).
Lemma Rlt_refl : forall c, Rlt c c.
Proof. intro; split; reflexivity. Qed.
Lemma Rlt_trans : forall a b c, Rlt a b -> Rlt b c -> Rlt a c.
Proof. intros a b c [A1 A2] [B1 B2]; split; congruence. Qed.
Lemma Rlt_update : forall c i f, Rlt c (set_ws c (ws_update_rec (c_ws c) i f)).
Proof. intros; split; cbn [c_ws set_ws]; [apply length_update_rec|apply tasks_update_rec]. Qed.
Lemma Rlt_remove : forall c t r, Rlt c (set_ws c (ws_remove_staged_task (c_ws c) t r)).
Proof. intros; split; cbn [c_ws set_ws]; [rewrite seq_remove_staged; reflexivity|apply tasks_remove_staged]. Qed.

Lemma pl_modws : forall f, (forall w, length (sequence (f w)) = length (sequence w) /\ tasks (f w) = tasks w) ->
  preserves Rlt (modws f).
Proof. intros f Hf; apply (preserves_modws Rlt); intro c. apply Hf. Qed.
Lemma pl_modify : forall f, (forall c, c_ws (f c) = c_ws c) -> preserves Rlt (modify f).
Proof. intros f Hf; apply (preserves_modify Rlt); intro c. unfold Rlt. rewrite Hf. split; reflexivity. Qed.
Lemma pl_upd_rec : forall i f, preserves Rlt (upd_rec i f).
Proof. intros; apply (preserves_modws Rlt); intro c. apply Rlt_update. Qed.
Lemma pl_remove : forall t r, preserves Rlt (modws (fun w => ws_remove_staged_task w t r)).
Proof. intros; apply (preserves_modws Rlt); intro c. apply Rlt_remove. Qed.
Lemma pl_wf_workflow_event : forall st, preserves Rlt (wf_workflow_event_M st).
Proof. apply (preserves_wf_workflow_event Rlt Rlt_refl); intros; split; reflexivity. Qed.
Lemma pl_wf_task_event : forall t route st, preserves Rlt (wf_task_event_M t route st).
Proof. apply (preserves_wf_task_event Rlt Rlt_refl); intros; split; reflexivity. Qed.
Lemma pl_log_entry_error : forall m t r tr res, preserves Rlt (log_entry_error m t r tr res).
Proof. intros; apply pl_modify; intro c; cbv zeta. destruct (existsb _ _); reflexivity. Qed.
Create HintDb presl.
Hint Resolve pl_modws pl_modify pl_upd_rec pl_remove pl_wf_workflow_event pl_wf_task_event pl_log_entry_error : presl.
Hint Extern 1 (preserves Rlt (set_rec_status _ _)) => apply pl_upd_rec : presl.

Lemma pl_log_error : forall e t r tr, preserves Rlt (log_error e t r tr).
Proof. intros; apply (frame_log_error Rlt); auto with presl. Qed.
Lemma pl_log_unreachable : forall l, preserves Rlt (log_unreachable l).
Proof. intros; apply (frame_log_unreachable Rlt Rlt_refl Rlt_trans); auto with presl. Qed.
Lemma pl_request_status_core : forall st, preserves Rlt (request_status_core st).
Proof. intros; apply (frame_request_status_core Rlt Rlt_refl Rlt_trans); auto with presl. Qed.
Lemma pl_queue : forall t route i ts o n compl, preserves Rlt (uts_queue ev t route i ts o n compl).
Proof. intros; apply (frame_queue ev Rlt Rlt_refl Rlt_trans); auto with presl. Qed.
Lemma pl_pre_machine : forall t route evt ts i, preserves Rlt (pre_machine ev t route evt ts i).
Proof. intros; apply (frame_pre_machine ev Rlt Rlt_refl Rlt_trans); auto with presl. Qed.
Lemma pl_before_machine : forall t route evt s0,
  preserves Rlt (uts_unstage t route evt s0 ;;; uts_item t route evt s0 ;;; uts_logfail t evt).
Proof. intros; apply (frame_before Rlt Rlt_refl Rlt_trans); auto with presl. Qed.

Lemma add_task_state_one : forall t rt ins prev c c' idx,
  add_task_state ev t rt ins prev c = (c', Val idx) ->
  idx = length (sequence (c_ws c)) /\ length (sequence (c_ws c')) = S (length (sequence (c_ws c))) /\
  ws_task_idx (c_ws c') t rt = Some idx /\
  (forall k, k <> (t, rt) -> aget tkey_eqb k (tasks (c_ws c')) = aget tkey_eqb k (tasks (c_ws c))).
Proof.
  intros t rt ins prev c c' idx H. unfold add_task_state in H.
  apply bind_val_inv' in H. destruct H as [c0 [cst [E0 H]]]. inversion E0; subst c0 cst; clear E0.
  destruct (negb (g_has_task (c_graph c) t)); [inversion H|]. cbv zeta in H.
  apply bind_val_inv' in H. destruct H as [cm [retry [Er H]]].
  assert (Lm : Rlt c cm).
  { revert Er. match goal with |- ?m c = _ -> _ => assert (P : preserves Rlt m) end; [|intro Er; eapply P; exact Er].
    destruct (g_task_has_retry (c_graph c) t); [|apply (preserves_ret _ Rlt_refl)].
    pw Rlt_refl Rlt_trans ltac:(first [apply pl_request_status_core|apply pl_log_error
      |apply (frame_setup_retry ev Rlt Rlt_refl Rlt_trans)]). }
  destruct Lm as [L1 L2].
  apply bind_val_inv' in H. destruct H as [c0 [w [E0 H]]]. inversion E0; subst c0 w; clear E0.
  apply bind_val_inv' in H. destruct H as [c1 [u [E1 H]]]. unfold modws in E1. inversion E1; subst c1; clear E1.
  inversion H; subst c' idx; clear H. cbn [c_ws set_ws sequence tasks ws_set_tasks ws_set_sequence].
  split; [exact L1|]. split; [rewrite app_length; simpl; lia|].
  split; [unfold ws_task_idx; cbn [tasks ws_set_tasks]; apply aget_aset_same; apply tkey_eqb_refl|].
  intros k Hk. rewrite (aget_aset tkey_eqb tkey_eqb_eq). destruct (tkey_eqb k (t, rt)) eqn:E; [apply tkey_eqb_eq in E; contradiction|rewrite L2; reflexivity].
Qed.

Lemma pl_unstage : forall t route evt s0, preserves Rlt (uts_unstage t route evt s0).
Proof. intros; apply (frame_unstage Rlt Rlt_refl); auto with presl. Qed.
Lemma pl_item : forall t route evt s0, preserves Rlt (uts_item t route evt s0).
Proof. intros; apply (frame_item Rlt Rlt_refl); auto with presl. Qed.
Lemma pl_logfail : forall t evt, preserves Rlt (uts_logfail t evt).
Proof. intros; apply (frame_logfail Rlt Rlt_refl); auto with presl. Qed.

Lemma after_selection : forall t route evt ts s0 idx c c' p,
  (uts_unstage t route evt s0 ;;; uts_item t route evt s0 ;;; uts_logfail t evt ;;; pre_machine ev t route evt ts idx) c = (c', Val p) ->
  Rlt c c' /\ po_idx p = idx.
Proof.
  intros t route evt ts s0 idx c c' p H.
  apply bind_val_inv' in H. destruct H as [c3 [u3 [E3 H]]].
  apply bind_val_inv' in H. destruct H as [c4 [u4 [E4 H]]].
  apply bind_val_inv' in H. destruct H as [c5 [u5 [E5 H]]].
  split.
  - eapply Rlt_trans; [eapply pl_unstage; exact E3|]. eapply Rlt_trans; [eapply pl_item; exact E4|].
    eapply Rlt_trans; [eapply pl_logfail; exact E5|eapply pl_pre_machine; exact H].
  - destruct (pre_machine_inv ev _ _ _ _ _ _ _ _ H) as [r [ns [c1 [c2 X]]]]. decompose [and] X. assumption.
Qed.

(* the first event for a staged task that has no record: exactly one record is created, and the key points to it *)
Theorem first_event_creates_one_record : forall t route evt c c' p,
  c_init c = true -> is_engine_command t = false -> ws_task_idx (c_ws c) t route = None ->
  uts_prefix ev t route evt c = (c', Val p) ->
  length (sequence (c_ws c')) = S (length (sequence (c_ws c))) /\
  ws_task_idx (c_ws c') t route = Some (length (sequence (c_ws c))) /\ po_idx p = length (sequence (c_ws c)).
Proof.
  intros t route evt c c' p Hi Hcmd Hno H.
  destruct (prefix_inv ev _ _ _ _ _ _ H) as [cE [ts [EE Hm]]]. rewrite (ensure_ws_inited ev c Hi) in EE. inversion EE; subst cE. clear EE.
  rewrite Hno in Hm. unfold pre_main in Hm.
  apply bind_val_inv' in Hm. destruct Hm as [ca [idx1 [E1 Hm]]].
  unfold uts_sel1 in E1. apply bind_val_inv' in E1. destruct E1 as [cx [s [Es Ea]]].
  assert (cx = c) by (unfold uts_need_staged in Es; destruct (get_staged_task (c_ws c) t route); inversion Es; reflexivity). subst cx.
  assert (Hrt : s_route s = route).
  { unfold uts_need_staged in Es. destruct (get_staged_task (c_ws c) t route) as [s'|] eqn:E; inversion Es; subst s'.
    apply (get_staged_matches _ _ _ _ E). }
  rewrite Hrt in Ea.
  destruct (add_task_state_one _ _ _ _ _ _ _ Ea) as [Hidx [Hlen [Hptr _]]].
  destruct (add_task_state_inv ev _ _ _ _ _ _ _ Ea) as [r1 [Hr1 [Hst1 _]]].
  apply bind_val_inv' in Hm. destruct Hm as [cy [r1' [Eg Hm]]]. apply get_rec_inv in Eg. destruct Eg as [-> Hr1'].
  rewrite Hr1 in Hr1'. inversion Hr1'; subst r1'. clear Hr1'.
  apply bind_val_inv' in Hm. destruct Hm as [cb [idx [E2 Hm]]].
  unfold uts_sel2, ostatus_in in E2. rewrite Hst1 in E2. cbn [andb] in E2. inversion E2; subst cb idx. clear E2.
  destruct (after_selection _ _ _ _ _ _ _ _ _ Hm) as [[L T] Hpi].
  split; [congruence|]. split; [unfold ws_task_idx in *; rewrite T, Hptr, Hidx; reflexivity|congruence].
Qed.

(* a later event for a task whose record is not completed creates no record *)
Theorem later_event_creates_no_record : forall t route evt idx r c c' p,
  c_init c = true -> is_engine_command t = false -> ws_task_idx (c_ws c) t route = Some idx ->
  nth_error (sequence (c_ws c)) idx = Some r -> ostatus_in (r_status r) COMPLETED_STATUSES = false ->
  uts_prefix ev t route evt c = (c', Val p) ->
  length (sequence (c_ws c')) = length (sequence (c_ws c)) /\ tasks (c_ws c') = tasks (c_ws c) /\ po_idx p = idx.
Proof.
  intros t route evt idx r c c' p Hi Hcmd Hp Hr Hnc H.
  destruct (prefix_inv ev _ _ _ _ _ _ H) as [cE [ts [EE Hm]]]. rewrite (ensure_ws_inited ev c Hi) in EE. inversion EE; subst cE. clear EE.
  rewrite Hp in Hm. unfold pre_main in Hm.
  apply bind_val_inv' in Hm. destruct Hm as [ca [idx1 [E1 Hm]]].
  unfold uts_sel1 in E1. rewrite Hcmd in E1. inversion E1; subst ca idx1. clear E1.
  apply bind_val_inv' in Hm. destruct Hm as [cy [r1 [Eg Hm]]]. apply get_rec_inv in Eg. destruct Eg as [-> Hr1].
  rewrite Hr in Hr1. inversion Hr1; subst r1. clear Hr1.
  apply bind_val_inv' in Hm. destruct Hm as [cb [idx' [E2 Hm]]].
  unfold uts_sel2 in E2. rewrite Hnc in E2. cbn [andb] in E2. inversion E2; subst cb idx'. clear E2.
  destruct (after_selection _ _ _ _ _ _ _ _ _ Hm) as [[L T] Hpi]. repeat split; assumption.
Qed.

(* (b) the engine's call of a command: exactly one record is created for it, whether or not the (command, route)
   was visited before -- a command always gets a record of its own *)
Theorem command_call_creates_one_record : forall fuel n rt e c c',
  c_init c = true -> is_engine_command n = true -> graph_commands_inert (c_graph c) ->
  update_task_state_fuel ev (S fuel) n rt e c = (c', Val tt) ->
  length (sequence (c_ws c')) = S (length (sequence (c_ws c))) /\
  ws_task_idx (c_ws c') n rt = Some (length (sequence (c_ws c))) /\
  (forall k, k <> (n, rt) -> aget tkey_eqb k (tasks (c_ws c')) = aget tkey_eqb k (tasks (c_ws c))).
Proof.
  intros fuel n rt e c c' Hi Hcmd Hin H. rewrite uts_unfold, body_eq in H.
  apply bind_val_inv' in H. destruct H as [c1 [p [Ep H]]].
  destruct (Hin n Hcmd) as [Htr Hnr].
  pose proof (pg_prefix ev _ _ _ _ _ _ Ep) as G1. unfold Rg in G1.
  assert (Pre : length (sequence (c_ws c1)) = S (length (sequence (c_ws c))) /\
                ws_task_idx (c_ws c1) n rt = Some (length (sequence (c_ws c))) /\
                (forall k, k <> (n, rt) -> aget tkey_eqb k (tasks (c_ws c1)) = aget tkey_eqb k (tasks (c_ws c))) /\
                po_idx p = length (sequence (c_ws c))).
  { destruct (prefix_inv ev _ _ _ _ _ _ Ep) as [cE [ts [EE Hm]]]. rewrite (ensure_ws_inited ev c Hi) in EE. inversion EE; subst cE. clear EE.
    unfold pre_main in Hm. apply bind_val_inv' in Hm. destruct Hm as [ca [idx1 [E1 Hm]]].
    assert (Ea : exists s, get_staged_task (c_ws c) n rt = Some s /\ add_task_state ev n (s_route s) (s_in s) (s_prev s) c = (ca, Val idx1)).
    { unfold uts_sel1 in E1. rewrite Hcmd in E1.
      assert (G : (s <- uts_need_staged (get_staged_task (c_ws c) n rt) ;; add_task_state ev n (s_route s) (s_in s) (s_prev s)) c = (ca, Val idx1))
        by (destruct (ws_task_idx (c_ws c) n rt); exact E1).
      apply bind_val_inv' in G. destruct G as [cx [s [Es Ea]]]. unfold uts_need_staged in Es.
      destruct (get_staged_task (c_ws c) n rt) as [s'|]; inversion Es; subst. exists s. split; [reflexivity|exact Ea]. }
    destruct Ea as [s [Hs Ea]]. destruct (get_staged_matches _ _ _ _ Hs) as [_ Hrt]. rewrite Hrt in Ea.
    destruct (add_task_state_one _ _ _ _ _ _ _ Ea) as [Hidx [Hlen [Hptr Hoth]]].
    destruct (add_task_state_inv ev _ _ _ _ _ _ _ Ea) as [r1 [Hr1 [Hst1 _]]].
    apply bind_val_inv' in Hm. destruct Hm as [cy [r1' [Eg Hm]]]. apply get_rec_inv in Eg. destruct Eg as [-> Hr1'].
    rewrite Hr1 in Hr1'. inversion Hr1'; subst r1'. clear Hr1'.
    apply bind_val_inv' in Hm. destruct Hm as [cb [idx [E2 Hm]]].
    unfold uts_sel2, ostatus_in in E2. rewrite Hst1 in E2. cbn [andb] in E2. inversion E2; subst cb idx. clear E2.
    destruct (after_selection _ _ _ _ _ _ _ _ _ Hm) as [[L T] Hpi].
    split; [congruence|]. split; [unfold ws_task_idx in *; rewrite T, Hptr, Hidx; reflexivity|].
    split; [intros k Hk; rewrite T; apply Hoth; exact Hk|congruence]. }
  destruct Pre as [P1 [P2 [P3 P4]]].
  assert (Tl : Rlt c1 c').
  { unfold tail_of in H. rewrite uts_tail_eq in H.
    assert (Hb : forall ctx b, po_compl p = Some (ctx, b) -> b = false)
      by (intros ctx b Hc; exact (prefix_cmd_no_retry ev _ _ _ _ _ _ Hcmd Hnr Ep ctx b Hc)).
    assert (Rest : uts_rest ev (update_task_state_fuel ev fuel) n rt (po_ts p) (po_idx p) (po_old p) (po_new p) (po_compl p) c1
                   = (c', Val tt)).
    { destruct (po_compl p) as [[ctx b]|] eqn:Ec; [|exact H]. rewrite (Hb ctx b eq_refl) in H. exact H. }
    unfold uts_rest, uts_after in Rest.
    clear H. apply bind_val_inv' in Rest. destruct Rest as [c2 [q [E2 H]]].
    assert (Hq : q = []) by (eapply queue_nil; [exact E2|right; rewrite G1; exact Htr]). subst q.
    apply bind_val_inv' in H. destruct H as [cx [r2 [Eg H]]]. apply get_rec_inv in Eg. destruct Eg as [-> _].
    apply bind_val_inv' in H. destruct H as [cx [st [Es H]]].
    assert (cx = c2) by (destruct (r_status r2); inversion Es; reflexivity). subst cx.
    apply bind_val_inv' in H. destruct H as [c3 [unr [E3 H]]].
    apply bind_val_inv' in H. destruct H as [c4 [u4 [E4 H]]].
    cbn [forM_] in H. apply bind_val_inv' in H. destruct H as [cx [u [Er H]]]. inversion Er; subst cx. clear Er.
    apply bind_val_inv' in H. destruct H as [cx [w [Ew H]]]. inversion Ew; subst cx w. clear Ew.
    eapply Rlt_trans; [eapply pl_queue; exact E2|]. eapply Rlt_trans; [eapply pl_wf_task_event; exact E3|].
    eapply Rlt_trans; [eapply pl_log_unreachable; exact E4|].
    destruct (status_in (wstatus (c_ws c4)) COMPLETED_STATUSES); [|inversion H; apply Rlt_refl].
    unfold upd_rec, modws in H. inversion H; subst. apply Rlt_update. }
  destruct Tl as [L T]. split; [congruence|]. split; [unfold ws_task_idx in *; rewrite T; exact P2|].
  intros k Hk. rewrite T. apply P3; exact Hk.
Qed.

(* the delivery of a queue of commands: one record each *)
Theorem delivery_creates_one_record_each : forall fuel q c c',
  c_init c = true -> graph_commands_inert (c_graph c) -> Forall cmd_pair q ->
  forM_ q (uts_call (update_task_state_fuel ev (S fuel))) c = (c', Val tt) ->
  length (sequence (c_ws c')) = length (sequence (c_ws c)) + length q.
Proof.
  intros fuel q; induction q as [|[n rt] q IH]; intros c c' Hi Hin Hq H.
  - inversion H; subst. simpl. lia.
  - cbn [forM_] in H. apply bind_val_inv' in H. destruct H as [c1 [[] [E1 H]]].
    inversion Hq as [|x l Hc Hq']; subst. unfold cmd_pair in Hc. simpl in Hc.
    unfold uts_call in E1. destruct (engine_event n) as [e|]; [|inversion E1].
    destruct (command_call_creates_one_record fuel n rt e c c1 Hi Hc Hin E1) as [L _].
    assert (Hi1 : c_init c1 = true) by (exact (C05Proofs.presi_update_task_state_fuel ev _ _ _ _ _ _ _ E1 Hi)).
    assert (G1 : c_graph c1 = c_graph c) by (exact (pg_uts_fuel ev _ _ _ _ _ _ _ E1)).
    rewrite (IH c1 c' Hi1) by (try exact Hq'; try exact H; rewrite G1; exact Hin). simpl. lia.
Qed.

Lemma presi_queue : forall t route i ts o n compl, preserves C05Proofs.Rinit (uts_queue ev t route i ts o n compl).
Proof.
  intros. unfold uts_queue.
  pw C05Proofs.Rinit_refl C05Proofs.Rinit_trans
     ltac:(first [apply C05Proofs.presi_process_transition|apply C05Proofs.presi_upd_rec|apply C05Proofs.presi_get_rec
                 |apply (preserves_modws C05Proofs.Rinit); intro; unfold C05Proofs.Rinit; simpl; intro; assumption]).
Qed.

(* after the completion step of a call (no retry taken): the records created are exactly those of the queued commands *)
Theorem tail_record_count : forall fuel t route ts idx o n compl c c',
  c_init c = true -> graph_commands_inert (c_graph c) -> (forall ctx, compl <> Some (ctx, true)) ->
  uts_tail ev (update_task_state_fuel ev (S fuel)) t route ts idx o n compl c = (c', Val tt) ->
  exists c2 q, uts_queue ev t route idx ts o n compl c = (c2, Val q) /\
               length (sequence (c_ws c')) = length (sequence (c_ws c)) + length q.
Proof.
  intros fuel t route ts idx o n compl c c' Hi Hin Hnr H. rewrite uts_tail_eq in H.
  assert (Rest : uts_rest ev (update_task_state_fuel ev (S fuel)) t route ts idx o n compl c = (c', Val tt))
    by (destruct compl as [[ctx [|]]|]; [exfalso; exact (Hnr ctx eq_refl)|exact H|exact H]).
  unfold uts_rest, uts_after in Rest.
  clear H. apply bind_val_inv' in Rest. destruct Rest as [c2 [q [E2 H]]]. exists c2, q. split; [exact E2|].
  pose proof (queue_cmds ev _ _ _ _ _ _ _ _ _ _ E2) as Hq.
  destruct (pl_queue _ _ _ _ _ _ _ _ _ _ E2) as [L2 _].
  apply bind_val_inv' in H. destruct H as [cx [r2 [Eg H]]]. apply get_rec_inv in Eg. destruct Eg as [-> _].
  apply bind_val_inv' in H. destruct H as [cx [st [Es H]]].
  assert (cx = c2) by (destruct (r_status r2); inversion Es; reflexivity). subst cx.
  apply bind_val_inv' in H. destruct H as [c3 [unr [E3 H]]].
  apply bind_val_inv' in H. destruct H as [c4 [u4 [E4 H]]].
  apply bind_val_inv' in H. destruct H as [c5 [u5 [E5 H]]].
  apply bind_val_inv' in H. destruct H as [cx [w [Ew H]]]. inversion Ew; subst cx w. clear Ew.
  destruct (pl_wf_task_event _ _ _ _ _ _ E3) as [L3 _]. destruct (pl_log_unreachable _ _ _ _ E4) as [L4 _].
  assert (Hi4 : c_init c4 = true).
  { apply (C05Proofs.presi_log_unreachable _ _ _ _ E4). apply (C05Proofs.presi_wf_task_event _ _ _ _ _ _ E3).
    apply (presi_queue _ _ _ _ _ _ _ _ _ _ E2). exact Hi. }
  assert (G4 : c_graph c4 = c_graph c).
  { pose proof (pg_queue ev _ _ _ _ _ _ _ _ _ _ E2) as A. pose proof (pg_wf_task_event _ _ _ _ _ _ E3) as B.
    pose proof (pg_log_unreachable _ _ _ _ E4) as C. unfold Rg in *. congruence. }
  destruct u5. rewrite <- G4 in Hin.
  pose proof (delivery_creates_one_record_each fuel q c4 c5 Hi4 Hin Hq E5) as L5.
  assert (L' : length (sequence (c_ws c')) = length (sequence (c_ws c5))).
  { destruct (status_in (wstatus (c_ws c5)) COMPLETED_STATUSES); [|inversion H; reflexivity].
    unfold upd_rec, modws in H. inversion H; subst. cbn [c_ws set_ws]. apply length_update_rec. }
  lia.
Qed.

End WithEval.
