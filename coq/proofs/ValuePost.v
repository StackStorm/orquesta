(* ValuePost.v -- postconditions on the value a monadic computation returns (when it returns). *)
From Coq Require Import String List Bool ZArith Arith Lia.
From Orq Require Import GenStatuses GenEvents GenTables GenSpecMeta Base State Machines Codec Conductor.
From Orq Require Import ListFacts Hoare.
Import ListNotations.
Open Scope monad_scope.

Definition vpost {A} (P : A -> Prop) (m : M A) : Prop := forall c c' a, m c = (c', Val a) -> P a.

Lemma preserves_bind_v : forall (R : cstate -> cstate -> Prop), (forall x y z, R x y -> R y z -> R x z) ->
  forall A B (Q : A -> Prop) (m : M A) (f : A -> M B),
  vpost Q m -> preserves R m -> (forall a, Q a -> preserves R (f a)) -> preserves R (bind m f).
Proof.
  intros R Rtr A B Q m f Hq Hm Hf c c' r H. unfold bind in H. destruct (m c) as [c1 [a|e]] eqn:E.
  - eapply Rtr; [eapply Hm; exact E|eapply Hf; [eapply Hq; exact E|exact H]].
  - inversion H; subst. eapply Hm; exact E.
Qed.

Lemma vpost_ret : forall A (P : A -> Prop) a, P a -> vpost P (ret a).
Proof. intros A P a H c c' a' E; inversion E; subst; exact H. Qed.
Lemma vpost_raise : forall A (P : A -> Prop) e, vpost P (raise e).
Proof. intros A P e c c' a E; inversion E. Qed.
Lemma vpost_bind : forall A B (P : B -> Prop) (m : M A) (f : A -> M B),
  (forall a, vpost P (f a)) -> vpost P (bind m f).
Proof.
  intros A B P m f Hf c c' b E. unfold bind in E. destruct (m c) as [c1 [a|e]]; [eapply Hf; exact E|inversion E].
Qed.
Lemma vpost_bind_strong : forall A B (Q : A -> Prop) (P : B -> Prop) (m : M A) (f : A -> M B),
  vpost Q m -> (forall a, Q a -> vpost P (f a)) -> vpost P (bind m f).
Proof.
  intros A B Q P m f Hm Hf c c' b E. unfold bind in E. destruct (m c) as [c1 [a|e]] eqn:Em; [|inversion E].
  eapply Hf; [eapply Hm; exact Em|exact E].
Qed.
Lemma vpost_try_catch : forall A (P : A -> Prop) (m : M A) h,
  vpost P m -> (forall e, vpost P (h e)) -> vpost P (try_catch m h).
Proof.
  intros A P m h Hm Hh c c' a E. unfold try_catch in E. destruct (m c) as [c1 [a1|e]] eqn:Em.
  - inversion E; subst. eapply Hm; exact Em.
  - eapply Hh; exact E.
Qed.
Lemma vpost_weaken : forall A (P Q : A -> Prop) m, (forall a, P a -> Q a) -> vpost P m -> vpost Q m.
Proof. intros A P Q m H Hm c c' a E; apply H; eapply Hm; exact E. Qed.

Lemma vpost_mapM : forall A B (R : A -> B -> Prop) (f : A -> M B) l,
  (forall a, vpost (R a) (f a)) -> vpost (Forall2 R l) (mapM f l).
Proof.
  intros A B R f l Hf; induction l as [|x l IH]; simpl.
  - apply vpost_ret; constructor.
  - apply (vpost_bind_strong _ _ (R x)); [apply Hf|intros y Hy].
    apply (vpost_bind_strong _ _ (Forall2 R l)); [exact IH|intros ys Hys].
    apply vpost_ret; constructor; assumption.
Qed.

(* walk for value posts: binds are skipped (the value comes from the continuation), returns are left to [fin] *)
Ltac vw fin :=
  lazymatch goal with
  | |- vpost _ (ret _) => apply vpost_ret; fin
  | |- vpost _ (raise _) => apply vpost_raise
  | |- vpost _ (bind _ _) => apply vpost_bind; intro; vw fin
  | |- vpost _ (try_catch _ _) => apply vpost_try_catch; [ vw fin | intro; vw fin ]
  | |- vpost _ (match ?x with _ => _ end) => destruct x; vw fin
  | |- vpost _ ?m =>
      first [ let h := head_of m in progress (unfold h); vw fin
            | progress (cbv beta); vw fin
            | idtac ]
  end.

