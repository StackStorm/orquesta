(* SysItemsRecProofs.v -- the task RECORDS under the with-items provider protocol (model/ProviderSysItems.v).
   Idea: a call of update_task_state for a key changes the status of that key's record and of engine-command records
   only, and moves no other pointer (RK); so whatever an item in flight needs of its task's record survives the calls
   for the other keys, and for the own key it is read off the task machine (own_step, own_end).
   Order: the frame RK and its walk; the call on its own record (origin, own_step); protected records (prot_other);
   where the own record ends (own_end, own_item_final, own_item_report and the acknowledgement / report lemmas);
   status requests (rq_effect: what request_status_core does to every record; request_records);
   AllSt: a property of every record's status along calls and histories (NP is the instance used here);
   irec: the invariant "item in flight => record busy" along acknowledgements, polls, reports, requests;
   the theorems of C12c / C02d on reachable states. *)
From Coq Require Import String List Bool ZArith Arith Lia.
From Orq Require Import GenStatuses GenEvents GenTables GenSpecMeta Base State Machines Codec Conductor Decode Api Driver ProviderSys ProviderSysItems ProviderSysItemsMon.
From Orq Require Import ListFacts StateFacts F_tables F_names F_sys F_sysitems Hoare ValuePost StatusReach C04Proofs C05Proofs C02C03Proofs C09C10Proofs OffersProofs InertProofs RetryProofs SysProofs SysNextProofs SysItemsProofs.
Import ListNotations.
Open Scope string_scope.

(* the pointer map (orquesta's state["tasks"]: "<task>__r<route>" -> index) leads to a record of that task and route *)
Definition P_ok (c : cstate) : Prop :=
  forall t r i, ws_task_idx (c_ws c) t r = Some i ->
    exists rec, nth_error (sequence (c_ws c)) i = Some rec /\ key_of rec = (t, r).

(* between two states: the task list (state["sequence"]) only grows, and a record changes status only if its key is in K *)
Definition R1 (K : tkey -> Prop) (c c' : cstate) : Prop :=
  forall i rec, nth_error (sequence (c_ws c)) i = Some rec ->
    exists rec', nth_error (sequence (c_ws c')) i = Some rec' /\ key_of rec' = key_of rec /\
                 (r_status rec' = r_status rec \/ K (key_of rec)).
(* ... and the pointers of the keys outside K stay *)
Definition R2 (K : tkey -> Prop) (c c' : cstate) : Prop :=
  forall t r, ~ K (t, r) -> ws_task_idx (c_ws c') t r = ws_task_idx (c_ws c) t r.

(* the frame of a conductor call on the records, relative to the keys K it may touch (stated for initialised states
   with sound pointers, which it keeps so) *)
Definition RK (K : tkey -> Prop) (c c' : cstate) : Prop :=
  c_init c = true -> P_ok c -> c_init c' = true /\ P_ok c' /\ R1 K c c' /\ R2 K c c'.

Lemma RK_refl : forall K c, RK K c c.
Proof.
  intros K c Hi H. split; [exact Hi|]. split; [exact H|]. split; [|intros t r _; reflexivity].
  intros i rec E. exists rec. auto.
Qed.
Lemma RK_trans : forall K a b c, RK K a b -> RK K b c -> RK K a c.
Proof.
  intros K a b c H1 H2 Ia Pa. destruct (H1 Ia Pa) as [Ib [Pb [A1 A2]]]. destruct (H2 Ib Pb) as [Ic [Pc [B1 B2]]].
  split; [exact Ic|]. split; [exact Pc|]. split.
  - intros i rec E. destruct (A1 i rec E) as [r1 [E1 [K1 S1]]]. destruct (B1 i r1 E1) as [r2 [E2 [K2 S2]]].
    exists r2. split; [exact E2|]. split; [congruence|]. rewrite K1 in S2.
    destruct S1 as [S1|S1]; [|right; exact S1]. destruct S2 as [S2|S2]; [left; congruence|right; exact S2].
  - intros t r Hk. rewrite (B2 t r Hk). apply A2; exact Hk.
Qed.
Lemma nth_map_sig : forall l l' i (rec : trec), map sig l' = map sig l -> nth_error l i = Some rec ->
  exists rec', nth_error l' i = Some rec' /\ sig rec' = sig rec.
Proof.
  intros l l' i rec H E. assert (X : nth_error (map sig l') i = Some (sig rec)) by (rewrite H; apply map_nth_error; exact E).
  rewrite nth_error_map in X. destruct (nth_error l' i) as [r'|]; [|discriminate]. simpl in X. exists r'. split; [reflexivity|congruence].
Qed.

Lemma sig_key : forall r r', sig r' = sig r -> key_of r' = key_of r /\ r_status r' = r_status r.
Proof. intros r r' H. unfold sig, key_of in *. inversion H. auto. Qed.

Lemma RK_same : forall K c c', tasks (c_ws c') = tasks (c_ws c) -> map sig (sequence (c_ws c')) = map sig (sequence (c_ws c)) ->
  (c_init c = true -> c_init c' = true) -> RK K c c'.
Proof.
  intros K c c' Ht Hs Hi Ia Pa. split; [exact (Hi Ia)|]. split; [|split].
  - intros t r i E. unfold ws_task_idx in *. rewrite Ht in E. destruct (Pa t r i E) as [rec [A B]].
    destruct (nth_map_sig _ _ _ _ Hs A) as [rec' [A' S]]. exists rec'. split; [exact A'|]. destruct (sig_key _ _ S); congruence.
  - intros i rec E. destruct (nth_map_sig _ _ _ _ Hs E) as [rec' [A' S]]. exists rec'. destruct (sig_key _ _ S). auto.
  - intros t r _. unfold ws_task_idx. rewrite Ht. reflexivity.
Qed.
Lemma RK_Rfr : forall K c c', Rfr c c' -> RK K c c'.
Proof. intros K c c' [A [B [_ [_ [_ C]]]]]. apply RK_same; [exact A|exact B|congruence]. Qed.
Lemma RK_Rlt : forall K c c', Rlt c c' -> RK K c c'.
Proof. intros K c c' H. apply RK_Rfr. apply Rlt_Rfr. exact H. Qed.

Lemma RK_new_rec : forall (K : tkey -> Prop) c t rt ins prev retry, K (t, rt) ->
  RK K c (set_ws c (ws_set_tasks (ws_set_sequence (c_ws c) (app (sequence (c_ws c)) [new_rec t rt ins prev retry]))
                                 (aset tkey_eqb (t, rt) (length (sequence (c_ws c))) (tasks (c_ws c))))).
Proof.
  intros K c t rt ins prev retry Hk Ia Pa. split; [exact Ia|]. split; [|split].
  - intros t' r' i E. unfold ws_task_idx in E. simpl in E. simpl.
    destruct (tkey_eqb (t', r') (t, rt)) eqn:Ek.
    + apply tkey_eqb_eq in Ek. inversion Ek; subst t' r'. rewrite aget_aset_same_tkey in E. inversion E; subst i.
      exists (new_rec t rt ins prev retry). split; [rewrite nth_error_app2, Nat.sub_diag by lia; reflexivity|reflexivity].
    + assert (Hne : (t', r') <> (t, rt)) by (intro X; rewrite X, tkey_eqb_refl in Ek; discriminate).
      rewrite (aget_aset_other tkey_eqb tkey_eqb_eq) in E by exact Hne. destruct (Pa t' r' i E) as [rec [A B]]. exists rec. split; [|exact B].
      rewrite nth_error_app1; [exact A|]. apply nth_error_Some. rewrite A. discriminate.
  - intros i rec E. exists rec. simpl. split; [|auto]. rewrite nth_error_app1; [exact E|]. apply nth_error_Some. rewrite E. discriminate.
  - intros t' r' Hn. unfold ws_task_idx. simpl. apply (aget_aset_other tkey_eqb tkey_eqb_eq). intro X. apply Hn. rewrite X. exact Hk.
Qed.

(* the keys a call may touch besides its own: the engine commands noop / fail / continue / retry, which get a record
   of their own every time they are reached *)
Definition Kcmd (k : tkey) : Prop := is_engine_command (fst k) = true.
Definition Kown (k0 k : tkey) : Prop := k = k0 \/ Kcmd k.

Lemma RK_set_status : forall (K : tkey -> Prop) c idx r s, nth_error (sequence (c_ws c)) idx = Some r -> K (key_of r) ->
  RK K c (set_ws c (ws_update_rec (c_ws c) idx (fun r0 => r_set_status r0 s))).
Proof.
  intros K c idx r s Hr Hk Ia Pa. unfold ws_update_rec. rewrite Hr. split; [exact Ia|]. split; [|split].
  - intros t' r' i E. unfold ws_task_idx in *. simpl in *. destruct (Pa t' r' i E) as [rec [A B]].
    destruct (Nat.eq_dec i idx) as [->|Hne].
    + rewrite Hr in A. inversion A; subst rec. exists (r_set_status r s). split; [eapply nth_error_set_nth_same; exact Hr|exact B].
    + exists rec. split; [rewrite nth_error_set_nth_other by congruence; exact A|exact B].
  - intros i rec E. simpl. destruct (Nat.eq_dec i idx) as [->|Hne].
    + rewrite Hr in E. inversion E; subst rec. exists (r_set_status r s). split; [eapply nth_error_set_nth_same; exact Hr|].
      split; [reflexivity|right; exact Hk].
    + exists rec. split; [rewrite nth_error_set_nth_other by congruence; exact E|auto].
  - intros t' r' _. reflexivity.
Qed.


Section RecFrame.
Variable ev : string -> dict -> evalres.
Variable K : tkey -> Prop.
Hypothesis Hcmd : forall k, Kcmd k -> K k.

Lemma rk_add_task_state : forall t rt ins prev, K (t, rt) -> vpres (RK K) (add_task_state ev t rt ins prev).
Proof.
  intros t rt ins prev Hk c c' idx H. destruct (add_task_state_eff ev _ _ _ _ _ _ _ H) as [cm [retry [L [-> [-> _]]]]].
  eapply RK_trans; [apply RK_Rlt; exact L|apply RK_new_rec; exact Hk].
Qed.

Lemma rk_setst : forall t route (e : event) c idx r ns c', K (t, route) -> ws_task_idx (c_ws c) t route = Some idx ->
  nth_error (sequence (c_ws c)) idx = Some r -> task_process_event (c_ws c) r e = Val ns ->
  uts_setst idx ns c = (c', Val tt) -> RK K c c'.
Proof.
  intros t route e c idx r ns c' Hk Hp Hr _ H Ia Pa. unfold uts_setst in H. destruct ns as [s|]; [|inversion H; subst c'; exact (RK_refl K c Ia Pa)].
  unfold set_rec_status, modws in H. inversion H; subst c'. apply (RK_set_status K c idx r (Some s) Hr); [|exact Ia|exact Pa].
  destruct (Pa t route idx Hp) as [r0 [A B]]. rewrite Hr in A. inversion A; subst r0. rewrite B. exact Hk.
Qed.

Theorem rk_walk : forall fuel t route evt, K (t, route) -> vpres (RK K) (update_task_state_fuel ev fuel t route evt).
Proof.
  apply (key_walk ev (RK K) (fun t r _ => K (t, r)) (RK_refl K) (RK_trans K) (RK_same K)); auto.
  - intros t rt _ ins prev. apply rk_add_task_state.
  - exact rk_setst.
  - intros n rt e E. apply Hcmd. exact (engine_event_cmd _ _ E).
Qed.

Lemma rk_tail : forall fuel t route ts idx o n compl, (forall ctx, compl <> Some (ctx, true)) ->
  vpres (RK K) (uts_tail ev (update_task_state_fuel ev fuel) t route ts idx o n compl).
Proof.
  intros fuel t route ts idx o n compl Hn.
  apply (kw_tail ev (RK K) (fun t r _ => K (t, r)) (RK_refl K) (RK_trans K) (RK_same K)).
  - intros nn rt e E. apply Hcmd. exact (engine_event_cmd _ _ E).
  - intros t' r' e. apply rk_walk.
  - intros ctx E. exfalso. exact (Hn ctx E).
Qed.

End RecFrame.

Lemma rk_fuel : forall ev fuel t route evt,
  vpres (RK (Kown (t, route))) (update_task_state_fuel ev fuel t route evt).
Proof. intros ev fuel t route evt. apply rk_walk; [intros k Hc; right; exact Hc|left; reflexivity]. Qed.

Theorem rk_update_task_state : forall ev t route evt c c', update_task_state ev t route evt c = (c', Val tt) ->
  RK (Kown (t, route)) c c'.
Proof. intros ev t route evt c c' H. exact (rk_fuel ev _ t route evt _ _ _ H). Qed.

(* where the record [r] that the machine steps for the key (t, route) comes from: created in this call -- the key had no
   pointer, or the record it pointed to was completed and the event starts the task again -- or it is the record at
   [idx] the key pointed to at entry *)
Definition origin (evt : event) (c : cstate) (t : string) (route idx : nat) (r : trec) : Prop :=
  (r_status r = None /\
   (ws_task_idx (c_ws c) t route = None \/
    exists idx0 r0, ws_task_idx (c_ws c) t route = Some idx0 /\ nth_error (sequence (c_ws c)) idx0 = Some r0 /\
                    cycle_cond evt (get_staged_task (c_ws c) t route) r0 = true)) \/
  (ws_task_idx (c_ws c) t route = Some idx /\
   exists r0, nth_error (sequence (c_ws c)) idx = Some r0 /\ r_status r = r_status r0 /\
              cycle_cond evt (get_staged_task (c_ws c) t route) r0 = false).

(* the same when t may be an engine command, which always gets a new record *)
Definition origin_cmd (evt : event) (c : cstate) (t : string) (route idx : nat) (r : trec) : Prop :=
  (r_status r = None /\
   (is_engine_command t = true \/ ws_task_idx (c_ws c) t route = None \/
    exists idx0 r0, ws_task_idx (c_ws c) t route = Some idx0 /\ nth_error (sequence (c_ws c)) idx0 = Some r0 /\
                    cycle_cond evt (get_staged_task (c_ws c) t route) r0 = true)) \/
  (is_engine_command t = false /\ ws_task_idx (c_ws c) t route = Some idx /\
   exists r0, nth_error (sequence (c_ws c)) idx = Some r0 /\ r_status r = r_status r0 /\
              cycle_cond evt (get_staged_task (c_ws c) t route) r0 = false).

Lemma origin_plain : forall evt c t route idx r, is_engine_command t = false ->
  origin_cmd evt c t route idx r -> origin evt c t route idx r.
Proof.
  intros evt c t route idx r Hc [[O [O2|O2]]|[_ O]]; [congruence|left; auto|right; exact O].
Qed.

Lemma origin_same : forall evt c t route idx r idx0 r0, origin evt c t route idx r ->
  ws_task_idx (c_ws c) t route = Some idx0 -> nth_error (sequence (c_ws c)) idx0 = Some r0 ->
  ostatus_in (r_status r0) COMPLETED_STATUSES = false -> idx = idx0 /\ r_status r = r_status r0.
Proof.
  intros evt c t route idx r idx0 r0 [[_ [O|[i1 [r1 [Op [Or1 Oc]]]]]]|[Op [r1 [Or1 [Os _]]]]] Hp0 Hr0 Hn.
  - congruence.
  - rewrite Hp0 in Op. inversion Op; subst i1. rewrite Hr0 in Or1. inversion Or1; subst r1.
    unfold cycle_cond in Oc. rewrite Hn in Oc. discriminate Oc.
  - rewrite Hp0 in Op. inversion Op; subst idx. rewrite Hr0 in Or1. inversion Or1; subst r1. auto.
Qed.

Section OwnStep.
Variable ev : string -> dict -> evalres.
Variable rec : string -> nat -> event -> M unit.

Lemma nth_sig_fr : forall c c' i r, Rfr c c' -> nth_error (sequence (c_ws c)) i = Some r ->
  exists r', nth_error (sequence (c_ws c')) i = Some r' /\ sig r' = sig r.
Proof. intros c c' i r [_ [H _]] E. eapply nth_map_sig; eassumption. Qed.

Lemma own_step : forall t route evt c c',
  uts_body ev rec t route evt c = (c', Val tt) -> c_init c = true -> P_ok c ->
  exists ts idx r ns c3 c4 compl,
    (c_init c3 = true /\ P_ok c3 /\ R1 (Kown (t, route)) c c3 /\ R2 (Kown (t, route)) c c3) /\
    (ws_task_idx (c_ws c3) t route = Some idx /\ nth_error (sequence (c_ws c3)) idx = Some r /\ key_of r = (t, route)) /\
    origin_cmd evt c t route idx r /\
    (exists ca cb cc, staged (c_ws ca) = staged (c_ws c) /\
       uts_unstage t route evt (get_staged_task (c_ws c) t route) ca = (cb, Val tt) /\
       uts_item t route evt (get_staged_task (c_ws c) t route) cb = (cc, Val tt) /\
       staged (c_ws c3) = staged (c_ws cc)) /\
    task_process_event (c_ws c3) r evt = Val ns /\
    (exists r4, nth_error (sequence (c_ws c4)) idx = Some r4 /\ sig r4 = sig (stepped r ns)) /\
    ws_task_idx (c_ws c4) t route = Some idx /\ c_init c4 = true /\ P_ok c4 /\
    R1 (Kown (t, route)) c3 c4 /\ R2 (Kown (t, route)) c3 c4 /\
    (status_in (rstatus (stepped r ns)) COMPLETED_STATUSES = false ->
       compl = None /\ (rstatus (stepped r ns) <> S_RETRYING -> staged (c_ws c4) = staged (c_ws c3))) /\
    (forall ctx, compl = Some (ctx, true) -> status_in (rstatus (stepped r ns)) COMPLETED_STATUSES = true /\
                                             tbl_transition_valid task_table (rstatus (stepped r ns)) S_RETRYING = true) /\
    uts_tail ev rec t route ts idx (rstatus r) (rstatus (stepped r ns)) compl c4 = (c', Val tt).
Proof.
  intros t route evt c c' H Ia Pa. set (K := Kown (t, route)).
  assert (Hk : K (t, route)) by (left; reflexivity).
  destruct (body_inv ev _ _ _ _ _ _ H) as (c0 & ts & c2 & idx & ca & cb & c3 & r & ns & c4 & c5 & c6 & compl &
    E0 & E1 & Eu & Ei & El & Hp & Hr & Ens & Es & Hn & Er & Ec & Htl).
  rewrite (ensure_ws_inited ev c Ia) in E0. inversion E0; subst c0. clear E0.
  pose proof (Rfr_trans _ _ _ (Rfr_trans _ _ _ (vfr_unstage _ _ _ _ _ _ _ Eu) (vfr_item _ _ _ _ _ _ _ Ei)) (vfr_logfail _ _ _ _ _ El)) as F3.
  assert (Sel : RK K c c2 /\ forall r2, nth_error (sequence (c_ws c2)) idx = Some r2 -> origin_cmd evt c t route idx r2).
  { destruct (select_run ev _ _ _ _ _ _ _ E1) as [[i [Ep [Hc [-> Hi]]]]|[Ea Hwhy]].
    - destruct (nth_error (sequence (c_ws c)) i) as [r1|] eqn:Hr1; [|discriminate Hi]. destruct Hi as [Hcc Hi]. inversion Hi; subst i.
      split; [apply RK_refl|]. intros r2 X. rewrite Hr1 in X. inversion X; subst r2. right. split; [exact Hc|]. split; [exact Ep|]. exists r1. auto.
    - rewrite add_from_staged_run in Ea. destruct (get_staged_task (c_ws c) t route) as [s|] eqn:Hs; [|discriminate Ea].
      destruct (add_task_state_inv ev _ _ _ _ _ _ _ Ea) as [rn [A [B _]]].
      rewrite (proj2 (get_staged_matches _ _ _ _ Hs)) in Ea. split; [exact (rk_add_task_state ev K _ _ _ _ Hk _ _ _ Ea)|].
      intros r2 X. rewrite A in X. inversion X; subst r2. left. split; [exact B|]. destruct Hwhy as [W|[W|W]]; [right; left; exact W|left; exact W|right; right; rewrite <- Hs in W; exact W]. }
  destruct Sel as [S2 Orig].
  destruct (RK_trans K _ _ _ S2 (RK_Rfr K _ _ F3) Ia Pa) as [I3 [P3 [A1 A2]]].
  destruct (P3 t route idx Hp) as [r' [Hr' Hkey]]. rewrite Hr in Hr'. inversion Hr'; subst r'.
  destruct (setst_inv _ _ _ _ _ _ Es Hr) as [_ [T4 _]].
  destruct (retrying_eff ev _ _ _ _ _ _ _ Er) as [F5 [Same5 _]].
  pose proof (Rfr_trans _ _ _ F5 (vfr_completion ev _ _ _ _ _ _ _ _ _ _ Ec)) as F6.
  destruct (RK_trans K _ _ _ (rk_setst K _ _ _ _ _ _ _ _ Hk Hp Hr Ens Es) (RK_Rfr K _ _ F6) I3 P3) as [I6 [P6 [B1 B2]]].
  exists ts, idx, r, ns, c3, c6, compl.
  split; [auto|]. split; [auto|]. split.
  { destruct F3 as [_ [Sg _]]. destruct (nth_map_sig _ _ _ _ (eq_sym Sg) Hr) as [r2 [X Y]]. destruct (sig_key _ _ Y) as [_ Y2].
    destruct (Orig r2 X) as [[O O2]|[Oc [Op [r0 [Or0 [Os Oc2]]]]]]; [left; split; [congruence|exact O2]|right].
    split; [exact Oc|]. split; [exact Op|]. exists r0. split; [exact Or0|]. split; [congruence|exact Oc2]. }
  split.
  { exists c2, ca, cb. split; [|split; [exact Eu|split; [exact Ei|]]].
    - destruct (select_run ev _ _ _ _ _ _ _ E1) as [[i [_ [_ [-> _]]]]|[Ea _]]; [reflexivity|].
      rewrite add_from_staged_run in Ea. destruct (get_staged_task (c_ws c) t route); [|discriminate Ea].
      destruct (add_task_state_eff ev _ _ _ _ _ _ _ Ea) as [cm [retry [L [_ [-> _]]]]]. apply L.
    - unfold uts_logfail in El. destruct (status_eqb (ev_status evt) S_FAILED); [|inversion El; reflexivity].
      apply log_entry_error_eff in El. destruct El as [_ [W _]]. rewrite W. reflexivity. }
  split; [exact Ens|]. split; [exact (nth_sig_fr _ _ _ _ F6 Hn)|].
  split; [unfold ws_task_idx in *; destruct F6 as [T _]; rewrite T, T4; exact Hp|].
  split; [exact I6|]. split; [exact P6|]. split; [exact B1|]. split; [exact B2|]. split; [|split; [|exact Htl]].
  - intro Hnc. destruct (completion_inv ev _ _ _ _ _ _ _ _ _ _ Ec) as [[_ [X Y]]|[Hcomp _]]; [|congruence].
    split; [exact X|]. intro Hnr. subst c6. rewrite (Same5 Hnr).
    unfold uts_setst in Es. destruct ns; [|inversion Es; reflexivity]. unfold set_rec_status, modws in Es. inversion Es. apply staged_update_rec.
  - intros ctx Hc. destruct (completion_inv ev _ _ _ _ _ _ _ _ _ _ Ec) as [[_ [X _]]|[Hcomp [cy [ry [ctx' [b [_ [_ [_ [Hcb [Hb _]]]]]]]]]]]; [congruence|].
    split; [exact Hcomp|]. rewrite Hc in Hcb. inversion Hcb; subst. destruct (Hb eq_refl) as [_ [X _]]. exact X.
Qed.

End OwnStep.

Definition ncompl (o : option status) : Prop := ostatus_in o COMPLETED_STATUSES = false.

Lemma rstatus_ncompl : forall r, ncompl (r_status r) <-> status_in (rstatus r) COMPLETED_STATUSES = false.
Proof. intro r. unfold ncompl, rstatus, ostatus_in. destruct (r_status r); [tauto|]. split; intros _; reflexivity. Qed.

Lemma RK_outside : forall (K : tkey -> Prop) c c' t r idx rec, RK K c c' -> c_init c = true -> P_ok c -> ~ K (t, r) ->
  ws_task_idx (c_ws c) t r = Some idx -> nth_error (sequence (c_ws c)) idx = Some rec ->
  ws_task_idx (c_ws c') t r = Some idx /\
  exists rec', nth_error (sequence (c_ws c')) idx = Some rec' /\ r_status rec' = r_status rec.
Proof.
  intros K c c' t r idx rec H Ia Pa Hk Hp Hr. destruct (H Ia Pa) as [_ [_ [A1 A2]]].
  split; [rewrite (A2 t r Hk); exact Hp|].
  destruct (A1 idx rec Hr) as [rec' [E [_ S]]]. exists rec'. split; [exact E|].
  destruct S as [S|S]; [exact S|]. destruct (Pa t r idx Hp) as [rec0 [X Y]]. rewrite Hr in X. inversion X; subst rec0.
  rewrite Y in S. contradiction.
Qed.

Section Protected.
Variable ev : string -> dict -> evalres.

Lemma prot_other : forall t0 r0 e c c' t r idx rec, update_task_state ev t0 r0 e c = (c', Val tt) ->
  c_init c = true -> P_ok c -> (t, r) <> (t0, r0) -> is_engine_command t = false ->
  ws_task_idx (c_ws c) t r = Some idx -> nth_error (sequence (c_ws c)) idx = Some rec ->
  ws_task_idx (c_ws c') t r = Some idx /\
  exists rec', nth_error (sequence (c_ws c')) idx = Some rec' /\ r_status rec' = r_status rec.
Proof.
  intros t0 r0 e c c' t r idx rec H Ia Pa Hne Hc. apply (RK_outside _ _ _ _ _ _ _ (rk_update_task_state ev _ _ _ _ _ H) Ia Pa).
  intros [X|X]; [exact (Hne X)|]. unfold Kcmd in X. simpl in X. congruence.
Qed.

Lemma tail_own : forall fuel t route ts idx o n compl c c' rec, (forall ctx, compl <> Some (ctx, true)) ->
  uts_tail ev (update_task_state_fuel ev fuel) t route ts idx o n compl c = (c', Val tt) ->
  c_init c = true -> P_ok c -> is_engine_command t = false ->
  ws_task_idx (c_ws c) t route = Some idx -> nth_error (sequence (c_ws c)) idx = Some rec ->
  ws_task_idx (c_ws c') t route = Some idx /\
  exists rec', nth_error (sequence (c_ws c')) idx = Some rec' /\ r_status rec' = r_status rec.
Proof.
  intros fuel t route ts idx o n compl c c' rec Hn H Ia Pa Hc.
  apply (RK_outside _ _ _ _ _ _ _ (rk_tail ev Kcmd (fun k X => X) _ _ _ _ _ _ _ _ Hn _ _ _ H) Ia Pa).
  unfold Kcmd. simpl. congruence.
Qed.

Lemma prot_ok : forall t0 r0 e c c', update_task_state ev t0 r0 e c = (c', Val tt) ->
  c_init c = true -> P_ok c -> c_init c' = true /\ P_ok c'.
Proof. intros t0 r0 e c c' H Ia Pa. destruct (rk_update_task_state ev _ _ _ _ _ H Ia Pa) as [A [B _]]. auto. Qed.

End Protected.

(* a record still to be reported on: not completed and not waiting for a retry *)
Definition live (o : option status) : Prop := ostatus_in o DEAD_STATUSES = false.

Lemma live_rstatus : forall r, live (r_status r) <-> status_in (rstatus r) DEAD_STATUSES = false.
Proof. intro r. unfold live, rstatus, ostatus_in. destruct (r_status r); [tauto|]. split; intros _; reflexivity. Qed.
Lemma dead_split : forall x, status_in x DEAD_STATUSES = false -> status_in x COMPLETED_STATUSES = false /\ x <> S_RETRYING.
Proof. intros x H. destruct x; try discriminate H; split; try reflexivity; discriminate. Qed.
Lemma live_ncompl : forall o, live o -> ncompl o.
Proof. intros [x|] H; [|reflexivity]. unfold live, ncompl in *. simpl in *. apply (dead_split _ H). Qed.

Lemma In_del_nth : forall A (l : list A) i j x, nth_error l j = Some x -> j <> i -> In x (list_del_nth i l).
Proof.
  induction l as [|a l IH]; intros i j x H Hne; [destruct j; discriminate|].
  destruct i, j; simpl in *; try congruence.
  - eapply nth_error_In; exact H.
  - inversion H; left; reflexivity.
  - right. eapply IH; [exact H|congruence].
Qed.

Lemma stepped_rstatus : forall r ns, r_status (stepped r ns) = Some (rstatus (stepped r ns)) \/ (ns = None /\ r_status r = None).
Proof. intros r [s|]; [left; reflexivity|]. simpl. unfold rstatus. destruct (r_status r); [left; reflexivity|right; auto]. Qed.

(* a record an action is working for: active, or pending (a status only a provider's pending report gives) *)
Definition busy (o : option status) : Prop := ostatus_in o GOOD_STATUSES = true.
Lemma busy_live : forall o, busy o -> live o.
Proof. intros [x|] H; [|discriminate H]. unfold busy, live in *. simpl in *. apply F_good_split; exact H. Qed.
Lemma busy_rstatus : forall r, busy (r_status r) -> status_in (rstatus r) GOOD_STATUSES = true.
Proof. intros r H. unfold busy, rstatus in *. destruct (r_status r); [exact H|discriminate H]. Qed.
Lemma busy_stepped : forall rr ns, status_in (rstatus (stepped rr ns)) GOOD_STATUSES = true -> busy (r_status (stepped rr ns)).
Proof.
  intros rr ns H. unfold busy. destruct (stepped_rstatus rr ns) as [E|[En E]]; [rewrite E; exact H|].
  subst ns. cbn [stepped] in *. unfold rstatus in H. rewrite E in H. discriminate H.
Qed.

Section OwnEnd.
Variable ev : string -> dict -> evalres.

Lemma own_end : forall f t route evt c c',
  uts_body ev (update_task_state_fuel ev (S f)) t route evt c = (c', Val tt) -> c_init c = true -> P_ok c ->
  is_engine_command t = false ->
  exists idx rr ns w3 idx' r',
    key_of rr = (t, route) /\ origin evt c t route idx rr /\
    (exists ca cb cc, staged (c_ws ca) = staged (c_ws c) /\
       uts_unstage t route evt (get_staged_task (c_ws c) t route) ca = (cb, Val tt) /\
       uts_item t route evt (get_staged_task (c_ws c) t route) cb = (cc, Val tt) /\
       staged w3 = staged (c_ws cc)) /\
    task_process_event w3 rr evt = Val ns /\
    ws_task_idx (c_ws c') t route = Some idx' /\ nth_error (sequence (c_ws c')) idx' = Some r' /\
    ((r_status r' = r_status (stepped rr ns) /\
      (status_in (rstatus (stepped rr ns)) COMPLETED_STATUSES = false -> rstatus (stepped rr ns) <> S_RETRYING ->
       staged (c_ws c') = staged w3)) \/
     (r_status r' = Some S_RETRYING /\ status_in (rstatus (stepped rr ns)) COMPLETED_STATUSES = true)).
Proof.
  intros f t route evt c c' H Ia Pa Hcmd.
  destruct (own_step ev _ _ _ _ _ _ H Ia Pa) as (ts & idx & rr & ns & c3 & c4 & compl &
    _ & (_ & _ & Hk3) & Orig & Stg & Ens & (r4 & Hr4 & Hs4) & Hp4 & I4 & P4 & _ & _ & Hnc & Hretry & Htl).
  apply (origin_plain _ _ _ _ _ _ Hcmd) in Orig. destruct (sig_key _ _ Hs4) as [_ S4].
  assert (Hno : forall ctx : dict, None <> Some (ctx, true)) by (intros; discriminate).
  destruct compl as [[ctx [|]]|].
  - (* a retry was decided: the call goes on with the retry event, which makes the record retrying *)
    destruct (Hretry ctx eq_refl) as [Hcomp Hvalid].
    unfold uts_tail in Htl. rewrite uts_unfold in Htl.
    destruct (own_step ev _ _ _ _ _ _ Htl I4 P4) as (ts2 & idx2 & rr2 & ns2 & c32 & c42 & compl2 &
      _ & _ & Orig2 & _ & Ens2 & (r42 & Hr42 & Hs42) & Hp42 & I42 & P42 & _ & _ & Hnc2 & _ & Htl2).
    assert (Hst2 : r_status rr2 = r_status (stepped rr ns)).
    { destruct Orig2 as [[_ [O|[O|[i0 [r0 [Op [Or0 Oc]]]]]]]|[_ [Op [r0 [Or0 [Os _]]]]]].
      - congruence.
      - congruence.
      - unfold cycle_cond, retry_event in Oc. simpl in Oc. rewrite andb_false_r in Oc. discriminate Oc.
      - rewrite Hp4 in Op. inversion Op; subst idx2. rewrite Hr4 in Or0. inversion Or0; subst r0. congruence. }
    assert (Hns2 : ns2 = Some S_RETRYING).
    { unfold retry_event in Ens2. apply tpe_engine in Ens2.
      assert (E : rstatus rr2 = rstatus (stepped rr ns)) by (unfold rstatus; rewrite Hst2; reflexivity).
      rewrite E in Ens2. destruct (F_task_retry_valid _ Hvalid) as [X|X]; [rewrite X in Hcomp; discriminate Hcomp|congruence]. }
    subst ns2. destruct (Hnc2 eq_refl) as [-> _]. destruct (sig_key _ _ Hs42) as [_ S42].
    destruct (tail_own ev _ _ _ _ _ _ _ _ _ _ _ Hno Htl2 I42 P42 Hcmd Hp42 Hr42) as [A [r' [B C]]].
    exists idx, rr, ns, (c_ws c3), idx2, r'. split; [exact Hk3|]. split; [exact Orig|]. split; [exact Stg|]. split; [exact Ens|].
    split; [exact A|]. split; [exact B|]. right. split; [rewrite C, S42; reflexivity|exact Hcomp].
  - assert (Hnt : forall ctx0 : dict, Some (ctx, false) <> Some (ctx0, true)) by (intros; discriminate).
    destruct (tail_own ev _ _ _ _ _ _ _ _ _ _ _ Hnt Htl I4 P4 Hcmd Hp4 Hr4) as [A [r' [B C]]].
    exists idx, rr, ns, (c_ws c3), idx, r'. split; [exact Hk3|]. split; [exact Orig|]. split; [exact Stg|]. split; [exact Ens|].
    split; [exact A|]. split; [exact B|]. left. split; [congruence|]. intros Hn _. destruct (Hnc Hn) as [X _]. discriminate X.
  - destruct (tail_own ev _ _ _ _ _ _ _ _ _ _ _ Hno Htl I4 P4 Hcmd Hp4 Hr4) as [A [r' [B C]]].
    exists idx, rr, ns, (c_ws c3), idx, r'. split; [exact Hk3|]. split; [exact Orig|]. split; [exact Stg|]. split; [exact Ens|].
    split; [exact A|]. split; [exact B|]. left. split; [congruence|]. intros Hn Hnr. destruct (Hnc Hn) as [_ Sg].
    rewrite <- (Sg Hnr). apply (flt_tail_noqueue ev _ _ _ _ _ _ _ _ _ _ Htl Hno). left; reflexivity.
Qed.

Lemma own_final : forall f t route evt c c',
  uts_body ev (update_task_state_fuel ev (S f)) t route evt c = (c', Val tt) -> c_init c = true -> P_ok c ->
  is_engine_command t = false ->
  exists idx rr ns w3 idx' r',
    key_of rr = (t, route) /\ origin evt c t route idx rr /\
    (exists ca cb cc, staged (c_ws ca) = staged (c_ws c) /\
       uts_unstage t route evt (get_staged_task (c_ws c) t route) ca = (cb, Val tt) /\
       uts_item t route evt (get_staged_task (c_ws c) t route) cb = (cc, Val tt) /\
       staged w3 = staged (c_ws cc)) /\
    task_process_event w3 rr evt = Val ns /\
    ws_task_idx (c_ws c') t route = Some idx' /\ nth_error (sequence (c_ws c')) idx' = Some r' /\
    (r_status r' = r_status (stepped rr ns) \/
     (r_status r' = Some S_RETRYING /\ status_in (rstatus (stepped rr ns)) COMPLETED_STATUSES = true)).
Proof.
  intros f t route evt c c' H Ia Pa Hcmd.
  destruct (own_end _ _ _ _ _ _ H Ia Pa Hcmd) as (idx & rr & ns & w3 & idx' & r' & A & B & C & D & E & F & [[G _]|G]);
    exists idx, rr, ns, w3, idx', r'; auto 10.
Qed.

Lemma own_item_final : forall t r i st res acc c c' s0 l,
  update_task_state ev t r (EvItem i st res acc) c = (c', Val tt) -> c_init c = true -> P_ok c ->
  is_engine_command t = false ->
  get_staged_task (c_ws c) t r = Some s0 -> s_items s0 = Some l -> i < length l ->
  exists idx rr ns w3 idx' r',
    key_of rr = (t, r) /\ origin (EvItem i st res acc) c t r idx rr /\
    get_staged_task w3 t r = Some (record_item i st s0) /\
    task_process_event w3 rr (EvItem i st res acc) = Val ns /\
    ws_task_idx (c_ws c') t r = Some idx' /\ nth_error (sequence (c_ws c')) idx' = Some r' /\
    ((r_status r' = r_status (stepped rr ns) /\
      (status_in (rstatus (stepped rr ns)) COMPLETED_STATUSES = false -> rstatus (stepped rr ns) <> S_RETRYING ->
       staged (c_ws c') = staged_update (record_item i st) t r (staged (c_ws c)))) \/
     (r_status r' = Some S_RETRYING /\ status_in (rstatus (stepped rr ns)) COMPLETED_STATUSES = true)).
Proof.
  intros t r i st res acc c c' s0 l H Ia Pa Hcmd Hs0 Hl Hil. unfold update_task_state in H. rewrite uts_unfold in H.
  destruct (own_end _ _ _ _ _ _ H Ia Pa Hcmd) as (idx & rr & ns & w3 & idx' & r' & Hk & Orig & (ca & cb & cc & Sa & Eu & Ei & Sc) & Ens & Hp' & Hr' & Fin).
  assert (St3 : staged w3 = staged_update (record_item i st) t r (staged (c_ws c))).
  { rewrite Hs0 in Eu, Ei. unfold uts_unstage in Eu. rewrite Hl in Eu. inversion Eu; subst cb.
    unfold uts_item in Ei. rewrite Hl in Ei. apply Nat.ltb_lt in Hil. rewrite Hil in Ei. unfold modws in Ei. inversion Ei; subst cc.
    rewrite Sc. simpl. rewrite Sa. reflexivity. }
  exists idx, rr, ns, w3, idx', r'. split; [exact Hk|]. split; [exact Orig|]. split.
  { unfold get_staged_task in *. rewrite St3, (find_staged_update_keeps _ _ _ _ (record_item_keeps i st)), Hs0. reflexivity. }
  rewrite <- St3. auto.
Qed.

Lemma running_good : forall evt c t route idx w rr ns, provider_event evt = true -> ev_status evt = S_RUNNING ->
  origin evt c t route idx rr -> task_process_event w rr evt = Val ns ->
  (forall r0, ws_task_idx (c_ws c) t route = Some idx -> nth_error (sequence (c_ws c)) idx = Some r0 ->
              cycle_cond evt (get_staged_task (c_ws c) t route) r0 = false -> ostatus_in (r_status r0) COMPLETED_STATUSES = false) ->
  status_in (rstatus (stepped rr ns)) GOOD_STATUSES = true.
Proof.
  intros evt c t route idx w rr ns Hprov Hrun Orig Ens Hfresh.
  destruct (tpe_provider w rr evt ns Hprov Ens) as [name [Hn [_ Hname]]]. rewrite (Hname Hrun) in Hn.
  rewrite stepped_status. destruct ns as [x|]; [rewrite (F_running_target _ _ Hn); reflexivity|].
  destruct Orig as [[O _]|[Op [r0 [Or0 [Os Oc]]]]].
  - unfold rstatus in Hn. rewrite O in Hn. vm_compute in Hn. discriminate Hn.
  - apply (F_norow_busy _ Hn). unfold rstatus. rewrite Os. specialize (Hfresh r0 Op Or0 Oc).
    destruct (r_status r0); [exact Hfresh|reflexivity].
Qed.

Lemma own_ack : forall t r i res acc c c' s0 l,
  update_task_state ev t r (EvItem i S_RUNNING res acc) c = (c', Val tt) -> c_init c = true -> P_ok c ->
  is_engine_command t = false ->
  get_staged_task (c_ws c) t r = Some s0 -> s_items s0 = Some l -> i < length l ->
  (forall idx0 r0, ws_task_idx (c_ws c) t r = Some idx0 -> nth_error (sequence (c_ws c)) idx0 = Some r0 ->
                   ostatus_in (r_status r0) COMPLETED_STATUSES = true -> s_completed s0 = false) ->
  exists idx r', ws_task_idx (c_ws c') t r = Some idx /\ nth_error (sequence (c_ws c')) idx = Some r' /\
                 busy (r_status r') /\
                 staged (c_ws c') = staged_update (record_item i S_RUNNING) t r (staged (c_ws c)).
Proof.
  intros t r i res acc c c' s0 l H Ia Pa Hcmd Hs0 Hl Hil Hcompl.
  destruct (own_item_final _ _ _ _ _ _ _ _ _ _ H Ia Pa Hcmd Hs0 Hl Hil) as (idx & rr & ns & w3 & idx' & r' & Hk & Orig & _ & Ens & Hp' & Hr' & Fin).
  assert (Hgood : status_in (rstatus (stepped rr ns)) GOOD_STATUSES = true).
  { apply (running_good (EvItem i S_RUNNING res acc) _ _ _ _ _ _ _ eq_refl eq_refl Orig Ens). intros r0 Op Or0 Oc.
    destruct (ostatus_in (r_status r0) COMPLETED_STATUSES) eqn:E0; [|reflexivity].
    unfold cycle_cond in Oc. rewrite Hs0, E0, (Hcompl _ _ Op Or0 E0) in Oc. discriminate Oc. }
  destruct (dead_split _ (F_good_split _ Hgood)) as [Hnc Hnr]. destruct Fin as [[Fin Hst]|[_ X]]; [|congruence].
  exists idx', r'. split; [exact Hp'|]. split; [exact Hr'|]. split; [|exact (Hst Hnc Hnr)].
  rewrite Fin. apply busy_stepped. exact Hgood.
Qed.

Lemma item_report_step : forall w rr t r i st res acc ns, key_of rr = (t, r) ->
  task_process_event w rr (EvItem i st res acc) = Val ns ->
  exists n, item_event_name w t r i st = Val n /\ tbl_step task_table (rstatus rr) n = ns.
Proof.
  intros w rr t r i st res acc ns Hk Ens. unfold task_process_event in Ens. destruct (negb _); [discriminate|].
  unfold key_of in Hk. replace (r_id rr) with t in Ens by congruence. replace (r_route rr) with r in Ens by congruence.
  destruct (item_event_name w t r i st) as [n|e]; [|discriminate]. exists n. split; [reflexivity|].
  apply task_table_step_val. exact Ens.
Qed.

Lemma record_item_items : forall i st s0 l, s_items s0 = Some l -> s_items (record_item i st s0) = Some (list_set_nth i st l).
Proof. intros i st s0 l Hl. unfold record_item. rewrite Hl. destruct s0; reflexivity. Qed.

(* an item report on a record that is not completed: the record is not replaced, so the machine steps its status
   under the name the item table gives *)
Lemma own_item_report : forall t r i st res acc c c' s0 l idx0 r0,
  update_task_state ev t r (EvItem i st res acc) c = (c', Val tt) -> c_init c = true -> P_ok c ->
  is_engine_command t = false ->
  get_staged_task (c_ws c) t r = Some s0 -> s_items s0 = Some l -> i < length l ->
  ws_task_idx (c_ws c) t r = Some idx0 -> nth_error (sequence (c_ws c)) idx0 = Some r0 ->
  ostatus_in (r_status r0) COMPLETED_STATUSES = false ->
  exists w3 n ns idx' r',
    get_staged_task w3 t r = Some (record_item i st s0) /\ s_items (record_item i st s0) = Some (list_set_nth i st l) /\
    item_event_name w3 t r i st = Val n /\ tbl_step task_table (rstatus r0) n = ns /\
    ws_task_idx (c_ws c') t r = Some idx' /\ nth_error (sequence (c_ws c')) idx' = Some r' /\
    ((r_status r' = r_status (stepped r0 ns) /\
      (status_in (rstatus (stepped r0 ns)) COMPLETED_STATUSES = false -> rstatus (stepped r0 ns) <> S_RETRYING ->
       staged (c_ws c') = staged_update (record_item i st) t r (staged (c_ws c)))) \/
     (r_status r' = Some S_RETRYING /\ status_in (rstatus (stepped r0 ns)) COMPLETED_STATUSES = true)).
Proof.
  intros t r i st res acc c c' s0 l idx0 r0 H Ia Pa Hcmd Hs0 Hl Hil Hp0 Hr0 Hnc.
  destruct (own_item_final _ _ _ _ _ _ _ _ _ _ H Ia Pa Hcmd Hs0 Hl Hil) as (idx & rr & ns & w3 & idx' & r' & Hk & Orig & Hg3 & Ens & Hp' & Hr' & Fin).
  destruct (origin_same _ _ _ _ _ _ _ _ Orig Hp0 Hr0 Hnc) as [_ Hrr].
  destruct (item_report_step _ _ _ _ _ _ _ _ _ Hk Ens) as [n [En Hn]].
  assert (Hs : r_status (stepped rr ns) = r_status (stepped r0 ns)) by (destruct ns; [reflexivity|exact Hrr]).
  assert (Hrs : forall x y : trec, r_status x = r_status y -> rstatus x = rstatus y) by (intros x y E; unfold rstatus; rewrite E; reflexivity).
  rewrite (Hrs _ _ Hrr) in Hn. rewrite Hs, (Hrs _ _ Hs) in Fin.
  exists w3, n, ns, idx', r'. auto 10 using record_item_items.
Qed.

Lemma own_report : forall t r i st res acc c c' s0 l j sj idx0 r0,
  update_task_state ev t r (EvItem i st res acc) c = (c', Val tt) -> c_init c = true -> P_ok c ->
  is_engine_command t = false -> status_in st report_statuses = true ->
  get_staged_task (c_ws c) t r = Some s0 -> s_items s0 = Some l -> i < length l ->
  nth_error l j = Some sj -> j <> i -> status_in sj ACTIVE_STATUSES = true ->
  ws_task_idx (c_ws c) t r = Some idx0 -> nth_error (sequence (c_ws c)) idx0 = Some r0 -> busy (r_status r0) ->
  exists idx r', ws_task_idx (c_ws c') t r = Some idx /\ nth_error (sequence (c_ws c')) idx = Some r' /\
                 busy (r_status r') /\
                 staged (c_ws c') = staged_update (record_item i st) t r (staged (c_ws c)).
Proof.
  intros t r i st res acc c c' s0 l j sj idx0 r0 H Ia Pa Hcmd Hst Hs0 Hl Hil Hj Hji Hact Hp0 Hr0 Hb0.
  destruct (own_item_report _ _ _ _ _ _ _ _ _ _ _ _ H Ia Pa Hcmd Hs0 Hl Hil Hp0 Hr0 (live_ncompl _ (busy_live _ Hb0)))
    as (w3 & n & ns & idx' & r' & Hg3 & Hit3 & En & Hn & Hp' & Hr' & Fin).
  assert (Hreq : status_in st item_requirements = true) by (destruct st; try discriminate Hst; reflexivity).
  assert (Hgood : status_in (rstatus (stepped r0 ns)) GOOD_STATUSES = true).
  { rewrite stepped_status. destruct ns as [x|]; [|apply busy_rstatus; exact Hb0].
    apply (F_active_busy _ _ _ Hn); [|apply busy_rstatus; exact Hb0].
    apply (F_item_name_active w3 t r i st _ _ n Hg3 Hit3 Hreq); [|exact En].
    rewrite del_set_nth. apply existsb_exists. exists sj. split; [eapply In_del_nth; eassumption|exact Hact]. }
  destruct (dead_split _ (F_good_split _ Hgood)) as [Hnc Hnr]. destruct Fin as [[Fin Hstg]|[_ X]]; [|congruence].
  exists idx', r'. split; [exact Hp'|]. split; [exact Hr'|]. split; [|exact (Hstg Hnc Hnr)].
  rewrite Fin. apply busy_stepped. exact Hgood.
Qed.

(* an item report on a task whose record is active: the record is succeeded afterwards only if the report is a success
   and every other item succeeded; and if so, and the record was running (or pausing / canceling), it is succeeded
   afterwards -- or retrying, when the task has a retry policy that asks for it *)
Lemma own_item_succeeded : forall t r i st res acc c c' s0 l idx0 r0,
  update_task_state ev t r (EvItem i st res acc) c = (c', Val tt) -> c_init c = true -> P_ok c ->
  is_engine_command t = false -> status_in st report_statuses = true ->
  get_staged_task (c_ws c) t r = Some s0 -> s_items s0 = Some l -> i < length l ->
  ws_task_idx (c_ws c) t r = Some idx0 -> nth_error (sequence (c_ws c)) idx0 = Some r0 -> busy (r_status r0) ->
  exists idx' r', ws_task_idx (c_ws c') t r = Some idx' /\ nth_error (sequence (c_ws c')) idx' = Some r' /\
    (r_status r' = Some S_SUCCEEDED -> st = S_SUCCEEDED /\ forall x, In x (list_del_nth i l) -> x = S_SUCCEEDED) /\
    (st = S_SUCCEEDED -> (forall x, In x (list_del_nth i l) -> x = S_SUCCEEDED) ->
     status_in (rstatus r0) [S_RUNNING; S_PAUSING; S_CANCELING] = true ->
     r_status r' = Some S_SUCCEEDED \/ r_status r' = Some S_RETRYING).
Proof.
  intros t r i st res acc c c' s0 l idx0 r0 H Ia Pa Hcmd Hst Hs0 Hl Hil Hp0 Hr0 Hb0.
  destruct (own_item_report _ _ _ _ _ _ _ _ _ _ _ _ H Ia Pa Hcmd Hs0 Hl Hil Hp0 Hr0 (live_ncompl _ (busy_live _ Hb0)))
    as (w3 & n & ns & idx' & r' & Hg3 & Hit3 & En & Hn & Hp' & Hr' & Fin).
  assert (Hreq : status_in st item_requirements = true) by (destruct st; try discriminate Hst; reflexivity).
  exists idx', r'. split; [exact Hp'|]. split; [exact Hr'|]. split.
  - intro Hsucc. destruct Fin as [[Fin _]|[Fin _]]; [|rewrite Hsucc in Fin; discriminate Fin].
    assert (Hns : ns = Some S_SUCCEEDED).
    { destruct ns as [x|]; [simpl in Fin; congruence|]. simpl in Fin. rewrite Hsucc in Fin.
      pose proof (busy_live _ Hb0) as L. rewrite <- Fin in L. discriminate L. }
    rewrite Hns in Hn.
    destruct (F_item_name_succeeded _ _ _ _ _ _ _ _ _ Hg3 Hit3 Hreq En Hn) as [A B]. rewrite del_set_nth in B. auto.
  - intros -> Hall Hrun.
    assert (Hall' : Forall (fun x => x = S_SUCCEEDED) (list_del_nth i (list_set_nth i S_SUCCEEDED l))).
    { rewrite del_set_nth. apply Forall_forall. exact Hall. }
    rewrite (F_item_name_all_succ _ _ _ _ _ _ Hg3 Hit3) in En; [|rewrite length_set_nth; exact Hil|exact Hall'].
    inversion En; subst n. rewrite (F_all_succ_step _ Hrun) in Hn. subst ns.
    destruct Fin as [[Fin _]|[Fin _]]; [left; exact Fin|right; exact Fin].
Qed.

End OwnEnd.

Definition TblAct (c : cstate) (k : tkey) : Prop :=
  exists s l, get_staged_task (c_ws c) (fst k) (snd k) = Some s /\ s_items s = Some l /\
              existsb (fun x => status_in x ACTIVE_STATUSES) l = true.

Definition NoTbl (c : cstate) (k : tkey) : Prop := items_of c (fst k) (snd k) = None.
(* what a status request needs of a busy record's task to leave it busy: an item table with an active item, or none *)
Definition Tok (c : cstate) (k : tkey) : Prop := TblAct c k \/ NoTbl c k.

Definition Rrq (c c' : cstate) : Prop :=
  staged (c_ws c') = staged (c_ws c) /\ tasks (c_ws c') = tasks (c_ws c) /\ c_init c' = c_init c /\
  forall i r, nth_error (sequence (c_ws c)) i = Some r ->
    exists r', nth_error (sequence (c_ws c')) i = Some r' /\ key_of r' = key_of r /\
               (Tok c (key_of r) -> busy (r_status r) -> busy (r_status r')).

Lemma TblAct_staged : forall c c' k, staged (c_ws c') = staged (c_ws c) -> TblAct c k -> TblAct c' k.
Proof. intros c c' k H [s [l [A B]]]. exists s, l. unfold get_staged_task in *. rewrite H. auto. Qed.

Lemma F_req_held_pc : forall s st a d, status_in st request_statuses_f = true ->
  In (step_or_stay s (request_event_name_of st a d)) [S_PAUSING; S_CANCELING] ->
  status_in st (app PAUSE_STATUSES CANCEL_STATUSES) = true \/ (step_or_stay s (request_event_name_of st a d) = s /\ st <> s).
Proof.
  intros s st a d Hst Hin.
  pose proof (req_sweep (fun s st a d n =>
      negb (status_in st request_statuses_f) || negb (status_in n [S_PAUSING; S_CANCELING])
      || status_in st (app PAUSE_STATUSES CANCEL_STATUSES) || (status_eqb n s && negb (status_eqb st s)))
    ltac:(vm_compute; reflexivity) s st a d) as P; cbv beta in P.
  rewrite Hst, (proj2 (status_in_In _ _) Hin) in P. cbn [negb orb] in P. autorewrite with b2p in P.
  destruct P as [P|P]; [left; apply status_in_In; exact P|right; exact P].
Qed.

(* the record was given the request: its status afterwards is what the task machine answers in the staging of [c] *)
Definition told (st : status) (c : cstate) (r r' : trec) : Prop :=
  exists w ns, staged w = staged (c_ws c) /\ task_process_event w r (EvWorkflow st) = Val ns /\
    r_status r' = r_status (stepped r ns).

Lemma tpe_workflow : forall w r st ns, task_process_event w r (EvWorkflow st) = Val ns ->
  tbl_step task_table (rstatus r) (task_workflow_event_name w (r_id r) (r_route r) st) = ns.
Proof.
  intros w r st ns H. unfold task_process_event in H. destruct (negb _); [discriminate|]. apply task_table_step_val in H. exact H.
Qed.

(* the records a status request addresses: active, and pointed to by the task map *)
Definition tact (c : cstate) (i : nat) (r : trec) : bool := ostatus_in (r_status r) ACTIVE_STATUSES && ws_pointed (c_ws c) i.

Definition same_frame (c c' : cstate) : Prop :=
  staged (c_ws c') = staged (c_ws c) /\ tasks (c_ws c') = tasks (c_ws c) /\ c_init c' = c_init c.

(* [c'] is [c] but for the record at [i], whose status moved as [Q] says *)
Definition Wr (i : nat) (Q : trec -> trec -> Prop) (c c' : cstate) : Prop :=
  same_frame c c' /\ wstatus (c_ws c') = wstatus (c_ws c) /\ length (sequence (c_ws c')) = length (sequence (c_ws c)) /\
  (forall j, j <> i -> nth_error (sequence (c_ws c')) j = nth_error (sequence (c_ws c)) j) /\
  forall r, nth_error (sequence (c_ws c)) i = Some r ->
    exists r', nth_error (sequence (c_ws c')) i = Some r' /\ key_of r' = key_of r /\ Q r r'.

Lemma Wr_refl : forall i (Q : trec -> trec -> Prop) c, (forall r, nth_error (sequence (c_ws c)) i = Some r -> Q r r) -> Wr i Q c c.
Proof. intros i Q c H. repeat split; auto. intros r Hr. exists r. auto. Qed.

Lemma Wr_set_status : forall i s (Q : trec -> trec -> Prop) c,
  (forall r, nth_error (sequence (c_ws c)) i = Some r -> Q r (r_set_status r s)) ->
  Wr i Q c (set_ws c (ws_update_rec (c_ws c) i (fun r => r_set_status r s))).
Proof.
  intros i s Q c H. split; [split; [simpl; apply staged_update_rec|split; [simpl; apply tasks_update_rec|reflexivity]]|].
  split; [simpl; apply wstatus_update_rec|]. split; [simpl; apply length_update_rec|]. split.
  - intros j Hne. simpl. apply nth_update_rec_other. congruence.
  - intros r Hr. exists (r_set_status r s). split; [exact (nth_update_rec_same (c_ws c) i _ r Hr)|]. split; [destruct r; reflexivity|exact (H r Hr)].
Qed.

(* a loop of writes, one record each and no record twice: what became of every record, also when a write raised *)
Lemma forM_writes : forall (Q : nat * trec -> trec -> trec -> Prop) (f : nat * trec -> M unit) (S0 : list stg),
  (forall a c c0 x, staged (c_ws c) = S0 -> f a c = (c0, x) ->
     (c0 = c /\ exists e, x = Exc e) \/ (x = Val tt /\ Wr (fst a) (Q a) c c0)) ->
  forall l c c1 x, NoDup (map fst l) -> staged (c_ws c) = S0 -> forM_ l f c = (c1, x) ->
  same_frame c c1 /\ wstatus (c_ws c1) = wstatus (c_ws c) /\ length (sequence (c_ws c1)) = length (sequence (c_ws c)) /\
  forall i r, nth_error (sequence (c_ws c)) i = Some r ->
    exists r', nth_error (sequence (c_ws c1)) i = Some r' /\ key_of r' = key_of r /\
      (~ In i (map fst l) -> r' = r) /\
      (forall a, In a l -> fst a = i -> (x = Val tt -> Q a r r') /\ (r' = r \/ Q a r r')).
Proof.
  intros Q f S0 Hf. induction l as [|a l IH]; intros c c1 x Hnd HS H; cbn [forM_] in H.
  { inversion H; subst c1 x. repeat split; auto. intros i r E. exists r. split; [exact E|]. split; [reflexivity|]. split; [auto|intros a []]. }
  assert (Same : c1 = c -> (exists e, x = Exc e) ->
            same_frame c c1 /\ wstatus (c_ws c1) = wstatus (c_ws c) /\ length (sequence (c_ws c1)) = length (sequence (c_ws c)) /\
            forall i r, nth_error (sequence (c_ws c)) i = Some r ->
              exists r', nth_error (sequence (c_ws c1)) i = Some r' /\ key_of r' = key_of r /\
                (~ In i (map fst (a :: l)) -> r' = r) /\
                (forall a', In a' (a :: l) -> fst a' = i -> (x = Val tt -> Q a' r r') /\ (r' = r \/ Q a' r r'))).
  { intros -> [e ->]. repeat split; auto. intros i r E. exists r. split; [exact E|]. split; [reflexivity|]. split; [auto|].
    intros a' _ _. split; [discriminate|left; reflexivity]. }
  inversion Hnd as [|k ks Hk Hnd']; subst.
  destruct (bind_inv _ _ _ _ _ _ _ H) as [[c0 [[] [E0 H']]]|[e [E0 ->]]].
  2: { destruct (Hf _ _ _ _ eq_refl E0) as [[-> X]|[X _]]; [apply Same; auto|discriminate X]. }
  destruct (Hf _ _ _ _ eq_refl E0) as [[_ [e X]]|[_ [[S0' [T0 I0]] [W0 [L0 [Oth Own]]]]]]; [discriminate X|].
  destruct (IH c0 c1 x Hnd' S0' H') as [[S1 [T1 I1]] [W1 [L1 R1]]].
  split; [split; [congruence|split; congruence]|]. split; [congruence|]. split; [congruence|].
  intros i r E. destruct (Nat.eq_dec i (fst a)) as [->|Hne].
  - destruct (Own r E) as [r0 [E0' [K0 Q0]]]. destruct (R1 _ r0 E0') as [r' [E' [K' [Keep _]]]]. rewrite (Keep Hk) in E'.
    exists r0. split; [exact E'|]. split; [exact K0|]. split; [intro X; exfalso; apply X; left; reflexivity|].
    intros a' [<-|Hin] Ha'; [auto|]. exfalso. apply Hk. rewrite <- Ha'. apply in_map. exact Hin.
  - rewrite <- (Oth i Hne) in E. destruct (R1 i r E) as [r' [E' [K' [Keep Tl]]]].
    exists r'. split; [exact E'|]. split; [exact K'|]. split; [intro X; apply Keep; intro Y; apply X; right; exact Y|].
    intros a' [<-|Hin] Ha'; [exfalso; apply Hne; symmetry; exact Ha'|exact (Tl a' Hin Ha')].
Qed.

Lemma rq_body1_char : forall st i r0 c c0 x, rq_body1 st (i, r0) c = (c0, x) ->
  (c0 = c /\ exists e, x = Exc e) \/ (x = Val tt /\ Wr i (told st c) c c0).
Proof.
  intros st i r0 c c0 x H. unfold rq_body1 in H. unfold bind at 1 in H. unfold getws at 1 in H.
  assert (Told : forall r ns r', task_process_event (c_ws c) r (EvWorkflow st) = Val ns ->
                   r_status r' = r_status (stepped r ns) -> told st c r r').
  { intros r ns r' Ens Hs. exists (c_ws c), ns. auto. }
  destruct (nth_error (sequence (c_ws c)) i) as [r|] eqn:Hr.
  2: { inversion H; subst. right. split; [reflexivity|]. apply Wr_refl. intros r X. congruence. }
  unfold bind in H. destruct (task_process_event (c_ws c) r (EvWorkflow st)) as [[s|]|e] eqn:Ens; simpl in H.
  - unfold set_rec_status, modws in H. inversion H; subst. right. split; [reflexivity|]. apply Wr_set_status.
    intros r2 X. rewrite Hr in X. inversion X; subst r2. exact (Told r (Some s) _ Ens eq_refl).
  - inversion H; subst. right. split; [reflexivity|]. apply Wr_refl. intros r2 X. rewrite Hr in X. inversion X; subst r2. exact (Told r None _ Ens eq_refl).
  - inversion H; subst. left. split; [reflexivity|exists e; reflexivity].
Qed.

Lemma tact_active : forall c i r, nth_error (sequence (c_ws c)) i = Some r ->
  (tact c i r = true -> In (i, r) (ws_tasks_by_status (c_ws c) ACTIVE_STATUSES)) /\
  (tact c i r = false -> ~ In i (map fst (ws_tasks_by_status (c_ws c) ACTIVE_STATUSES))).
Proof.
  intros c i r E. split.
  - intro Ha. unfold ws_tasks_by_status. apply filter_In.
    split; [unfold enumerate; exact (In_enumerate_from_nth _ _ 0 i r E)|exact Ha].
  - intros Ha X. apply in_map_iff in X. destruct X as [[j r2] [Ej X]]. simpl in Ej. subst j.
    destruct (tasks_by_status_In _ _ _ _ X) as [A _]. rewrite E in A. inversion A; subst r2.
    unfold ws_tasks_by_status in X. apply filter_In in X. destruct X as [_ X]. unfold tact in Ha. cbv beta iota in X. congruence.
Qed.

(* the first loop: every active record is given the request once; or the first task machine raises (the name of the
   request is not in the task vocabulary) and nothing is written *)
Lemma rq_loop1 : forall st c c1 x, forM_ (ws_tasks_by_status (c_ws c) ACTIVE_STATUSES) (rq_body1 st) c = (c1, x) ->
  (c1 = c /\ exists e, x = Exc e) \/
  (x = Val tt /\ same_frame c c1 /\ wstatus (c_ws c1) = wstatus (c_ws c) /\
   length (sequence (c_ws c1)) = length (sequence (c_ws c)) /\
   forall i r, nth_error (sequence (c_ws c)) i = Some r ->
     exists r', nth_error (sequence (c_ws c1)) i = Some r' /\ key_of r' = key_of r /\
       (tact c i r = false -> r' = r) /\ (tact c i r = true -> told st c r r')).
Proof.
  intros st c c1 x H. destruct x as [[]|e].
  2: { left. destruct (push_loop_outcome st c) as [[e' E]|[s2 [E _]]]; pose proof (eq_trans (eq_sym H) E) as X; inversion X. eauto. }
  right. split; [reflexivity|].
  assert (Loop1 : forall a c1 c2 y, staged (c_ws c1) = staged (c_ws c) -> rq_body1 st a c1 = (c2, y) ->
            (c2 = c1 /\ exists e, y = Exc e) \/ (y = Val tt /\ Wr (fst a) (fun r r' => told st c r r') c1 c2)).
  { intros [i r0] ca cb y HS E. destruct (rq_body1_char _ _ _ _ _ _ E) as [X|[Y [A [B [C [D F]]]]]]; [left; exact X|right].
    split; [exact Y|]. split; [exact A|]. split; [exact B|]. split; [exact C|]. split; [exact D|].
    intros r Hr. destruct (F r Hr) as [r' [E' [K' (w & ns & Sw & Tl)]]]. exists r'. split; [exact E'|]. split; [exact K'|].
    exists w, ns. split; [congruence|exact Tl]. }
  destruct (forM_writes _ _ _ Loop1 _ c _ _ (tasks_by_status_NoDup _ _) eq_refl H) as [F1 [W1 [L1 R1]]].
  split; [exact F1|]. split; [exact W1|]. split; [exact L1|].
  intros i r E. destruct (R1 i r E) as [r' [E' [K' [Keep Tl]]]]. exists r'. split; [exact E'|]. split; [exact K'|].
  destruct (tact_active c i r E) as [A B]. split; [intro X; exact (Keep (B X))|intro X; exact (proj1 (Tl _ (A X) eq_refl) eq_refl)].
Qed.

(* the restore loop: the records of the snapshot get their status back *)
Lemma rq_restore_char : forall (l : list (nat * trec)) c, NoDup (map fst l) ->
  exists c', forM_ l (fun '(i, r) => set_rec_status i (r_status r)) c = (c', Val tt) /\
    same_frame c c' /\ wstatus (c_ws c') = wstatus (c_ws c) /\ length (sequence (c_ws c')) = length (sequence (c_ws c)) /\
    forall i r, nth_error (sequence (c_ws c)) i = Some r ->
      exists r', nth_error (sequence (c_ws c')) i = Some r' /\ key_of r' = key_of r /\
        (~ In i (map fst l) -> r' = r) /\ (forall r0, In (i, r0) l -> r_status r' = r_status r0).
Proof.
  intros l c Hnd. eexists. split; [apply restore_loop_run|].
  assert (Rest : forall a c5 c6 y, staged (c_ws c5) = staged (c_ws c) ->
            (let '(i, r) := a in set_rec_status i (r_status r)) c5 = (c6, y) ->
            (c6 = c5 /\ exists e, y = Exc e) \/ (y = Val tt /\ Wr (fst a) (fun _ r' => r_status r' = r_status (snd a)) c5 c6)).
  { intros [i r] c5 c6 y _ E. unfold set_rec_status, modws in E. inversion E; subst. right. split; [reflexivity|].
    apply Wr_set_status. intros; destruct r0; reflexivity. }
  destruct (forM_writes _ (fun '(i, r) => set_rec_status i (r_status r)) _ Rest l c _ _ Hnd eq_refl (restore_loop_run l c)) as [F [W [L R]]].
  split; [exact F|]. split; [exact W|]. split; [exact L|].
  intros i r E. destruct (R i r E) as [r' [E' [K' [Keep Rs]]]]. exists r'. split; [exact E'|]. split; [exact K'|]. split; [exact Keep|].
  intros r0 Hin. exact (proj1 (Rs (i, r0) Hin eq_refl) eq_refl).
Qed.

(* the workflow machine on a request of the protocol: it refuses only outside pausing / canceling; and it enters or
   stays in pausing / canceling only on a pause / cancel request, or by staying where it is on a different request *)
Lemma rq_wf_step : forall st c c2 y, wf_workflow_event_M st c = (c2, y) ->
  (c2 = c /\ (exists e, y = Exc e) /\ (status_in st request_statuses_f = true -> ~ In (wstatus (c_ws c)) [S_PAUSING; S_CANCELING])) \/
  (exists unr n, y = Val unr /\ c2 = set_ws c (ws_set_status (c_ws c) n) /\
     (status_in st request_statuses_f = true -> In n [S_PAUSING; S_CANCELING] ->
      status_in st (app PAUSE_STATUSES CANCEL_STATUSES) = true \/ (n = wstatus (c_ws c) /\ st <> wstatus (c_ws c)))).
Proof.
  intros st c c2 y H. destruct y as [unr|e].
  - right. destruct (wf_workflow_event_eff _ _ _ _ H) as [n [-> Hn]]. exists unr, n. split; [reflexivity|]. split; [reflexivity|].
    intros Hst Hin. destruct Hn as [->|Hn]; [simpl in Hin; intuition discriminate|].
    rewrite wf_workflow_event_name_eq in Hn. rewrite Hn in Hin |- *. exact (F_req_held_pc _ _ _ _ Hst Hin).
  - left. unfold wf_workflow_event_M in H.
    destruct (wf_process_workflow_event (c_graph c) (c_ws c) st) as [[? ?]|?] eqn:Ew; inversion H; subst c2.
    split; [reflexivity|]. split; [eexists; reflexivity|]. intros Hst Hheld.
    unfold wf_process_workflow_event in Ew. rewrite wf_workflow_event_name_eq in Ew.
    rewrite F_req_event_valid in Ew; [|exact Hst|intro Hd; apply andb_prop in Hd; destruct Hd as [Hd _]; apply andb_prop in Hd; destruct Hd as [Hd _];
                                           apply andb_prop in Hd; destruct Hd as [Hd _]; apply andb_prop in Hd; destruct Hd as [_ Hd]; exact Hd].
    cbn [negb] in Ew. destruct (tbl_row wf_table (wstatus (c_ws c))) eqn:Er; [|exact (F_wf_row_held _ Hheld Er)].
    destruct (aget String.eqb _ l); [|discriminate Ew]. match type of Ew with (if ?b then _ else _) = _ => destruct b end; discriminate Ew.
Qed.

(* a status request: either every record has its status back and the workflow status is unchanged (the request was
   refused), or every active record was given the request once and the others are untouched -- and then the workflow
   reports pausing / canceling only after a pause / cancel request -- or the first task machine raised and nothing
   was written *)
Lemma rq_effect : forall st c c' x, request_status_core st c = (c', x) ->
  same_frame c c' /\ length (sequence (c_ws c')) = length (sequence (c_ws c)) /\
  ((wstatus (c_ws c') = wstatus (c_ws c) /\
    forall i r, nth_error (sequence (c_ws c)) i = Some r ->
      exists r', nth_error (sequence (c_ws c')) i = Some r' /\ key_of r' = key_of r /\ r_status r' = r_status r) \/
   ((status_in st request_statuses_f = true -> In (wstatus (c_ws c')) [S_PAUSING; S_CANCELING] ->
     status_in st (app PAUSE_STATUSES CANCEL_STATUSES) = true) /\
    forall i r, nth_error (sequence (c_ws c)) i = Some r ->
      exists r', nth_error (sequence (c_ws c')) i = Some r' /\ key_of r' = key_of r /\
        (tact c i r = false -> r' = r) /\ (tact c i r = true -> told st c r r')) \/
   (c' = c /\ exists e, x = Exc e)).
Proof.
  intros st c c' x H.
  unfold request_status_core in H. unfold bind at 1 in H. unfold getws at 1 in H. cbv zeta in H. fold (rq_body1 st) in H.
  set (active := ws_tasks_by_status (c_ws c) ACTIVE_STATUSES) in *.
  destruct (bind_inv _ _ _ _ _ _ _ H) as [[c1 [[] [E1 X1]]]|[e [E1 ->]]];
    destruct (rq_loop1 _ _ _ _ E1) as [[-> [e' X]]|[X [F1 [W1 [L1 Told1]]]]]; try discriminate X.
  2: { split; [repeat split|]. split; [reflexivity|]. right; right. eauto. }
  destruct (bind_inv _ _ _ _ _ _ _ X1) as [[c2 [unr [E2 X2]]]|[e [E2 ->]]];
    destruct (rq_wf_step _ _ _ _ E2) as [[-> [[e' Y] Hr]]|[unr' [n [Y [-> Hn]]]]]; try discriminate Y.
  2: { split; [exact F1|]. split; [exact L1|]. right; left. split; [|exact Told1]. intros Hst Hheld. exfalso. exact (Hr Hst Hheld). }
  set (c2 := set_ws c1 (ws_set_status (c_ws c1) n)) in *.
  destruct (log_unreachable_run unr c2) as [c3 [E3 W3]].
  unfold bind at 1 in X2. rewrite E3 in X2. unfold bind at 1 in X2. unfold getws at 1 in X2. rewrite W3 in X2.
  change (wstatus (c_ws c2)) with n in X2.
  assert (F3 : same_frame c c3).
  { destruct F1 as [S1 [T1 I1]]. unfold same_frame. rewrite W3. unfold c2. simpl. split; [exact S1|]. split; [exact T1|].
    destruct (fr_log_unreachable _ _ _ _ E3) as [_ [_ [_ [_ [_ Xi]]]]]. rewrite Xi. exact I1. }
  assert (W3n : wstatus (c_ws c3) = n) by (rewrite W3; reflexivity).
  assert (L3 : length (sequence (c_ws c3)) = length (sequence (c_ws c))) by (rewrite W3; exact L1).
  (* the request went through: c3 is the state returned *)
  match goal with |- ?G =>
    assert (Ret : c' = c3 -> (status_in st request_statuses_f = true -> In n [S_PAUSING; S_CANCELING] ->
                              status_in st (app PAUSE_STATUSES CANCEL_STATUSES) = true) -> G) end.
  { intros -> Hpc. split; [exact F3|]. split; [exact L3|]. right; left. rewrite W3n. split; [exact Hpc|]. intros i r E. rewrite W3. exact (Told1 i r E). }
  destruct (status_eqb st S_PAUSED && status_eqb (wstatus (c_ws c)) S_PAUSING && status_eqb n S_PAUSING) eqn:EA1.
  { apply Ret; [inversion X2; reflexivity|]. intros _ _.
    apply andb_prop in EA1. destruct EA1 as [EA1 _]. apply andb_prop in EA1. destruct EA1 as [A _]. apply status_eqb_eq in A. subst st. reflexivity. }
  destruct (status_eqb st S_CANCELED && status_eqb (wstatus (c_ws c)) S_CANCELING && status_eqb n S_CANCELING) eqn:EA2.
  { apply Ret; [inversion X2; reflexivity|]. intros _ _.
    apply andb_prop in EA2. destruct EA2 as [EA2 _]. apply andb_prop in EA2. destruct EA2 as [A _]. apply status_eqb_eq in A. subst st. reflexivity. }
  destruct (negb (status_eqb st (wstatus (c_ws c))) && status_eqb (wstatus (c_ws c)) n) eqn:EA3.
  - (* refused: the snapshot is restored *)
    apply andb_prop in EA3. destruct EA3 as [_ EA3]. apply status_eqb_eq in EA3.
    destruct (rq_restore_char active c3 (tasks_by_status_NoDup _ _)) as [c4 [E4 [[S4 [T4 I4]] [W4 [L4 R4]]]]].
    unfold bind at 1 in X2. rewrite E4 in X2. unfold raise in X2. inversion X2; subst c'.
    destruct F3 as [S3 [T3 I3]]. split; [split; [congruence|split; congruence]|]. split; [congruence|]. left.
    split; [rewrite W4, W3n; symmetry; exact EA3|].
    intros i r E. destruct (Told1 i r E) as [r3 [E3' [K3 [Same3 _]]]].
    assert (E3'' : nth_error (sequence (c_ws c3)) i = Some r3) by (rewrite W3; exact E3').
    destruct (R4 i r3 E3'') as [r4 [E4' [K4 [Same4 Rs4]]]]. exists r4. split; [exact E4'|]. split; [congruence|].
    destruct (tact_active c i r E) as [A B]. destruct (tact c i r) eqn:Ha.
    + exact (Rs4 r (A eq_refl)).
    + rewrite (Same4 (B eq_refl)), (Same3 eq_refl). reflexivity.
  - apply Ret; [inversion X2; reflexivity|]. intros Hst Hin.
    destruct (Hn Hst Hin) as [A|[A B]]; [exact A|]. exfalso. rewrite W1 in A, B.
    assert (X3 : negb (status_eqb st (wstatus (c_ws c))) && status_eqb (wstatus (c_ws c)) n = true).
    { rewrite A, status_eqb_refl, andb_true_r. apply negb_true_iff. destruct (status_eqb st (wstatus (c_ws c))) eqn:E; [|reflexivity].
      apply status_eqb_eq in E. contradiction. }
    congruence.
Qed.

Lemma rq_records : forall st c c' x, request_status_core st c = (c', x) ->
  same_frame c c' /\ length (sequence (c_ws c')) = length (sequence (c_ws c)) /\
  forall i r, nth_error (sequence (c_ws c)) i = Some r ->
    exists r', nth_error (sequence (c_ws c')) i = Some r' /\ key_of r' = key_of r /\
      (r_status r' = r_status r \/ told st c r r').
Proof.
  intros st c c' x H. destruct (rq_effect st c c' x H) as [F [L M]]. split; [exact F|]. split; [exact L|].
  intros i r E. destruct M as [[_ M]|[[_ M]|[-> _]]]; [| |exists r; auto]; destruct (M i r E) as [r' [E' [K' S]]]; exists r'; (split; [exact E'|]); (split; [exact K'|]).
  - left. exact S.
  - destruct S as [A B]. destruct (tact c i r); [right; exact (B eq_refl)|left; rewrite (A eq_refl); reflexivity].
Qed.

Lemma told_busy : forall st c r r', told st c r r' -> Tok c (key_of r) -> busy (r_status r) -> busy (r_status r').
Proof.
  intros st c r r' (w & ns & Sw & Ens & Fin) Htok Hb. rewrite Fin. destruct ns as [s|]; [|exact Hb].
  pose proof (busy_rstatus _ Hb) as Hr. apply tpe_workflow in Ens. unfold busy. simpl.
  unfold Tok, TblAct, NoTbl, items_of, get_staged_task, key_of in Htok. simpl in Htok. rewrite <- Sw in Htok.
  destruct Htok as [[e0 [l [Hg [Hl Hact]]]]|Hno].
  - destruct (status_in st (app PAUSE_STATUSES CANCEL_STATUSES)) eqn:Epc.
    + exact (F_active_busy _ _ _ Ens (F_wf_name_active _ _ _ _ _ _ Hg Hl Epc Hact) Hr).
    + rewrite (F_wf_name_plain _ _ _ _ Epc) in Ens. exact (F_wf_plain_busy _ _ _ Epc Ens Hr).
  - assert (Hname : task_workflow_event_name w (r_id r) (r_route r) st = WORKFLOW_EVENT_PREFIX ++ status_name st).
    { unfold task_workflow_event_name, get_staged_task. destruct (status_in st (app PAUSE_STATUSES CANCEL_STATUSES)); [|reflexivity].
      destruct (find (stg_matches (r_id r) (r_route r)) (staged w)) as [s0|]; [|reflexivity]. rewrite Hno. reflexivity. }
    rewrite Hname in Ens. rewrite (F_wf_base_only_from_retrying _ _ _ Ens) in Hr. discriminate Hr.
Qed.

Theorem request_records : forall ev st c c' x, c_init c = true -> request_workflow_status ev st c = (c', x) -> Rrq c c'.
Proof.
  intros ev st c c' x Hi H. unfold request_workflow_status, bind in H. rewrite (ensure_ws_inited ev c Hi) in H.
  destruct (rq_records st c c' x H) as [[A [B C]] [_ M]]. split; [exact A|]. split; [exact B|]. split; [exact C|].
  intros i r E. destruct (M i r E) as [r' [E' [K' S]]]. exists r'. split; [exact E'|]. split; [exact K'|].
  intros Htok Hb. destruct S as [S|S]; [rewrite S; exact Hb|exact (told_busy _ _ _ _ S Htok Hb)].
Qed.


(* [Q] holds of the status of every record.  It survives every call whose event is [okev] when a new record has it
   (its status is None) and the task machine keeps it on [okev] events *)
Section AllStatuses.
Variable Q : option status -> Prop.
Variable okev : event -> Prop.

Definition AllSt (c : cstate) : Prop := forall i rec, nth_error (sequence (c_ws c)) i = Some rec -> Q (r_status rec).
Definition Rall (c c' : cstate) : Prop := AllSt c -> AllSt c'.

Hypothesis Q_none : Q None.
Hypothesis Q_step : forall w r e s, okev e -> Q (r_status r) -> task_process_event w r e = Val (Some s) -> Q (Some s).
Hypothesis okev_cmd : forall n e, engine_event n = Some e -> okev e.
Hypothesis okev_retry : okev retry_event.
Hypothesis okev_wf : forall st, okev (EvWorkflow st).

Lemma Rall_refl : forall c, Rall c c. Proof. intros c H; exact H. Qed.
Lemma Rall_trans : forall a b c, Rall a b -> Rall b c -> Rall a c. Proof. unfold Rall; auto. Qed.

Lemma Rall_sig : forall c c', map sig (sequence (c_ws c')) = map sig (sequence (c_ws c)) -> Rall c c'.
Proof.
  intros c c' H N i rec E. destruct (nth_map_sig _ _ _ _ (eq_sym H) E) as [r0 [E0 S]]. destruct (sig_key _ _ S) as [_ S1].
  rewrite <- S1. exact (N i r0 E0).
Qed.
Lemma Rall_seq : forall c c', sequence (c_ws c') = sequence (c_ws c) -> Rall c c'.
Proof. intros c c' H. apply Rall_sig. rewrite H. reflexivity. Qed.

Lemma Rall_set_status : forall c i s, (forall r, nth_error (sequence (c_ws c)) i = Some r -> Q (r_status r) -> Q s) ->
  Rall c (set_ws c (ws_update_rec (c_ws c) i (fun r0 => r_set_status r0 s))).
Proof.
  intros c i s Hs N j rec E. unfold ws_update_rec in E. destruct (nth_error (sequence (c_ws c)) i) as [r|] eqn:Hr; [|exact (N j rec E)].
  simpl in E. destruct (Nat.eq_dec j i) as [->|Hne].
  - rewrite (nth_error_set_nth_same _ _ _ _ _ Hr) in E. inversion E; subst rec. exact (Hs r eq_refl (N i r Hr)).
  - rewrite nth_error_set_nth_other in E by congruence. exact (N j rec E).
Qed.

Section Walk.
Variable ev : string -> dict -> evalres.

Lemma all_ensure_ws : vpres Rall (ensure_ws ev).
Proof. intros c c' [] H. apply Rall_sig. exact (proj1 (proj2 (vfr0_ensure_ws ev _ _ _ H))). Qed.

Theorem all_fuel : forall fuel t route evt, okev evt -> vpres Rall (update_task_state_fuel ev fuel t route evt).
Proof.
  apply (key_walk ev Rall (fun _ _ e => okev e) Rall_refl Rall_trans (fun c c' _ S _ => Rall_sig c c' S));
    [| |intros n _; exact (okev_cmd n)|intros _ _ _ _; exact okev_retry].
  - intros t rt _ ins prev _ c c' idx H. destruct (add_task_state_eff ev _ _ _ _ _ _ _ H) as [cm [retry [[Ls _] [_ [-> _]]]]].
    intros N i rec E. simpl in E. destruct (Nat.lt_ge_cases i (length (sequence (c_ws cm)))) as [Hlt|Hge].
    + rewrite nth_error_app1 in E by exact Hlt. rewrite Ls in E. exact (N i rec E).
    + rewrite nth_error_app2 in E by exact Hge.
      destruct (i - length (sequence (c_ws cm))) as [|k]; simpl in E; [inversion E; exact Q_none|destruct k; discriminate].
  - intros t route e c idx r ns c' He _ Hr Ens H. unfold uts_setst in H. destruct ns as [s|]; [|inversion H; apply Rall_refl].
    unfold set_rec_status, modws in H. inversion H; subst c'. apply Rall_set_status. intros r2 X Hq.
    rewrite Hr in X. inversion X; subst r2. exact (Q_step _ _ _ _ He Hq Ens).
Qed.

Lemma all_request_status_core : forall st, preserves Rall (request_status_core st).
Proof.
  intros st c c' x H N i r' E'. destruct (rq_records st c c' x H) as [_ [L M]].
  destruct (nth_error (sequence (c_ws c)) i) as [r|] eqn:E.
  2: { apply nth_error_None in E. rewrite <- L in E. apply nth_error_None in E. congruence. }
  destruct (M i r E) as [r2 [E2 [_ S]]]. rewrite E' in E2. inversion E2; subst r2.
  destruct S as [S|(w & ns & _ & Ens & Fin)]; [rewrite S; exact (N i r E)|].
  rewrite Fin. destruct ns as [s|]; [|exact (N i r E)].
  exact (Q_step w r _ s (okev_wf st) (N i r E) Ens).
Qed.

End Walk.
End AllStatuses.

(* No record is Pending: "pending" is an action status the protocol never reports (npend of F_sysitems is the same
   "np"; npause / sys_np of SysProofs are "not pausing") *)
Definition NP : cstate -> Prop := AllSt (fun o => o <> Some S_PENDING).

Definition Krec (c : cstate) (F : list ikey) : Prop :=
  forall t r i, In (t, r, Some i) F -> is_engine_command t = false /\
    exists idx rec, ws_task_idx (c_ws c) t r = Some idx /\ nth_error (sequence (c_ws c)) idx = Some rec /\ busy (r_status rec).
(* a task is in flight as one action or item by item, never both *)
Definition Mx (F : list ikey) : Prop := forall t r, In (t, r, None) F -> forall i, ~ In (t, r, Some i) F.
(* the record invariant of the protocol: initialised, pointers sound, every task with an item in flight has a busy
   record (Krec), Mx *)
Definition irec (s : isys) : Prop :=
  c_init (si_c s) = true /\ P_ok (si_c s) /\ Krec (si_c s) (si_inflight s) /\ Mx (si_inflight s).

Section RecSystem.
Variable ev : string -> dict -> evalres.

Lemma ievent_rec_other : forall s t0 r0 e F, ibad (isys_event ev s t0 r0 e) = false ->
  c_init (si_c s) = true -> P_ok (si_c s) -> Krec (si_c s) F ->
  c_init (si_c (isys_event ev s t0 r0 e)) = true /\ P_ok (si_c (isys_event ev s t0 r0 e)) /\
  (forall t r i, In (t, r, Some i) F -> (t, r) <> (t0, r0) -> is_engine_command t = false /\
     exists idx rec, ws_task_idx (c_ws (si_c (isys_event ev s t0 r0 e))) t r = Some idx /\
                     nth_error (sequence (c_ws (si_c (isys_event ev s t0 r0 e)))) idx = Some rec /\ busy (r_status rec)).
Proof.
  intros s t0 r0 e F Hb Ia Pa Hk. pose proof (ievent_val ev _ _ _ _ Hb) as H.
  destruct (prot_ok ev _ _ _ _ _ H Ia Pa) as [Ib Pb]. split; [exact Ib|]. split; [exact Pb|].
  intros t r i Hin Hne. destruct (Hk t r i Hin) as [Hc [idx [rec [Hp [Hr Hl]]]]]. split; [exact Hc|].
  destruct (prot_other ev _ _ _ _ _ _ _ _ _ H Ia Pa Hne Hc Hp Hr) as [Hp' [rec' [Hr' Hs']]].
  exists idx, rec'. split; [exact Hp'|]. split; [exact Hr'|]. rewrite Hs'. exact Hl.
Qed.

Lemma plain_event_rec : forall s t0 r0 e F, ibad (isys_event ev s t0 r0 e) = false ->
  c_init (si_c s) = true -> P_ok (si_c s) -> Krec (si_c s) F -> (forall i, ~ In (t0, r0, Some i) F) ->
  c_init (si_c (isys_event ev s t0 r0 e)) = true /\ P_ok (si_c (isys_event ev s t0 r0 e)) /\ Krec (si_c (isys_event ev s t0 r0 e)) F.
Proof.
  intros s t0 r0 e F Hb Ia Pa Hk Hno. destruct (ievent_rec_other s t0 r0 e F Hb Ia Pa Hk) as [Ib [Pb Ho]].
  split; [exact Ib|]. split; [exact Pb|]. intros t r i Hin. apply (Ho t r i Hin). intro X. inversion X; subst. exact (Hno i Hin).
Qed.

Lemma stale_false : forall c t r s0, get_staged_task (c_ws c) t r = Some s0 -> stale c t r = false ->
  forall idx0 r0, ws_task_idx (c_ws c) t r = Some idx0 -> nth_error (sequence (c_ws c)) idx0 = Some r0 ->
                  ostatus_in (r_status r0) COMPLETED_STATUSES = true -> s_completed s0 = false.
Proof.
  intros c t r s0 Hs Hst idx0 r0 Hp Hr Hc. unfold stale, ws_task_entry in Hst. rewrite Hp, Hr, Hs, Hc in Hst. exact Hst.
Qed.

Lemma ack_item_rec : forall t r s a i l,
  ilink (si_c s) (si_inflight s) -> irec s -> items_of (si_c s) t r = Some l -> a_item a = Some i -> i < length l ->
  is_engine_command t = false -> ~ In (t, r, None) (si_inflight s) -> stale (si_c s) t r = false ->
  ibad (isys_ack ev t r s a) = false -> irec (isys_ack ev t r s a).
Proof.
  intros t r s a i l I [Ia [Pa [Hk Hm]]] Hl Hai Hil Hcmd Hnone Hst Hb. unfold isys_ack in *. rewrite Hai in *.
  set (s1 := with_inflight s (ikey_add (t, r, Some i) (si_inflight s))) in *.
  set (e := EvItem i S_RUNNING JNull JNull) in *.
  pose proof (ievent_val ev s1 t r e Hb) as H. change (si_c s1) with (si_c s) in H.
  destruct (items_of_entry _ _ _ _ Hl) as [s0 [_ [_ [_ [Hit Hg]]]]].
  destruct (own_ack ev _ _ _ _ _ _ _ _ _ H Ia Pa Hcmd Hg Hit Hil (stale_false _ _ _ _ Hg Hst)) as [idx [rc' [Hp' [Hr' [Hl' _]]]]].
  destruct (ievent_rec_other s1 t r e (si_inflight s) Hb Ia Pa Hk) as [Ib [Pb Ho]].
  split; [exact Ib|]. split; [exact Pb|]. rewrite inflight_event. unfold s1; simpl. split.
  - intros t' r' i' Hin. apply In_ikey_add in Hin.
    destruct (tkey_dec (t', r') (t, r)) as [E|Hne].
    + inversion E; subst t' r'. split; [exact Hcmd|]. exists idx, rc'. auto.
    + destruct Hin as [Hin|Hin]; [inversion Hin; subst; exfalso; apply Hne; reflexivity|]. exact (Ho t' r' i' Hin Hne).
  - intros t' r' Hin i' Hin'. apply In_ikey_add in Hin. destruct Hin as [Hin|Hin]; [discriminate Hin|].
    apply In_ikey_add in Hin'. destruct Hin' as [Hin'|Hin']; [inversion Hin'; subst; exact (Hnone Hin)|]. exact (Hm t' r' Hin i' Hin').
Qed.

Lemma acks_stale_cons : forall t r a acts s, acks_stale ev t r (a :: acts) s = false ->
  (match a_item a with Some _ => stale (si_c s) t r | None => false end) = false /\
  acks_stale ev t r acts (isys_ack ev t r s a) = false.
Proof. intros t r a acts s H. simpl in H. apply orb_false_iff in H. exact H. Qed.

Lemma ack_items_loop_rec : forall t r acts s l,
  ilink (si_c s) (si_inflight s) -> irec s -> items_of (si_c s) t r = Some l ->
  (forall a, In a acts -> exists i, a_item a = Some i /\ i < length l) ->
  is_engine_command t = false -> ~ In (t, r, None) (si_inflight s) -> acks_stale ev t r acts s = false ->
  ibad (fold_left (isys_ack ev t r) acts s) = false -> irec (fold_left (isys_ack ev t r) acts s).
Proof.
  intros t r. induction acts as [|a acts IH]; intros s l I R Hl Hacts Hcmd Hnone Hst Hb; cbn [fold_left] in *; [exact R|].
  pose proof (fold_head_ok _ _ (ibad_ack_mono ev t r) _ _ Hb) as Hb1.
  destruct (Hacts a (or_introl eq_refl)) as [i [Hai Hil]].
  destruct (acks_stale_cons _ _ _ _ _ Hst) as [Hst1 Hst2]. rewrite Hai in Hst1.
  destruct (ack_item_step ev t r s a i l I Hl Hai Hil Hb1) as [I1 [Hl1 _]].
  pose proof (ack_item_rec t r s a i l I R Hl Hai Hil Hcmd Hnone Hst1 Hb1) as R1'.
  apply (IH _ (list_set_nth i S_RUNNING l)); try assumption.
  - intros a' Ha'. destruct (Hacts a' (or_intror Ha')) as [i' [A B]]. exists i'. rewrite length_set_nth. auto.
  - unfold isys_ack. rewrite Hai, inflight_event. simpl. intro X. apply In_ikey_add in X. destruct X as [X|X]; [discriminate X|exact (Hnone X)].
Qed.

Lemma ack_plain_loop_rec : forall t r acts s,
  ilink (si_c s) (si_inflight s) -> irec s -> (forall a, In a acts -> a_item a = None) ->
  (forall i, ~ In (t, r, Some i) (si_inflight s)) ->
  ibad (fold_left (isys_ack ev t r) acts s) = false -> irec (fold_left (isys_ack ev t r) acts s).
Proof.
  intros t r. induction acts as [|a acts IH]; intros s I R Hacts Hno Hb; cbn [fold_left] in *; [exact R|].
  pose proof (fold_head_ok _ _ (ibad_ack_mono ev t r) _ _ Hb) as Hb1.
  destruct (ack_plain_loop ev t r [a] s I) as [I1 _]; [intros a' [<-|[]]; apply Hacts; left; reflexivity|exact Hb1|].
  simpl in I1. destruct R as [Ia [Pa [Hk Hm]]].
  assert (R1' : irec (isys_ack ev t r s a)).
  { unfold isys_ack in *. rewrite (Hacts a (or_introl eq_refl)) in *.
    set (s1 := with_inflight s (ikey_add (t, r, None) (si_inflight s))) in *.
    destruct (plain_event_rec s1 t r (EvAction S_RUNNING JNull) (si_inflight s) Hb1 Ia Pa Hk Hno) as [Ib [Pb Kb]].
    split; [exact Ib|]. split; [exact Pb|]. rewrite inflight_event. unfold s1; simpl. split.
    - intros t' r' i' Hin. apply In_ikey_add in Hin. destruct Hin as [Hin|Hin]; [discriminate Hin|]. exact (Kb t' r' i' Hin).
    - intros t' r' Hin i' Hin'. apply In_ikey_add in Hin'. destruct Hin' as [Hin'|Hin']; [discriminate Hin'|].
      apply In_ikey_add in Hin. destruct Hin as [Hin|Hin]; [inversion Hin; subst; exact (Hno i' Hin')|exact (Hm t' r' Hin i' Hin')]. }
  apply IH; [exact I1|exact R1'|intros; apply Hacts; right; assumption| |exact Hb].
  intros i X. unfold isys_ack in X. rewrite (Hacts a (or_introl eq_refl)), inflight_event in X. simpl in X.
  apply In_ikey_add in X. destruct X as [X|X]; [discriminate X|exact (Hno i X)].
Qed.

Definition okF (F : list ikey) (o : offer) : Prop :=
  is_engine_command (o_id o) = false /\
  match o_items_count o with
  | Some (S _) => ~ In (o_id o, o_route o, None) F
  | _ => forall i, ~ In (o_id o, o_route o, Some i) F
  end.

Lemma inflight_ack_key : forall t r acts s k, In k (si_inflight (fold_left (isys_ack ev t r) acts s)) ->
  In k (si_inflight s) \/ fst k = (t, r).
Proof.
  intros t r. induction acts as [|a acts IH]; intros s k H; cbn [fold_left] in H; [left; exact H|].
  destruct (IH _ _ H) as [X|X]; [|right; exact X]. unfold isys_ack in X.
  destruct (a_item a); rewrite inflight_event in X; simpl in X; apply In_ikey_add in X; destruct X as [X|X]; auto; right; rewrite X; reflexivity.
Qed.

Lemma inflight_ack_offer_key : forall s o k, In k (si_inflight (isys_ack_offer ev s o)) ->
  In k (si_inflight s) \/ fst k = (o_id o, o_route o).
Proof.
  intros s o k H. unfold isys_ack_offer in H. destruct (o_items_count o) as [[|m]|].
  - rewrite !inflight_event in H. left; exact H.
  - eapply inflight_ack_key; exact H.
  - eapply inflight_ack_key; exact H.
Qed.

Lemma ack_offer_rec : forall s o, ilink (si_c s) (si_inflight s) -> irec s -> pend_ok (si_c s) o ->
  okF (si_inflight s) o ->
  (match o_items_count o with Some O => false | _ => acks_stale ev (o_id o) (o_route o) (o_actions o) s end) = false ->
  ibad (isys_ack_offer ev s o) = false -> irec (isys_ack_offer ev s o).
Proof.
  intros s o I R Hp [Hcmd Hok] Hst Hb. unfold isys_ack_offer, pend_ok in *. destruct (o_items_count o) as [[|m]|].
  - destruct R as [Ia [Pa [Hk Hm]]].
    set (s1 := isys_event ev s (o_id o) (o_route o) (EvAction S_RUNNING JNull)) in *.
    assert (Hb1 : ibad s1 = false).
    { apply (not_bad_before (fun x => isys_event ev x (o_id o) (o_route o) (EvAction S_SUCCEEDED (JList [])))); [apply ibad_event_mono|exact Hb]. }
    destruct (plain_event_rec s _ _ _ _ Hb1 Ia Pa Hk Hok) as [Ib [Pb Kb]]. fold s1 in Ib, Pb, Kb.
    destruct (plain_event_rec s1 _ _ _ (si_inflight s) Hb Ib Pb Kb Hok) as [Ic [Pc Kc]].
    split; [exact Ic|]. split; [exact Pc|]. rewrite !inflight_event. unfold s1. rewrite inflight_event. auto.
  - destruct Hp as [l [Hl Ha]]. exact (ack_items_loop_rec _ _ _ _ _ I R Hl Ha Hcmd Hok Hst Hb).
  - exact (ack_plain_loop_rec _ _ _ _ I R Hp Hok Hb).
Qed.

Lemma okF_grow : forall F F' o, okF F o -> (forall k, In k F' -> In k F \/ fst k <> (o_id o, o_route o)) -> okF F' o.
Proof.
  intros F F' o [Hc H] Hg. split; [exact Hc|]. destruct (o_items_count o) as [[|m]|].
  - intros i X. destruct (Hg _ X) as [Y|Y]; [exact (H i Y)|apply Y; reflexivity].
  - intros X. destruct (Hg _ X) as [Y|Y]; [exact (H Y)|apply Y; reflexivity].
  - intros i X. destruct (Hg _ X) as [Y|Y]; [exact (H i Y)|apply Y; reflexivity].
Qed.

Lemma ack_offers_rec : forall offers s, ilink (si_c s) (si_inflight s) -> irec s ->
  (forall o, In o offers -> pend_ok (si_c s) o) -> (forall o, In o offers -> okF (si_inflight s) o) ->
  offers_dup offers = false -> offers_stale ev offers s = false ->
  ibad (fold_left (isys_ack_offer ev) offers s) = false -> irec (fold_left (isys_ack_offer ev) offers s).
Proof.
  induction offers as [|o offers IH]; intros s I R Hp Hok Hd Hst Hb; cbn [fold_left] in *; [exact R|].
  simpl in Hd. apply orb_false_iff in Hd. destruct Hd as [Hd1 Hd2].
  simpl in Hst. apply orb_false_iff in Hst. destruct Hst as [Hst1 Hst2].
  pose proof (fold_head_ok _ _ (ibad_ack_offer_mono ev) _ _ Hb) as Hb1.
  destruct (ack_offer_link ev s o I (Hp o (or_introl eq_refl)) Hb1) as [I1 P1].
  pose proof (ack_offer_rec s o I R (Hp o (or_introl eq_refl)) (Hok o (or_introl eq_refl)) Hst1 Hb1) as R1'.
  apply IH; try assumption.
  - intros o2 Ho2. apply (pend_ok_persist (si_c s)); [apply Hp; right; exact Ho2|].
    intros l2. apply P1. apply (offers_key_distinct _ _ _ Hd1 Ho2).
  - intros o2 Ho2. apply (okF_grow (si_inflight s)); [apply Hok; right; exact Ho2|].
    intros k Hk. destruct (inflight_ack_offer_key _ _ _ Hk) as [X|X]; [left; exact X|right].
    rewrite X. intro E. exact (offers_key_distinct _ _ _ Hd1 Ho2 (eq_sym E)).
Qed.


Lemma irec_same_records : forall c c' F, c_init c' = true -> tasks (c_ws c') = tasks (c_ws c) ->
  sequence (c_ws c') = sequence (c_ws c) -> P_ok c -> Krec c F -> P_ok c' /\ Krec c' F.
Proof.
  intros c c' F Hi Ht Hs Pa Hk. split.
  - intros t r i E. unfold ws_task_idx in *. rewrite Ht in E. rewrite Hs. exact (Pa t r i E).
  - intros t r i Hin. destruct (Hk t r i Hin) as [Hc [idx [rec [A [B C]]]]]. split; [exact Hc|]. exists idx, rec.
    unfold ws_task_idx in *. rewrite Ht, Hs. auto.
Qed.

Lemma poll_rec : forall s, ilink (si_c s) (si_inflight s) -> irec s -> poll_odd ev s = false ->
  ibad (isys_poll ev s) = false -> irec (isys_poll ev s).
Proof.
  intros s I R Hodd Hb. destruct (ipoll_val ev s Hb) as [c1 [offers [Hg [E [_ Hd]]]]].
  unfold poll_odd in Hodd. rewrite Hg in Hodd. apply orb_false_iff in Hodd. destruct Hodd as [Hodd Hstale]. rewrite E in *.
  destruct (poll_ready ev s c1 offers I Hg) as [HR [I1 Hof]]. pose proof I1 as [Hi1 _].
  destruct I as [Hi [Hfo [H1 H2]]]. destruct R as [Ia [Pa [Hk Hm]]].
  pose proof HR as (_ & _ & _ & Hseq & Htk & _ & _).
  destruct (irec_same_records (si_c s) c1 (si_inflight s) Hi1 Htk Hseq Pa Hk) as [Pa1 Hk1].
  apply (ack_offers_rec offers (poll_start s c1 offers)); try assumption.
  - unfold irec; simpl; auto.
  - intros o Ho. destruct (Hof o Ho) as [e Hok]. exact (pend_of_offer_ok _ _ _ Hok).
  - intros o Ho. simpl.
    assert (Ho' : offer_odd (si_inflight s) c1 o = false).
    { destruct (offer_odd (si_inflight s) c1 o) eqn:Eo; [|reflexivity].
      assert (X : existsb (offer_odd (si_inflight s) c1) offers = true) by (apply existsb_exists; exists o; auto). congruence. }
    unfold offer_odd in Ho'. apply orb_false_iff in Ho'. destruct Ho' as [Ho' Hcmd]. apply orb_false_iff in Ho'. destruct Ho' as [Hrs Hcl].
    split; [exact Hcmd|].
    (* an item of the task in flight means a non-empty table, and then the offer has items *)
    assert (NoItems : o_items_count o = None \/ o_items_count o = Some 0 -> forall i, ~ In (o_id o, o_route o, Some i) (si_inflight s)).
    { intros Hcnt i Hin'. destruct (H1 _ _ _ Hin') as [l [Hl Hn]].
      destruct l as [|x xs]; [destruct i; discriminate Hn|].
      unfold offer_resized in Hrs. rewrite (Rgn_items_stable _ _ _ _ _ _ HR Hl) in Hrs.
      destruct Hcnt as [Ec|Ec]; rewrite Ec in Hrs; discriminate Hrs. }
    destruct (o_items_count o) as [[|m]|]; [apply NoItems; auto| |apply NoItems; auto].
    intro X. apply ikey_in_iff in X. congruence.
Qed.

Lemma other_item_dec : forall (F : list ikey) t r i,
  (exists j, j <> i /\ In (t, r, Some j) F) \/ (forall j, In (t, r, Some j) F -> j = i).
Proof.
  induction F as [|k F IH]; intros t r i; [right; intros j []|].
  destruct (IH t r i) as [[j [A B]]|H]; [left; exists j; split; [exact A|right; exact B]|].
  destruct k as [[t' r'] [j'|]].
  - destruct (tkey_dec (t', r') (t, r)) as [E|Hne].
    + destruct (Nat.eq_dec j' i) as [->|Hj].
      * right. intros j [X|X]; [inversion X; reflexivity|exact (H j X)].
      * left. exists j'. split; [exact Hj|left]. inversion E; reflexivity.
    + right. intros j [X|X]; [inversion X; subst; exfalso; apply Hne; reflexivity|exact (H j X)].
  - right. intros j [X|X]; [discriminate X|exact (H j X)].
Qed.

Lemma report_rec : forall s t r item st result, ilink (si_c s) (si_inflight s) -> irec s ->
  ibad (isys_report ev s t r item st result) = false -> irec (isys_report ev s t r item st result).
Proof.
  intros s t r item st result I R Hb. unfold isys_report in *.
  destruct (ikey_in (t, r, item) (si_inflight s) && status_in st report_statuses) eqn:En; [|exact R].
  apply andb_true_iff in En. destruct En as [Hin Hst]. apply ikey_in_iff in Hin.
  pose proof I as [Hi [Hfo [H1 H2]]]. destruct R as [Ia [Pa [Hk Hm]]].
  destruct item as [i|].
  - destruct (H1 _ _ _ Hin) as [l [Hl Hn]].
    assert (Hil : i < length l) by (apply nth_error_Some; rewrite Hn; discriminate).
    set (acc' := acc_set (si_acc s) (t, r) i result) in *.
    set (e := EvItem i st result (acc_list (acc_get acc' (t, r)))) in *.
    set (s2 := {| si_c := si_c (with_inflight s (ikey_remove (t, r, Some i) (si_inflight s)));
                  si_inflight := si_inflight (with_inflight s (ikey_remove (t, r, Some i) (si_inflight s)));
                  si_acc := acc'; si_fault := si_fault (with_inflight s (ikey_remove (t, r, Some i) (si_inflight s)));
                  si_wiped := si_wiped (with_inflight s (ikey_remove (t, r, Some i) (si_inflight s))) |}) in *.
    destruct (ievent_rec_other s2 t r e (si_inflight s) Hb Ia Pa Hk) as [Ib [Pb Ho]].
    split; [exact Ib|]. split; [exact Pb|]. rewrite inflight_event. unfold s2; simpl. split.
    + intros t' r' i' Hin'. apply In_ikey_remove in Hin'. destruct Hin' as [Hin' Hne'].
      destruct (tkey_dec (t', r') (t, r)) as [E|Hne]; [|exact (Ho t' r' i' Hin' Hne)].
      inversion E; subst t' r'. assert (Hi' : i' <> i) by congruence.
      destruct (Hk t r i Hin) as [Hcmd [idx0 [r0 [Hp0 [Hr0 Hl0]]]]]. split; [exact Hcmd|].
      destruct (H1 _ _ _ Hin') as [l' [Hl' Hn']]. rewrite Hl in Hl'. inversion Hl'; subst l'.
      destruct (items_of_entry _ _ _ _ Hl) as [s0 [_ [_ [_ [Hit Hg]]]]].
      pose proof (ievent_val ev s2 t r e Hb) as H. change (si_c s2) with (si_c s) in H.
      destruct (own_report ev _ _ _ _ _ _ _ _ _ _ _ _ _ _ H Ia Pa Hcmd Hst Hg Hit Hil Hn' Hi' eq_refl Hp0 Hr0 Hl0) as [idx [rc' [A [B [C _]]]]].
      exists idx, rc'. auto.
    + intros t' r' Hin' i' Hin''. apply In_ikey_remove in Hin'. apply In_ikey_remove in Hin''. exact (Hm t' r' (proj1 Hin') i' (proj1 Hin'')).
  - set (s1 := with_inflight s (ikey_remove (t, r, None) (si_inflight s))) in *.
    destruct (plain_event_rec s1 t r (EvAction st result) (si_inflight s) Hb Ia Pa Hk (Hm t r Hin)) as [Ib [Pb Kb]].
    split; [exact Ib|]. split; [exact Pb|]. rewrite inflight_event. unfold s1; simpl. split.
    + intros t' r' i' Hin'. apply In_ikey_remove in Hin'. exact (Kb t' r' i' (proj1 Hin')).
    + intros t' r' Hin' i' Hin''. apply In_ikey_remove in Hin'. apply In_ikey_remove in Hin''. exact (Hm t' r' (proj1 Hin') i' (proj1 Hin'')).
Qed.

Lemma request_rec : forall s st, ilink (si_c s) (si_inflight s) -> irec s -> irec (isys_request ev s st).
Proof.
  intros s st I [Ia [Pa [Hk Hm]]]. destruct (irequest_val ev s st Ia) as [->|[c' [x [_ [_ [R ->]]]]]]; [unfold irec; auto|].
  destruct (request_records ev st _ c' x Ia R) as [Hs [Ht [Hin Hrec]]].
  split; [simpl; congruence|]. split; [|split; [|exact Hm]]; simpl.
  - intros t r i Ep. unfold ws_task_idx in *. rewrite Ht in Ep. destruct (Pa t r i Ep) as [rec [A B]].
    destruct (Hrec i rec A) as [rec' [A' [B' _]]]. exists rec'. split; [exact A'|congruence].
  - intros t r i Hin'. destruct (Hk t r i Hin') as [Hc [idx [rec [A [B C]]]]]. split; [exact Hc|].
    destruct (Hrec idx rec B) as [rec' [B' [K' L']]]. exists idx, rec'. split; [unfold ws_task_idx in *; rewrite Ht; exact A|].
    split; [exact B'|]. apply L'; [left|exact C].
    (* the table of a task with an item in flight has that item running *)
    destruct (Pa t r idx A) as [rec0 [X Y]]. rewrite B in X. inversion X; subst rec0. rewrite Y.
    destruct I as [_ [_ [H1 _]]]. destruct (H1 _ _ _ Hin') as [l [Hl Hn]].
    destruct (items_of_entry _ _ _ _ Hl) as [s0 [_ [_ [_ [Hit Hg]]]]]. exists s0, l. simpl. split; [exact Hg|]. split; [exact Hit|].
    apply existsb_exists. exists S_RUNNING. split; [eapply nth_error_In; exact Hn|reflexivity].
Qed.

Lemma call_rec : forall s op, op = OpRender \/ op = OpPersist -> irec s -> ibad (isys_call ev s op) = false ->
  irec (isys_call ev s op).
Proof.
  intros s op Hop [Ia [Pa [Hk Hm]]] Hb. destruct (icall_val ev s op Ia Hop Hb) as [(Hs & Ht & _ & _ & _ & _ & _ & _ & Hin) E].
  rewrite E. unfold irec. simpl. assert (Hi' : c_init (si_c (isys_call ev s op)) = true) by congruence.
  destruct (irec_same_records _ _ (si_inflight s) Hi' Ht Hs Pa Hk). auto.
Qed.

Lemma born_rec : forall c c1, unborn c -> ensure_ws ev c = (c1, Val tt) -> c_init c1 = true /\ P_ok c1 /\ Krec c1 [] /\ Mx [].
Proof.
  intros c c1 [Hi Hw] H. destruct (ensure_fresh ev c c1 Hi Hw H) as [Hi1 [_ [_ [_ [Ht _]]]]].
  split; [exact Hi1|]. split; [|split; [intros t r i []|intros t r []]].
  intros t r i E. unfold ws_task_idx in E. rewrite Ht in E. discriminate.
Qed.

Definition irec_inv (s : isys) : Prop := ibad s = false -> unborn (si_c s) \/ irec s.

Lemma inv2_link : forall s, isys_inv2 s -> ibad s = false -> unborn (si_c s) /\ si_inflight s = [] \/ ilink (si_c s) (si_inflight s).
Proof. intros s H Hb. destruct (H Hb) as [X|[X _]]; auto. Qed.

Definition op_odd (s : isys) (op : isys_op) : bool := match op with IPoll => poll_odd ev s | _ => false end.

Lemma irec_live : forall s op, ilink (si_c s) (si_inflight s) -> irec s -> op_odd s op = false ->
  ibad (isys_step ev s op) = false -> irec (isys_step ev s op).
Proof.
  intros s op I R Ho Hb.
  destruct op; cbn [isys_step op_odd] in *; [apply request_rec|apply poll_rec|apply report_rec|apply request_rec|apply call_rec|apply call_rec]; auto.
Qed.

Lemma op_odd_unborn : forall s c0 op, ensure_ws ev (si_c s) = (c0, Val tt) -> op_odd (set_c s c0) op = op_odd s op.
Proof.
  intros s c0 op En. destruct op; try reflexivity. unfold op_odd, poll_odd. simpl. rewrite (get_next_ensure ev _ _ _ En). reflexivity.
Qed.

Theorem isys_step_inv3 : forall s op, isys_inv2 s -> irec_inv s -> op_odd s op = false -> irec_inv (isys_step ev s op).
Proof.
  intros s op H2 H3 Ho Hb. pose proof (not_bad_before (fun x => isys_step ev x op) s (fun X => ibad_step_mono ev _ _ X) Hb) as Hb0.
  destruct (H2 Hb0) as [[Hu HF]|[I _]].
  - destruct (isys_step_unborn ev s op HF Hb) as [E|[c0 [En E]]]; rewrite E in *; [left; exact Hu|right].
    rewrite <- (op_odd_unborn s c0 op En) in Ho.
    apply irec_live; [simpl; rewrite HF; exact (born_link ev _ _ Hu En)|unfold irec; simpl; rewrite HF; exact (born_rec _ _ Hu En)|exact Ho|exact Hb].
  - destruct (H3 Hb0) as [[Hi _]|R]; [destruct I; congruence|]. right. apply irec_live; assumption.
Qed.

Theorem isys_run_inv3 : forall ops s, isys_inv2 s -> irec_inv s -> run_odd ev ops s = false ->
  irec_inv (isys_run ev ops s).
Proof.
  induction ops as [|op ops IH]; intros s H2 H3 Ho; [exact H3|]. cbn [isys_run fold_left]. simpl in Ho.
  apply orb_false_iff in Ho. destruct Ho as [Ho1 Ho2].
  apply IH; [apply isys_step_inv2; exact H2|apply isys_step_inv3; assumption|exact Ho2].
Qed.

End RecSystem.

Section AllStatusesSystem.
Variable ev : string -> dict -> evalres.
Variable Q : option status -> Prop.
Variable okev : event -> Prop.
Hypothesis Q_none : Q None.
Hypothesis Q_step : forall w r e s, okev e -> Q (r_status r) -> task_process_event w r e = Val (Some s) -> Q (Some s).
Hypothesis okev_cmd : forall n e, engine_event n = Some e -> okev e.
Hypothesis okev_retry : okev retry_event.
Hypothesis okev_wf : forall st, okev (EvWorkflow st).
Hypothesis okev_prov : forall st, st = S_RUNNING \/ status_in st report_statuses = true ->
  (forall i res acc, okev (EvItem i st res acc)) /\ (forall res, okev (EvAction st res)).

Lemma all_event : forall s t r e, okev e -> ibad (isys_event ev s t r e) = false ->
  AllSt Q (si_c s) -> AllSt Q (si_c (isys_event ev s t r e)).
Proof.
  intros s t r e He Hb N.
  exact (all_fuel Q okev Q_none Q_step okev_cmd okev_retry ev _ t r e He _ _ _ (ievent_val ev s t r e Hb) N).
Qed.

Lemma all_poll_inited : forall s, c_init (si_c s) = true -> AllSt Q (si_c s) -> ibad (isys_poll ev s) = false ->
  AllSt Q (si_c (isys_poll ev s)).
Proof.
  intros s Hi N Hb. unfold isys_poll in *. destruct (get_next_tasks ev (si_c s)) as [c1 [offers|x]] eqn:Hg; [|discriminate Hb].
  destruct (gn_items_eff ev _ _ _ Hi Hg) as [(_ & _ & _ & Hseq & _) _].
  apply (acks_keep ev (AllSt Q) okev (proj2 (okev_prov S_RUNNING (or_introl eq_refl)) _)
           (proj2 (okev_prov S_SUCCEEDED (or_intror eq_refl)) _) (fun i => proj1 (okev_prov S_RUNNING (or_introl eq_refl)) i _ _)
           all_event _ _ Hb).
  simpl. intros i rec E. rewrite Hseq in E. exact (N i rec E).
Qed.

Definition all_inv (s : isys) : Prop := ibad s = false -> AllSt Q (si_c s).

Lemma all_live : forall s op, c_init (si_c s) = true -> AllSt Q (si_c s) -> ibad (isys_step ev s op) = false ->
  AllSt Q (si_c (isys_step ev s op)).
Proof.
  intros s op Hi N Hb.
  assert (Rq : forall st, AllSt Q (si_c (isys_request ev s st))).
  { intro st. destruct (irequest_val ev s st Hi) as [->|[c' [x [_ [R [_ ->]]]]]]; [exact N|].
    exact (all_request_status_core Q okev Q_step okev_wf st _ _ _ R N). }
  assert (Cl : forall o, o = OpRender \/ o = OpPersist -> ibad (isys_call ev s o) = false -> AllSt Q (si_c (isys_call ev s o))).
  { intros o Ho Hb'. destruct (icall_val ev s o Hi Ho Hb') as [[Hs _] _]. exact (Rall_seq Q _ _ Hs N). }
  destruct op; cbn [isys_step] in *; auto.
  - apply all_poll_inited; assumption.
  - unfold isys_report in *. destruct (ikey_in _ _ && _) eqn:En; [|exact N]. apply andb_true_iff in En. destruct En as [_ Hst].
    destruct item; apply all_event; try assumption; apply (okev_prov st (or_intror Hst)).
Qed.

Lemma all_step : forall s op, isys_inv2 s -> all_inv s -> all_inv (isys_step ev s op).
Proof.
  intros s op H2 H3 Hb. pose proof (not_bad_before (fun x => isys_step ev x op) s (fun X => ibad_step_mono ev _ _ X) Hb) as Hb0.
  specialize (H3 Hb0). destruct (H2 Hb0) as [[Hu HF]|[[Hi _] _]]; [|apply all_live; assumption].
  destruct (isys_step_unborn ev s op HF Hb) as [E|[c0 [En E]]]; rewrite E in *; [exact H3|].
  apply all_live; [exact (ensure_ws_init_after ev _ _ _ En)|exact (all_ensure_ws Q ev _ _ _ En H3)|exact Hb].
Qed.

Theorem all_run : forall ops s, isys_inv2 s -> all_inv s -> all_inv (isys_run ev ops s).
Proof.
  induction ops as [|op ops IH]; intros s H2 H3; [exact H3|]. cbn [isys_run fold_left].
  apply IH; [apply isys_step_inv2; exact H2|apply all_step; assumption].
Qed.

End AllStatusesSystem.

Definition np_inv (s : isys) : Prop := ibad s = false -> NP (si_c s).

Lemma np_run : forall ev ops s, isys_inv2 s -> np_inv s -> np_inv (isys_run ev ops s).
Proof.
  intro ev. apply (all_run ev (fun o => o <> Some S_PENDING) npend); try discriminate.
  - intros w r e s He _ H. exact (F_tpe_npend _ _ _ _ He H).
  - exact F_engine_event_npend.
  - exact (fun _ => Logic.I).
  - intros st Hst. assert (X : st <> S_PENDING) by (destruct Hst as [->|Hst]; [discriminate|intro Y; subst st; discriminate Hst]).
    split; intros; exact X.
Qed.

Section RecReachable.
Variable ev : string -> dict -> evalres.
Variables (sp : wf_spec) (g : graph) (inputs parent : dict).

Lemma ireach_inv3 : forall ops, run_odd ev ops (isys_init sp g inputs parent) = false ->
  irec_inv (ireach ev sp g inputs parent ops).
Proof.
  intros ops Ho. apply isys_run_inv3; [apply isys_init_inv2| |exact Ho].
  intros _. left. split; reflexivity.
Qed.

(* (d) DRAIN and the record half of (a): while an item of a task is in flight the pointer map leads to a record of
   that task whose status is active -- or pending, an action status that only a pending report produces -- hence
   neither completed nor retrying *)
Theorem items_record_busy : forall ops, let s := ireach ev sp g inputs parent ops in
  si_fault s = false -> si_wiped s = false -> run_odd ev ops (isys_init sp g inputs parent) = false ->
  forall t r i, In (t, r, Some i) (si_inflight s) ->
  is_engine_command t = false /\
  exists rec, ws_task_entry (c_ws (si_c s)) t r = Some rec /\ r_id rec = t /\ r_route rec = r /\
              ostatus_in (r_status rec) GOOD_STATUSES = true /\
              ostatus_in (r_status rec) COMPLETED_STATUSES = false /\ r_status rec <> Some S_RETRYING.
Proof.
  intros ops s Hf Hw Ho t r i Hin. destruct (ireach_inv3 ops Ho (ibad_false _ Hf Hw)) as [[_ Hws]|[_ [Pa [Hk _]]]].
  - exfalso. destruct (ireach_inv2 ev sp g inputs parent ops (ibad_false _ Hf Hw)) as [[_ HF]|[[_ [_ [H1 _]]] _]].
    + fold s in HF. rewrite HF in Hin. destruct Hin.
    + fold s in H1, Hws. destruct (H1 _ _ _ Hin) as [l [Hl _]]. unfold items_of, get_staged_task in Hl. rewrite Hws in Hl. discriminate.
  - fold s in Pa, Hk. destruct (Hk t r i Hin) as [Hc [idx [rec [A [B C]]]]]. split; [exact Hc|].
    destruct (Pa t r idx A) as [rec0 [X Y]]. rewrite B in X. inversion X; subst rec0. unfold key_of in Y.
    exists rec. unfold ws_task_entry. rewrite A. split; [exact B|]. split; [congruence|]. split; [congruence|].
    split; [exact C|]. pose proof (busy_live _ C) as L. unfold live in L.
    destruct (r_status rec) as [x|]; [|discriminate C]. simpl in L.
    destruct (dead_split _ L) as [C1 C2]. split; [exact C1|congruence].
Qed.


(* (d) "succeeded iff every item succeeded", at the report of an item *)
Theorem items_succeeded_iff : forall ops t r i st result,
  let s := ireach ev sp g inputs parent ops in let s' := isys_report ev s t r (Some i) st result in
  si_fault s' = false -> si_wiped s' = false -> run_odd ev ops (isys_init sp g inputs parent) = false ->
  In (t, r, Some i) (si_inflight s) -> status_in st report_statuses = true ->
  exists l rec rec', items_of (si_c s) t r = Some l /\ ws_task_entry (c_ws (si_c s)) t r = Some rec /\
    ws_task_entry (c_ws (si_c s')) t r = Some rec' /\
    (r_status rec' = Some S_SUCCEEDED -> st = S_SUCCEEDED /\ forall x, In x (list_del_nth i l) -> x = S_SUCCEEDED) /\
    (st = S_SUCCEEDED -> (forall x, In x (list_del_nth i l) -> x = S_SUCCEEDED) ->
     status_in (rstatus rec) [S_RUNNING; S_PAUSING; S_CANCELING] = true ->
     r_status rec' = Some S_SUCCEEDED \/ r_status rec' = Some S_RETRYING).
Proof.
  intros ops t r i st result s s' Hf Hw Ho Hin Hst.
  assert (Hb' : ibad s' = false) by (apply ibad_false; assumption).
  assert (Hb : ibad s = false).
  { apply (not_bad_before (fun x => isys_report ev x t r (Some i) st result)); [|exact Hb'].
    intros H. unfold isys_report. destruct (ikey_in _ _ && _); [|exact H]. apply ibad_event_mono; exact H. }
  destruct (ireach_inv2 ev sp g inputs parent ops Hb) as [[_ HF]|[[Hi [Hfo [H1 H2]]] _]]; [fold s in HF; rewrite HF in Hin; destruct Hin|].
  fold s in Hi, Hfo, H1, H2.
  destruct (ireach_inv3 ops Ho Hb) as [[Hi' _]|[Ia [Pa [Hk _]]]]; [fold s in Hi'; congruence|]. fold s in Ia, Pa, Hk.
  destruct (H1 _ _ _ Hin) as [l [Hl Hn]].
  assert (Hil : i < length l) by (apply nth_error_Some; rewrite Hn; discriminate).
  destruct (items_of_entry _ _ _ _ Hl) as [s0 [_ [_ [_ [Hit Hg]]]]].
  destruct (Hk t r i Hin) as [Hcmd [idx0 [r0 [Hp0 [Hr0 Hb0]]]]].
  unfold s', isys_report in *. apply ikey_in_iff in Hin. rewrite Hin, Hst in *. cbn [andb] in *.
  match type of Hb' with ibad (isys_event ev ?s2 t r ?e) = false => set (sx := s2) in *; set (ex := e) in * end.
  pose proof (ievent_val ev sx t r ex Hb') as H. change (si_c sx) with (si_c s) in H.
  destruct (own_item_succeeded ev _ _ _ _ _ _ _ _ _ _ _ _ H Ia Pa Hcmd Hst Hg Hit Hil Hp0 Hr0 Hb0) as [idx' [r' [A [B [C D]]]]].
  exists l, r0, r'. split; [exact Hl|]. split; [unfold ws_task_entry; rewrite Hp0; exact Hr0|].
  split; [unfold ws_task_entry; rewrite A; exact B|]. split; [exact C|exact D].
Qed.


(* (a), record half: while an item of a task is in flight the task record is ACTIVE *)
Theorem items_record_active : forall ops, let s := ireach ev sp g inputs parent ops in
  si_fault s = false -> si_wiped s = false -> run_odd ev ops (isys_init sp g inputs parent) = false ->
  forall t r i, In (t, r, Some i) (si_inflight s) ->
  exists rec, ws_task_entry (c_ws (si_c s)) t r = Some rec /\ r_id rec = t /\ r_route rec = r /\
              ostatus_in (r_status rec) ACTIVE_STATUSES = true.
Proof.
  intros ops s Hf Hw Ho t r i Hin.
  destruct (items_record_busy ops Hf Hw Ho t r i Hin) as [_ [rec [A [B [C [D _]]]]]].
  exists rec. split; [exact A|]. split; [exact B|]. split; [exact C|].
  assert (N : NP (si_c s)).
  { apply (np_run ev ops _ (isys_init_inv2 sp g inputs parent)); [|apply ibad_false; assumption].
    intros _ j rc E. simpl in E. destruct j; discriminate E. }
  unfold ws_task_entry in A. fold s in A. revert A. destruct (ws_task_idx (c_ws (si_c s)) t r) as [idx|]; intro A; [|discriminate A].
  pose proof (N idx rec A) as Hnp. destruct (r_status rec) as [x|]; [|discriminate D]. simpl in *.
  apply F_good_not_pending_active; [exact D|congruence].
Qed.

End RecReachable.
