(* NoInternalProofs.v -- "no internal error": from a well-formed conductor state, an API call that is
   not malformed never raises one of the Python exception classes that signal a bug of the engine
   (KeyError, IndexError, TypeError, ValueError, AttributeError), and leaves the state well-formed
   -- whether it returns or raises one of the documented refusals.
   Scope: serialize, request_workflow_status, get_next_tasks, update_task_state with provider events,
   render_workflow_output, persist.  request_workflow_rerun is out of scope (known findings D8,
   C15-rerun-of-inflight break the invariants).  See props/C15b.v for the statements, the malformed-call
   classification and the refuting witnesses found on the way. *)
From Coq Require Import String List Bool ZArith Arith Lia.
From Orq Require Import GenStatuses GenEvents GenTables GenSpecMeta Base State Machines Codec Conductor Decode Api.
From Orq Require Import ListFacts StateFacts.
From Orq Require Import F_tables Hoare Frame ValuePost C13Proofs C05Proofs C18Proofs InertProofs RetryProofs RetryBoundProofs.
Import ListNotations.
Open Scope string_scope.
Open Scope monad_scope.

(* classes the model raises where the engine has no documented refusal: they mirror Python errors of the
   engine's own code.  Documented (not internal): InvalidTask, InvalidTaskStateEntry, InvalidEvent,
   InvalidTaskStatusTransition, InvalidWorkflowStatusTransition, WorkflowIsActiveAndNotRerunableError,
   InvalidTaskRerunRequest; OutOfFuel and PersistFailed are model artefacts with their own theorems. *)
Definition internal_names : list string := ["KeyError"; "IndexError"; "TypeError"; "ValueError"; "AttributeError"].
Definition internal_cls (e : exn) : Prop := string_in (x_cls e) internal_names = true.

Definition ni {A} (m : M A) : Prop := forall c c' e, m c = (c', Exc e) -> ~ internal_cls e.

Ltac not_internal := unfold internal_cls; cbn; discriminate.

(* [ni m] is [raises_only (fun e => ~ internal_cls e) m] unfolded: the walk of Hoare.v applies; a leaf is handed back
   as [ni], also under a handler of expression errors, where less is asked of it *)
Ltac niw leaf :=
  lazymatch goal with |- ni ?m => change (raises_only (fun e => ~ internal_cls e) m) end;
  rw not_internal
     ltac:(idtac; lazymatch goal with |- raises_only _ ?m =>
             first [ change (ni m)
                   | apply (raises_only_sub (fun e => ~ internal_cls e)); [intros e H _; exact H|change (ni m)] ];
             leaf end).

Create HintDb nidb.

(* the evaluator (with the model's recursion over containers) never fails with an internal class.  In the model the
   one way to fail so is a key expression whose value is a scalar other than a string (TypeError); a list or dict
   in key position is refused with an expression error, as the engine does since the repair of finding D29
   (see the head of props/C15b.v).  The hypothesis stands for the model's limitation to string keys. *)
Definition eval_no_internal (ev : string -> dict -> evalres) : Prop := forall stmt ctx, ni (evaluate ev stmt ctx).

Section Unconditional.
Variable ev : string -> dict -> evalres.
Hypothesis Hev : eval_no_internal ev.

Ltac leaf :=
  first
    [ assumption
    | apply Hev
    | match goal with IH : forall _ _ _ _, ni _ |- _ => apply IH end
    | eauto 3 with nidb ].
Ltac walk := niw leaf.

(* what the two machines refuse, they refuse with a documented class *)
Lemma request_exn_ni : forall e, request_exn e -> ~ internal_cls e.
Proof. intros e H E. unfold request_exn, internal_cls in *. simpl in H. destruct H as [H|[H|[H|[]]]]; rewrite <- H in E; discriminate E. Qed.

Lemma ni_wf_workflow_event : forall st, ni (wf_workflow_event_M st).
Proof. intro st; exact (raises_only_sub _ _ request_exn_ni _ _ (wf_workflow_event_exn st)). Qed.
Lemma ni_wf_task_event : forall t route st, ni (wf_task_event_M t route st).
Proof. intros t route st; exact (raises_only_sub _ _ request_exn_ni _ _ (wf_task_event_exn t route st)). Qed.

Lemma tpe_ni : forall w r evt e, task_process_event w r evt = Exc e ->
  match evt with
  | EvItem item st _ _ =>
      match get_staged_task w (r_id r) (r_route r) with
      | Some s => match s_items s with Some its => Nat.ltb item (length its) = true | None => True end
      | None => True
      end
  | _ => True
  end -> ~ internal_cls e.
Proof.
  intros w r evt e H Hr. destruct (tpe_exn _ _ _ _ H) as [He|Hn]; [exact (request_exn_ni e He)|].
  destruct evt; try discriminate Hn. apply item_event_name_exn in Hn. destruct Hn as [_ [s [its [Es [Ei El]]]]].
  rewrite Es, Ei, El in Hr. discriminate Hr.
Qed.

Lemma ni_tpe_workflow : forall w r st, ni (lift_res (task_process_event w r (EvWorkflow st))).
Proof. intros; apply (ro_lift_res _); intros e H; eapply tpe_ni; [exact H|exact I]. Qed.

Lemma ni_log_entry_error : forall m t r tr res, ni (log_entry_error m t r tr res).
Proof. intros; exact (ro_modify _ _). Qed.
Lemma ni_set_rec_status : forall i s, ni (set_rec_status i s).
Proof. intros; exact (ro_modws _ _). Qed.
Hint Resolve ni_wf_workflow_event ni_wf_task_event ni_tpe_workflow ni_log_entry_error ni_set_rec_status : nidb.

Lemma ni_log_errors : forall es t r tr, ni (log_errors es t r tr).
Proof. intros; unfold log_errors; walk. Qed.
Lemma ni_log_unreachable : forall l, ni (log_unreachable l).
Proof. intros; unfold log_unreachable; walk. Qed.
Hint Resolve ni_log_errors ni_log_unreachable : nidb.
Lemma ni_request_status_core : forall st, ni (request_status_core st).
Proof. intros; unfold request_status_core; walk. Qed.
Hint Resolve ni_request_status_core : nidb.
Lemma ni_render_input : forall specs rt rolling errs, ni (render_input ev specs rt rolling errs).
Proof. induction specs as [|[n d] specs IH]; intros; simpl; walk. Qed.
Lemma ni_render_vars : forall specs rolling rendered errs, ni (render_vars ev specs rolling rendered errs).
Proof. induction specs as [|[n d] specs IH]; intros; simpl; walk. Qed.
Hint Resolve ni_render_input ni_render_vars : nidb.
Lemma ni_ensure_ws : ni (ensure_ws ev).
Proof. unfold ensure_ws; walk. Qed.
Hint Resolve ni_ensure_ws : nidb.
Theorem ni_request_workflow_status : forall st, ni (request_workflow_status ev st).
Proof. intros; unfold request_workflow_status; walk. Qed.
(* get_next_tasks: whatever goes wrong while preparing one task is caught and fails the workflow *)
Theorem ni_get_next_tasks : ni (get_next_tasks ev).
Proof. unfold get_next_tasks; walk. Qed.
(* a new record: the retry set-up is guarded; only the documented InvalidTask escapes *)
Lemma ni_add_task_state : forall t r i p, ni (add_task_state ev t r i p).
Proof. intros; unfold add_task_state; walk. Qed.

End Unconditional.

(* the workflow definition is read by every operation and written by none *)
Definition Rs (c c' : cstate) : Prop := c_spec c' = c_spec c.
Lemma Rs_refl : forall c, Rs c c.
Proof. intro; reflexivity. Qed.
Lemma Rs_trans : forall a b c, Rs a b -> Rs b c -> Rs a c.
Proof. unfold Rs; intros; congruence. Qed.

Create HintDb press.

Section SpecKept.
Variable ev : string -> dict -> evalres.

Lemma ps_modws : forall f, preserves Rs (modws f).
Proof. intro; apply (preserves_modws Rs); intro; reflexivity. Qed.
Lemma ps_modify : forall f, (forall c, c_spec (f c) = c_spec c) -> preserves Rs (modify f).
Proof. intros f Hf; apply (preserves_modify Rs); exact Hf. Qed.
Lemma ps_wf_workflow_event : forall st, preserves Rs (wf_workflow_event_M st).
Proof. exact (preserves_wf_workflow_event Rs Rs_refl (fun c s => eq_refl)). Qed.
Lemma ps_wf_task_event : forall t route st, preserves Rs (wf_task_event_M t route st).
Proof. exact (preserves_wf_task_event Rs Rs_refl (fun c s => eq_refl)). Qed.
Lemma ps_log_entry_error : forall m t r tr res, preserves Rs (log_entry_error m t r tr res).
Proof. intros; apply ps_modify; intro c; cbv zeta; destruct (existsb _ _); reflexivity. Qed.
Lemma ps_log_error : forall e t r tr, preserves Rs (log_error e t r tr).
Proof. intros; unfold log_error; apply ps_log_entry_error. Qed.
Lemma ps_set_rec_status : forall i s, preserves Rs (set_rec_status i s).
Proof. intros; apply ps_modws. Qed.
Lemma ps_upd_rec : forall i f, preserves Rs (upd_rec i f).
Proof. intros; apply ps_modws. Qed.
Hint Resolve ps_modws ps_modify ps_wf_workflow_event ps_wf_task_event ps_log_entry_error ps_log_error
  ps_set_rec_status ps_upd_rec : press.

Lemma ps_log_errors : forall es t r tr, preserves Rs (log_errors es t r tr).
Proof. intros; apply (frame_log_errors Rs Rs_refl Rs_trans); auto with press. Qed.
Lemma ps_log_unreachable : forall l, preserves Rs (log_unreachable l).
Proof. intros; apply (frame_log_unreachable Rs Rs_refl Rs_trans); auto with press. Qed.
Lemma ps_get_rec : forall i, preserves Rs (get_rec i).
Proof. intros; apply (frame_get_rec Rs Rs_refl Rs_trans). Qed.
Lemma ps_request_status_core : forall st, preserves Rs (request_status_core st).
Proof. intros; apply (frame_request_status_core Rs Rs_refl Rs_trans); auto with press. Qed.
Lemma ps_render_input : forall specs rt rolling errs, preserves Rs (render_input ev specs rt rolling errs).
Proof. intros; apply (frame_render_input ev Rs Rs_refl Rs_trans). Qed.
Lemma ps_render_vars : forall specs rolling rendered errs, preserves Rs (render_vars ev specs rolling rendered errs).
Proof. intros; apply (frame_render_vars ev Rs Rs_refl Rs_trans). Qed.
Lemma ps_get_task_context : forall idxs, preserves Rs (get_task_context idxs).
Proof. intros; apply (frame_get_task_context Rs Rs_refl Rs_trans). Qed.
Lemma ps_setup_retry : forall t idxs, preserves Rs (setup_retry ev t idxs).
Proof. intros; apply (frame_setup_retry ev Rs Rs_refl Rs_trans). Qed.
Lemma ps_add_task_state : forall t r i p, preserves Rs (add_task_state ev t r i p).
Proof. intros; apply (frame_add_task_state ev Rs Rs_refl Rs_trans); auto with press. Qed.
Lemma ps_evaluate_route : forall e r, preserves Rs (evaluate_route e r).
Proof. intros; apply (frame_evaluate_route Rs Rs_refl Rs_trans); auto with press. Qed.
Lemma ps_evaluate_task_retry : forall r ctx, preserves Rs (evaluate_task_retry ev r ctx).
Proof. intros; apply (frame_evaluate_task_retry ev Rs Rs_refl Rs_trans). Qed.
Lemma ps_finalize_context : forall ts e ctx, preserves Rs (finalize_context ev ts e ctx).
Proof. intros; apply (frame_finalize_context ev Rs Rs_refl Rs_trans). Qed.
Lemma ps_process_transition : forall t route idx ts ctx e, preserves Rs (process_transition ev t route idx ts ctx e).
Proof. intros; apply (frame_process_transition ev Rs Rs_refl Rs_trans); auto with press. Qed.
Lemma ps_need_staged : forall s0, preserves Rs (uts_need_staged s0).
Proof. intros; apply (frame_need_staged Rs Rs_refl). Qed.
Lemma ps_sel1 : forall t s0 e0, preserves Rs (uts_sel1 ev t s0 e0).
Proof. intros; apply (frame_sel1 ev Rs Rs_refl Rs_trans); auto with press. Qed.
Lemma ps_sel2 : forall t evt s0 r1 i, preserves Rs (uts_sel2 ev t evt s0 r1 i).
Proof. intros; apply (frame_sel2 ev Rs Rs_refl Rs_trans); auto with press. Qed.
Lemma ps_unstage : forall t route evt s0, preserves Rs (uts_unstage t route evt s0).
Proof. intros; apply (frame_unstage Rs Rs_refl); auto with press. Qed.
Lemma ps_item : forall t route evt s0, preserves Rs (uts_item t route evt s0).
Proof. intros; apply (frame_item Rs Rs_refl); auto with press. Qed.
Lemma ps_logfail : forall t evt, preserves Rs (uts_logfail t evt).
Proof. intros; apply (frame_logfail Rs Rs_refl); auto with press. Qed.
Lemma ps_setst : forall i ns, preserves Rs (uts_setst i ns).
Proof. intros; apply (frame_setst Rs Rs_refl); auto with press. Qed.
Lemma ps_retrying : forall t route idx r ns, preserves Rs (uts_retrying t route idx r ns).
Proof. intros; apply (frame_retrying Rs Rs_refl Rs_trans); auto with press. Qed.
Lemma ps_completion : forall t route evt ts idx ns o0, preserves Rs (uts_completion ev t route evt ts idx ns o0).
Proof. intros; apply (frame_completion ev Rs Rs_refl Rs_trans); auto with press. Qed.
Lemma ps_queue : forall t route idx ts o n compl, preserves Rs (uts_queue ev t route idx ts o n compl).
Proof. intros; apply (frame_queue ev Rs Rs_refl Rs_trans); auto with press. Qed.
Lemma ps_pre_machine : forall t route evt ts idx, preserves Rs (pre_machine ev t route evt ts idx).
Proof. intros; apply (frame_pre_machine ev Rs Rs_refl Rs_trans); auto with press. Qed.
Lemma ps_pre_main : forall t route evt ts s0 e0, preserves Rs (pre_main ev t route evt ts s0 e0).
Proof. intros; apply (frame_pre_main ev Rs Rs_refl Rs_trans); auto with press. Qed.
Lemma ps_prefix : forall t route evt, preserves Rs (uts_prefix ev t route evt).
Proof. intros; apply (frame_prefix ev Rs Rs_refl Rs_trans); auto with press. Qed.

Lemma ps_uts_fuel : forall fuel t route evt, preserves Rs (update_task_state_fuel ev fuel t route evt).
Proof. intros; apply (frame_update_task_state_fuel ev Rs Rs_refl Rs_trans); auto with press. Qed.

Lemma ps_render_task : forall ts ctx, preserves Rs (render_task ev ts ctx).
Proof. intros; apply (frame_render_task ev Rs Rs_refl Rs_trans). Qed.
Lemma ps_next_task_for : forall s, preserves Rs (next_task_for ev s).
Proof. intros; apply (frame_next_task_for ev Rs Rs_refl Rs_trans); auto with press. Qed.
Lemma ps_merge_term_contexts : forall l acc, preserves Rs (merge_term_contexts l acc).
Proof. intros; apply (frame_merge_term_contexts Rs Rs_refl Rs_trans). Qed.

End SpecKept.

Definition ctx_ok (w : wstate) (l : list nat) : Prop := In 0 l /\ forall i, In i l -> i < length (contexts w).

(* what the raise sites of the in-scope operations need of a state:
   - the lazy workflow state exists;
   - every pointer names an existing record and an existing route;
   - every staged entry sits on an existing route and reads existing contexts, the initial one among them;
   - every record reads existing contexts (the initial one among them), and a retrying record has a retry policy *)
Record WF (c : cstate) : Prop := {
  wf_init : c_init c = true;
  wf_ptr : forall k i, aget tkey_eqb k (tasks (c_ws c)) = Some i ->
             i < length (sequence (c_ws c)) /\ snd k < length (routes (c_ws c));
  wf_stg : forall s, In s (staged (c_ws c)) -> s_route s < length (routes (c_ws c)) /\ ctx_ok (c_ws c) (s_in s);
  wf_rec : forall r, In r (sequence (c_ws c)) ->
             ctx_ok (c_ws c) (r_in r) /\ (rstatus r = S_RETRYING -> r_retry r <> None) }.

(* changes that cannot hurt: statuses other than into retrying, staged entries modified or removed,
   flags, logs *)
Definition Rw (c c' : cstate) : Prop :=
  (c_init c = true -> c_init c' = true) /\
  tasks (c_ws c') = tasks (c_ws c) /\ contexts (c_ws c') = contexts (c_ws c) /\ routes (c_ws c') = routes (c_ws c) /\
  (forall s', In s' (staged (c_ws c')) ->
     exists s, In s (staged (c_ws c)) /\ s_id s' = s_id s /\ s_route s' = s_route s /\ s_in s' = s_in s) /\
  length (sequence (c_ws c')) = length (sequence (c_ws c)) /\
  (forall i r', nth_error (sequence (c_ws c')) i = Some r' ->
     exists r, nth_error (sequence (c_ws c)) i = Some r /\ r_in r' = r_in r /\ r_retry r' = r_retry r /\
               (rstatus r' = S_RETRYING -> rstatus r = S_RETRYING) /\ (r_status r <> None -> r_status r' <> None)).

Lemma Rw_refl : forall c, Rw c c.
Proof.
  intro c. repeat split; auto.
  - intros s Hs; exists s; auto.
  - intros i r H; exists r; auto.
Qed.
Lemma Rw_trans : forall a b c, Rw a b -> Rw b c -> Rw a c.
Proof.
  intros a b c [I1 [T1 [C1 [O1 [S1 [L1 Q1]]]]]] [I2 [T2 [C2 [O2 [S2 [L2 Q2]]]]]].
  split; [auto|]. split; [congruence|]. split; [congruence|]. split; [congruence|]. split; [|split; [congruence|]].
  - intros s2 H2. destruct (S2 _ H2) as [s1 [H1 [A1 [A2 A3]]]]. destruct (S1 _ H1) as [s0 [H0 [B1 [B2 B3]]]].
    exists s0; repeat split; congruence.
  - intros i r2 H2. destruct (Q2 _ _ H2) as [r1 [H1 [A1 [A2 [A3 A4]]]]]. destruct (Q1 _ _ H1) as [r0 [H0 [B1 [B2 [B3 B4]]]]].
    exists r0. split; [exact H0|]. split; [congruence|]. split; [congruence|]. split; auto.
Qed.

Lemma WF_Rw : forall c c', Rw c c' -> WF c -> WF c'.
Proof.
  intros c c' [I [T [C [O [S [L Q]]]]]] [Wi Wp Ws Wr]. constructor.
  - auto.
  - intros k i H. rewrite T in H. rewrite L, O. apply Wp; exact H.
  - intros s' H. destruct (S _ H) as [s [Hs [_ [E1 E2]]]]. unfold ctx_ok. rewrite E1, E2, O, C. apply Ws; exact Hs.
  - intros r' H. apply In_nth_error in H. destruct H as [i H]. destruct (Q _ _ H) as [r [Hr [E1 [E2 [E3 _]]]]].
    apply nth_error_In in Hr. destruct (Wr _ Hr) as [W1 W2]. unfold ctx_ok. rewrite E1, E2, C. split; [exact W1|auto].
Qed.

Lemma Rw_same : forall c c', c_init c' = c_init c -> tasks (c_ws c') = tasks (c_ws c) ->
  contexts (c_ws c') = contexts (c_ws c) -> routes (c_ws c') = routes (c_ws c) ->
  staged (c_ws c') = staged (c_ws c) -> sequence (c_ws c') = sequence (c_ws c) -> Rw c c'.
Proof.
  intros c c' I T C O S Q. unfold Rw. rewrite I, T, C, O, S, Q. apply Rw_refl.
Qed.

Lemma Rw_staged : forall c l', 
  (forall s', In s' l' -> exists s, In s (staged (c_ws c)) /\ s_id s' = s_id s /\ s_route s' = s_route s /\ s_in s' = s_in s) ->
  Rw c (set_ws c (ws_set_staged (c_ws c) l')).
Proof.
  intros c l' H. unfold Rw; simpl. repeat split; auto. intros i r Hr; exists r; auto.
Qed.

Lemma Rw_staged_update : forall c f t r,
  (forall s, s_id (f s) = s_id s /\ s_route (f s) = s_route s /\ s_in (f s) = s_in s) ->
  Rw c (set_ws c (ws_set_staged (c_ws c) (staged_update f t r (staged (c_ws c))))).
Proof.
  intros c f t r Hf. apply Rw_staged. intros s' H. apply In_staged_update in H.
  destruct H as [H|[s [H [_ ->]]]]; [exists s'; auto|exists s; split; [exact H|apply Hf]].
Qed.

Lemma Rw_remove_staged : forall c t r, Rw c (set_ws c (ws_remove_staged_task (c_ws c) t r)).
Proof.
  intros c t r. unfold ws_remove_staged_task. destruct (get_staged_task (c_ws c) t r) as [s|]; [|destruct c; apply Rw_refl].
  destruct (items_any_active s); [destruct c; apply Rw_refl|].
  apply Rw_staged. intros s' H. apply In_staged_remove_first in H. exists s'; auto.
Qed.

Definition wquiet (f : trec -> trec) : Prop :=
  forall r, r_in (f r) = r_in r /\ r_retry (f r) = r_retry r /\ (rstatus (f r) = S_RETRYING -> rstatus r = S_RETRYING) /\
            (r_status r <> None -> r_status (f r) <> None).

Lemma Rw_update_rec : forall c i f, wquiet f -> Rw c (set_ws c (ws_update_rec (c_ws c) i f)).
Proof.
  intros c i f Hf. unfold Rw; simpl.
  rewrite tasks_update_rec, contexts_update_rec, routes_update_rec, staged_update_rec, length_update_rec. repeat split; auto.
  - intros s Hs; exists s; auto.
  - intros j r' Hj. destruct (Nat.eq_dec i j) as [<-|Hn].
    + destruct (nth_error (sequence (c_ws c)) i) as [r|] eqn:Er.
      * rewrite (nth_update_rec_same _ _ f _ Er) in Hj. inversion Hj; subst. exists r. destruct (Hf r) as [A [B [C D]]]. auto.
      * rewrite update_rec_absent in Hj by exact Er. congruence.
    + rewrite nth_update_rec_other in Hj by exact Hn. exists r'; auto.
Qed.

Create HintDb preswf.

Section QuietWF.
Variable ev : string -> dict -> evalres.

Ltac wq_side := intro; repeat split; auto.

Lemma pw_upd_rec : forall i f, wquiet f -> preserves Rw (upd_rec i f).
Proof. intros i f Hf; unfold upd_rec. apply (preserves_modws Rw); intro c. apply Rw_update_rec; exact Hf. Qed.
Lemma pw_upd_term : forall i b, preserves Rw (upd_rec i (fun r => r_set_term r b)).
Proof. intros; apply pw_upd_rec; wq_side. Qed.
Lemma pw_upd_next : forall i (g : trec -> list (trid * bool)), preserves Rw (upd_rec i (fun r => r_set_next r (g r))).
Proof. intros; apply pw_upd_rec; wq_side. Qed.
Lemma pw_upd_out : forall i o, preserves Rw (upd_rec i (fun r => r_set_out r o)).
Proof. intros; apply pw_upd_rec; wq_side. Qed.
Lemma pw_set_status : forall i s, s <> S_RETRYING -> preserves Rw (set_rec_status i (Some s)).
Proof.
  intros i s Hs; unfold set_rec_status. apply (preserves_modws Rw); intro c. apply Rw_update_rec.
  intro r; repeat split; auto; simpl; [intro; contradiction|discriminate].
Qed.
Lemma pw_restage : forall f t route, (forall s, s_id (f s) = s_id s /\ s_route (f s) = s_route s /\ s_in (f s) = s_in s) ->
  preserves Rw (modws (fun w => ws_set_staged w (staged_update f t route (staged w)))).
Proof. intros f t route Hf; apply (preserves_modws Rw); intro c; apply Rw_staged_update; exact Hf. Qed.
Lemma pw_remove_staged : forall t route, preserves Rw (modws (fun w => ws_remove_staged_task w t route)).
Proof. intros; apply (preserves_modws Rw); intro; apply Rw_remove_staged. Qed.
Lemma pw_wf_workflow_event : forall st, preserves Rw (wf_workflow_event_M st).
Proof. exact (preserves_wf_workflow_event Rw Rw_refl (fun c s => Rw_same c _ eq_refl eq_refl eq_refl eq_refl eq_refl eq_refl)). Qed.
Lemma pw_wf_task_event : forall t route st, preserves Rw (wf_task_event_M t route st).
Proof. exact (preserves_wf_task_event Rw Rw_refl (fun c s => Rw_same c _ eq_refl eq_refl eq_refl eq_refl eq_refl eq_refl)). Qed.
Lemma pw_log_entry_error : forall m t r tr res, preserves Rw (log_entry_error m t r tr res).
Proof. intros; apply (preserves_modify Rw); intro c; cbv zeta; destruct (existsb _ _); apply Rw_same; reflexivity. Qed.
Lemma pw_log_error : forall e t r tr, preserves Rw (log_error e t r tr).
Proof. intros; unfold log_error; apply pw_log_entry_error. Qed.
Hint Resolve pw_upd_term pw_upd_next pw_upd_out pw_remove_staged pw_wf_workflow_event pw_wf_task_event
  pw_log_entry_error pw_log_error : preswf.

Lemma pw_log_errors : forall es t r tr, preserves Rw (log_errors es t r tr).
Proof. intros; apply (frame_log_errors Rw Rw_refl Rw_trans); auto with preswf. Qed.
Lemma pw_log_unreachable : forall l, preserves Rw (log_unreachable l).
Proof. intros; apply (frame_log_unreachable Rw Rw_refl Rw_trans); auto with preswf. Qed.
Lemma pw_get_rec : forall i, preserves Rw (get_rec i).
Proof. intros; apply (frame_get_rec Rw Rw_refl Rw_trans). Qed.
Hint Resolve pw_log_errors pw_log_unreachable pw_get_rec : preswf.

(* the status requests write record statuses, but never S_RETRYING *)
Lemma pw_request_status_core : forall st, preserves Rw (request_status_core st).
Proof. apply (request_status_core_not_retrying Rw Rw_refl Rw_trans pw_log_entry_error pw_set_status pw_wf_workflow_event). Qed.
Hint Resolve pw_request_status_core : preswf.

Lemma pw_render_input : forall specs rt rolling errs, preserves Rw (render_input ev specs rt rolling errs).
Proof. intros; apply (frame_render_input ev Rw Rw_refl Rw_trans). Qed.
Lemma pw_render_vars : forall specs rolling rendered errs, preserves Rw (render_vars ev specs rolling rendered errs).
Proof. intros; apply (frame_render_vars ev Rw Rw_refl Rw_trans). Qed.
Lemma pw_get_task_context : forall idxs, preserves Rw (get_task_context idxs).
Proof. intros; apply (frame_get_task_context Rw Rw_refl Rw_trans). Qed.
Lemma pw_render_task : forall ts ctx, preserves Rw (render_task ev ts ctx).
Proof. intros; apply (frame_render_task ev Rw Rw_refl Rw_trans). Qed.
Lemma pw_merge_term_contexts : forall l acc, preserves Rw (merge_term_contexts l acc).
Proof. intros; apply (frame_merge_term_contexts Rw Rw_refl Rw_trans). Qed.
Lemma pw_evaluate_task_retry : forall r ctx, preserves Rw (evaluate_task_retry ev r ctx).
Proof. intros; apply (frame_evaluate_task_retry ev Rw Rw_refl Rw_trans). Qed.
Lemma pw_finalize_context : forall ts e ctx, preserves Rw (finalize_context ev ts e ctx).
Proof. intros; apply (frame_finalize_context ev Rw Rw_refl Rw_trans). Qed.
Lemma pw_setup_retry : forall t idxs, preserves Rw (setup_retry ev t idxs).
Proof. intros; apply (frame_setup_retry ev Rw Rw_refl Rw_trans). Qed.
Hint Resolve pw_render_vars pw_get_task_context pw_render_task pw_merge_term_contexts pw_evaluate_task_retry : preswf.

(* the staged entries are rewritten only in fields that [Rw] does not look at *)
Ltac leaf :=
  first [ apply pw_restage; intro; repeat split; reflexivity
        | apply (preserves_modify Rw); intro; apply Rw_same; reflexivity
        | auto with preswf ].
Ltac walk := pw Rw_refl Rw_trans leaf.

Lemma pw_next_task_for : forall s, preserves Rw (next_task_for ev s).
Proof. intros; unfold next_task_for; walk. Qed.
Lemma pw_unstage : forall t route evt s0, preserves Rw (uts_unstage t route evt s0).
Proof. intros; unfold uts_unstage; walk. Qed.
Lemma pw_item : forall t route evt s0, preserves Rw (uts_item t route evt s0).
Proof. intros; unfold uts_item; walk. Qed.
Lemma pw_logfail : forall t evt, preserves Rw (uts_logfail t evt).
Proof. intros; unfold uts_logfail; walk. Qed.
Lemma pw_completion : forall t route evt ts idx ns o0, preserves Rw (uts_completion ev t route evt ts idx ns o0).
Proof. intros; unfold uts_completion; walk. Qed.
Hint Resolve pw_next_task_for : preswf.

Lemma get_next_tasks_Rw : forall c c' r, c_init c = true -> get_next_tasks ev c = (c', r) -> Rw c c'.
Proof.
  intros c c' r Hi H. unfold get_next_tasks in H. rewrite (bind_step _ _ _ _ _ _ _ (ensure_ws_inited ev c Hi)) in H.
  match type of H with ?m _ = _ => assert (P : preserves Rw m) by walk end. eapply P; exact H.
Qed.
Lemma request_workflow_status_Rw : forall st c c' r, c_init c = true -> request_workflow_status ev st c = (c', r) -> Rw c c'.
Proof.
  intros st c c' r Hi H. unfold request_workflow_status in H.
  rewrite (bind_step _ _ _ _ _ _ _ (ensure_ws_inited ev c Hi)) in H. eapply pw_request_status_core; exact H.
Qed.
Lemma render_workflow_output_Rw : forall c c' r, c_init c = true -> render_workflow_output ev c = (c', r) -> Rw c c'.
Proof.
  intros c c' r Hi H. unfold render_workflow_output in H.
  rewrite (bind_step _ _ _ _ _ _ _ (ensure_ws_inited ev c Hi)) in H.
  match type of H with ?m _ = _ => assert (P : preserves Rw m) by (unfold get_workflow_terminal_context; walk) end.
  eapply P; exact H.
Qed.

End QuietWF.

Definition Rst (c c' : cstate) : Prop :=
  staged (c_ws c') = staged (c_ws c) /\ c_graph c' = c_graph c /\ c_spec c' = c_spec c.
Lemma Rst_refl : forall c, Rst c c.
Proof. intro; repeat split. Qed.
Lemma Rst_trans : forall a b c, Rst a b -> Rst b c -> Rst a c.
Proof. unfold Rst; intros a b c [A1 [A2 A3]] [B1 [B2 B3]]; repeat split; congruence. Qed.

Create HintDb presst.

Section StagedKept.
Variable ev : string -> dict -> evalres.

Lemma pst_wf_workflow_event : forall st, preserves Rst (wf_workflow_event_M st).
Proof. exact (preserves_wf_workflow_event Rst Rst_refl (fun c s => conj eq_refl (conj eq_refl eq_refl))). Qed.
Lemma pst_wf_task_event : forall t route st, preserves Rst (wf_task_event_M t route st).
Proof. exact (preserves_wf_task_event Rst Rst_refl (fun c s => conj eq_refl (conj eq_refl eq_refl))). Qed.
Lemma pst_log_entry_error : forall m t r tr res, preserves Rst (log_entry_error m t r tr res).
Proof. intros; apply (preserves_modify Rst); intro c; cbv zeta; destruct (existsb _ _); repeat split. Qed.
Lemma pst_log_error : forall e t r tr, preserves Rst (log_error e t r tr).
Proof. intros; unfold log_error; apply pst_log_entry_error. Qed.
Lemma pst_upd_rec : forall i f, preserves Rst (upd_rec i f).
Proof. intros; apply (preserves_modws Rst); intro; repeat split; apply staged_update_rec. Qed.
Lemma pst_set_rec_status : forall i s, preserves Rst (set_rec_status i s).
Proof. intros; apply pst_upd_rec. Qed.
Lemma pst_new_rec : forall r k idx,
  preserves Rst (modws (fun w => ws_set_tasks (ws_set_sequence w (app (sequence w) [r])) (aset tkey_eqb k idx (tasks w)))).
Proof. intros; apply (preserves_modws Rst); intro; repeat split. Qed.
Hint Resolve pst_wf_workflow_event pst_wf_task_event pst_log_entry_error pst_set_rec_status pst_new_rec : presst.

Lemma pst_log_errors : forall es t r tr, preserves Rst (log_errors es t r tr).
Proof. intros; apply (frame_log_errors Rst Rst_refl Rst_trans); auto with presst. Qed.
Lemma pst_log_unreachable : forall l, preserves Rst (log_unreachable l).
Proof. intros; apply (frame_log_unreachable Rst Rst_refl Rst_trans); auto with presst. Qed.
Lemma pst_request_status_core : forall st, preserves Rst (request_status_core st).
Proof. intros; apply (frame_request_status_core Rst Rst_refl Rst_trans); auto with presst. Qed.
Lemma pst_render_vars : forall specs rolling rendered errs, preserves Rst (render_vars ev specs rolling rendered errs).
Proof. intros; apply (frame_render_vars ev Rst Rst_refl Rst_trans). Qed.
Lemma pst_finalize_context : forall ts e ctx, preserves Rst (finalize_context ev ts e ctx).
Proof. intros; apply (frame_finalize_context ev Rst Rst_refl Rst_trans). Qed.
Lemma pst_get_rec : forall i, preserves Rst (get_rec i).
Proof. intros; apply (frame_get_rec Rst Rst_refl Rst_trans). Qed.
Lemma pst_add_task_state : forall t r i p, preserves Rst (add_task_state ev t r i p).
Proof. intros; apply (frame_add_task_state ev Rst Rst_refl Rst_trans); auto with presst. Qed.
Lemma pst_logfail : forall t evt, preserves Rst (uts_logfail t evt).
Proof. intros; unfold uts_logfail; pw Rst_refl Rst_trans ltac:(auto with presst). Qed.

End StagedKept.


Lemma ctx_ok_mono : forall w w' l, length (contexts w) <= length (contexts w') -> ctx_ok w l -> ctx_ok w' l.
Proof. intros w w' l H [H0 H1]; split; [exact H0|]. intros i Hi; specialize (H1 _ Hi); lia. Qed.

Lemma WF_append_rec : forall c r, WF c -> r_route r < length (routes (c_ws c)) -> ctx_ok (c_ws c) (r_in r) ->
  (rstatus r = S_RETRYING -> r_retry r <> None) -> WF (append_rec c r).
Proof.
  intros c r [Wi Wp Ws Wr] Hrt Hctx Hretry. constructor; simpl.
  - exact Wi.
  - intros k i Hk. rewrite app_length; simpl. rewrite (aget_aset tkey_eqb StateFacts.tkey_eqb_eq) in Hk.
    destruct (tkey_eqb k (r_id r, r_route r)) eqn:Ek; [|destruct (Wp _ _ Hk); split; [lia|assumption]].
    apply tkey_eqb_eq in Ek. inversion Hk; subst. split; [lia|exact Hrt].
  - exact Ws.
  - intros r0 Hr. apply in_app_or in Hr. destruct Hr as [Hr|[<-|[]]]; [apply Wr; exact Hr|split; assumption].
Qed.

Section NewRecord.
Variable ev : string -> dict -> evalres.
Hypothesis Hev : eval_no_internal ev.

Lemma add_task_state_wf : forall t rt ins prev c c' res,
  add_task_state ev t rt ins prev c = (c', res) ->
  WF c -> rt < length (routes (c_ws c)) -> ctx_ok (c_ws c) (match ins with [] => [0] | _ => ins end) ->
  WF c' /\ Rst c c' /\ contexts (c_ws c') = contexts (c_ws c) /\ routes (c_ws c') = routes (c_ws c) /\
  (forall e, res = Exc e -> ~ internal_cls e).
Proof.
  intros t rt ins prev c c' res H Wc Hrt Hctx.
  assert (Hni : forall e, res = Exc e -> ~ internal_cls e) by (intros e ->; exact (ni_add_task_state ev _ _ _ _ _ _ _ H)).
  pose proof (pst_add_task_state ev _ _ _ _ _ _ _ H) as St.
  enough (G : WF c' /\ contexts (c_ws c') = contexts (c_ws c) /\ routes (c_ws c') = routes (c_ws c)) by tauto.
  rewrite add_task_state_run in H. destruct (negb (g_has_task (c_graph c) t)); [inversion H; subst; auto|]. cbv zeta in H.
  (* the retry set-up, guarded or not, is quiet *)
  assert (P : preserves Rw (ats_retry ev (c_graph c) t rt (match ins with [] => [0] | _ => ins end)))
    by (unfold ats_retry; pw Rw_refl Rw_trans ltac:(auto using pw_setup_retry, pw_log_error, pw_request_status_core)).
  destruct (ats_retry ev (c_graph c) t rt _ c) as [cm [retry|e]] eqn:Er; inversion H; subst c' res; clear H;
    pose proof (P _ _ _ Er) as Q; pose proof (WF_Rw _ _ Q Wc) as Wm; destruct Q as [_ [_ [Qc [Qr _]]]]; [|auto].
  split; [|auto]. apply WF_append_rec; simpl; [exact Wm|rewrite Qr; exact Hrt| |discriminate].
  eapply ctx_ok_mono; [|exact Hctx]. rewrite Qc. apply Nat.le_refl.
Qed.

End NewRecord.

Definition present (c : cstate) (t : string) (r : nat) : Prop := get_staged_task (c_ws c) t r <> None.

Definition Rgrow (c c' : cstate) : Prop :=
  c_graph c' = c_graph c /\ c_spec c' = c_spec c /\ (c_init c = true -> c_init c' = true) /\
  tasks (c_ws c') = tasks (c_ws c) /\
  length (routes (c_ws c)) <= length (routes (c_ws c')) /\ length (contexts (c_ws c)) <= length (contexts (c_ws c')) /\
  length (sequence (c_ws c')) = length (sequence (c_ws c)) /\
  (forall i r, nth_error (sequence (c_ws c)) i = Some r ->
     exists r', nth_error (sequence (c_ws c')) i = Some r' /\ (r_status r <> None -> r_status r' <> None)) /\
  (forall t r, present c t r -> present c' t r) /\
  (exists l, routes (c_ws c') = app (routes (c_ws c)) l).

Lemma Rgrow_refl : forall c, Rgrow c c.
Proof.
  intro c. split; [reflexivity|]. split; [reflexivity|]. split; [auto|]. split; [reflexivity|]. split; [lia|]. split; [lia|].
  split; [reflexivity|]. split; [intros i r H; exists r; auto|]. split; [auto|]. exists []. symmetry; apply app_nil_r.
Qed.
Lemma Rgrow_trans : forall a b c, Rgrow a b -> Rgrow b c -> Rgrow a c.
Proof.
  intros a b c [G1 [S1 [I1 [T1 [O1 [C1 [L1 [Q1 [P1 [l1 X1]]]]]]]]]] [G2 [S2 [I2 [T2 [O2 [C2 [L2 [Q2 [P2 [l2 X2]]]]]]]]]].
  split; [congruence|]. split; [congruence|]. split; [auto|]. split; [congruence|]. split; [lia|]. split; [lia|].
  split; [congruence|]. split; [|split; [auto|exists (app l1 l2); rewrite X2, X1, app_assoc; reflexivity]].
  intros i r H. destruct (Q1 _ _ H) as [r1 [H1 A1]]. destruct (Q2 _ _ H1) as [r2 [H2 A2]]. exists r2; split; auto.
Qed.

Lemma Rw_Rst_Rgrow : forall c c', Rw c c' -> Rst c c' -> Rgrow c c'.
Proof.
  intros c c' [I [T [C [O [S [L Q]]]]]] [St [G Sp]]. unfold Rgrow, present, get_staged_task. rewrite St, C, O.
  split; [exact G|]. split; [exact Sp|]. split; [exact I|]. split; [exact T|]. split; [lia|]. split; [lia|]. split; [exact L|].
  split; [|split; [auto|exists []; symmetry; apply app_nil_r]].
  intros i r H. assert (Hl : i < length (sequence (c_ws c'))) by (rewrite L; apply nth_error_Some; congruence).
  destruct (nth_error (sequence (c_ws c')) i) as [r'|] eqn:E; [|apply nth_error_None in E; lia].
  exists r'; split; [reflexivity|]. destruct (Q _ _ E) as [r0 [H0 [_ [_ [_ A]]]]]. rewrite H in H0; inversion H0; subst; exact A.
Qed.

Lemma stg_matches_refl : forall s, stg_matches (s_id s) (s_route s) s = true.
Proof. exact StateFacts.stg_matches_refl. Qed.
Lemma find_staged_update_present : forall f t r t' r' l,
  (forall s, s_id (f s) = s_id s /\ s_route (f s) = s_route s) ->
  find (stg_matches t' r') l <> None -> find (stg_matches t' r') (staged_update f t r l) <> None.
Proof.
  intros f t r t' r' l Hf; induction l as [|s l IH]; simpl; [congruence|].
  assert (E : stg_matches t' r' (f s) = stg_matches t' r' s) by (unfold stg_matches; destruct (Hf s) as [-> ->]; reflexivity).
  destruct (stg_matches t r s); simpl.
  - rewrite E. destruct (stg_matches t' r' s); [discriminate|auto].
  - destruct (stg_matches t' r' s); [discriminate|exact IH].
Qed.

Definition fresh_rec (t : string) (route : nat) : trec :=
  {| r_id := t; r_route := route; r_in := []; r_out := None; r_prev := []; r_next := []; r_status := None;
     r_term := false; r_retry := None |}.

(* the command's own event takes a record without status to a status *)
Definition cmd_startable (n : string) : Prop :=
  exists name st s, engine_event n = Some (EvEngine name st) /\
                    task_process_event empty_ws (fresh_rec n 0) (EvEngine name st) = Val (Some s).

(* what the definition and the composed graph must agree on (decidable, see static_ok_b) *)
Record static_ok (sp : wf_spec) (g : graph) : Prop := {
  so_spec : forall t, g_has_task g t = true -> spec_get_task sp t <> None;
  so_ref : forall e ts, In e (g_edges g) -> spec_get_task sp (e_src e) = Some ts -> e_ref e < length (ts_next ts);
  so_inert : graph_commands_inert g;
  so_start : forall e, In e (g_edges g) -> is_engine_command (e_dst e) = true -> cmd_startable (e_dst e) }.

(* a followed edge keeps the route of its source (no new route is opened for it) *)
Definition stays (c : cstate) (route : nat) (e : gedge) : bool :=
  negb (spec_is_split_task (c_spec c) (e_dst e)) || g_in_cycle (c_graph c) (e_dst e) ||
  match nth_error (routes (c_ws c)) route with
  | Some old => existsb (trid_eqb (e_src e, e_key e)) old
  | None => true
  end.

(* the edges of t to engine commands that keep the route lead to different commands: the commands queued by one
   completion of (t, route) are then different (task, route) keys.  (Edges that open a route get one each.) *)
Definition cmd_edges_on_route (c : cstate) (t : string) (route : nat) : list gedge :=
  filter (fun e => is_engine_command (e_dst e) && stays c route e) (g_next_transitions (c_graph c) t).
Definition cmd_routes_distinct (c : cstate) (t : string) (route : nat) : Prop :=
  NoDup (map e_dst (cmd_edges_on_route c t route)).

Lemma stays_mono : forall c c' route e, c_graph c' = c_graph c -> c_spec c' = c_spec c ->
  (exists l, routes (c_ws c') = app (routes (c_ws c)) l) -> stays c' route e = true -> stays c route e = true.
Proof.
  intros c c' route e G S [l R] H. unfold stays in *. rewrite G, S, R in H.
  destruct (negb (spec_is_split_task (c_spec c) (e_dst e)) || g_in_cycle (c_graph c) (e_dst e)); [reflexivity|]. simpl in *.
  destruct (nth_error (routes (c_ws c)) route) as [old|] eqn:E; [|reflexivity].
  rewrite nth_error_app1 in H by (apply nth_error_Some; congruence). rewrite E in H. exact H.
Qed.

Lemma NoDup_map_filter_mono : forall A B (f : A -> B) (P Q : A -> bool) l,
  (forall x, Q x = true -> P x = true) -> NoDup (map f (filter P l)) -> NoDup (map f (filter Q l)).
Proof.
  intros A B f P Q l PQ; induction l as [|x l IH]; simpl; intro H; [constructor|].
  assert (Sub : forall y, In y (map f (filter Q l)) -> In y (map f (filter P l))).
  { intros y Hy. apply in_map_iff in Hy. destruct Hy as [z [<- Hz]]. apply filter_In in Hz. destruct Hz as [Hz1 Hz2].
    apply in_map. apply filter_In. split; [exact Hz1|apply PQ; exact Hz2]. }
  destruct (Q x) eqn:Eq.
  - rewrite (PQ _ Eq) in H. simpl in *. inversion H; subst. constructor; [intro Hy; apply H2; apply Sub; exact Hy|apply IH; exact H3].
  - destruct (P x); [simpl in H; inversion H; subst|]; apply IH; assumption.
Qed.

Lemma distinct_mono : forall c c' t route, c_graph c' = c_graph c -> c_spec c' = c_spec c ->
  (exists l, routes (c_ws c') = app (routes (c_ws c)) l) -> cmd_routes_distinct c t route -> cmd_routes_distinct c' t route.
Proof.
  intros c c' t route G S R H. unfold cmd_routes_distinct, cmd_edges_on_route in *. rewrite G.
  eapply NoDup_map_filter_mono; [|exact H]. intros e He. apply andb_prop in He. destruct He as [A B].
  rewrite A. simpl. eapply stays_mono; eassumption.
Qed.

Lemma Rgrow_static : forall c c', Rgrow c c' -> c_graph c' = c_graph c /\ c_spec c' = c_spec c.
Proof. intros c c' G; split; apply G. Qed.
Lemma Rgrow_lengths : forall c c', Rgrow c c' ->
  length (routes (c_ws c)) <= length (routes (c_ws c')) /\ length (contexts (c_ws c)) <= length (contexts (c_ws c')) /\
  length (sequence (c_ws c')) = length (sequence (c_ws c)).
Proof. intros c c' G; repeat split; apply G. Qed.
Lemma Rgrow_present : forall c c' t r, Rgrow c c' -> present c t r -> present c' t r.
Proof. intros c c' t r G; apply G. Qed.
Lemma Rgrow_started : forall c c' i r, Rgrow c c' -> nth_error (sequence (c_ws c)) i = Some r ->
  exists r', nth_error (sequence (c_ws c')) i = Some r' /\ (r_status r <> None -> r_status r' <> None).
Proof. intros c c' i r G; apply G. Qed.
Lemma stays_grow : forall c c' route e, Rgrow c c' -> stays c' route e = true -> stays c route e = true.
Proof. intros c c' route e G; apply stays_mono; apply G. Qed.

(* [steps c m Q]: run from [c], [m] ends in a well-formed state that [c] has only grown into, raises no internal
   class, and returns only values that [Q] accepts in the final state *)
Definition steps {A} (c : cstate) (m : M A) (Q : cstate -> A -> Prop) : Prop :=
  run m c (fun c' res =>
    WF c' /\ Rgrow c c' /\ (forall x, res = Exc x -> ~ internal_cls x) /\ (forall v, res = Val v -> Q c' v)).

Lemma steps_ret : forall A (a : A) c (Q : cstate -> A -> Prop), WF c -> Q c a -> steps c (ret a) Q.
Proof.
  intros A a c Q W Hq c' res H; inversion H; subst. split; [exact W|]. split; [apply Rgrow_refl|].
  split; [discriminate|]. intros v Hv; inversion Hv; subst; exact Hq.
Qed.

Lemma steps_bind : forall A B (m : M A) (f : A -> M B) c (Q : cstate -> A -> Prop) (Q' : cstate -> B -> Prop),
  steps c m Q -> (forall c1 a, WF c1 -> Rgrow c c1 -> Q c1 a -> steps c1 (f a) Q') -> steps c (bind m f) Q'.
Proof.
  intros A B m f c Q Q' Hm Hf. eapply run_bind; [exact Hm| |].
  - intros c1 e [W [G [N _]]]. split; [exact W|]. split; [exact G|]. split; [|discriminate].
    intros x Hx; inversion Hx; subst; apply N; reflexivity.
  - intros c1 a [W [G [_ P]]]. eapply run_conseq; [exact (Hf c1 a W G (P a eq_refl))|].
    intros c' r [W' [G' NP]]. split; [exact W'|]. split; [eapply Rgrow_trans; eassumption|exact NP].
Qed.

Lemma steps_val : forall A B (m : M A) (f : A -> M B) c a (Q : cstate -> B -> Prop),
  m c = (c, Val a) -> steps c (f a) Q -> steps c (bind m f) Q.
Proof. intros A B m f c a Q; apply run_read. Qed.

Lemma steps_weaken : forall A (m : M A) c (Q Q' : cstate -> A -> Prop),
  steps c m Q -> (forall c' v, Rgrow c c' -> Q c' v -> Q' c' v) -> steps c m Q'.
Proof.
  intros A m c Q Q' Hm HQ c' res H. destruct (Hm _ _ H) as [W [G [N P]]].
  split; [exact W|]. split; [exact G|]. split; [exact N|]. intros v Hv; apply (HQ _ _ G), P, Hv.
Qed.

Lemma steps_quiet : forall A (m : M A) (P : A -> Prop) c,
  preserves Rw m -> preserves Rst m -> ni m -> vpost P m -> WF c -> steps c m (fun _ v => P v).
Proof.
  intros A m P c P1 P2 P3 P4 W c' res H. split; [eapply WF_Rw; [eapply P1; exact H|exact W]|].
  split; [apply Rw_Rst_Rgrow; [eapply P1|eapply P2]; exact H|].
  split; [intros x ->; eapply P3; exact H|intros v ->; eapply P4; exact H].
Qed.
Lemma vpost_any : forall A (m : M A), vpost (fun _ => True) m.
Proof. intros A m c c' a _; exact I. Qed.

Lemma steps_modws : forall f c (Q : cstate -> unit -> Prop),
  WF (set_ws c (f (c_ws c))) -> Rgrow c (set_ws c (f (c_ws c))) -> Q (set_ws c (f (c_ws c))) tt -> steps c (modws f) Q.
Proof.
  intros f c Q W G Hq c' res H; inversion H; subst. split; [exact W|]. split; [exact G|].
  split; [discriminate|]. intros [] _; exact Hq.
Qed.

(* the same without the growth clause: what can still be said across the calls the body makes to itself *)
Definition safe {A} (c : cstate) (m : M A) : Prop :=
  run m c (fun c' res => WF c' /\ (forall x, res = Exc x -> ~ internal_cls x)).

Lemma steps_safe : forall A (m : M A) c (Q : cstate -> A -> Prop), steps c m Q -> safe c m.
Proof. intros A m c Q Hm. eapply run_conseq; [exact Hm|]. intros c' r [W [_ [N _]]]; auto. Qed.
Lemma safe_bind : forall A B (m : M A) (f : A -> M B) c (Q : cstate -> A -> Prop),
  steps c m Q -> (forall c1 a, WF c1 -> Rgrow c c1 -> Q c1 a -> safe c1 (f a)) -> safe c (bind m f).
Proof.
  intros A B m f c Q Hm Hf. eapply run_bind; [exact Hm| |].
  - intros c1 e [W [_ [N _]]]. split; [exact W|]. intros x Hx; inversion Hx; subst; apply N; reflexivity.
  - intros c1 a [W [G [_ P]]]. exact (Hf c1 a W G (P a eq_refl)).
Qed.
Lemma safe_then : forall A B (m : M A) (f : A -> M B) c,
  safe c m -> (forall c1 a, m c = (c1, Val a) -> WF c1 -> safe c1 (f a)) -> safe c (bind m f).
Proof.
  intros A B m f c Hm Hf. eapply run_bind; [apply run_eq; exact Hm| |].
  - intros c1 e [_ [W N]]. split; [exact W|]. intros x Hx; inversion Hx; subst; apply N; reflexivity.
  - intros c1 a [E [W _]]. exact (Hf c1 a E W).
Qed.
Lemma safe_val : forall A B (m : M A) (f : A -> M B) c a, m c = (c, Val a) -> safe c (f a) -> safe c (bind m f).
Proof. intros A B m f c a; apply run_read. Qed.
Lemma safe_map : forall A B (m : M A) (k : A -> B) c, safe c m -> safe c (a <- m ;; ret (k a)).
Proof.
  intros A B m k c Hm. apply safe_then; [exact Hm|]. intros c1 a _ W1. apply (steps_safe _ _ _ (fun _ _ => True)), steps_ret; auto.
Qed.

Section Transition.
Variable ev : string -> dict -> evalres.
Hypothesis Hev : eval_no_internal ev.

Lemma WF_grow_lengths : forall c w', WF c ->
  tasks w' = tasks (c_ws c) -> sequence w' = sequence (c_ws c) -> staged w' = staged (c_ws c) ->
  length (routes (c_ws c)) <= length (routes w') -> length (contexts (c_ws c)) <= length (contexts w') ->
  WF (set_ws c w').
Proof.
  intros c w' [Wi Wp Ws Wr] T Q S O C. constructor; simpl.
  - exact Wi.
  - intros k i H. rewrite T in H. rewrite Q. destruct (Wp _ _ H); split; [assumption|lia].
  - intros s H. rewrite S in H. destruct (Ws _ H) as [A B]. split; [lia|]. destruct B as [B1 B2]. split; [exact B1|].
    intros i Hi; specialize (B2 _ Hi); lia.
  - intros r H. rewrite Q in H. destruct (Wr _ H) as [[B1 B2] B]. split; [|exact B]. split; [exact B1|].
    intros i Hi; specialize (B2 _ Hi); lia.
Qed.

Lemma WF_staged : forall c l', WF c ->
  (forall s, In s l' -> s_route s < length (routes (c_ws c)) /\ ctx_ok (c_ws c) (s_in s)) ->
  WF (set_ws c (ws_set_staged (c_ws c) l')).
Proof. intros c l' [Wi Wp Ws Wr] H. constructor; simpl; auto. Qed.

Lemma Rgrow_ws : forall c w',
  tasks w' = tasks (c_ws c) -> sequence w' = sequence (c_ws c) ->
  (exists l, routes w' = app (routes (c_ws c)) l) -> length (contexts (c_ws c)) <= length (contexts w') ->
  (forall t r, find (stg_matches t r) (staged (c_ws c)) <> None -> find (stg_matches t r) (staged w') <> None) ->
  Rgrow c (set_ws c w').
Proof.
  intros c w' T Q O C P. unfold Rgrow, present, get_staged_task; simpl. rewrite T, Q.
  split; [reflexivity|]. split; [reflexivity|]. split; [auto|]. split; [reflexivity|].
  split; [destruct O as [l ->]; rewrite app_length; lia|]. split; [exact C|]. split; [reflexivity|].
  split; [intros i r H; exists r; auto|]. split; [exact P|exact O].
Qed.
Lemma routes_same : forall (l : list (list trid)), exists l0, l = app l l0.
Proof. intro l; exists []; symmetry; apply app_nil_r. Qed.

(* the three writes that are not quiet: a staged entry rewritten in place (identity kept), a new staged entry,
   a new context *)
Lemma restage_wf : forall f t r c, WF c -> (forall s, s_id (f s) = s_id s /\ s_route (f s) = s_route s) ->
  (forall s, In s (staged (c_ws c)) -> ctx_ok (c_ws c) (s_in (f s))) ->
  steps c (modws (fun w => ws_set_staged w (staged_update f t r (staged w)))) (fun _ _ => True).
Proof.
  intros f t r c Wc Hf Hin. apply steps_modws; [| |exact I].
  - apply WF_staged; [exact Wc|]. intros s Hs. apply In_staged_update in Hs.
    destruct Hs as [Hs|[s1 [Hs [_ ->]]]]; [apply (wf_stg _ Wc); exact Hs|].
    split; [rewrite (proj2 (Hf s1)); apply (wf_stg _ Wc); exact Hs|apply Hin; exact Hs].
  - apply Rgrow_ws; simpl; auto; try apply routes_same. intros t0 r0. apply find_staged_update_present; exact Hf.
Qed.

Lemma stage_new_wf : forall s c, WF c -> s_route s < length (routes (c_ws c)) -> ctx_ok (c_ws c) (s_in s) ->
  steps c (modws (fun w => ws_add_staged w s)) (fun c' _ => present c' (s_id s) (s_route s)).
Proof.
  intros s c Wc Hr Hc. apply steps_modws.
  - apply (WF_staged c); [exact Wc|]. intros s1 Hs. apply in_app_or in Hs.
    destruct Hs as [Hs|[<-|[]]]; [apply (wf_stg _ Wc); exact Hs|split; assumption].
  - apply Rgrow_ws; simpl; auto; try apply routes_same. intros t0 r0. apply find_app_present.
  - unfold present, get_staged_task, ws_add_staged; simpl. apply find_app_some, stg_matches_refl.
Qed.

Lemma new_ctx_wf : forall d c, WF c ->
  steps c (modws (fun w => ws_set_contexts w (app (contexts w) [d])))
          (fun c' _ => length (contexts (c_ws c')) = S (length (contexts (c_ws c)))).
Proof.
  intros d c Wc. apply steps_modws; simpl; try (rewrite app_length; simpl; lia).
  - apply WF_grow_lengths; simpl; auto; rewrite app_length; lia.
  - apply Rgrow_ws; simpl; auto; try apply routes_same; rewrite app_length; lia.
Qed.

Lemma get_rec_ok : forall idx c, idx < length (sequence (c_ws c)) ->
  exists r, get_rec idx c = (c, Val r) /\ nth_error (sequence (c_ws c)) idx = Some r.
Proof.
  intros idx c H. destruct (nth_error (sequence (c_ws c)) idx) as [r|] eqn:E; [|apply nth_error_None in E; lia].
  exists r; split; [unfold get_rec, bind, getws; rewrite E; reflexivity|reflexivity].
Qed.

Lemma ni_finalize_context : forall ts e ctx, e_ref e < length (ts_next ts) -> ni (finalize_context ev ts e ctx).
Proof.
  intros ts e ctx H. unfold finalize_context. destruct (nth_error (ts_next ts) (e_ref e)) eqn:E; [|apply nth_error_None in E; lia].
  destruct (string_in (e_dst e) (tr_do t)); [apply ni_render_vars; exact Hev|apply (ro_ret _)].
Qed.

Lemma evaluate_route_wf : forall e route c, WF c -> route < length (routes (c_ws c)) ->
  steps c (evaluate_route e route)
          (fun c' nr => nr < length (routes (c_ws c')) /\
                        ((nr = route /\ stays c route e = true) \/ length (routes (c_ws c)) <= nr)).
Proof.
  intros e route c Wc Hr. unfold evaluate_route. apply (steps_val _ _ _ _ _ _ _ (eq_refl : get c = (c, Val c))). cbv zeta.
  assert (Same : stays c route e = true ->
            steps c (ret route) (fun c' nr => nr < length (routes (c_ws c')) /\
                                   ((nr = route /\ stays c route e = true) \/ length (routes (c_ws c)) <= nr)))
    by (intro Hs; apply steps_ret; auto).
  destruct (negb (spec_is_split_task (c_spec c) (e_dst e)) || g_in_cycle (c_graph c) (e_dst e)) eqn:E1;
    [apply Same; unfold stays; rewrite E1; reflexivity|].
  destruct (nth_error (routes (c_ws c)) route) as [old|] eqn:Eo; [|apply nth_error_None in Eo; lia].
  destruct (existsb (trid_eqb (e_src e, e_key e)) old) eqn:E2;
    [apply Same; unfold stays; rewrite E1, Eo, E2; reflexivity|].
  eapply (steps_bind _ _ _ _ _ (fun c' _ => length (routes (c_ws c')) = S (length (routes (c_ws c))))).
  - apply steps_modws; simpl; try (rewrite app_length; simpl; lia).
    + apply WF_grow_lengths; simpl; auto; rewrite app_length; lia.
    + apply Rgrow_ws; simpl; auto; eexists; reflexivity.
  - intros c1 [] W1 _ L1. apply steps_ret; [exact W1|]. split; [lia|right; lia].
Qed.

Definition pt_post (route : nat) (e : gedge) (c c' : cstate) (res : option (string * nat) * option (string * nat)) : Prop :=
  forall n rt, fst res = Some (n, rt) ->
    n = e_dst e /\ is_engine_command n = true /\ present c' n rt /\ rt < length (routes (c_ws c')) /\
    ((rt = route /\ stays c route e = true) \/ length (routes (c_ws c)) <= rt).

Lemma process_transition_wf : forall t route idx ts ctx e c,
  WF c -> static_ok (c_spec c) (c_graph c) -> In e (g_next_transitions (c_graph c) t) ->
  spec_get_task (c_spec c) t = Some ts -> route < length (routes (c_ws c)) ->
  idx < length (sequence (c_ws c)) ->
  steps c (process_transition ev t route idx ts ctx e) (pt_post route e c).
Proof.
  intros t route idx ts ctx e c Wc Hso Hin Hts Hroute Hidx. unfold process_transition.
  destruct (In_next_transitions _ _ _ Hin) as [Hedge Hsrc].
  assert (Href : e_ref e < length (ts_next ts)) by (eapply so_ref; [exact Hso|exact Hedge|rewrite Hsrc; exact Hts]).
  assert (NoCmd : forall cz (v : option (string * nat) * option (string * nat)), fst v = None -> pt_post route e c cz v)
    by (intros cz v Hv n rt Hn; rewrite Hv in Hn; discriminate).
  eapply steps_bind.
  { apply steps_quiet; [| | |apply vpost_any|exact Wc].
    - pw Rw_refl Rw_trans ltac:(first [apply pw_upd_next|apply pw_log_error|apply pw_request_status_core]).
    - pw Rst_refl Rst_trans ltac:(first [apply pst_upd_rec|apply pst_log_error|apply pst_request_status_core]).
    - niw ltac:(apply ni_request_status_core). }
  intros c1 ok W1 G1 _.
  destruct ok as [[|]|]; [|apply steps_ret; [exact W1|apply NoCmd; reflexivity]..].
  eapply steps_bind.
  { apply steps_quiet; [apply pw_finalize_context|apply pst_finalize_context|apply ni_finalize_context; exact Href
                       |apply vpost_any|exact W1]. }
  intros c2 [new_ctx errors] W2 G2 _.
  destruct errors as [|x xs].
  2: { eapply steps_weaken; [apply (steps_quiet _ _ (fun v => fst v = None)); [| | | |exact W2]|intros cz v _; apply NoCmd].
       - pw Rw_refl Rw_trans ltac:(first [apply pw_log_errors|apply pw_request_status_core]).
       - pw Rst_refl Rst_trans ltac:(first [apply pst_log_errors|apply pst_request_status_core]).
       - niw ltac:(first [apply ni_log_errors|apply ni_request_status_core]).
       - vw reflexivity. }
  pose proof (Rgrow_trans _ _ _ G1 G2) as G02. destruct (Rgrow_lengths _ _ G02) as [Lr2 [_ Ls2]].
  destruct (get_rec_ok idx c2) as [r [Eg Hr]]; [rewrite Ls2; exact Hidx|]. apply (steps_val _ _ _ _ _ _ _ Eg).
  apply (steps_val _ _ _ _ _ _ _ (eq_refl : getws c2 = (c2, Val (c_ws c2)))).
  destruct (wf_rec _ W2 r (nth_error_In _ _ Hr)) as [[Hr0 Hrin] _].
  eapply (steps_bind _ _ _ _ _ (fun c' out => ctx_ok (c_ws c') out)).
  { destruct new_ctx as [|kv nc]; [apply steps_ret; [exact W2|split; assumption]|]. cbv zeta.
    eapply steps_bind; [apply new_ctx_wf; exact W2|intros ca [] Wa _ La].
    eapply steps_bind.
    { apply steps_quiet; [apply pw_upd_out|apply pst_upd_rec|apply (ro_modws _)|apply vpost_any|exact Wa]. }
    intros cb [] Wb Gb _. apply steps_ret; [exact Wb|]. destruct (Rgrow_lengths _ _ Gb) as [_ [Lb _]].
    split; [apply in_or_app; left; exact Hr0|]. intros i Hi. apply in_app_or in Hi.
    destruct Hi as [Hi|[<-|[]]]; [specialize (Hrin _ Hi)|]; lia. }
  intros c3 out W3 G3 Hout. destruct (Rgrow_lengths _ _ G3) as [Lr3 _].
  eapply steps_bind; [apply evaluate_route_wf; [exact W3|lia]|].
  intros c4 nr W4 G4 [Hnr Hkind]. destruct (Rgrow_lengths _ _ G4) as [_ [Lc4 _]].
  assert (Hout4 : ctx_ok (c_ws c4) out) by (eapply ctx_ok_mono; [exact Lc4|exact Hout]).
  apply (steps_val _ _ _ _ _ _ _ (eq_refl : getws c4 = (c4, Val (c_ws c4)))).
  eapply (steps_bind _ _ _ _ _ (fun c' _ => present c' (e_dst e) nr)).
  { destruct (get_staged_task (c_ws c4) (e_dst e) nr) as [s0|] eqn:Es.
    - destruct (nat_remove_first_in 0 out (proj1 Hout4)) as [out' [-> Hsub]].
      eapply steps_weaken; [apply restage_wf; [exact W4|intro; split; reflexivity|]|].
      + intros s Hs. destruct (wf_stg _ W4 _ Hs) as [_ [B1 B2]]. simpl. split; [apply in_or_app; left; exact B1|].
        intros i Hi. apply in_app_or in Hi. destruct Hi as [Hi|Hi]; [apply B2; exact Hi|apply (proj2 Hout4), Hsub, Hi].
      + intros c' _ G _. apply (Rgrow_present _ _ _ _ G). unfold present. rewrite Es. discriminate.
    - apply (stage_new_wf (mk_staged (e_dst e) nr out [((t, e_key e), idx)] false None)); [exact W4|exact Hnr|].
      simpl. destruct out as [|o out0]; [destruct (proj1 Hout4)|exact Hout4]. }
  intros c5 [] W5 G5 P5.
  apply (steps_val _ _ _ _ _ _ _ (eq_refl : get c5 = (c5, Val c5))). cbv zeta.
  eapply steps_bind.
  { apply restage_wf; [exact W5|intro; split; reflexivity|]. intros s Hs; exact (proj2 (wf_stg _ W5 s Hs)). }
  intros c6 [] W6 G6 _.
  destruct (is_engine_command (e_dst e)) eqn:Ecmd.
  2: { match goal with |- steps _ (if ?b then _ else _) _ => destruct b end;
         (apply steps_ret; [exact W6|apply NoCmd; reflexivity]). }
  apply steps_ret; [exact W6|]. intros n rt Hn; inversion Hn; subst n rt.
  destruct (Rgrow_lengths _ _ (Rgrow_trans _ _ _ G5 G6)) as [Lr6 _].
  split; [reflexivity|]. split; [exact Ecmd|]. split; [apply (Rgrow_present _ _ _ _ G6), P5|]. split; [lia|].
  destruct Hkind as [[-> Hst]|Hge]; [left; split; [reflexivity|]|right; lia].
  apply (stays_grow c c3); [eapply Rgrow_trans; eassumption|exact Hst].
Qed.

End Transition.

Lemma WF_update_rec : forall c i f, WF c ->
  (forall r, nth_error (sequence (c_ws c)) i = Some r ->
     r_in (f r) = r_in r /\ (rstatus (f r) = S_RETRYING -> r_retry (f r) <> None)) ->
  WF (set_ws c (ws_update_rec (c_ws c) i f)).
Proof.
  intros c i f [Wi Wp Ws Wr] Hf. constructor; simpl.
  - exact Wi.
  - intros k j H. rewrite tasks_update_rec in H. rewrite length_update_rec, routes_update_rec. apply Wp; exact H.
  - intros s H. rewrite staged_update_rec in H. unfold ctx_ok. rewrite routes_update_rec, contexts_update_rec. apply Ws; exact H.
  - intros r H. unfold ctx_ok. rewrite contexts_update_rec. unfold ws_update_rec in H.
    destruct (nth_error (sequence (c_ws c)) i) as [r0|] eqn:E; [|apply Wr; exact H]. simpl in H. apply In_set_nth in H.
    destruct H as [->|H]; [|apply Wr; exact H]. destruct (Hf r0 eq_refl) as [A B]. rewrite A. split; [|exact B].
    apply Wr. eapply nth_error_In; exact E.
Qed.

Lemma get_task_context_from_ok : forall ctxs l acc, (forall i, In i l -> i < length ctxs) ->
  exists d, get_task_context_from ctxs l acc = Val d.
Proof.
  intros ctxs l; induction l as [|i l IH]; intros acc H; simpl; [eexists; reflexivity|].
  destruct (nth_error ctxs i) as [d|] eqn:E; [apply IH; intros j Hj; apply H; right; exact Hj|].
  apply nth_error_None in E. specialize (H i (or_introl eq_refl)). lia.
Qed.

Lemma get_task_context_ok : forall l c, ctx_ok (c_ws c) l -> exists d, get_task_context l c = (c, Val d).
Proof.
  intros l c [_ H]. unfold get_task_context, bind, getws. destruct (get_task_context_from_ok (contexts (c_ws c)) l [] H) as [d E].
  rewrite E. exists d; reflexivity.
Qed.

Lemma find_remove_other : forall t r t' r' l, (t', r') <> (t, r) ->
  find (stg_matches t' r') l <> None -> find (stg_matches t' r') (staged_remove_first t r l) <> None.
Proof.
  intros t r t' r' l Hne; induction l as [|s l IH]; simpl; [congruence|].
  destruct (stg_matches t r s) eqn:E1.
  - destruct (stg_matches t' r' s) eqn:E2; [|auto]. exfalso. apply Hne.
    unfold stg_matches in E1, E2. apply andb_prop in E1; apply andb_prop in E2. destruct E1 as [A1 A2], E2 as [B1 B2].
    apply String.eqb_eq in A1, B1. apply Nat.eqb_eq in A2, B2. congruence.
  - simpl. destruct (stg_matches t' r' s); [discriminate|exact IH].
Qed.

Section MachineWF.
Variable ev : string -> dict -> evalres.
Hypothesis Hev : eval_no_internal ev.

Lemma completion_ni : forall t route evt ts idx new old c c' x,
  uts_completion ev t route evt ts idx new old c = (c', Exc x) -> WF c -> idx < length (sequence (c_ws c)) ->
  (task_has_items ts = true -> status_in new ABENDED_STATUSES = true -> present c t route) -> ~ internal_cls x.
Proof.
  intros t route evt ts idx new old c c' x H Wc Hidx Hp. unfold uts_completion in H.
  destruct (status_in new COMPLETED_STATUSES); [|inversion H].
  apply bind_inv in H; destruct H as [[c1 [u1 [E1 H]]]|[x0 [E1 Hx]]]; [|inversion Hx; subst x0; clear Hx].
  - assert (Q : Rw c c1).
    { revert E1. match goal with |- ?m _ = _ -> _ => assert (P1 : preserves Rw m); [|apply P1] end.
      pw Rw_refl Rw_trans ltac:(first [apply pw_remove_staged|apply pw_restage; intro; repeat split; reflexivity]). }
    pose proof (WF_Rw _ _ Q Wc) as W1. destruct Q as [_ [_ [_ [_ [_ [L _]]]]]].
    destruct (get_rec_ok idx c1) as [r [Eg Hr]]; [rewrite L; exact Hidx|]. cbv zeta in H. rewrite (bind_step _ _ _ _ _ _ _ Eg) in H.
    destruct (get_task_context_ok (r_in r) c1) as [d Ed]; [apply (wf_rec _ W1); eapply nth_error_In; exact Hr|].
    rewrite (bind_step _ _ _ _ _ _ _ Ed) in H.
    rewrite (bind_step _ _ _ _ _ _ _ (eq_refl : getws c1 = (c1, Val (c_ws c1)))) in H.
    apply bind_inv in H; destruct H as [[c2 [b [E2 H]]]|[x0 [E2 Hx]]]; [inversion H|inversion Hx; subst x0; clear Hx].
    refine ((_ : ni (try_catch _ _)) _ _ _ E2). niw ltac:(apply ni_request_status_core).
  - destruct (negb (task_has_items ts && status_in new ABENDED_STATUSES)) eqn:En; [inversion E1|].
    apply negb_false_iff in En. apply andb_prop in En. destruct En as [A B]. specialize (Hp A B).
    unfold bind, getws in E1. unfold present in Hp. destruct (get_staged_task (c_ws c) t route); [inversion E1|congruence].
Qed.

Lemma retrying_wf : forall t route idx r c,
  WF c -> ws_task_idx (c_ws c) t route = Some idx -> nth_error (sequence (c_ws c)) idx = Some r ->
  (rstatus r = S_RETRYING -> r_retry r <> None) ->
  exists c', uts_retrying t route idx r (rstatus r) c = (c', Val tt) /\ WF c' /\ tasks (c_ws c') = tasks (c_ws c) /\
             (present c t route -> present c' t route) /\
             exists r', nth_error (sequence (c_ws c')) idx = Some r' /\ r_status r' = r_status r.
Proof.
  intros t route idx r c Wc Hp Hr Hretry. rewrite uts_retrying_run.
  destruct (status_eqb (rstatus r) S_RETRYING) eqn:Es; [|exists c; split; [reflexivity|]; eauto 6].
  apply status_eqb_eq in Es. destruct (r_retry r) as [rr|]; [|destruct (Hretry Es eq_refl)].
  set (fr := fun r0 : trec => r_set_retry r0 (Some (rr_bump rr))).
  set (ca := set_ws c (ws_update_rec (c_ws c) idx fr)).
  set (cb := set_ws ca (ws_remove_staged_task (c_ws ca) t route)).
  assert (Wb : WF cb).
  { eapply WF_Rw; [apply Rw_remove_staged|]. apply WF_update_rec; [exact Wc|]. intros r0 _; split; [reflexivity|simpl; discriminate]. }
  assert (Hrb : nth_error (sequence (c_ws cb)) idx = Some (fr r))
    by (simpl; rewrite seq_remove_staged; exact (nth_update_rec_same (c_ws c) idx fr r Hr)).
  eexists. split; [reflexivity|]. split; [|split; [|split]].
  - apply (WF_staged cb); [exact Wb|]. intros s Hs. apply in_app_or in Hs.
    destruct Hs as [Hs|[<-|[]]]; [apply (wf_stg _ Wb); exact Hs|].
    unfold ctx_ok; simpl. rewrite routes_remove_staged, contexts_remove_staged; simpl. rewrite routes_update_rec, contexts_update_rec.
    split; [apply (wf_ptr _ Wc (t, route) idx Hp)|].
    destruct (wf_rec _ Wc r (nth_error_In _ _ Hr)) as [Hc _]. destruct (r_in r); [destruct (proj1 Hc)|exact Hc].
  - simpl. rewrite tasks_remove_staged. simpl. apply tasks_update_rec.
  - intros _. unfold present, get_staged_task, ws_add_staged; simpl. apply find_app_some, stg_matches_refl.
  - exists (fr r). split; [exact Hrb|reflexivity].
Qed.

Definition step_ok (evt : event) (ts : task_spec) (t : string) (route : nat) (c : cstate) (r : trec) : Prop :=
  rec_ok2 evt r /\
  (forall x, task_process_event (c_ws c) r evt = Exc x -> ~ internal_cls x) /\
  (forall ns, task_process_event (c_ws c) r evt = Val ns ->
     r_status (stepped r ns) <> None /\
     (task_has_items ts = true -> status_in (rstatus (stepped r ns)) ABENDED_STATUSES = true -> present c t route)).

Definition post_machine (c : cstate) (t : string) (route idx : nat) (ts : task_spec) (p : pre_out) : Prop :=
  po_idx p = idx /\ po_ts p = ts /\ ws_task_idx (c_ws c) t route = Some idx /\
  exists r, rec_at c idx = Some r /\ r_status r <> None.

Lemma machine_wf : forall t route evt ts idx c c' res,
  pre_machine ev t route evt ts idx c = (c', res) ->
  WF c -> ws_task_idx (c_ws c) t route = Some idx ->
  (forall r, rec_at c idx = Some r -> step_ok evt ts t route c r) ->
  WF c' /\ (forall x, res = Exc x -> ~ internal_cls x) /\ (forall p, res = Val p -> post_machine c' t route idx ts p).
Proof.
  intros t route evt ts idx c c' res H Wc Hp Hstep. unfold pre_machine in H.
  destruct (get_rec_ok idx c (proj1 (wf_ptr _ Wc _ _ Hp))) as [r [Eg Hr]]. rewrite (bind_step _ _ _ _ _ _ _ Eg) in H.
  rewrite (bind_step _ _ _ _ _ _ _ (eq_refl : getws c = (c, Val (c_ws c)))) in H.
  destruct (Hstep r Hr) as [Hok [Hexc Hval]].
  destruct (task_process_event (c_ws c) r evt) as [ns|x0] eqn:Ens.
  2: { inversion H; subst. split; [exact Wc|]. split; [|discriminate]. intros x Hx; inversion Hx; subst; apply Hexc; reflexivity. }
  destruct (Hval ns eq_refl) as [Hst Hitems].
  rewrite (bind_step _ _ _ _ _ _ _ (eq_refl : lift_res (Val ns) c = (c, Val ns))) in H.
  assert (Hretry : rstatus (stepped r ns) = S_RETRYING -> r_retry (stepped r ns) <> None).
  { intro Hs. rewrite stepped_retry. rewrite stepped_status in Hs. destruct ns as [s|].
    - subst s. destruct (machine_enters_allowed _ _ _ Hok Ens eq_refl) as [rr [Hrr _]]. congruence.
    - apply (wf_rec _ Wc r); [eapply nth_error_In; exact Hr|exact Hs]. }
  rewrite (bind_step _ _ _ _ _ _ _ (uts_setst_run idx ns c)) in H.
  match type of H with _ ?cz = _ => set (c1 := cz) in * end.
  assert (S1 : WF c1 /\ tasks (c_ws c1) = tasks (c_ws c) /\ staged (c_ws c1) = staged (c_ws c) /\
               nth_error (sequence (c_ws c1)) idx = Some (stepped r ns)).
  { unfold c1. destruct ns as [s|]; [|auto]. simpl. rewrite tasks_update_rec, staged_update_rec.
    split; [|split; [reflexivity|split; [reflexivity|exact (nth_update_rec_same (c_ws c) idx _ r Hr)]]].
    apply WF_update_rec; [exact Wc|]. intros r0 Hr0. rewrite Hr in Hr0; inversion Hr0; subst r0. split; [reflexivity|exact Hretry]. }
  destruct S1 as [W1 [T1 [St1 Hn1]]].
  assert (Eg1 : get_rec idx c1 = (c1, Val (stepped r ns))) by (unfold get_rec, bind, getws; rewrite Hn1; reflexivity).
  rewrite (bind_step _ _ _ _ _ _ _ Eg1) in H.
  destruct (retrying_wf t route idx (stepped r ns) c1 W1) as [c2 [E2 [W2 [T2 [Hpr2 [r2 [Hr2 Hs2]]]]]]];
    [unfold ws_task_idx in *; rewrite T1; exact Hp|exact Hn1|exact Hretry|].
  rewrite (bind_step _ _ _ _ _ _ _ E2) in H.
  assert (Hidx2 : idx < length (sequence (c_ws c2))) by (apply nth_error_Some; rewrite Hr2; discriminate).
  apply bind_inv in H. destruct H as [[c3 [compl [E3 H]]]|[x [E3 ->]]].
  2: { split; [eapply WF_Rw; [eapply pw_completion; exact E3|exact W2]|]. split; [|discriminate].
       intros x0 Hx; inversion Hx; subst. eapply completion_ni; [exact E3|exact W2|exact Hidx2|].
       intros A B. apply Hpr2. unfold present, get_staged_task. rewrite St1. exact (Hitems A B). }
  pose proof (pw_completion ev _ _ _ _ _ _ _ _ _ _ E3) as Q3. pose proof (WF_Rw _ _ Q3 W2) as W3.
  inversion H; subst c' res; clear H. split; [exact W3|]. split; [discriminate|].
  intros p Hpv; inversion Hpv; subst p; clear Hpv. destruct Q3 as [_ [T3 [_ [_ [_ [L3 Q3]]]]]].
  split; [reflexivity|]. split; [reflexivity|].
  split; [unfold ws_task_idx in *; rewrite T3, T2, T1; exact Hp|].
  destruct (nth_error (sequence (c_ws c3)) idx) as [r3|] eqn:E; [|apply nth_error_None in E; lia].
  exists r3. split; [exact E|]. destruct (Q3 _ _ E) as [r2' [Hr2' [_ [_ [_ A]]]]]. rewrite Hr2 in Hr2'; inversion Hr2'; subst r2'.
  apply A. rewrite Hs2. exact Hst.
Qed.

End MachineWF.

Definition is_item (evt : event) : bool := match evt with EvItem _ _ _ _ => true | _ => false end.

(* the staging list as the item-recording step leaves it (when the index is in range) *)
Definition staged_item (l : list stg) (t : string) (route : nat) (evt : event) : list stg :=
  match evt with
  | EvItem item st _ _ =>
      match find (stg_matches t route) l with
      | Some s => match s_items s with
                  | Some its => if Nat.ltb item (length its)
                                then staged_update (fun e => s_set_items e (match s_items e with
                                                                            | Some l0 => Some (list_set_nth item st l0)
                                                                            | None => None end)) t route l
                                else l
                  | None => l
                  end
      | None => l
      end
  | _ => l
  end.

(* the record (as far as the task machine looks at it) that the call will step *)
Definition eff_rec (c : cstate) (t : string) (route : nat) (evt : event) : trec :=
  match ws_task_idx (c_ws c) t route with
  | None => fresh_rec t route
  | Some i =>
      match nth_error (sequence (c_ws c)) i with
      | None => fresh_rec t route
      | Some r =>
          if ostatus_in (r_status r) COMPLETED_STATUSES && status_in (ev_status evt) STARTING_STATUSES
             && match get_staged_task (c_ws c) t route with Some s0 => negb (s_completed s0) | None => false end
          then fresh_rec t route else r
      end
  end.

Definition item_in_range_b (w : wstate) (t : string) (route : nat) (evt : event) : bool :=
  match evt with
  | EvItem item _ _ _ =>
      match get_staged_task w t route with
      | Some s => match s_items s with Some its => Nat.ltb item (length its) | None => true end
      | None => true
      end
  | _ => true
  end.

(* A provider call is WELL-FORMED in a state when none of the following holds (each is a way of calling
   the engine that no provider following the offer/acknowledge/report protocol produces):
   M1 the task is an engine command (those are never offered);
   M2 an item event whose index is outside the items table of the staged task;
   M3 a plain action event for a with-items task that is staged but has not been offered yet (no items table);
   M4 the event is not accepted by the task machine from "no status" although the call would step a record
      that has no status -- the first report for an execution is not a start report (W-A), or a start report
      arrives for an execution that already completed and is re-staged uncompleted (cycle heuristic);
      this includes machine refusals (InvalidEvent ...) on such a record, which would leave it behind;
   M5 the event abends a with-items task that is not staged (the engine wants to flag the staged entry);
   M6 the machine itself answers with an internal class (cannot happen beyond M2; kept for decidability). *)
Definition wellformed_call_b (c : cstate) (t : string) (route : nat) (evt : event) : bool :=
  let w := c_ws c in
  negb (is_engine_command t) && item_in_range_b w t route evt &&
  match spec_get_task (c_spec c) t with
  | None => true
  | Some ts =>
      let items := task_has_items ts in
      (negb items || is_item evt ||
       match get_staged_task w t route with
       | Some s => match s_items s with None => false | Some _ => true end
       | None => true
       end) &&
      let r := eff_rec c t route evt in
      match task_process_event (ws_set_staged w (staged_item (staged w) t route evt)) r evt with
      | Val ns =>
          match r_status r with None => match ns with Some _ => true | None => false end | Some _ => true end
          && (negb items || negb (status_in (rstatus (stepped r ns)) ABENDED_STATUSES)
              || match get_staged_task w t route with Some _ => true | None => false end)
      | Exc x => negb (string_in (x_cls x) internal_names)
                 && match r_status r with None => false | Some _ => true end
      end
  end.

Lemma tpe_congr : forall w w' r r' evt,
  rstatus r = rstatus r' ->
  (match evt with
   | EvItem _ _ _ _ | EvWorkflow _ => r_id r = r_id r' /\ r_route r = r_route r' /\ staged w = staged w'
   | _ => True end) ->
  task_process_event w r evt = task_process_event w' r' evt.
Proof.
  intros w w' r r' evt Hs Hw. unfold task_process_event. rewrite Hs. destruct evt; try reflexivity.
  - destruct Hw as [Hi [Hr Hw]]. unfold task_workflow_event_name, get_staged_task. rewrite Hi, Hr, Hw. reflexivity.
  - destruct Hw as [Hi [Hr Hw]]. unfold item_event_name, get_staged_task. rewrite Hi, Hr, Hw. reflexivity.
Qed.

Lemma cmd_engine_event : forall n, is_engine_command n = true -> exists e, engine_event n = Some e.
Proof.
  intros n H. unfold is_engine_command, ahas in H. unfold engine_event.
  destruct (aget String.eqb n ENGINE_EVENT_MAP) as [[name st]|]; [eexists; reflexivity|discriminate].
Qed.

Lemma cmd_reserved : forall sp n, is_engine_command n = true -> spec_get_task sp n = Some empty_task_spec.
Proof.
  intros sp n H. unfold spec_get_task.
  assert (T : forallb (fun '(k, _) => string_in k RESERVED_TASK_NAMES) ENGINE_EVENT_MAP = true) by (vm_compute; reflexivity).
  unfold is_engine_command, ahas in H. destruct (aget String.eqb n ENGINE_EVENT_MAP) as [v|] eqn:E; [|discriminate].
  apply aget_In in E. rewrite forallb_forall in T. specialize (T _ E). cbv beta iota in T. rewrite T. reflexivity.
Qed.

(* what a step on the key k leaves alone: the staged entries under every other key stay (possibly modified), and the
   route table is only appended to.  From here on the name hides RetryBoundProofs.Rq, a different relation. *)
Definition Rq (k : string * nat) (c c' : cstate) : Prop :=
  (forall t r, (t, r) <> k -> present c t r -> present c' t r) /\
  (exists l, routes (c_ws c') = app (routes (c_ws c)) l).
Lemma Rq_refl : forall k c, Rq k c c.
Proof. intros k c; split; [auto|apply routes_same]. Qed.
Lemma Rq_trans : forall k a b c, Rq k a b -> Rq k b c -> Rq k a c.
Proof.
  intros k a b c [P1 [l1 X1]] [P2 [l2 X2]]. split; [auto|]. exists (app l1 l2). rewrite X2, X1, app_assoc; reflexivity.
Qed.
Lemma Rq_ws : forall k c w',
  (forall t r, (t, r) <> k -> find (stg_matches t r) (staged (c_ws c)) <> None -> find (stg_matches t r) (staged w') <> None) ->
  (exists l, routes w' = app (routes (c_ws c)) l) -> Rq k c (set_ws c w').
Proof. intros k c w' P X. split; [exact P|exact X]. Qed.
Lemma Rq_same : forall k c c', c_ws c' = c_ws c -> Rq k c c'.
Proof. intros k c c' E. unfold Rq, present. rewrite E. split; [auto|apply routes_same]. Qed.
Lemma Rq_remove : forall t r c, Rq (t, r) c (set_ws c (ws_remove_staged_task (c_ws c) t r)).
Proof.
  intros t r c. unfold ws_remove_staged_task. destruct (get_staged_task (c_ws c) t r) as [s|]; [|apply Rq_same; destruct c; reflexivity].
  destruct (items_any_active s); [apply Rq_same; destruct c; reflexivity|].
  apply Rq_ws; [|apply routes_same]. intros t' r' Hne Hp. simpl. apply find_remove_other; [exact Hne|exact Hp].
Qed.

Lemma Rq_staged_kept : forall k c w', staged w' = staged (c_ws c) -> (exists l, routes w' = app (routes (c_ws c)) l) ->
  Rq k c (set_ws c w').
Proof. intros k c w' S X. apply Rq_ws; [|exact X]. rewrite S. auto. Qed.

Create HintDb presqk.

Section OthersKept.
Variable ev : string -> dict -> evalres.
Variable k : string * nat.

Lemma pq_upd_rec : forall i f, preserves (Rq k) (upd_rec i f).
Proof.
  intros; apply (preserves_modws (Rq k)); intro.
  apply Rq_staged_kept; [apply staged_update_rec|rewrite routes_update_rec; apply routes_same].
Qed.
Lemma pq_set_rec_status : forall i s, preserves (Rq k) (set_rec_status i s).
Proof. intros; apply pq_upd_rec. Qed.
Lemma pq_wf_workflow_event : forall st, preserves (Rq k) (wf_workflow_event_M st).
Proof. exact (preserves_wf_workflow_event _ (Rq_refl k) (fun c s => Rq_staged_kept k c _ eq_refl (routes_same _))). Qed.
Lemma pq_wf_task_event : forall t route st, preserves (Rq k) (wf_task_event_M t route st).
Proof. exact (preserves_wf_task_event _ (Rq_refl k) (fun c s => Rq_staged_kept k c _ eq_refl (routes_same _))). Qed.
Lemma pq_log_entry_error : forall m t r tr res, preserves (Rq k) (log_entry_error m t r tr res).
Proof. intros; apply (preserves_modify (Rq k)); intro c; apply Rq_same; cbv zeta; destruct (existsb _ _); reflexivity. Qed.
Lemma pq_init : preserves (Rq k) (modify (fun c => set_init c true)).
Proof. apply (preserves_modify (Rq k)); intro; apply Rq_same; reflexivity. Qed.
Lemma pq_stage : forall s, preserves (Rq k) (modws (fun w => ws_add_staged w s)).
Proof.
  intros; apply (preserves_modws (Rq k)); intro. apply Rq_ws; [|apply routes_same]. intros t r _. apply find_app_present.
Qed.
Lemma pq_restage : forall f t route, (forall s, s_id (f s) = s_id s /\ s_route (f s) = s_route s) ->
  preserves (Rq k) (modws (fun w => ws_set_staged w (staged_update f t route (staged w)))).
Proof.
  intros f t route Hf; apply (preserves_modws (Rq k)); intro. apply Rq_ws; [|apply routes_same].
  intros t0 r0 _. apply find_staged_update_present; exact Hf.
Qed.
Lemma pq_append : forall f, (forall w, staged (f w) = staged w /\ exists l, routes (f w) = app (routes w) l) ->
  preserves (Rq k) (modws f).
Proof. intros f Hf; apply (preserves_modws (Rq k)); intro c; apply Rq_staged_kept; apply (Hf (c_ws c)). Qed.
Lemma pq_new_rec : forall r kk idx,
  preserves (Rq k) (modws (fun w => ws_set_tasks (ws_set_sequence w (app (sequence w) [r])) (aset tkey_eqb kk idx (tasks w)))).
Proof. intros; apply pq_append; intro; split; [reflexivity|apply routes_same]. Qed.
Lemma pq_new_ctx : forall d, preserves (Rq k) (modws (fun w => ws_set_contexts w (app (contexts w) [d]))).
Proof. intros; apply pq_append; intro; split; [reflexivity|apply routes_same]. Qed.
Lemma pq_new_route : forall l, preserves (Rq k) (modws (fun w => ws_set_routes w (app (routes w) [l]))).
Proof. intros; apply pq_append; intro; split; [reflexivity|eexists; reflexivity]. Qed.
Lemma pq_root_ctx : forall d,
  preserves (Rq k) (modws (fun w => ws_set_routes (ws_set_contexts w (app (contexts w) [d])) (app (routes w) [[]]))).
Proof. intros; apply pq_append; intro; split; [reflexivity|eexists; reflexivity]. Qed.
Hint Resolve pq_upd_rec pq_set_rec_status pq_wf_workflow_event pq_wf_task_event pq_log_entry_error pq_init pq_stage
  pq_new_rec pq_new_ctx pq_new_route pq_root_ctx : presqk.

Lemma pq_log_errors : forall es t r tr, preserves (Rq k) (log_errors es t r tr).
Proof. intros; apply (frame_log_errors (Rq k) (Rq_refl k) (Rq_trans k)); auto with presqk. Qed.
Lemma pq_render_input : forall specs rt rolling errs, preserves (Rq k) (render_input ev specs rt rolling errs).
Proof. intros; apply (frame_render_input ev (Rq k) (Rq_refl k) (Rq_trans k)). Qed.
Lemma pq_render_vars : forall specs rolling rendered errs, preserves (Rq k) (render_vars ev specs rolling rendered errs).
Proof. intros; apply (frame_render_vars ev (Rq k) (Rq_refl k) (Rq_trans k)). Qed.
Lemma pq_ensure_ws : preserves (Rq k) (ensure_ws ev).
Proof. apply (frame_ensure_ws ev (Rq k) (Rq_refl k) (Rq_trans k)); auto with presqk. Qed.
Lemma pq_setup_retry : forall t idxs, preserves (Rq k) (setup_retry ev t idxs).
Proof. intros; apply (frame_setup_retry ev (Rq k) (Rq_refl k) (Rq_trans k)). Qed.
Lemma pq_add_task_state : forall t r i p, preserves (Rq k) (add_task_state ev t r i p).
Proof. intros; apply (frame_add_task_state ev (Rq k) (Rq_refl k) (Rq_trans k)); auto with presqk. Qed.
Lemma pq_evaluate_route : forall e r, preserves (Rq k) (evaluate_route e r).
Proof. intros; apply (frame_evaluate_route (Rq k) (Rq_refl k) (Rq_trans k)); auto with presqk. Qed.
Lemma pq_finalize_context : forall ts e ctx, preserves (Rq k) (finalize_context ev ts e ctx).
Proof. intros; apply (frame_finalize_context ev (Rq k) (Rq_refl k) (Rq_trans k)). Qed.
Lemma pq_need_staged : forall s0, preserves (Rq k) (uts_need_staged s0).
Proof. intros; apply (frame_need_staged (Rq k) (Rq_refl k)). Qed.
Lemma pq_sel1 : forall t s0 e0, preserves (Rq k) (uts_sel1 ev t s0 e0).
Proof. intros; apply (frame_sel1 ev (Rq k) (Rq_refl k) (Rq_trans k)); auto with presqk. Qed.
Lemma pq_sel2 : forall t evt s0 r1 i, preserves (Rq k) (uts_sel2 ev t evt s0 r1 i).
Proof. intros; apply (frame_sel2 ev (Rq k) (Rq_refl k) (Rq_trans k)); auto with presqk. Qed.
Hint Resolve pq_log_errors pq_ensure_ws pq_evaluate_route pq_finalize_context pq_sel1 pq_sel2 : presqk.

Lemma pq_log_error : forall e t r tr, preserves (Rq k) (log_error e t r tr).
Proof. intros; unfold log_error; apply pq_log_entry_error. Qed.
Lemma pq_log_unreachable : forall l, preserves (Rq k) (log_unreachable l).
Proof. intros; apply (frame_log_unreachable (Rq k) (Rq_refl k) (Rq_trans k)); auto with presqk. Qed.
Lemma pq_request_status_core : forall st, preserves (Rq k) (request_status_core st).
Proof. intros; apply (frame_request_status_core (Rq k) (Rq_refl k) (Rq_trans k)); auto with presqk. Qed.
Lemma pq_get_rec : forall i, preserves (Rq k) (get_rec i).
Proof. intros; apply (frame_get_rec (Rq k) (Rq_refl k) (Rq_trans k)). Qed.
Lemma pq_get_task_context : forall idxs, preserves (Rq k) (get_task_context idxs).
Proof. intros; apply (frame_get_task_context (Rq k) (Rq_refl k) (Rq_trans k)). Qed.
Lemma pq_evaluate_task_retry : forall r ctx, preserves (Rq k) (evaluate_task_retry ev r ctx).
Proof. intros; apply (frame_evaluate_task_retry ev (Rq k) (Rq_refl k) (Rq_trans k)). Qed.
Lemma pq_logfail : forall t evt, preserves (Rq k) (uts_logfail t evt).
Proof. intros; apply (frame_logfail (Rq k) (Rq_refl k)); auto with presqk. Qed.
Lemma pq_setst : forall i ns, preserves (Rq k) (uts_setst i ns).
Proof. intros; apply (frame_setst (Rq k) (Rq_refl k)); auto with presqk. Qed.
Hint Resolve pq_log_error pq_request_status_core pq_get_rec : presqk.

(* staged entries are rewritten in place, with their identity: the frame lemmas, which ask for every rewriting, do
   not apply to the three functions that do it *)
Ltac walk := pw (Rq_refl k) (Rq_trans k) ltac:(first [apply pq_restage; intro; split; reflexivity|auto with presqk]).

Lemma pq_process_transition : forall t route idx ts ctx e, preserves (Rq k) (process_transition ev t route idx ts ctx e).
Proof. intros; unfold process_transition; walk. Qed.
Hint Resolve pq_process_transition : presqk.
Lemma pq_item : forall t route evt s0, preserves (Rq k) (uts_item t route evt s0).
Proof. intros; unfold uts_item; walk. Qed.
Lemma pq_queue : forall t route idx ts o n compl, preserves (Rq k) (uts_queue ev t route idx ts o n compl).
Proof. intros; unfold uts_queue; walk. Qed.

End OthersKept.

Section OthersKeptBody.
Variable ev : string -> dict -> evalres.

(* a step on the key itself: unstaging, the retry increment and the completion flag touch the entry of (t, route) *)
Lemma pq_remove_staged : forall t route, preserves (Rq (t, route)) (modws (fun w => ws_remove_staged_task w t route)).
Proof. intros t route. apply (preserves_modws (Rq (t, route))). intro c. apply Rq_remove. Qed.

Ltac walk k leaf := pw (Rq_refl k) (Rq_trans k) leaf.

Lemma pq_unstage : forall t route evt s0, preserves (Rq (t, route)) (uts_unstage t route evt s0).
Proof. intros; unfold uts_unstage; walk (t, route) ltac:(apply pq_remove_staged). Qed.
Lemma pq_retrying : forall t route idx r ns, preserves (Rq (t, route)) (uts_retrying t route idx r ns).
Proof. intros; unfold uts_retrying; walk (t, route) ltac:(first [apply pq_upd_rec|apply pq_remove_staged|apply pq_stage]). Qed.
Lemma pq_completion : forall t route evt ts idx ns o0, preserves (Rq (t, route)) (uts_completion ev t route evt ts idx ns o0).
Proof.
  intros; unfold uts_completion.
  walk (t, route) ltac:(first [apply pq_remove_staged|apply pq_restage; intro; split; reflexivity|apply pq_get_rec
                              |apply pq_get_task_context|apply pq_evaluate_task_retry|apply pq_log_error|apply pq_request_status_core]).
Qed.
Lemma pq_pre_machine : forall t route evt ts idx, preserves (Rq (t, route)) (pre_machine ev t route evt ts idx).
Proof.
  intros; unfold pre_machine.
  walk (t, route) ltac:(first [apply pq_get_rec|apply pq_setst|apply pq_retrying|apply pq_completion]).
Qed.
Lemma pq_pre_main : forall t route evt ts s0 e0, preserves (Rq (t, route)) (pre_main ev t route evt ts s0 e0).
Proof.
  intros; unfold pre_main.
  walk (t, route) ltac:(first [apply pq_sel1|apply pq_get_rec|apply pq_sel2|apply pq_unstage|apply pq_item|apply pq_logfail
                              |apply pq_pre_machine]).
Qed.
Lemma pq_prefix : forall t route evt, preserves (Rq (t, route)) (uts_prefix ev t route evt).
Proof. intros; unfold uts_prefix; walk (t, route) ltac:(first [apply pq_ensure_ws|apply pq_pre_main]). Qed.
Lemma pq_body_norec : forall t route evt, preserves (Rq (t, route)) (uts_body ev (fun _ _ _ => ret tt) t route evt).
Proof.
  intros. apply (uts_body_pres ev _ (Rq_trans _)); [apply pq_prefix|intro p]. unfold tail_of, uts_tail, uts_call.
  walk (t, route) ltac:(first [apply pq_queue|apply pq_get_rec|apply pq_wf_task_event|apply pq_log_unreachable|apply pq_upd_rec]).
Qed.

End OthersKeptBody.

Lemma static_transfer : forall c c', c_graph c' = c_graph c -> c_spec c' = c_spec c ->
  static_ok (c_spec c) (c_graph c) -> static_ok (c_spec c') (c_graph c').
Proof. intros c c' G S H; rewrite G, S; exact H. Qed.

Section TailWF.
Variable ev : string -> dict -> evalres.
Hypothesis Hev : eval_no_internal ev.

(* a queued command: staged; it comes from an edge of the list, and either kept the route (then that edge is one of
   those that keep it) or sits on a route opened since *)
Definition cmd_post (route : nat) (l : list gedge) (c c' : cstate) (p : string * nat) : Prop :=
  is_engine_command (fst p) = true /\ present c' (fst p) (snd p) /\
  exists e, In e l /\ e_dst e = fst p /\
            ((snd p = route /\ stays c route e = true) \/ length (routes (c_ws c)) <= snd p).

Definition on_route (c : cstate) (route : nat) (e : gedge) : bool := is_engine_command (e_dst e) && stays c route e.

Lemma mapM_pt_steps : forall t route idx ts ctx l c,
  WF c -> static_ok (c_spec c) (c_graph c) -> (forall e, In e l -> In e (g_next_transitions (c_graph c) t)) ->
  spec_get_task (c_spec c) t = Some ts -> route < length (routes (c_ws c)) -> idx < length (sequence (c_ws c)) ->
  steps c (mapM (process_transition ev t route idx ts ctx) l)
          (fun c' rs => Forall (cmd_post route l c c') (cmds_of rs) /\
                        (NoDup (map e_dst (filter (on_route c route) l)) -> NoDup (cmds_of rs))).
Proof.
  intros t route idx ts ctx l; induction l as [|e l IH]; intros c Wc Hso Hl Hts Hroute Hidx; cbn [mapM].
  { apply steps_ret; [exact Wc|]. split; [constructor|intros _; constructor]. }
  eapply steps_bind; [apply (process_transition_wf ev Hev); auto; apply Hl; left; reflexivity|].
  intros c1 v W1 G1 P1. destruct (Rgrow_static _ _ G1) as [Gg Gs]. destruct (Rgrow_lengths _ _ G1) as [Go [_ Gl]].
  eapply steps_bind.
  { apply IH; [exact W1|apply (static_transfer _ _ Gg Gs Hso)|intros e0 He0; rewrite Gg; apply Hl; right; exact He0
              |rewrite Gs; exact Hts|lia|rewrite Gl; exact Hidx]. }
  intros c2 vs W2 G2 [F2 N2]. apply steps_ret; [exact W2|].
  (* the later commands, seen from the start *)
  assert (F2' : Forall (cmd_post route (e :: l) c c2) (cmds_of vs)).
  { eapply Forall_impl; [|exact F2]. intros p [A [B [e' [He' [Hd' K]]]]]. split; [exact A|]. split; [exact B|].
    exists e'. split; [right; exact He'|]. split; [exact Hd'|].
    destruct K as [[K1 K2]|K]; [left; split; [exact K1|exact (stays_grow _ _ _ _ G1 K2)]|right; lia]. }
  assert (Mono : NoDup (map e_dst (filter (on_route c route) l)) -> NoDup (cmds_of vs)).
  { intro Hn. apply N2. eapply NoDup_map_filter_mono; [|exact Hn]. intros e0 He0. unfold on_route in *.
    apply andb_prop in He0. destruct He0 as [A B]. rewrite A. exact (stays_grow _ _ _ _ G1 B). }
  destruct v as [q q']. unfold cmds_of. simpl. fold (cmds_of vs).
  destruct q as [[n rt]|]; simpl.
  2: { split; [exact F2'|]. intro Hn. apply Mono. destruct (on_route c route e); [simpl in Hn; inversion Hn; assumption|exact Hn]. }
  destruct (P1 n rt eq_refl) as [A [B [C [D K]]]]. subst n.
  split.
  - constructor; [|exact F2']. split; [exact B|]. split; [exact (Rgrow_present _ _ _ _ G2 C)|].
    exists e. split; [left; reflexivity|]. split; [reflexivity|exact K].
  - intro Hn. constructor.
    2: { apply Mono. destruct (on_route c route e); [simpl in Hn; inversion Hn; assumption|exact Hn]. }
    intro Hin. rewrite Forall_forall in F2. destruct (F2 _ Hin) as [_ [_ [e' [He' [Hd' K']]]]]. simpl in Hd', K'.
    destruct K' as [[K1 K2]|K']; [|lia]. subst rt.
    destruct K as [[_ K]|K]; [|lia].
    assert (On : on_route c route e = true) by (unfold on_route; rewrite B, K; reflexivity).
    rewrite On in Hn. simpl in Hn. apply NoDup_cons_iff in Hn. destruct Hn as [Hn _]. apply Hn.
    rewrite <- Hd'. apply in_map. apply filter_In. split; [exact He'|].
    unfold on_route. rewrite Hd', B. exact (stays_grow _ _ _ _ G1 K2).
Qed.

Lemma mapM_pt_wf : forall t route idx ts ctx l c c' res,
  mapM (process_transition ev t route idx ts ctx) l c = (c', res) ->
  WF c -> static_ok (c_spec c) (c_graph c) -> (forall e, In e l -> In e (g_next_transitions (c_graph c) t)) ->
  spec_get_task (c_spec c) t = Some ts -> route < length (routes (c_ws c)) -> idx < length (sequence (c_ws c)) ->
  WF c' /\ Rgrow c c' /\ (forall x, res = Exc x -> ~ internal_cls x) /\
  (forall rs, res = Val rs ->
     Forall (cmd_post route l c c') (cmds_of rs) /\
     (NoDup (map e_dst (filter (on_route c route) l)) -> NoDup (cmds_of rs))).
Proof. intros t route idx ts ctx l c c' res H Wc Hso Hl Hts Hroute Hidx. exact (mapM_pt_steps _ _ _ _ _ _ _ Wc Hso Hl Hts Hroute Hidx _ _ H). Qed.

Definition queued_ok (c : cstate) (p : string * nat) : Prop :=
  is_engine_command (fst p) = true /\ present c (fst p) (snd p) /\ cmd_startable (fst p).

Lemma run_on_fail_wf : forall (readies : list (string * nat)) c, WF c ->
  steps c (forM_ readies (fun '(n, rt) =>
             modws (fun w => ws_set_staged w (staged_update (fun s => s_set_run_on_fail s true) n rt (staged w)))))
          (fun _ _ => True).
Proof.
  induction readies as [|[n rt] l IH]; intros c Wc; cbn [forM_]; [apply steps_ret; auto|].
  eapply steps_bind; [|intros c1 [] W1 _ _; apply IH; exact W1].
  apply restage_wf; [exact Wc|intro; split; reflexivity|intros s Hs; exact (proj2 (wf_stg _ Wc s Hs))].
Qed.

Lemma queue_steps : forall t route idx ts old new compl c,
  WF c -> static_ok (c_spec c) (c_graph c) -> spec_get_task (c_spec c) t = Some ts ->
  route < length (routes (c_ws c)) -> idx < length (sequence (c_ws c)) -> cmd_routes_distinct c t route ->
  steps c (uts_queue ev t route idx ts old new compl) (fun c' q => Forall (queued_ok c') q /\ NoDup q).
Proof.
  intros t route idx ts old new compl c Wc Hso Hts Hroute Hidx Hd. unfold uts_queue.
  assert (Nil : steps c (ret []) (fun c' q => Forall (queued_ok c') q /\ NoDup q))
    by (apply steps_ret; [exact Wc|split; constructor]).
  destruct compl as [[ctx b]|]; [|exact Nil]. destruct (negb (status_eqb new old)); [|exact Nil].
  apply (steps_val _ _ _ _ _ _ _ (eq_refl : get c = (c, Val c))). cbv zeta.
  set (trs := g_next_transitions (c_graph c) t) in *.
  assert (Term : forall cx, WF cx -> steps cx (upd_rec idx (fun r => r_set_term r true)) (fun _ _ => True)).
  { intros cx Wx. apply steps_quiet; [apply pw_upd_term|apply pst_upd_rec|apply (ro_modws _)|apply vpost_any|exact Wx]. }
  assert (Skip : forall cx, WF cx -> steps cx (ret tt) (fun _ _ => True)) by (intros; apply steps_ret; auto).
  eapply (steps_bind _ _ _ _ _ (fun _ _ => True)); [destruct trs; [apply Term|apply Skip]; exact Wc|].
  intros c1 [] W1 G1 _. destruct (Rgrow_static _ _ G1) as [Gg Gs]. destruct (Rgrow_lengths _ _ G1) as [Go [_ Gl]].
  eapply steps_bind.
  { apply mapM_pt_steps; [exact W1|apply (static_transfer _ _ Gg Gs Hso)|intros e He; rewrite Gg; exact He
                         |rewrite Gs; exact Hts|lia|rewrite Gl; exact Hidx]. }
  intros c2 rs W2 G2 [F2 N2]. cbv zeta. fold (cmds_of rs).
  eapply (steps_bind _ _ _ _ _ (fun _ _ => True)).
  { destruct (existsb _ (cmds_of rs)); [apply run_on_fail_wf|apply Skip]; exact W2. }
  intros c3 [] W3 G3 _.
  destruct (get_rec_ok idx c3) as [r [Eg Hr]].
  { rewrite (proj2 (proj2 (Rgrow_lengths _ _ G3))), (proj2 (proj2 (Rgrow_lengths _ _ G2))), Gl. exact Hidx. }
  apply (steps_val _ _ _ _ _ _ _ Eg).
  eapply (steps_bind _ _ _ _ _ (fun _ _ => True)).
  { destruct trs; [apply Skip|destruct (existsb _ (r_next r)); [apply Skip|apply Term]]; exact W3. }
  intros c4 [] W4 G4 _. apply steps_ret; [exact W4|]. split.
  - eapply Forall_impl; [|exact F2]. intros p [A [B [e [He [Hde _]]]]]. split; [exact A|].
    split; [exact (Rgrow_present _ _ _ _ G4 (Rgrow_present _ _ _ _ G3 B))|].
    rewrite <- Hde. apply (so_start _ _ Hso); [apply (In_next_transitions _ _ _ He)|rewrite Hde; exact A].
  - apply N2. unfold cmd_routes_distinct, cmd_edges_on_route in Hd. fold trs in Hd.
    eapply NoDup_map_filter_mono; [|exact Hd]. intros e0 He0. unfold on_route in He0.
    apply andb_prop in He0. destruct He0 as [A B]. rewrite A. exact (stays_grow _ _ _ _ G1 B).
Qed.

Lemma queue_wf : forall t route idx ts old new compl c c' res,
  uts_queue ev t route idx ts old new compl c = (c', res) ->
  WF c -> static_ok (c_spec c) (c_graph c) -> spec_get_task (c_spec c) t = Some ts ->
  route < length (routes (c_ws c)) -> idx < length (sequence (c_ws c)) -> cmd_routes_distinct c t route ->
  WF c' /\ Rgrow c c' /\ (forall x, res = Exc x -> ~ internal_cls x) /\
  (forall q, res = Val q -> Forall (queued_ok c') q /\ NoDup q).
Proof. intros t route idx ts old new compl c c' res H Wc Hso Hts Hroute Hidx Hd. exact (queue_steps _ _ _ _ _ _ _ _ Wc Hso Hts Hroute Hidx Hd _ _ H). Qed.

(* calls the body makes to itself: (A) the retry re-entry for a record whose retry was decided, (B) a queued
   engine command that is staged *)
Definition entry_int (evt : event) (c : cstate) (t : string) (route : nat) : Prop :=
  (evt = retry_event /\ is_engine_command t = false /\ cmd_routes_distinct c t route /\
   exists idx r, ws_task_idx (c_ws c) t route = Some idx /\ rec_at c idx = Some r /\ allowed r /\
                 tbl_step task_table (rstatus r) EV_TASK_RETRY_REQUESTED = Some S_RETRYING) \/
  (is_engine_command t = true /\ present c t route /\ engine_event t = Some evt /\ cmd_startable t).

(* such a call keeps the state well-formed and raises nothing internal; it never touches the definition or the
   graph, and a command's call leaves the staged entries of all other keys in place *)
Definition callW (rec : string -> nat -> event -> M unit) : Prop :=
  forall t route evt c c' r, WF c -> static_ok (c_spec c) (c_graph c) -> entry_int evt c t route ->
    rec t route evt c = (c', r) ->
    WF c' /\ (forall x, r = Exc x -> ~ internal_cls x) /\ c_graph c' = c_graph c /\ c_spec c' = c_spec c /\
    (is_engine_command t = true -> Rq (t, route) c c').

Lemma queue_loop_wf : forall rec, callW rec -> forall q c,
  WF c -> static_ok (c_spec c) (c_graph c) -> Forall (queued_ok c) q -> NoDup q -> safe c (forM_ q (uts_call rec)).
Proof.
  intros rec Hrec q; induction q as [|[n rt] q IH]; intros c Wc Hso Hq Hn; cbn [forM_].
  { intros c' r H; inversion H; subst. split; [exact Wc|discriminate]. }
  inversion Hq as [|x l [A [B C]] Hq2]; subst. simpl in A, B, C. apply NoDup_cons_iff in Hn. destruct Hn as [Hn1 Hn2].
  destruct (cmd_engine_event n A) as [e Ee]. unfold uts_call at 1. rewrite Ee.
  assert (Ent : entry_int e c n rt) by (right; auto).
  apply safe_then; [intros c' r H; destruct (Hrec n rt e c c' r Wc Hso Ent H) as [W1 [N1 _]]; auto|].
  intros c1 u1 E1 _. destruct (Hrec n rt e c c1 (Val u1) Wc Hso Ent E1) as [W1 [_ [G1 [S1 Q1]]]]. destruct (Q1 A) as [P1 _].
  apply IH; [exact W1|apply (static_transfer c c1 G1 S1 Hso)| |exact Hn2].
  rewrite Forall_forall in Hq2 |- *. intros [n' rt'] Hin. destruct (Hq2 _ Hin) as [A' [B' C']].
  split; [exact A'|]. split; [|exact C']. simpl in *. apply P1; [|exact B'].
  intro E; inversion E; subst. apply Hn1; exact Hin.
Qed.

Lemma after_wf : forall rec, callW rec -> forall t route idx q c,
  WF c -> static_ok (c_spec c) (c_graph c) -> (exists r, rec_at c idx = Some r /\ r_status r <> None) ->
  Forall (queued_ok c) q -> NoDup q -> safe c (uts_after rec t route idx q).
Proof.
  intros rec Hrec t route idx q c Wc Hso [r [Hr Hs]] Qok Qnd. unfold uts_after.
  assert (Eg : get_rec idx c = (c, Val r)) by (unfold get_rec, bind, getws; unfold rec_at in Hr; rewrite Hr; reflexivity).
  apply (safe_val _ _ _ _ _ _ Eg). destruct (r_status r) as [st|]; [|destruct (Hs eq_refl)].
  apply (safe_val _ _ _ _ _ _ (eq_refl : ret st c = (c, Val st))).
  eapply safe_bind.
  { apply steps_quiet; [apply pw_wf_task_event|apply pst_wf_task_event|apply ni_wf_task_event|apply vpost_any|exact Wc]. }
  intros c2 unr W2 G2 _. eapply safe_bind.
  { apply steps_quiet; [apply pw_log_unreachable|apply pst_log_unreachable|apply ni_log_unreachable|apply vpost_any|exact W2]. }
  intros c3 [] W3 G3 _. pose proof (Rgrow_trans _ _ _ G2 G3) as G. destruct (Rgrow_static _ _ G) as [Gg Gs].
  apply safe_then.
  { apply (queue_loop_wf rec Hrec); [exact W3|apply (static_transfer c c3 Gg Gs Hso)| |exact Qnd].
    eapply Forall_impl; [|exact Qok]. intros p [A [B C]]. split; [exact A|split; [exact (Rgrow_present _ _ _ _ G B)|exact C]]. }
  intros c4 [] _ W4. apply (safe_val _ _ _ _ _ _ (eq_refl : getws c4 = (c4, Val (c_ws c4)))).
  apply (steps_safe _ _ _ (fun _ _ => True)). destruct (status_in (wstatus (c_ws c4)) COMPLETED_STATUSES); [|apply steps_ret; auto].
  apply steps_quiet; [apply pw_upd_term|apply pst_upd_rec|apply (ro_modws _)|apply vpost_any|exact W4].
Qed.

Lemma tail_wf : forall rec, callW rec -> forall t route ts idx old new compl c,
  WF c -> static_ok (c_spec c) (c_graph c) -> spec_get_task (c_spec c) t = Some ts ->
  ws_task_idx (c_ws c) t route = Some idx ->
  (exists r, rec_at c idx = Some r /\ r_status r <> None) ->
  cmd_routes_distinct c t route ->
  (forall ctx, compl = Some (ctx, true) ->
     is_engine_command t = false /\
     exists r, rec_at c idx = Some r /\ allowed r /\ tbl_step task_table (rstatus r) EV_TASK_RETRY_REQUESTED = Some S_RETRYING) ->
  safe c (uts_tail ev rec t route ts idx old new compl).
Proof.
  intros rec Hrec t route ts idx old new compl c Wc Hso Hts Hp Hst Hd Hdec. rewrite uts_tail_eq.
  destruct (wf_ptr _ Wc _ _ Hp) as [Hidx Hroute]. simpl in Hroute.
  assert (Rest : safe c (uts_rest ev rec t route ts idx old new compl)).
  { unfold uts_rest. eapply safe_bind; [apply queue_steps; assumption|]. intros c1 q W1 G1 [Qok Qnd].
    destruct (Rgrow_static _ _ G1) as [Gg Gs].
    apply after_wf; [exact Hrec|exact W1|apply (static_transfer c c1 Gg Gs Hso)| |exact Qok|exact Qnd].
    destruct Hst as [r0 [Hr0 Hs0]]. destruct (Rgrow_started _ _ _ _ G1 Hr0) as [r1 [Hr1 Hs1]]. exists r1; auto. }
  destruct compl as [[ctx [|]]|]; [|exact Rest|exact Rest].
  intros c' res H. destruct (Hdec ctx eq_refl) as [Hnc [r [Hr [Hal Hstep]]]].
  destruct (Hrec t route retry_event c c' res Wc Hso) as [W' [N' _]]; [|exact H|split; [exact W'|exact N']].
  left. split; [reflexivity|]. split; [exact Hnc|]. split; [exact Hd|]. exists idx, r. auto.
Qed.

End TailWF.

Section SelectWF.
Variable ev : string -> dict -> evalres.
Hypothesis Hev : eval_no_internal ev.

Lemma add_task_state_rec : forall t rt ins prev c c' idx,
  add_task_state ev t rt ins prev c = (c', Val idx) ->
  exists r, nth_error (sequence (c_ws c')) idx = Some r /\ r_id r = t /\ r_route r = rt /\ r_status r = None /\
            ws_task_idx (c_ws c') t rt = Some idx.
Proof.
  intros t rt ins prev c c' idx H. rewrite add_task_state_run in H.
  destruct (negb (g_has_task (c_graph c) t)); [discriminate|]. cbv zeta in H.
  destruct (ats_retry ev (c_graph c) t rt _ c) as [c1 [retry|e]]; inversion H; subst c' idx.
  eexists. split; [apply nth_append_rec|]. repeat (split; [reflexivity|]).
  unfold ws_task_idx; simpl. apply aget_aset_same, tkey_eqb_refl.
Qed.

(* outcome of the selection: the pointer's record, untouched state -- or a record created in this call *)
Definition selected (evt : event) (t : string) (route : nat) (s0 : option stg) (e0 : option nat)
           (c c2 : cstate) (idx : nat) : Prop :=
  ws_task_idx (c_ws c2) t route = Some idx /\
  ((c2 = c /\ e0 = Some idx /\ is_engine_command t = false /\
    forall r1, nth_error (sequence (c_ws c)) idx = Some r1 -> cycle_cond evt s0 r1 = false) \/
   (exists r, nth_error (sequence (c_ws c2)) idx = Some r /\ r_id r = t /\ r_route r = route /\ r_status r = None /\
      (e0 = None \/ is_engine_command t = true \/
       exists i r1, e0 = Some i /\ nth_error (sequence (c_ws c)) i = Some r1 /\ cycle_cond evt s0 r1 = true))).

Lemma select_wf : forall t route evt s0 e0 c c' res,
  uts_select ev t evt s0 e0 c = (c', res) ->
  WF c -> s0 = get_staged_task (c_ws c) t route -> e0 = ws_task_idx (c_ws c) t route ->
  (s0 <> None \/ (e0 <> None /\ is_engine_command t = false)) ->
  WF c' /\ Rst c c' /\ contexts (c_ws c') = contexts (c_ws c) /\ routes (c_ws c') = routes (c_ws c) /\
  (forall x, res = Exc x -> ~ internal_cls x) /\
  (forall idx, res = Val idx -> selected evt t route s0 e0 c c' idx).
Proof.
  intros t route evt s0 e0 c c' res H Wc Hs0 He0 Hsafe.
  destruct (select_run ev _ _ _ _ _ _ _ H) as [[i [Ei [Hc [-> Hi]]]]|[Ha Hwhy]].
  - 
    assert (Hp : ws_task_idx (c_ws c) t route = Some i) by congruence.
    destruct (nth_error (sequence (c_ws c)) i) as [r1|] eqn:Er.
    2: { apply nth_error_None in Er. destruct (wf_ptr _ Wc (t, route) i Hp). lia. }
    destruct Hi as [Hcc ->]. split; [exact Wc|]. split; [apply Rst_refl|]. split; [reflexivity|]. split; [reflexivity|].
    split; [discriminate|]. intros idx Hv; inversion Hv; subst idx. split; [exact Hp|left].
    repeat (split; [assumption||reflexivity|]). intros r0 Hr0. rewrite Er in Hr0; inversion Hr0; subst; exact Hcc.
  - 
    rewrite add_from_staged_run in Ha. destruct s0 as [s|].
    2: { exfalso. destruct Hsafe as [Hn|[Hn Hc]]; [congruence|].
         destruct Hwhy as [->|[Hw|[i [r1 [_ [_ Hcc]]]]]]; [congruence|congruence|].
         unfold cycle_cond in Hcc. rewrite andb_false_r in Hcc. discriminate. }
    symmetry in Hs0. destruct (get_staged_matches _ _ _ _ Hs0) as [_ Hr]. unfold get_staged_task in Hs0. apply find_some in Hs0.
    destruct (wf_stg _ Wc _ (proj1 Hs0)) as [A B].
    destruct (add_task_state_wf ev _ _ _ _ _ _ _ Ha Wc A) as [W' [S' [C' [O' N']]]].
    { destruct (s_in s) as [|i0 l0]; [destruct (proj1 B)|exact B]. }
    repeat (split; [assumption|]). intros idx ->.
    destruct (add_task_state_rec _ _ _ _ _ _ _ Ha) as [r [H1 [H2 [H3 [H4 H5]]]]]. rewrite Hr in *.
    split; [exact H5|right]. exists r. auto.
Qed.

End SelectWF.

Lemma unstage_item_noop : forall t route evt s0 c, is_item evt = true -> uts_unstage t route evt s0 c = (c, Val tt).
Proof.
  intros t route evt s0 c H. unfold uts_unstage. destruct s0 as [s|]; [|reflexivity].
  destruct (s_items s); [reflexivity|]. destruct evt; try discriminate; reflexivity.
Qed.

Lemma item_exact : forall t route evt s0 cx cy u, uts_item t route evt s0 cx = (cy, Val u) ->
  s0 = find (stg_matches t route) (staged (c_ws cx)) ->
  staged (c_ws cy) = staged_item (staged (c_ws cx)) t route evt.
Proof.
  intros t route evt s0 cx cy u H Hs. unfold uts_item in H. unfold staged_item.
  destruct evt; try (destruct s0; inversion H; reflexivity).
  rewrite <- Hs. destruct s0 as [s|]; [|inversion H; reflexivity].
  destruct (s_items s); [|inversion H; reflexivity].
  destruct (Nat.ltb item (length l)); [|inversion H]. unfold modws in H. inversion H. reflexivity.
Qed.

Lemma item_in_range_ni : forall w t route evt cx cy x,
  item_in_range_b w t route evt = true -> uts_item t route evt (get_staged_task w t route) cx = (cy, Exc x) -> False.
Proof.
  intros w t route evt cx cy x Hr H. unfold uts_item in H. unfold item_in_range_b in Hr.
  destruct (get_staged_task w t route) as [s|]; [|destruct evt; inversion H].
  destruct evt; try (inversion H; fail). destruct (s_items s); [|inversion H]. rewrite Hr in H. inversion H.
Qed.

Lemma provider_not_workflow : forall evt, provider_event evt = true ->
  match evt with EvItem _ _ _ _ | EvWorkflow _ => is_item evt = true | _ => True end.
Proof. intros [| | |]; simpl; intro H; try exact I; try reflexivity; discriminate. Qed.

Lemma wellformed_call_spec : forall c t route evt ts,
  wellformed_call_b c t route evt = true -> spec_get_task (c_spec c) t = Some ts ->
  is_engine_command t = false /\ item_in_range_b (c_ws c) t route evt = true /\
  (task_has_items ts = true -> forall cx, uts_unstage t route evt (get_staged_task (c_ws c) t route) cx = (cx, Val tt)) /\
  let r := eff_rec c t route evt in
  let wI := ws_set_staged (c_ws c) (staged_item (staged (c_ws c)) t route evt) in
  (forall x, task_process_event wI r evt = Exc x -> ~ internal_cls x) /\
  (forall ns, task_process_event wI r evt = Val ns ->
     r_status (stepped r ns) <> None /\
     (task_has_items ts = true -> status_in (rstatus (stepped r ns)) ABENDED_STATUSES = true -> present c t route)).
Proof.
  intros c t route evt ts Hw Hts. unfold wellformed_call_b in Hw. cbv zeta in Hw. rewrite Hts in Hw.
  apply andb_prop in Hw; destruct Hw as [Hw Hw34]. apply andb_prop in Hw; destruct Hw as [Hw1 Hw2].
  apply andb_prop in Hw34; destruct Hw34 as [Hw3 Hw4]. apply negb_true_iff in Hw1.
  split; [exact Hw1|]. split; [exact Hw2|]. split.
  - intros Hit cx. destruct (is_item evt) eqn:Ei; [apply unstage_item_noop; exact Ei|].
    rewrite Hit in Hw3. cbn [negb orb] in Hw3. unfold uts_unstage.
    destruct (get_staged_task (c_ws c) t route) as [s|]; [|reflexivity]. destruct (s_items s); [reflexivity|discriminate Hw3].
  - cbv zeta. destruct (task_process_event _ (eff_rec c t route evt) evt) as [ns|x0]; split; try discriminate.
    + intros ns' Hn; inversion Hn; subst ns'. apply andb_prop in Hw4; destruct Hw4 as [A B]. split.
      * destruct ns as [s|]; [discriminate|]. simpl. destruct (r_status (eff_rec c t route evt)); [discriminate|discriminate A].
      * intros Hit Hab. rewrite Hit, Hab in B. cbn [negb orb] in B. unfold present.
        destruct (get_staged_task (c_ws c) t route); [discriminate|discriminate B].
    + intros x Hx; inversion Hx; subst x0. apply andb_prop in Hw4; destruct Hw4 as [A _]. apply negb_true_iff in A.
      unfold internal_cls. rewrite A. discriminate.
Qed.

Lemma before_run : forall t route evt s0 c c' res, uts_before t route evt s0 c = (c', res) ->
  exists c3, uts_unstage t route evt s0 c = (c3, Val tt) /\
    ((exists x, uts_item t route evt s0 c3 = (c', Exc x)) \/
     (exists c4, uts_item t route evt s0 c3 = (c4, Val tt) /\ uts_logfail t evt c4 = (c', Val tt) /\ res = Val tt)).
Proof.
  intros t route evt s0 c c' res H. unfold uts_before in H.
  apply bind_inv in H. destruct H as [[c3 [[] [E3 H]]]|[x [E3 _]]].
  2: { exfalso. unfold uts_unstage in E3. destruct s0 as [s|]; [|inversion E3]. destruct (s_items s); [inversion E3|].
       destruct evt; inversion E3. }
  exists c3. split; [exact E3|].
  apply bind_inv in H. destruct H as [[c4 [[] [E4 H]]]|[x [E4 _]]]; [right|left; exists x; exact E4].
  exists c4. split; [exact E4|]. unfold uts_logfail in H |- *.
  destruct (status_eqb _ _); [unfold log_entry_error, modify in H |- *|]; inversion H; auto.
Qed.

Lemma before_wf : forall t route evt c c', uts_before t route evt (get_staged_task (c_ws c) t route) c = (c', Val tt) ->
  Rw c c' /\ Rk c c' /\
  (is_item evt = true -> staged (c_ws c') = staged_item (staged (c_ws c)) t route evt) /\
  ((forall cx, uts_unstage t route evt (get_staged_task (c_ws c) t route) cx = (cx, Val tt)) ->
   present c t route -> present c' t route).
Proof.
  intros t route evt c c' H. set (s0 := get_staged_task (c_ws c) t route) in *.
  destruct (before_run _ _ _ _ _ _ _ H) as [c3 [E3 [[x E4]|[c4 [E4 [E5 _]]]]]].
  { unfold uts_before in H. rewrite (bind_step _ _ _ _ _ _ _ E3), (bind_exc _ _ _ _ _ _ _ E4) in H. discriminate H. }
  destruct (pst_logfail _ _ _ _ _ E5) as [S5 _].
  split; [eapply Rw_trans; [eapply pw_unstage; exact E3|]; eapply Rw_trans; [eapply pw_item; exact E4|eapply pw_logfail; exact E5]|].
  split; [eapply Rk_trans; [eapply pk_unstage; exact E3|]; eapply Rk_trans; [eapply pk_item; exact E4|eapply pk_logfail; exact E5]|].
  split.
  - intro Hi. rewrite (unstage_item_noop _ _ _ _ _ Hi) in E3. inversion E3; subst c3.
    rewrite S5. eapply item_exact; [exact E4|reflexivity].
  - intros Hno Hpr. rewrite Hno in E3. inversion E3; subst c3. unfold present, get_staged_task in *. rewrite S5.
    unfold uts_item in E4. destruct s0 as [s|]; [|inversion E4; subst; exact Hpr].
    destruct evt; try (inversion E4; subst; exact Hpr).
    destruct (s_items s); [|inversion E4; subst; exact Hpr].
    destruct (Nat.ltb item (length l)); [|inversion E4]. unfold modws in E4. inversion E4; subst c4. simpl.
    apply find_staged_update_present; [intro; split; reflexivity|exact Hpr].
Qed.

Lemma mach_retry : forall ts t route c r, allowed r ->
  tbl_step task_table (rstatus r) EV_TASK_RETRY_REQUESTED = Some S_RETRYING -> step_ok retry_event ts t route c r.
Proof.
  intros ts t route c r Hal Hstep. split; [right; right; exact Hal|].
  split; [intros x Hx; eapply tpe_ni; [exact Hx|exact I]|].
  intros ns Hn. apply tpe_engine in Hn. rewrite Hstep in Hn. subst ns. split; [discriminate|intros _ Hab; discriminate Hab].
Qed.

Lemma mach_cmd : forall ts t route c r name st s, r_status r = None -> task_has_items ts = false ->
  task_process_event empty_ws (fresh_rec t 0) (EvEngine name st) = Val (Some s) -> step_ok (EvEngine name st) ts t route c r.
Proof.
  intros ts t route c r name st s Hnone Hit Hstart. split; [left; exact Hnone|].
  split; [intros x Hx; eapply tpe_ni; [exact Hx|exact I]|].
  intros ns Hn. rewrite (tpe_congr _ empty_ws _ (fresh_rec t 0)) in Hn; [|unfold rstatus; rewrite Hnone; reflexivity|exact I].
  rewrite Hstart in Hn. inversion Hn; subst. split; [discriminate|]. intro A; rewrite Hit in A; discriminate A.
Qed.

Lemma mach_provider : forall evt ts t route c c5 r,
  provider_event evt = true -> wellformed_call_b c t route evt = true -> spec_get_task (c_spec c) t = Some ts ->
  r_status r = r_status (eff_rec c t route evt) ->
  task_process_event (c_ws c5) r evt =
    task_process_event (ws_set_staged (c_ws c) (staged_item (staged (c_ws c)) t route evt)) (eff_rec c t route evt) evt ->
  ((forall cx, uts_unstage t route evt (get_staged_task (c_ws c) t route) cx = (cx, Val tt)) ->
   present c t route -> present c5 t route) ->
  step_ok evt ts t route c5 r.
Proof.
  intros evt ts t route c c5 r Hpe Hw Hts Es Et Hpres.
  destruct (wellformed_call_spec _ _ _ _ _ Hw Hts) as [_ [_ [Hno [Hx0 Hv0]]]]. cbv zeta in Hx0, Hv0.
  split; [right; left; apply provider_external; exact Hpe|]. rewrite Et.
  split; [exact Hx0|]. intros ns Hn. destruct (Hv0 ns Hn) as [A B]. split.
  - destruct ns as [s|]; [discriminate|]. simpl in *. rewrite Es. exact A.
  - intros Hit Hab. apply Hpres; [apply Hno; exact Hit|]. apply B; [exact Hit|].
    rewrite stepped_status in *. unfold rstatus in *. rewrite <- Es. exact Hab.
Qed.

Section BodyWF.
Variable ev : string -> dict -> evalres.
Hypothesis Hev : eval_no_internal ev.

Definition entry_any (evt : event) (c : cstate) (t : string) (route : nat) : Prop :=
  (provider_event evt = true /\ wellformed_call_b c t route evt = true) \/ entry_int evt c t route.

Lemma main_wf : forall t route evt ts c c' res,
  pre_main ev t route evt ts (get_staged_task (c_ws c) t route) (ws_task_idx (c_ws c) t route) c = (c', res) ->
  WF c -> static_ok (c_spec c) (c_graph c) -> spec_get_task (c_spec c) t = Some ts ->
  (get_staged_task (c_ws c) t route <> None \/ ws_task_idx (c_ws c) t route <> None) ->
  entry_any evt c t route ->
  WF c' /\ (forall x, res = Exc x -> ~ internal_cls x) /\
  (forall p, res = Val p -> exists idx, post_machine c' t route idx ts p).
Proof.
  intros t route evt ts c c' res H Wc Hso Hts Hex Hent. rewrite pre_main_eq in H.
  set (s0 := get_staged_task (c_ws c) t route) in *. set (e0 := ws_task_idx (c_ws c) t route) in *.
  assert (Hsafe : s0 <> None \/ (e0 <> None /\ is_engine_command t = false)).
  { destruct Hent as [[_ Hw]|[[_ [Hc [_ [idx [r [Hpt _]]]]]]|[_ [Hpr _]]]].
    - pose proof (proj1 (wellformed_call_spec _ _ _ _ _ Hw Hts)). destruct Hex as [A|A]; [left; exact A|right; split; assumption].
    - right. split; [unfold e0; rewrite Hpt; discriminate|exact Hc].
    - left. exact Hpr. }
  apply bind_inv in H. destruct H as [[c2 [idx [E2 H]]]|[x [E2 ->]]];
    destruct (select_wf ev _ _ _ _ _ _ _ _ E2 Wc eq_refl eq_refl Hsafe) as [W2 [[S2 _] [_ [_ [N2 Hsel]]]]].
  2: { split; [exact W2|]. split; [intros x0 Hx; inversion Hx; subst; apply N2; reflexivity|discriminate]. }
  destruct (Hsel idx eq_refl) as [Hp2 Hrec]. clear Hsel.
  assert (Es0 : s0 = get_staged_task (c_ws c2) t route) by (unfold s0, get_staged_task; rewrite S2; reflexivity).
  apply bind_inv in H. destruct H as [[c5 [[] [Eb H]]]|[x [Eb _]]].
  2: { exfalso. destruct (before_run _ _ _ _ _ _ _ Eb) as [c3 [_ [[x0 E4]|[c4 [_ [_ F]]]]]]; [|discriminate F].
       destruct Hent as [[Hpe Hw]|[[-> _]|[_ [_ [Hee _]]]]].
       - eapply item_in_range_ni; [apply (wellformed_call_spec _ _ _ _ _ Hw Hts)|exact E4].
       - unfold uts_item, retry_event in E4. destruct s0; inversion E4.
       - unfold engine_event in Hee. destruct (aget String.eqb t ENGINE_EVENT_MAP) as [[nm st]|]; [|discriminate].
         inversion Hee; subst evt. unfold uts_item in E4. destruct s0; inversion E4. }
  rewrite Es0 in Eb. destruct (before_wf _ _ _ _ _ Eb) as [Q25 [[Ks Kt] [Hstg5 Hpres5]]]. rewrite S2 in Hstg5. rewrite <- Es0 in Hpres5.
  assert (Hpres : (forall cx, uts_unstage t route evt s0 cx = (cx, Val tt)) -> present c t route -> present c5 t route).
  { intros Hno Hpr. apply Hpres5; [exact Hno|]. unfold present, get_staged_task in *. rewrite S2. exact Hpr. }
  assert (Hp5 : ws_task_idx (c_ws c5) t route = Some idx) by (unfold ws_task_idx in *; rewrite Kt; exact Hp2).
  enough (Mach : forall r, rec_at c5 idx = Some r -> step_ok evt ts t route c5 r).
  { destruct (machine_wf ev t route evt ts idx c5 c' res H (WF_Rw _ _ Q25 W2) Hp5 Mach) as [W' [N' Post]].
    split; [exact W'|]. split; [exact N'|]. intros p Hpv. exists idx. apply Post; exact Hpv. }
  unfold rec_at. rewrite Ks. intros r Hr.
  destruct Hent as [[Hpe Hw]|[[-> [Hnc [_ [i [r0 [Hpt [Hr0 [Hal Hstep]]]]]]]]|[Hc [Hpr [Hee [name [st [s [Hee' Hstart]]]]]]]]].
  - (* a provider call that is well-formed: the record is the one the test looked at *)
    pose proof (proj1 (wellformed_call_spec _ _ _ _ _ Hw Hts)) as Hnc.
    assert (Hf : r_status r = r_status (eff_rec c t route evt) /\ r_id r = r_id (eff_rec c t route evt) /\
                 r_route r = r_route (eff_rec c t route evt)).
    { unfold eff_rec. fold e0 s0. destruct Hrec as [[-> [He [_ Hcc]]]|[r' [Hr' [Hi' [Hro' [Hs' Hwhy]]]]]].
      - rewrite He, Hr. specialize (Hcc r Hr). unfold cycle_cond in Hcc. rewrite Hcc. auto.
      - rewrite Hr in Hr'; inversion Hr'; subst r'.
        destruct Hwhy as [->|[Hcm|[i [r1 [-> [Hr1 Hcc]]]]]]; [simpl; auto|congruence|].
        rewrite Hr1. unfold cycle_cond in Hcc. rewrite Hcc. simpl; auto. }
    destruct Hf as [F1 [F2 F3]]. apply (mach_provider evt ts t route c); try assumption.
    apply tpe_congr; [unfold rstatus; rewrite F1; reflexivity|].
    pose proof (provider_not_workflow evt Hpe) as Hpi. destruct evt; try exact I; (split; [exact F2|split; [exact F3|apply Hstg5; exact Hpi]]).
  - (* the retry re-entry: the pointer's record, as the decision saw it *)
    assert (r = r0) as ->; [|apply mach_retry; assumption].
    destruct Hrec as [[-> [He _]]|[r' [_ [_ [_ [_ Hwhy]]]]]].
    + unfold e0 in He. rewrite Hpt in He. inversion He; subst i. unfold rec_at in Hr0. congruence.
    + exfalso. destruct Hwhy as [Hw|[Hw|[j [r1 [_ [_ Hcc]]]]]]; [unfold e0 in Hw; congruence|congruence|].
      unfold cycle_cond in Hcc. simpl in Hcc. rewrite andb_false_r in Hcc. discriminate.
  - (* a queued engine command: a record made in this call *)
    rewrite Hee in Hee'. inversion Hee'; subst evt. apply (mach_cmd ts t route c5 r name st s); [| |exact Hstart].
    + destruct Hrec as [[_ [_ [Hn _]]]|[r' [Hr' [_ [_ [Hs' _]]]]]]; [congruence|]. rewrite Hr in Hr'; inversion Hr'; subst; exact Hs'.
    + rewrite (cmd_reserved _ _ Hc) in Hts. inversion Hts; reflexivity.
Qed.

Lemma prefix_wf : forall t route evt c c' res,
  uts_prefix ev t route evt c = (c', res) ->
  WF c -> static_ok (c_spec c) (c_graph c) -> entry_any evt c t route ->
  WF c' /\ (forall x, res = Exc x -> ~ internal_cls x) /\
  (forall p, res = Val p -> spec_get_task (c_spec c) t = Some (po_ts p) /\
                            exists idx, post_machine c' t route idx (po_ts p) p).
Proof.
  intros t route evt c c' res H Wc Hso Hent.
  destruct (prefix_run ev _ _ _ _ _ _ H) as [c1 [r1 [E1 Hcases]]].
  rewrite (ensure_ws_inited ev c (wf_init _ Wc)) in E1. inversion E1; subst c1 r1; clear E1.
  destruct Hcases as [[e [F _]]|[[_ [-> Href]]|[_ [ts [Hg [Hts [Hex Hm]]]]]]]; [discriminate F| |].
  - (* a documented refusal; a task of the graph has a definition *)
    split; [exact Wc|].
    destruct Href as [[_ ->]|[[Hg [Hn _]]|[_ [_ [_ [_ ->]]]]]]; [|destruct (so_spec _ _ Hso t Hg Hn)|];
      (split; [intros x Hx; inversion Hx; subst; not_internal|discriminate]).
  - destruct (main_wf _ _ _ _ _ _ _ Hm Wc Hso Hts Hex Hent) as [W' [N' P']].
    split; [exact W'|]. split; [exact N'|]. intros p Hp. destruct (P' p Hp) as [idx Hpost].
    rewrite (proj1 (proj2 Hpost)). split; [exact Hts|exists idx; exact Hpost].
Qed.

Lemma body_wf : forall rec, callW rec -> forall t route evt c c' r,
  WF c -> static_ok (c_spec c) (c_graph c) -> entry_any evt c t route -> cmd_routes_distinct c t route ->
  uts_body ev rec t route evt c = (c', r) -> WF c' /\ (forall x, r = Exc x -> ~ internal_cls x).
Proof.
  intros rec Hrec t route evt c c' r Wc Hso Hent Hd H. rewrite body_eq in H.
  apply bind_inv in H. destruct H as [[c1 [p [E1 H]]]|[x [E1 ->]]];
    destruct (prefix_wf _ _ _ _ _ _ E1 Wc Hso Hent) as [W1 [N1 P1]].
  2: { split; [exact W1|]. intros x0 Hx; inversion Hx; subst; apply N1; reflexivity. }
  destruct (P1 p eq_refl) as [Hts [idx [Hi [_ [Hp Hst]]]]].
  pose proof (pg_prefix ev _ _ _ _ _ _ E1) as Gg. pose proof (ps_prefix ev _ _ _ _ _ _ E1) as Gs.
  pose proof (pq_prefix ev _ _ _ _ _ _ E1) as [_ Gx]. unfold Rg in Gg. unfold Rs in Gs.
  unfold tail_of in H. rewrite Hi in H.
  apply (tail_wf ev Hev rec Hrec t route (po_ts p) idx (po_old p) (po_new p) (po_compl p) c1 W1
           (static_transfer c c1 Gg Gs Hso)); [rewrite Gs; exact Hts|exact Hp|exact Hst|apply (distinct_mono c c1 t route Gg Gs Gx Hd)| |exact H].
  (* a decided retry: never for a command *)
  intros ctx Hc. destruct (prefix_decided ev _ _ _ _ _ _ _ E1 Hc) as [_ Hdec]. rewrite Hi in Hdec. split; [|exact Hdec].
  destruct (is_engine_command t) eqn:Ecmd; [|reflexivity].
  pose proof (prefix_cmd_no_retry ev _ _ _ _ _ _ Ecmd (proj2 (so_inert _ _ Hso t Ecmd)) E1 ctx true Hc). discriminate.
Qed.

(* a command has no edge *)
Lemma cmd_distinct : forall c t route, graph_commands_inert (c_graph c) -> is_engine_command t = true ->
  cmd_routes_distinct c t route.
Proof.
  intros c t route Hi Ht. unfold cmd_routes_distinct, cmd_edges_on_route. rewrite (proj1 (Hi t Ht)). constructor.
Qed.

Lemma uts_fuel_callW : forall fuel, callW (update_task_state_fuel ev fuel).
Proof.
  induction fuel as [|fuel IH]; intros t route evt c c' r Wc Hso Hent H.
  - inversion H; subst. split; [exact Wc|]. split; [intros x Hx; inversion Hx; subst; not_internal|].
    split; [reflexivity|]. split; [reflexivity|]. intros _. apply Rq_refl.
  - pose proof (pg_uts_fuel ev _ _ _ _ _ _ _ H) as Gg. pose proof (ps_uts_fuel ev _ _ _ _ _ _ _ H) as Gs.
    unfold Rg in Gg. unfold Rs in Gs.
    rewrite uts_unfold in H.
    assert (Hd : cmd_routes_distinct c t route).
    { destruct Hent as [[_ [_ [Hd _]]]|[Hc _]]; [exact Hd|apply cmd_distinct; [apply (so_inert _ _ Hso)|exact Hc]]. }
    destruct (body_wf _ IH _ _ _ _ _ _ Wc Hso (or_intror Hent) Hd H) as [W' N'].
    split; [exact W'|]. split; [exact N'|]. split; [exact Gg|]. split; [exact Gs|].
    intro Hc. rewrite (body_norec_cmd ev _ (fun _ _ _ => ret tt) t route evt c (so_inert _ _ Hso) Hc) in H.
    eapply pq_body_norec; exact H.
Qed.

Theorem update_task_state_wf : forall t route evt c c' r,
  WF c -> static_ok (c_spec c) (c_graph c) -> provider_event evt = true -> wellformed_call_b c t route evt = true ->
  cmd_routes_distinct c t route ->
  update_task_state ev t route evt c = (c', r) ->
  WF c' /\ (forall x, r = Exc x -> ~ internal_cls x).
Proof.
  intros t route evt c c' r Wc Hso Hp Hw Hd H. unfold update_task_state in H. rewrite uts_unfold in H.
  exact (body_wf _ (uts_fuel_callW 2) _ _ _ _ _ _ Wc Hso (or_introl (conj Hp Hw)) Hd H).
Qed.

End BodyWF.

Lemma In_enumerate_from_snd : forall A (l : list A) n i x, In (i, x) (enumerate_from n l) -> In x l.
Proof.
  induction l as [|a l IH]; intros n i x H; simpl in *; [tauto|].
  destruct H as [H|H]; [inversion H; left; reflexivity|right; eapply IH; exact H].
Qed.

Section RenderNI.
Variable ev : string -> dict -> evalres.
Hypothesis Hev : eval_no_internal ev.

Lemma merge_term_ok : forall l acc c c' x, (forall i r, In (i, r) l -> ctx_ok (c_ws c) (r_in r)) ->
  merge_term_contexts l acc c = (c', Exc x) -> False.
Proof.
  induction l as [|[i r] l IH]; intros acc c c' x Hl H; simpl in H; [inversion H|].
  destruct (Hl i r (or_introl eq_refl)) as [H0 Hr].
  destruct (nat_remove_first_in 0 (r_in r) H0) as [l' [E Hsub]]. rewrite E in H.
  destruct (get_task_context_from_ok (contexts (c_ws c)) l' [] (fun j Hj => Hr j (Hsub j Hj))) as [d Ed].
  assert (Eg : get_task_context l' c = (c, Val d)) by (unfold get_task_context, bind, getws; rewrite Ed; reflexivity).
  rewrite (bind_step _ _ _ _ _ _ _ Eg) in H. eapply IH; [|exact H]. intros j r0 Hj. apply (Hl j). right; exact Hj.
Qed.

Lemma terminal_context_ok : forall c c' x, WF c -> get_workflow_terminal_context c = (c', Exc x) -> False.
Proof.
  intros c c' x Wc H. unfold get_workflow_terminal_context in H.
  rewrite (bind_step _ _ _ _ _ _ _ (eq_refl : getws c = (c, Val (c_ws c)))) in H.
  assert (Hterm : forall i r, In (i, r) (get_terminal_tasks (c_ws c)) -> ctx_ok (c_ws c) (r_in r)).
  { intros i r Hin. unfold get_terminal_tasks in Hin. apply filter_In in Hin. destruct Hin as [Hin _].
    apply In_enumerate_from_snd in Hin. apply (wf_rec _ Wc); exact Hin. }
  destruct (get_terminal_tasks (c_ws c)) as [|[i first] others]; [inversion H|].
  destruct (get_task_context_ok _ _ (Hterm i first (or_introl eq_refl))) as [d Ed].
  rewrite (bind_step _ _ _ _ _ _ _ Ed) in H. eapply merge_term_ok; [|exact H].
  intros j r Hj. apply (Hterm j). right; exact Hj.
Qed.

Lemma render_workflow_output_ni : forall c c' x, WF c -> render_workflow_output ev c = (c', Exc x) -> ~ internal_cls x.
Proof.
  intros c c' x Wc H. unfold render_workflow_output in H.
  rewrite (bind_step _ _ _ _ _ _ _ (ensure_ws_inited ev c (wf_init _ Wc))) in H.
  rewrite (bind_step _ _ _ _ _ _ _ (eq_refl : get c = (c, Val c))) in H. cbv zeta in H.
  destruct (status_in (wstatus (c_ws c)) COMPLETED_STATUSES && match c_output c with None => true | Some _ => false end); [|inversion H].
  apply bind_inv in H. destruct H as [[c1 [tctx [E1 H]]]|[x0 [E1 Hx]]].
  - revert H. match goal with |- ?m _ = _ -> _ => assert (P : ni m) end; [|apply P].
    niw ltac:(first [apply ni_render_vars; exact Hev|apply ni_log_errors|apply ni_request_status_core]).
  - exfalso. eapply terminal_context_ok; [exact Wc|exact E1].
Qed.

End RenderNI.

Section ApiWF.
Variable ev : string -> dict -> evalres.
Hypothesis Hev : eval_no_internal ev.

Lemma api_exec_static : forall op c c' r, (forall reqs, op <> OpRerun reqs) -> api_exec ev op c = (c', r) ->
  c_graph c' = c_graph c /\ c_spec c' = c_spec c.
Proof.
  intros op c c' r Hnr. set (R := fun c0 c1 : cstate => c_graph c1 = c_graph c0 /\ c_spec c1 = c_spec c0).
  assert (Rr : forall c0, R c0 c0) by (intro; split; reflexivity).
  assert (Rt : forall a b d, R a b -> R b d -> R a d) by (intros a b d [A1 A2] [B1 B2]; split; congruence).
  assert (Wm : forall f, preserves R (modws f)) by (intro; apply (preserves_modws R); intro; split; reflexivity).
  assert (Ws : forall i s, preserves R (set_rec_status i s)) by (intros; apply Wm).
  assert (Wu : forall i f, preserves R (upd_rec i f)) by (intros; apply Wm).
  assert (Wl : forall m t r0 tr res, preserves R (log_entry_error m t r0 tr res))
    by (intros; apply (preserves_modify R); intro c0; cbv zeta; destruct (existsb _ _); split; reflexivity).
  assert (Ww : forall st, preserves R (wf_workflow_event_M st))
    by (exact (preserves_wf_workflow_event R Rr (fun c0 s => conj eq_refl eq_refl))).
  assert (Wt : forall t route st, preserves R (wf_task_event_M t route st))
    by (exact (preserves_wf_task_event R Rr (fun c0 s => conj eq_refl eq_refl))).
  assert (Wi : preserves R (modify (fun c0 => set_init c0 true))) by (apply (preserves_modify R); intro; split; reflexivity).
  assert (Wo : forall o, preserves R (modify (fun c0 => set_output c0 o)))
    by (intro; apply (preserves_modify R); intro; split; reflexivity).
  apply (preserves_api_exec ev R Rr Rt); [apply (frame_ensure_ws ev R Rr Rt); auto|].
  destruct op; try exact I.
  - apply (frame_request_workflow_status ev R Rr Rt); auto.
  - apply (frame_get_next_tasks ev R Rr Rt); auto.
  - apply (frame_update_task_state ev R Rr Rt); auto.
  - apply (frame_render_workflow_output ev R Rr Rt); auto.
  - exfalso; eapply Hnr; reflexivity.
  - intro; split; reflexivity.
Qed.

(* operations in scope, and what is asked of them in the state they meet.  For a provider event, beside the call
   being well-formed: the edges of the task to engine commands that keep its route lead to different commands
   (cmd_routes_distinct; decidable).  A command reached by several transitions of one task is a split, and the engine
   opens a route per edge; the clause only excludes a graph that has more edges to the command than the definition
   has transitions naming it, or a task running on a route that already carries its own transition ids -- then the
   same (command, route) key is queued twice and the second call finds nothing staged (TypeError; C15b example). *)
Definition op_in_scope (c : cstate) (op : api_op) : Prop :=
  match op with
  | OpRerun _ => False
  | OpEvent t route evt => provider_event evt = true /\ wellformed_call_b c t route evt = true /\
                           cmd_routes_distinct c t route
  | _ => True
  end.

Theorem api_exec_wf : forall op c c' r, WF c -> static_ok (c_spec c) (c_graph c) -> op_in_scope c op ->
  api_exec ev op c = (c', r) ->
  WF c' /\ static_ok (c_spec c') (c_graph c') /\ (forall x, r = Exc x -> ~ internal_cls x).
Proof.
  intros op c c' r Wc Hso Hop H.
  assert (Hst : static_ok (c_spec c') (c_graph c')).
  { destruct (api_exec_static op c c' r) as [G S]; [intros reqs ->; exact Hop|exact H|]. rewrite G, S; exact Hso. }
  pose proof (wf_init _ Wc) as Hi.
  assert (Quiet : forall A (m : M A), (forall c1 a, m c = (c1, a) -> Rw c c1) ->
                    (forall c1 x, m c = (c1, Exc x) -> ~ internal_cls x) -> safe c m).
  { intros A m P N c1 a E. split; [eapply WF_Rw; [eapply P; exact E|exact Wc]|]. intros x ->. eapply N; exact E. }
  assert (Same : forall m : M unit, m c = (c, Val tt) -> safe c m)
    by (intros m Em c1 a E; rewrite Em in E; inversion E; subst; split; [exact Wc|discriminate]).
  assert (G : safe c (api_exec ev op)); [|destruct (G _ _ H); auto].
  destruct op; cbn [api_exec]; try apply safe_map.
  - apply Same, ensure_ws_inited, Hi.
  - apply Quiet; [intros c1 a; apply request_workflow_status_Rw, Hi|intros c1 x; apply (ni_request_workflow_status ev Hev)].
  - apply Quiet; [intros c1 a; apply get_next_tasks_Rw, Hi|intros c1 x; apply (ni_get_next_tasks ev Hev)].
  - destruct Hop as [Hp [Hw Hd]]. intros c1 a E. exact (update_task_state_wf ev Hev _ _ _ _ _ _ Wc Hso Hp Hw Hd E).
  - apply Quiet; [intros c1 a; apply render_workflow_output_Rw, Hi|intros c1 x; apply (render_workflow_output_ni ev Hev), Wc].
  - destruct Hop.
  - apply Same, persist_identity, Hi.
Qed.

Fixpoint hist_in_scope (ops : list api_op) (c : cstate) : Prop :=
  match ops with
  | [] => True
  | op :: ops' => op_in_scope c op /\ hist_in_scope ops' (fst (api_exec ev op c))
  end.

Fixpoint no_internal_run (ops : list api_op) (c : cstate) : Prop :=
  match ops with
  | [] => True
  | op :: ops' => (forall x, snd (api_exec ev op c) = Exc x -> ~ internal_cls x) /\ no_internal_run ops' (fst (api_exec ev op c))
  end.

Theorem run_ops_no_internal : forall ops c, WF c -> static_ok (c_spec c) (c_graph c) -> hist_in_scope ops c ->
  no_internal_run ops c /\ WF (run_ops ev ops c) /\ static_ok (c_spec (run_ops ev ops c)) (c_graph (run_ops ev ops c)).
Proof.
  induction ops as [|op ops IH]; intros c Wc Hso Hh; simpl; [auto|].
  destruct Hh as [Hop Hh]. destruct (api_exec ev op c) as [c' r] eqn:E. simpl in *.
  destruct (api_exec_wf _ _ _ _ Wc Hso Hop E) as [W' [S' N']].
  destruct (IH c' W' S' Hh) as [A [B C]]. unfold run_ops in *. simpl. rewrite ?E. simpl. auto.
Qed.

(* the state a fresh conductor is in after its lazy initialisation is well-formed *)
Theorem fresh_wf : forall c c1 r, c_init c = false -> c_ws c = empty_ws -> ensure_ws ev c = (c1, r) -> WF c1.
Proof.
  intros c c1 r Hi Hw H. unfold ensure_ws in H.
  rewrite (bind_step _ _ _ _ _ _ _ (eq_refl : get c = (c, Val c))) in H. rewrite Hi in H.
  unfold bind at 1 in H. unfold modify at 1 in H. cbv beta iota in H. cbv zeta in H.
  set (ci := set_init c true) in *.
  assert (Wi : WF ci).
  { constructor; unfold ci; simpl; rewrite ?Hw; simpl; [reflexivity|intros k i Hk; discriminate|intros s []|intros r0 []]. }
  (* up to the root context every step is quiet *)
  assert (Q : forall A B (m : M A) (f : A -> M B), preserves Rw m -> forall cx, WF cx ->
            (forall a cy, WF cy -> forall cz rr, f a cy = (cz, rr) -> WF cz) -> forall cz rr, bind m f cx = (cz, rr) -> WF cz).
  { intros A B m f P cx Wx Hf cz rr E. apply bind_inv in E. destruct E as [[cy [a [E1 E]]]|[x [E1 _]]];
      [eapply Hf; [|exact E]|]; (eapply WF_Rw; [eapply P; exact E1|exact Wx]). }
  revert c1 r H. apply Q; [apply pw_render_input|exact Wi|]. intros [rin ierrs] c2 W2. cbv beta iota zeta.
  apply Q; [apply pw_render_vars|exact W2|]. intros [rvars verrs] c3 W3. cbv beta iota zeta.
  apply Q; [destruct (app ierrs verrs); pw Rw_refl Rw_trans ltac:(first [apply pw_log_errors|apply pw_request_status_core])|exact W3|].
  intros [] c4 W4 c1 r H.
  rewrite (bind_step _ _ _ _ _ _ _ (eq_refl : getws c4 = (c4, Val (c_ws c4)))) in H.
  destruct (status_in (wstatus (c_ws c4)) ABENDED_STATUSES); [inversion H; subst; exact W4|].
  unfold bind at 1 in H. unfold modws at 1 in H. cbv beta iota in H.
  match type of H with forM_ _ _ ?cz = _ => set (c5 := cz) in * end.
  assert (W5 : WF c5 /\ 0 < length (routes (c_ws c5)) /\ 0 < length (contexts (c_ws c5))).
  { split; [|unfold c5; simpl; rewrite !app_length; simpl; lia].
    apply WF_grow_lengths; simpl; auto; rewrite app_length; lia. }
  revert H. generalize (g_roots (c_graph c)). intro roots. revert W5. generalize c5. clear.
  induction roots as [|t roots IH]; intros cx [Wx [Hr Hc]] H; [inversion H; subst; exact Wx|].
  simpl in H. unfold bind at 1 in H. unfold modws at 1 in H. cbv beta iota in H. eapply IH; [|exact H].
  split; [|simpl; split; assumption].
  apply WF_staged; [exact Wx|]. intros s Hs. apply in_app_or in Hs. destruct Hs as [Hs|[<-|[]]]; [apply (wf_stg _ Wx); exact Hs|].
  simpl. split; [exact Hr|]. split; [left; reflexivity|]. intros i [<-|[]]; exact Hc.
Qed.

End ApiWF.

Definition cmd_startable_b (n : string) : bool :=
  match engine_event n with
  | Some (EvEngine name st) =>
      match task_process_event empty_ws (fresh_rec n 0) (EvEngine name st) with Val (Some _) => true | _ => false end
  | _ => false
  end.

Definition static_ok_b (sp : wf_spec) (g : graph) : bool :=
  forallb (fun n => match spec_get_task sp (n_id n) with Some _ => true | None => false end) (g_nodes g) &&
  forallb (fun e => match spec_get_task sp (e_src e) with Some ts => Nat.ltb (e_ref e) (length (ts_next ts)) | None => true end
                    && (negb (is_engine_command (e_dst e)) || cmd_startable_b (e_dst e)))
          (g_edges g) &&
  inert_b g.

Lemma static_ok_b_sound : forall sp g, static_ok_b sp g = true -> static_ok sp g.
Proof.
  intros sp g H. unfold static_ok_b in H. apply andb_prop in H; destruct H as [H Hinert].
  apply andb_prop in H; destruct H as [Hn He]. rewrite forallb_forall in Hn, He. constructor.
  - intros t Ht. unfold g_has_task, g_get_node in Ht. destruct (find (fun n => String.eqb (n_id n) t) (g_nodes g)) as [n|] eqn:E; [|discriminate].
    apply find_some in E. destruct E as [E1 E2]. apply String.eqb_eq in E2. subst t. specialize (Hn _ E1).
    destruct (spec_get_task sp (n_id n)); [discriminate|discriminate Hn].
  - intros e ts Hin Hts. specialize (He _ Hin). apply andb_prop in He; destruct He as [He _].
    rewrite Hts in He. apply Nat.ltb_lt; exact He.
  - apply inert_b_sound; exact Hinert.
  - intros e Hin Hc. specialize (He _ Hin). apply andb_prop in He; destruct He as [_ He].
    rewrite Hc in He. cbn [negb orb] in He. unfold cmd_startable_b in He. unfold cmd_startable.
    destruct (engine_event (e_dst e)) as [[| | |name st]|]; try discriminate.
    destruct (task_process_event empty_ws (fresh_rec (e_dst e) 0) (EvEngine name st)) as [[s|]|] eqn:Et; try discriminate.
    exists name, st, s. split; [reflexivity|exact Et].
Qed.

Fixpoint str_nodup_b (l : list string) : bool :=
  match l with [] => true | x :: l' => negb (string_in x l') && str_nodup_b l' end.
Lemma str_nodup_b_sound : forall l, str_nodup_b l = true -> NoDup l.
Proof.
  induction l as [|x l IH]; simpl; intro H; [constructor|]. apply andb_prop in H; destruct H as [H1 H2].
  constructor; [|apply IH; exact H2]. intro Hin. apply negb_true_iff in H1.
  assert (T : string_in x l = true); [|congruence].
  unfold string_in. apply existsb_exists. exists x. split; [exact Hin|apply String.eqb_refl].
Qed.
Definition cmd_routes_distinct_b (c : cstate) (t : string) (route : nat) : bool :=
  str_nodup_b (map e_dst (cmd_edges_on_route c t route)).
Lemma cmd_routes_distinct_b_sound : forall c t route, cmd_routes_distinct_b c t route = true -> cmd_routes_distinct c t route.
Proof. intros c t route H. apply str_nodup_b_sound; exact H. Qed.

Definition wf_ctx_ok_b (w : wstate) (l : list nat) : bool :=
  nat_in 0 l && forallb (fun i => Nat.ltb i (length (contexts w))) l.

Definition WF_b (c : cstate) : bool :=
  let w := c_ws c in
  c_init c &&
  forallb (fun '(k, i) => Nat.ltb i (length (sequence w)) && Nat.ltb (snd k) (length (routes w))) (tasks w) &&
  forallb (fun s => Nat.ltb (s_route s) (length (routes w)) && wf_ctx_ok_b w (s_in s)) (staged w) &&
  forallb (fun r => wf_ctx_ok_b w (r_in r)
                    && (negb (status_eqb (rstatus r) S_RETRYING) || match r_retry r with Some _ => true | None => false end))
          (sequence w).

Lemma nat_in_In : forall n l, nat_in n l = true -> In n l.
Proof.
  intros n l; induction l as [|m l IH]; simpl; [discriminate|]. intro H. apply orb_prop in H.
  destruct H as [H|H]; [left; symmetry; apply Nat.eqb_eq; exact H|right; apply IH; exact H].
Qed.

Lemma ctx_ok_b_sound : forall w l, wf_ctx_ok_b w l = true -> ctx_ok w l.
Proof.
  intros w l H. unfold wf_ctx_ok_b in H. apply andb_prop in H; destruct H as [H1 H2]. split; [apply nat_in_In; exact H1|].
  rewrite forallb_forall in H2. intros i Hi. apply Nat.ltb_lt. apply H2; exact Hi.
Qed.

Lemma WF_b_sound : forall c, WF_b c = true -> WF c.
Proof.
  intros c H. unfold WF_b in H. cbv zeta in H.
  apply andb_prop in H; destruct H as [H Hr]. apply andb_prop in H; destruct H as [H Hs]. apply andb_prop in H; destruct H as [Hi Hp].
  rewrite forallb_forall in Hp, Hs, Hr. constructor.
  - exact Hi.
  - intros k i Hk. apply (aget_in tkey_eqb StateFacts.tkey_eqb_eq) in Hk. specialize (Hp _ Hk). cbv beta iota in Hp.
    apply andb_prop in Hp; destruct Hp as [A B]. split; apply Nat.ltb_lt; assumption.
  - intros s Hin. specialize (Hs _ Hin). apply andb_prop in Hs; destruct Hs as [A B].
    split; [apply Nat.ltb_lt; exact A|apply ctx_ok_b_sound; exact B].
  - intros r Hin. specialize (Hr _ Hin). apply andb_prop in Hr; destruct Hr as [A B].
    split; [apply ctx_ok_b_sound; exact A|]. intros Hst. rewrite Hst in B. cbn [status_eqb negb orb] in B.
    destruct (r_retry r); [discriminate|discriminate B].
Qed.

Definition op_in_scope_b (c : cstate) (op : api_op) : bool :=
  match op with
  | OpRerun _ => false
  | OpEvent t route evt => provider_event evt && wellformed_call_b c t route evt && cmd_routes_distinct_b c t route
  | _ => true
  end.

Section HistB.
Variable ev : string -> dict -> evalres.
Fixpoint hist_in_scope_b (ops : list api_op) (c : cstate) : bool :=
  match ops with
  | [] => true
  | op :: ops' => op_in_scope_b c op && hist_in_scope_b ops' (fst (api_exec ev op c))
  end.
Lemma hist_in_scope_b_sound : forall ops c, hist_in_scope_b ops c = true -> hist_in_scope ev ops c.
Proof.
  induction ops as [|op ops IH]; intros c H; simpl in *; [exact I|].
  apply andb_prop in H; destruct H as [H1 H2]. split; [|apply IH; exact H2].
  destruct op; simpl in *; try exact I; try discriminate. apply andb_prop in H1; destruct H1 as [H1 Hd].
  apply andb_prop in H1; destruct H1 as [Hp Hw]. split; [exact Hp|]. split; [exact Hw|apply cmd_routes_distinct_b_sound; exact Hd].
Qed.
End HistB.

(* a crude sufficient condition for the evaluator hypothesis: no internal class among its errors, and
   every answer is a string or a container (so that no key position yields a non-string scalar) *)
Lemma eval_no_internal_of : forall ev,
  (forall s ctx e, ev s ctx = EvErr e -> ~ internal_cls e) ->
  (forall s ctx v, ev s ctx = EvOk v -> match v with JStr _ | JList _ | JDict _ => True | _ => False end) ->
  eval_no_internal ev.
Proof.
  intros ev He Hv. unfold eval_no_internal.
  assert (Hl : forall s ctx, ni (lift_eval (ev s ctx))).
  { intros s ctx c c' e H. destruct (ev s ctx) as [v|x] eqn:E; inversion H; subst. eapply He; exact E. }
  apply (evaluate_ind ev (fun A m => ni m)); [intros; apply (ro_ret _)|intros; apply (ro_bind _); assumption|exact Hl|].
  (* an entry: a container key is refused with an expression error, and there is no other non-string key *)
  intros k ctx mv g Hmv Hg. unfold eval_entry. destruct (ev k ctx) as [k'|x] eqn:Ek.
  2: { intros c c' e H. cbv [bind lift_eval raise] in H. inversion H; subst. eapply He; exact Ek. }
  specialize (Hv _ _ _ Ek). intros c c' e H. cbv [bind lift_eval ret] in H. revert c c' e H.
  destruct k'; try contradiction; cbv [raise].
  - change (ni (v' <- mv ;; g s v')). apply (ro_bind _); [exact Hmv|intro; apply Hg].
  - intros c c' e H; inversion H; subst; not_internal.
  - intros c c' e H; inversion H; subst; not_internal.
Qed.
