(* C04, late reports, continued (C04d): the two conditions on the engine commands a late task queues, and
   with-items tasks -- the completion report of an item that is still out. *)
From Coq Require Import String List Bool ZArith Arith Lia.
From Orq Require Import GenStatuses GenEvents GenTables Base State Machines Conductor Api.
From Orq Require Import F_tables Hoare ValuePost StatusReach C04Proofs C05Proofs InertProofs RetryProofs RetryBoundProofs
  FrozenProofs NoInternalProofs CancelProofs LateProofs ListFacts StateFacts.
Import ListNotations.
Open Scope string_scope.
Open Scope monad_scope.

Section WithEval.
Variable ev : string -> dict -> evalres.
Hypothesis Hev : eval_no_internal ev.
Hypothesis Hexpr : ev_expr ev.

(* the edges of a task to engine commands lead to nodes of the graph (true of every composed graph) *)
Definition cmd_targets_known (c : cstate) (t : string) : Prop :=
  forall e, In e (g_next_transitions (c_graph c) t) -> is_engine_command (e_dst e) = true -> g_has_task (c_graph c) (e_dst e) = true.
Definition cmds_unvisited (c : cstate) (t : string) (route : nat) : Prop :=
  forall e, In e (cmd_edges_on_route c t route) -> ws_task_idx (c_ws c) (e_dst e) route = None.

Definition item_upd (i : nat) (st : status) (e : stg) : stg :=
  s_set_items e (match s_items e with Some l => Some (list_set_nth i st l) | None => None end).
Definition items_written (w : wstate) (t : string) (route : nat) (i : nat) (st : status) : wstate :=
  ws_set_staged w (staged_update (item_upd i st) t route (staged w)).

Lemma late_item_pre_main : forall t route i st res acc ts sI its idx r s ns c,
  WF c -> done c -> is_engine_command t = false -> task_has_items ts = true ->
  get_staged_task (c_ws c) t route = Some sI -> s_items sI = Some its -> i < length its ->
  nth_error (sequence (c_ws c)) idx = Some r -> r_status r = Some s -> status_in s COMPLETED_STATUSES = false ->
  task_process_event (items_written (c_ws c) t route i st) r (EvItem i st res acc) = Val ns ->
  rstatus (stepped r ns) <> S_RETRYING ->
  exists c1 compl,
    pre_main ev t route (EvItem i st res acc) ts (Some sI) (Some idx) c =
      (c1, Val {| po_ts := ts; po_idx := idx; po_old := s; po_new := rstatus (stepped r ns); po_compl := compl |}) /\
    ((compl = None /\ status_in (rstatus (stepped r ns)) COMPLETED_STATUSES = false /\
      staged (c_ws c1) = staged (items_written (c_ws c) t route i st)) \/
     (exists ctx, compl = Some (ctx, false) /\ status_in (rstatus (stepped r ns)) COMPLETED_STATUSES = true)) /\
    kept c c1 /\ nth_error (sequence (c_ws c1)) idx = Some (stepped r ns) /\ WF c1.
Proof.
  intros t route i st res acc ts sI its idx r s ns c Wc Hd Hcmd Hit HsI Hits Hi Hr Hs Hnc Hm Hnr.
  set (evt := EvItem i st res acc).
  rewrite (pre_main_known ev t route evt ts (Some sI) idx c r Hcmd Hr) by (unfold ostatus_in; rewrite Hs; exact Hnc).
  assert (E3 : uts_unstage t route evt (Some sI) c = (c, Val tt)) by (unfold uts_unstage; rewrite Hits; reflexivity).
  rewrite (bind_step _ _ _ _ _ _ _ E3).
  set (cI := set_ws c (items_written (c_ws c) t route i st)).
  assert (E4 : uts_item t route evt (Some sI) c = (cI, Val tt)).
  { unfold uts_item, evt. rewrite Hits. apply Nat.ltb_lt in Hi. rewrite Hi. reflexivity. }
  rewrite (bind_step _ _ _ _ _ _ _ E4).
  destruct (logfail_run t evt cI) as [cL [E5 [WL _]]]. rewrite (bind_step _ _ _ _ _ _ _ E5).
  destruct (front_pieces _ _ _ _ _ _ _ _ E3 E4 E5) as [KL [SL WfL]].
  assert (HrL : nth_error (sequence (c_ws cL)) idx = Some r) by (rewrite SL; exact Hr).
  destruct (late_machine ev t route evt ts idx cL r ns HrL) as [c1 [compl [E [Hcompl [K1 [Hr1 [_ W1]]]]]]].
  - apply (wf_rec _ (WfL Wc)). eapply nth_error_In; exact HrL.
  - rewrite WL. exact Hm.
  - exact Hnr.
  - left. destruct KL as [_ [_ [_ [S _]]]]. rewrite S. apply F_done_not_active; exact Hd.
  - intros _. rewrite WL. unfold get_staged_task in *. cbn [c_ws set_ws cI items_written staged ws_set_staged].
    apply find_staged_update_some; [intro; reflexivity|]. rewrite HsI. discriminate.
  - assert (Hold : rstatus r = s) by (unfold rstatus; rewrite Hs; reflexivity). rewrite Hold in E.
    exists c1, compl. split; [exact E|]. split.
    { destruct Hcompl as [[A [B C]]|X]; [left; split; [exact A|split; [exact B|rewrite C, WL; reflexivity]]|right; exact X]. }
    split; [exact (kept_trans _ _ _ KL K1)|]. split; [exact Hr1|exact (W1 (WfL Wc))].
Qed.

Lemma late_tail_none_exact : forall rec t route ts idx old new c r,
  done c -> nth_error (sequence (c_ws c)) idx = Some r -> r_status r = Some new ->
  ~ In new [S_EXPIRED; S_ABANDONED; S_UNSET] ->
  uts_tail ev rec t route ts idx old new None c
  = (set_ws c (ws_update_rec (c_ws c) idx (fun r0 => r_set_term r0 true)), Val tt).
Proof.
  intros rec t route ts idx old new c r Hd Hr Hs Hvoc. rewrite uts_tail_eq. unfold uts_rest.
  rewrite (bind_step _ _ _ _ _ _ _ (eq_refl : uts_queue ev t route idx ts old new None c = (c, Val []))).
  exact (after_done rec t route idx [] new c r c Hd Hr Hs Hvoc eq_refl Hd).
Qed.

(* C04d (2): the completion report of an item that is still out, for a with-items task of a workflow that is done *)
Theorem late_item_report_absorbed : forall t route i st res acc ts sI its idx r s ns c c' r',
  WF c -> static_ok (c_spec c) (c_graph c) -> done c ->
  is_engine_command t = false -> g_has_task (c_graph c) t = true ->
  spec_get_task (c_spec c) t = Some ts -> task_has_items ts = true ->
  get_staged_task (c_ws c) t route = Some sI -> s_items sI = Some its -> i < length its ->
  ws_task_idx (c_ws c) t route = Some idx -> nth_error (sequence (c_ws c)) idx = Some r ->
  r_status r = Some s -> status_in s COMPLETED_STATUSES = false ->
  task_process_event (items_written (c_ws c) t route i st) r (EvItem i st res acc) = Val ns ->
  ~ In (rstatus (stepped r ns)) [S_RETRYING; S_EXPIRED; S_ABANDONED; S_UNSET] ->
  cmd_targets_known c t -> cmd_routes_distinct c t route -> cmds_unvisited c t route ->
  update_task_state ev t route (EvItem i st res acc) c = (c', r') ->
  (r' = Val tt \/ (wstatus (c_ws c') = S_CANCELED /\ r' = Exc fail_refused)) /\
  WF c' /\
  (wstatus (c_ws c') = wstatus (c_ws c) \/ (wstatus (c_ws c) = S_SUCCEEDED /\ wstatus (c_ws c') = S_FAILED)) /\
  (exists r1, nth_error (sequence (c_ws c')) idx = Some r1 /\ r_status r1 = Some (rstatus (stepped r ns))) /\
  (status_in (rstatus (stepped r ns)) COMPLETED_STATUSES = false ->
     r' = Val tt /\ staged (c_ws c') = staged (items_written (c_ws c) t route i st)).
Proof.
  intros t route i st res acc ts sI its idx r s ns c c' r' Wc Hso Hd Hcmd Hg Hts Hit HsI Hits Hi Hp Hr Hs Hnc Hm Hnew
         Hknown Hdist Hunv H.
  assert (Hnr : rstatus (stepped r ns) <> S_RETRYING) by (intro E; apply Hnew; rewrite E; simpl; tauto).
  assert (Hvoc : ~ In (rstatus (stepped r ns)) [S_EXPIRED; S_ABANDONED; S_UNSET]) by (intro E; apply Hnew; simpl in *; tauto).
  assert (Hst1 : r_status (stepped r ns) = Some (rstatus (stepped r ns))).
  { unfold stepped, rstatus. destruct ns as [s'|]; [reflexivity|]. rewrite Hs. reflexivity. }
  destruct (late_item_pre_main t route i st res acc ts sI its idx r s ns c Wc Hd Hcmd Hit HsI Hits Hi Hr Hs Hnc Hm Hnr)
    as [c1 [compl [E1 [Hcompl [K [Hr1 W1]]]]]].
  assert (Ep : uts_prefix ev t route (EvItem i st res acc) c =
               (c1, Val {| po_ts := ts; po_idx := idx; po_old := s; po_new := rstatus (stepped r ns); po_compl := compl |})).
  { rewrite (prefix_known ev t route _ ts c (wf_init _ Wc) Hg Hts) by (left; rewrite HsI; discriminate).
    rewrite HsI, Hp. exact E1. }
  assert (Hcompl' : compl = None \/ exists ctx, compl = Some (ctx, false) /\ status_in (rstatus (stepped r ns)) COMPLETED_STATUSES = true)
    by (destruct Hcompl as [[-> _]|X]; [left; reflexivity|right; exact X]).
  destruct (late_call_done ev Hexpr Hev _ _ _ _ _ _ _ _ _ _ _ _ _ Hso Hd Hts Hp Hknown Hdist Hunv Ep Hcompl' K W1 Hr1 Hst1 Hvoc H)
    as [A [B [C D]]].
  split; [exact A|]. split; [exact B|]. split; [exact C|]. split; [exact D|].
  intro Hnc'. destruct Hcompl as [[-> [_ Hst]]|[ctx [_ Hc]]]; [|congruence].
  unfold update_task_state in H. rewrite uts_unfold, body_eq, (bind_step _ _ _ _ _ _ _ Ep) in H.
  unfold tail_of in H. cbn [po_ts po_idx po_old po_new po_compl] in H.
  assert (D1 : done c1) by (destruct K as [_ [_ [_ [K4 _]]]]; unfold done; rewrite K4; exact Hd).
  rewrite (late_tail_none_exact _ t route ts idx s _ c1 _ D1 Hr1 Hst1 Hvoc) in H. inversion H; subst c' r'.
  split; [reflexivity|]. cbn [c_ws set_ws]. rewrite staged_update_rec. exact Hst.
Qed.

(* the machine's answer to the report of an item, from the OTHER items of the table: the task completes when the
   last item reports, and goes on while others are out *)
Lemma item_event_name_written : forall w t route i st sI its,
  get_staged_task w t route = Some sI -> s_items sI = Some its -> i < length its -> status_in st COMPLETED_STATUSES = true ->
  item_event_name (items_written w t route i st) t route i st =
    (let base := ACTION_EVENT_PREFIX ++ status_name st in
     let others := list_del_nth i its in
     let active := existsb (fun x => status_in x ACTIVE_STATUSES) others in
     let incomplete := existsb (fun x => negb (status_in x COMPLETED_STATUSES)) others in
     let paused := existsb (fun x => status_in x [S_PENDING; S_PAUSED]) others in
     let canceled := existsb (fun x => status_eqb x S_CANCELED) others in
     let failed := existsb (fun x => status_in x ABENDED_STATUSES) others in
     let e1 := base ++ (if active then "_task_active" else "_task_dormant") in
     if negb active && paused then Val (e1 ++ "_items_paused")
     else if negb active && canceled then Val (e1 ++ "_items_canceled")
     else if negb active && failed then Val (e1 ++ "_items_failed")
     else Val (e1 ++ (if incomplete then "_items_incomplete" else "_items_completed"))).
Proof.
  intros w t route i st sI its HsI Hits Hi Hst. unfold item_event_name.
  assert (Hreq : status_in st item_requirements = true).
  { apply status_in_In in Hst. repeat (destruct Hst as [<-|Hst]; [reflexivity|]). destruct Hst. }
  rewrite Hreq. cbn [negb]. unfold get_staged_task, items_written in *. cbn [staged ws_set_staged].
  rewrite (find_staged_update_same (item_upd i st) t route _ (fun _ => eq_refl)), HsI. cbn [option_map].
  unfold item_upd at 1. cbn [s_items s_set_items]. rewrite Hits.
  rewrite length_set_nth. apply Nat.ltb_lt in Hi. rewrite Hi. cbn [negb]. rewrite del_set_nth. reflexivity.
Qed.

Lemma last_item_completes : forall w t route i res acc sI its r s,
  get_staged_task w t route = Some sI -> s_items sI = Some its -> i < length its ->
  r_id r = t -> r_route r = route -> r_status r = Some s -> In s [S_RUNNING; S_PAUSING; S_CANCELING] ->
  forallb (fun x => status_eqb x S_SUCCEEDED) (list_del_nth i its) = true ->
  task_process_event (items_written w t route i S_SUCCEEDED) r (EvItem i S_SUCCEEDED res acc) = Val (Some S_SUCCEEDED).
Proof.
  intros w t route i res acc sI its r s HsI Hits Hi Hid Hrt Hs Hin Hall.
  unfold task_process_event. cbn [ev_name]. change (status_name S_SUCCEEDED) with "succeeded".
  change (string_in (ACTION_EVENT_PREFIX ++ "succeeded") (app ACTION_EXECUTION_EVENTS ENGINE_OPERATION_EVENTS)) with true.
  cbn [negb]. rewrite Hid, Hrt. rewrite (item_event_name_written w t route i S_SUCCEEDED sI its HsI Hits Hi eq_refl). cbv zeta.
  assert (Ex : forall (P : status -> bool), (forall x, status_eqb x S_SUCCEEDED = true -> P x = false) ->
                existsb P (list_del_nth i its) = false).
  { intros P HP. apply not_true_is_false. intro E. apply existsb_exists in E. destruct E as [x [Hx Px]].
    rewrite forallb_forall in Hall. rewrite (HP x (Hall x Hx)) in Px. discriminate. }
  rewrite !Ex by (intros x Hx; apply status_eqb_eq in Hx; subst; reflexivity). cbn [negb andb].
  unfold task_table_step, rstatus. rewrite Hs.
  repeat (destruct Hin as [<-|Hin]; [vm_compute; reflexivity|]). destruct Hin.
Qed.

Lemma item_with_others_out : forall w t route i res acc sI its r,
  get_staged_task w t route = Some sI -> s_items sI = Some its -> i < length its ->
  r_id r = t -> r_route r = route -> r_status r = Some S_RUNNING ->
  existsb (fun x => status_in x ACTIVE_STATUSES) (list_del_nth i its) = true ->
  task_process_event (items_written w t route i S_SUCCEEDED) r (EvItem i S_SUCCEEDED res acc) = Val (Some S_RUNNING).
Proof.
  intros w t route i res acc sI its r HsI Hits Hi Hid Hrt Hs Hact.
  unfold task_process_event. cbn [ev_name]. change (status_name S_SUCCEEDED) with "succeeded".
  change (string_in (ACTION_EVENT_PREFIX ++ "succeeded") (app ACTION_EXECUTION_EVENTS ENGINE_OPERATION_EVENTS)) with true.
  cbn [negb]. rewrite Hid, Hrt. rewrite (item_event_name_written w t route i S_SUCCEEDED sI its HsI Hits Hi eq_refl). cbv zeta.
  rewrite Hact. cbn [negb andb].
  assert (Hinc : existsb (fun x => negb (status_in x COMPLETED_STATUSES)) (list_del_nth i its) = true).
  { apply existsb_exists in Hact. destruct Hact as [x [Hx Ax]]. apply existsb_exists. exists x. split; [exact Hx|].
    destruct (status_in x COMPLETED_STATUSES) eqn:E; [exfalso; exact (F_active_not_completed x Ax E)|reflexivity]. }
  rewrite Hinc. unfold task_table_step, rstatus. rewrite Hs. vm_compute. reflexivity.
Qed.

End WithEval.
