(* C04Proofs.v -- terminal statuses are final; nothing is offered after them. *)
From Coq Require Import String List Bool ZArith Arith Lia.
From Orq Require Import GenStatuses GenEvents GenTables GenSpecMeta Base State Machines Codec Conductor Decode Api.
From Orq Require Import F_tables Hoare StatusReach C05Proofs.
Import ListNotations.
Open Scope monad_scope.

Section WithEval.
Variable ev : string -> dict -> evalres.


(* every API call other than rerun moves the workflow status only along the generated table *)
Lemma api_exec_reach : forall op, is_rerun op = false -> preserves Rst (api_exec ev op).
Proof.
  intros op Hop. apply (preserves_api_exec ev Rst Rst_refl Rst_trans); [apply pres_ensure_ws|].
  destruct op; try discriminate Hop.
  - exact I.
  - apply pres_request_workflow_status.
  - apply pres_get_next_tasks.
  - apply pres_update_task_state.
  - apply pres_render_workflow_output.
  - intro c; apply wr_refl.
Qed.

Lemma run_ops_reach : forall ops c, forallb (fun op => negb (is_rerun op)) ops = true ->
  wf_reach (wstatus (c_ws c)) (wstatus (c_ws (run_ops ev ops c))).
Proof.
  apply (preserves_run_ops ev Rst (fun op => negb (is_rerun op)) Rst_refl Rst_trans).
  intros op Hop. apply api_exec_reach. apply negb_true_iff; exact Hop.
Qed.

Theorem failed_is_final : forall ops c, forallb (fun op => negb (is_rerun op)) ops = true ->
  wstatus (c_ws c) = S_FAILED -> wstatus (c_ws (run_ops ev ops c)) = S_FAILED.
Proof. intros ops c H Hs. pose proof (run_ops_reach ops c H) as R. rewrite Hs in R. apply reach_from_failed; exact R. Qed.

Theorem canceled_is_final : forall ops c, forallb (fun op => negb (is_rerun op)) ops = true ->
  wstatus (c_ws c) = S_CANCELED -> wstatus (c_ws (run_ops ev ops c)) = S_CANCELED.
Proof. intros ops c H Hs. pose proof (run_ops_reach ops c H) as R. rewrite Hs in R. apply reach_from_canceled; exact R. Qed.

Theorem succeeded_only_to_failed : forall ops c, forallb (fun op => negb (is_rerun op)) ops = true ->
  wstatus (c_ws c) = S_SUCCEEDED ->
  wstatus (c_ws (run_ops ev ops c)) = S_SUCCEEDED \/ wstatus (c_ws (run_ops ev ops c)) = S_FAILED.
Proof. intros ops c H Hs. pose proof (run_ops_reach ops c H) as R. rewrite Hs in R. apply reach_from_succeeded; exact R. Qed.

(* get_next_tasks answers at once with nothing outside the running statuses, unless the workflow is
   failed and clean-up entries are staged *)
Lemma no_offers : forall c, c_init c = true ->
  status_in (wstatus (c_ws c)) RUNNING_STATUSES = false ->
  (if status_eqb (wstatus (c_ws c)) S_FAILED then filter s_run_on_fail (staged_filtered (c_ws c)) else []) = [] ->
  get_next_tasks ev c = (c, Val []).
Proof.
  intros c Hi Hr Hrem. unfold get_next_tasks, bind. rewrite (ensure_ws_inited ev c Hi).
  unfold getws. cbv beta iota zeta. rewrite Hr, Hrem. reflexivity.
Qed.

Theorem no_offers_when_done : forall c, c_init c = true ->
  In (wstatus (c_ws c)) [S_SUCCEEDED; S_CANCELED] -> get_next_tasks ev c = (c, Val []).
Proof. intros c Hi Hs. apply no_offers; [exact Hi| |]; destruct Hs as [Hs|[Hs|[]]]; rewrite <- Hs; reflexivity. Qed.

Theorem failed_offers_only_cleanup : forall c, c_init c = true -> wstatus (c_ws c) = S_FAILED ->
  filter s_run_on_fail (staged_filtered (c_ws c)) = [] -> get_next_tasks ev c = (c, Val []).
Proof. intros c Hi Hs Hf. apply no_offers; [exact Hi| |]; rewrite Hs; [reflexivity|exact Hf]. Qed.

End WithEval.
