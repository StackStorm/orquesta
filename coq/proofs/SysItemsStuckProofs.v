(* SysItemsStuckProofs.v -- the with-items provider protocol read backwards, from the records to the provider.
   Idea: behind every active task record stands an action in flight, or the record is running and its item table has
   an item never offered (BL); a pause / cancel request tells every active record (rq_effect), so a running record
   with an item never offered survives into pausing / canceling only when a TASK event took the workflow there,
   which the computed flag of model/ProviderSysItemsMon3.v reports (VT).
   Order: one pointer per key and engine commands never active (ND, CM, kept by every call: rx_fuel);
   rq_char, the effect of a request when no record has an unused status; the backward link BL and what each event
   does to it (bl_other, sk_event_flight, the report lemmas own_plain_done / own_item_dormant);
   SK along acknowledgements, polls, reports, requests (sk_live, sk_step); VT likewise (vt_report, vt_request_c,
   vt_live, vt_step); the theorems of C03f on reachable states. *)
From Coq Require Import String List Bool ZArith Arith Lia.
From Orq Require Import GenStatuses GenEvents GenTables GenSpecMeta Base State Machines Codec Conductor Decode Api Driver ProviderSys ProviderSysItems ProviderSysItemsMon ProviderSysItemsMon2 ProviderSysItemsMon3.
From Orq Require Import ListFacts StateFacts F_tables F_names F_sys F_sysitems Hoare ValuePost StatusReach C04Proofs C05Proofs C02C03Proofs C09C10Proofs OffersProofs InertProofs RetryProofs SysProofs SysNextProofs SysItemsProofs SysItemsRecProofs SysItemsPlainProofs SysItemsIdleProofs SysItemsBusyProofs.
Import ListNotations.
Open Scope string_scope.

(* ND: the pointer map has one entry per key.  CM: a record of an engine command (noop / fail / continue / retry) is never
   active -- such tasks complete in the call that creates them *)
Definition ND (c : cstate) : Prop := NoDup (map fst (tasks (c_ws c))).
Definition CM (c : cstate) : Prop := forall i rec, nth_error (sequence (c_ws c)) i = Some rec ->
  is_engine_command (r_id rec) = true -> ostatus_in (r_status rec) ACTIVE_STATUSES = false.
Definition XC (c : cstate) : Prop := ND c /\ CM c.
Definition RX (c c' : cstate) : Prop := c_init c = true -> P_ok c -> XC c -> c_init c' = true /\ P_ok c' /\ XC c'.

Lemma RX_refl : forall c, RX c c. Proof. intros c A B C. auto. Qed.
Lemma RX_trans : forall a b c, RX a b -> RX b c -> RX a c.
Proof. intros a b c H1 H2 A B C. destruct (H1 A B C) as [A1 [B1 C1]]. exact (H2 A1 B1 C1). Qed.

Lemma key_id : forall r r' : trec, key_of r' = key_of r -> r_id r' = r_id r.
Proof. intros r r' H. unfold key_of in H. congruence. Qed.

Lemma RX_same : forall c c', tasks (c_ws c') = tasks (c_ws c) -> map sig (sequence (c_ws c')) = map sig (sequence (c_ws c)) ->
  (c_init c = true -> c_init c' = true) -> RX c c'.
Proof.
  intros c c' Ht Hs Hi Ia Pa [Hn Hc]. destruct (RK_same (fun _ => False) c c' Ht Hs Hi Ia Pa) as [Ib [Pb _]].
  split; [exact Ib|]. split; [exact Pb|]. split; [unfold ND; rewrite Ht; exact Hn|].
  intros i rec E Hcmd. destruct (nth_map_sig _ _ _ _ (eq_sym Hs) E) as [r0 [E0 S]]. destruct (sig_key _ _ S) as [K1 S1].
  rewrite <- S1. apply (Hc i r0 E0). rewrite (key_id _ _ K1). exact Hcmd.
Qed.

Lemma RX_new_rec : forall c t rt ins prev retry,
  RX c (set_ws c (ws_set_tasks (ws_set_sequence (c_ws c) (app (sequence (c_ws c)) [new_rec t rt ins prev retry]))
                               (aset tkey_eqb (t, rt) (length (sequence (c_ws c))) (tasks (c_ws c))))).
Proof.
  intros c t rt ins prev retry Ia Pa [Hn Hc].
  destruct (RK_new_rec (fun _ => True) c t rt ins prev retry Logic.I Ia Pa) as [Ib [Pb _]].
  split; [exact Ib|]. split; [exact Pb|]. split; [unfold ND; simpl; apply NoDup_aset; exact Hn|].
  intros i rec E Hcmd. simpl in E.
  destruct (Nat.lt_ge_cases i (length (sequence (c_ws c)))) as [Hlt|Hge].
  - rewrite nth_error_app1 in E by exact Hlt. exact (Hc i rec E Hcmd).
  - rewrite nth_error_app2 in E by exact Hge. destruct (i - length (sequence (c_ws c))) as [|k]; simpl in E; [inversion E; reflexivity|destruct k; discriminate].
Qed.

Lemma RX_set_status : forall c idx r s, nth_error (sequence (c_ws c)) idx = Some r ->
  (is_engine_command (r_id r) = true -> ostatus_in s ACTIVE_STATUSES = false) ->
  RX c (set_ws c (ws_update_rec (c_ws c) idx (fun r0 => r_set_status r0 s))).
Proof.
  intros c idx r s Hr Hs Ia Pa [Hn Hc].
  destruct (RK_set_status (fun _ => True) c idx r s Hr Logic.I Ia Pa) as [Ib [Pb _]].
  split; [exact Ib|]. split; [exact Pb|]. split; [unfold ND; simpl; rewrite tasks_update_rec; exact Hn|].
  intros i rec E Hcmd. simpl in E. unfold ws_update_rec in E. rewrite Hr in E. simpl in E.
  destruct (Nat.eq_dec i idx) as [->|Hne].
  - rewrite (nth_error_set_nth_same _ _ _ _ _ Hr) in E. inversion E; subst rec. simpl. apply Hs. destruct r; exact Hcmd.
  - rewrite nth_error_set_nth_other in E by congruence. exact (Hc i rec E Hcmd).
Qed.

(* the events the engine queues, and the retry event *)
Definition ecalm (e : event) : Prop :=
  match e with
  | EvEngine n _ => string_in n ["task_continue_requested"; "task_fail_requested"; "task_noop_requested"; "task_retry_requested"] = true
  | _ => False
  end.
Lemma engine_event_ecalm : forall n e, engine_event n = Some e -> ecalm e.
Proof.
  intros n e H. unfold engine_event in H. destruct (aget String.eqb n ENGINE_EVENT_MAP) as [[nm st]|] eqn:E; inversion H; subst e.
  simpl. apply aget_In in E. simpl in E. repeat (destruct E as [E|E]; [inversion E; subst; reflexivity|]). destruct E.
Qed.
Lemma ecalm_inactive : forall w r e ns, ecalm e -> task_process_event w r e = Val ns ->
  ostatus_in ns ACTIVE_STATUSES = false.
Proof.
  intros w r e ns He H. destruct e as [| | |n st]; try (exfalso; exact He). apply tpe_engine in H.
  destruct ns as [x|]; [|reflexivity]. simpl. exact (F_engine_not_active _ _ _ He H).
Qed.

Lemma rx_fuel : forall ev fuel t route evt, (is_engine_command t = true -> ecalm evt) ->
  vpres RX (update_task_state_fuel ev fuel t route evt).
Proof.
  intro ev. apply (key_walk ev RX (fun t _ e => is_engine_command t = true -> ecalm e) RX_refl RX_trans RX_same).
  - intros t rt e ins prev _ c c' idx H. destruct (add_task_state_eff ev _ _ _ _ _ _ _ H) as [cm [retry [[Ls [Lt [_ [_ [_ [_ [_ [_ Li]]]]]]]] [-> [-> _]]]]].
    eapply RX_trans; [apply RX_same; [exact Lt|rewrite Ls; reflexivity|congruence]|apply RX_new_rec].
  - intros t route e c idx r ns c' Hk Hp Hr Ens H Ia Pa Xa. unfold uts_setst in H. destruct ns as [s|]; [|inversion H; subst c'; auto].
    unfold set_rec_status, modws in H. inversion H; subst c'. apply (RX_set_status c idx r (Some s) Hr); [|exact Ia|exact Pa|exact Xa].
    destruct (Pa t route idx Hp) as [r0 [A B]]. rewrite Hr in A. inversion A; subst r0.
    intro Hc. apply (ecalm_inactive _ _ _ _ (Hk ltac:(unfold key_of in B; congruence)) Ens).
  - intros n rt e E _. exact (engine_event_ecalm _ _ E).
  - intros t r e _ _. reflexivity.
Qed.

Lemma rq_char : forall st c c' x, request_status_core st c = (c', x) -> status_in st request_statuses_f = true -> NB c ->
  same_frame c c' /\ length (sequence (c_ws c')) = length (sequence (c_ws c)) /\
  ((wstatus (c_ws c') = wstatus (c_ws c) /\
    forall i r, nth_error (sequence (c_ws c)) i = Some r ->
      exists r', nth_error (sequence (c_ws c')) i = Some r' /\ key_of r' = key_of r /\ r_status r' = r_status r) \/
   ((In (wstatus (c_ws c')) HELD2 -> status_in st (app PAUSE_STATUSES CANCEL_STATUSES) = true) /\
    forall i r, nth_error (sequence (c_ws c)) i = Some r ->
      exists r', nth_error (sequence (c_ws c')) i = Some r' /\ key_of r' = key_of r /\
        (tact c i r = false -> r' = r) /\
        (tact c i r = true -> told st c r r'))).
Proof.
  intros st c c' x H Hst _. destruct (rq_effect st c c' x H) as [F [L [M|[[P M]|[-> _]]]]].
  - split; [exact F|]. split; [exact L|]. left. exact M.
  - split; [exact F|]. split; [exact L|]. right. split; [exact (P Hst)|exact M].
  - split; [exact F|]. split; [exact L|]. left. split; [reflexivity|]. intros i r E. exists r. auto.
Qed.

(* what stands behind an active record of the key k: an action of the task in flight, or -- nothing of it in flight --
   the record is running and its item table has an item never offered *)
Definition Good (c : cstate) (F : list ikey) (k : tkey) (rec : trec) : Prop :=
  (exists it, In (k, it) F) \/
  (exists l, items_of c (fst k) (snd k) = Some l /\ r_status rec = Some S_RUNNING /\ has_open l = true).
Definition BLx (P : tkey -> Prop) (c : cstate) (F : list ikey) : Prop :=
  forall t r idx rec, P (t, r) -> is_engine_command t = false ->
    ws_task_idx (c_ws c) t r = Some idx -> nth_error (sequence (c_ws c)) idx = Some rec ->
    ostatus_in (r_status rec) ACTIVE_STATUSES = true -> Good c F (t, r) rec.
Definition BL (c : cstate) (F : list ikey) : Prop := BLx (fun _ => True) c F.

Lemma has_open_nonempty : forall l, has_open l = true -> exists x xs, l = x :: xs.
Proof. intros [|x xs] H; [discriminate H|exists x, xs; reflexivity]. Qed.

Section Backward.
Variable ev : string -> dict -> evalres.

Lemma xc_event : forall t0 r0 e c c', update_task_state ev t0 r0 e c = (c', Val tt) -> is_engine_command t0 = false ->
  c_init c = true -> P_ok c -> XC c -> XC c'.
Proof.
  intros t0 r0 e c c' H Hc Ia Pa Xa. unfold update_task_state in H.
  refine (proj2 (proj2 (rx_fuel ev _ t0 r0 e _ _ _ _ H Ia Pa Xa))). intro X. congruence.
Qed.

Lemma other_before : forall t0 r0 e c c' t r idx rec', update_task_state ev t0 r0 e c = (c', Val tt) ->
  c_init c = true -> P_ok c -> (t, r) <> (t0, r0) -> is_engine_command t = false ->
  ws_task_idx (c_ws c') t r = Some idx -> nth_error (sequence (c_ws c')) idx = Some rec' ->
  ws_task_idx (c_ws c) t r = Some idx /\ exists rec, nth_error (sequence (c_ws c)) idx = Some rec /\ r_status rec' = r_status rec.
Proof.
  intros t0 r0 e c c' t r idx rec' H Ia Pa Hne Hcmd Hp' Hr'.
  destruct (rk_update_task_state ev _ _ _ _ _ H Ia Pa) as [_ [_ [_ A2]]].
  rewrite A2 in Hp' by (intros [X|X]; [exact (Hne X)|unfold Kcmd in X; simpl in X; congruence]).
  destruct (Pa t r idx Hp') as [rec [Hr _]].
  destruct (prot_other ev _ _ _ _ _ _ _ _ _ H Ia Pa Hne Hcmd Hp' Hr) as [_ [rec2 [E2 S]]]. rewrite Hr' in E2. inversion E2; subst rec2.
  split; [exact Hp'|]. exists rec. auto.
Qed.

Lemma bl_other : forall t0 r0 e c c' F F', update_task_state ev t0 r0 e c = (c', Val tt) ->
  c_init c = true -> P_ok c ->
  (forall t r l, (t, r) <> (t0, r0) -> items_of c t r = Some l -> has_open l = true -> items_of c' t r = Some l) ->
  (forall k, In k F -> fst k <> (t0, r0) -> In k F') ->
  BLx (fun k => k <> (t0, r0)) c F -> BLx (fun k => k <> (t0, r0)) c' F'.
Proof.
  intros t0 r0 e c c' F F' H Ia Pa Htab HF B t r idx rec' Hne Hcmd Hp' Hr' Hact.
  destruct (other_before _ _ _ _ _ _ _ _ _ H Ia Pa Hne Hcmd Hp' Hr') as [Hp [rec [Hr Hs]]]. clear Hp'. rename Hp into Hp'.
  rewrite Hs in Hact. destruct (B t r idx rec Hne Hcmd Hp' Hr Hact) as [[it Hin]|[l [Hl [Hrun Hop]]]].
  - left. exists it. apply HF; [exact Hin|exact Hne].
  - right. exists l. simpl in *. split; [apply Htab; assumption|]. split; [congruence|exact Hop].
Qed.

Lemma BLx_split : forall c F k0, BLx (fun k => k <> k0) c F ->
  (forall idx rec, is_engine_command (fst k0) = false -> ws_task_idx (c_ws c) (fst k0) (snd k0) = Some idx ->
     nth_error (sequence (c_ws c)) idx = Some rec -> ostatus_in (r_status rec) ACTIVE_STATUSES = true -> Good c F k0 rec) ->
  BL c F.
Proof.
  intros c F [t0 r0] B O t r idx rec _ Hcmd Hp Hr Ha. destruct (tkey_dec (t, r) (t0, r0)) as [E|Hne].
  - inversion E; subst t r. exact (O idx rec Hcmd Hp Hr Ha).
  - exact (B t r idx rec Hne Hcmd Hp Hr Ha).
Qed.
Lemma BL_BLx : forall c F P, BL c F -> BLx P c F.
Proof. intros c F P B t r idx rec _. exact (B t r idx rec Logic.I). Qed.

(* NC: nothing of an engine command is ever in flight.  SK: what the backward link is carried with *)
Definition NC (F : list ikey) : Prop := forall t r it, In (t, r, it) F -> is_engine_command t = false.
Definition SK (s : isys) : Prop :=
  (c_init (si_c s) = true /\ P_ok (si_c s) /\ XC (si_c s) /\ NB (si_c s) /\ BL (si_c s) (si_inflight s)) /\ NC (si_inflight s).
Lemma NC_add : forall F t r it, NC F -> is_engine_command t = false -> NC (ikey_add (t, r, it) F).
Proof. intros F t r it N Hc t' r' it' H. apply In_ikey_add in H. destruct H as [H|H]; [inversion H; subst; exact Hc|exact (N t' r' it' H)]. Qed.

Lemma sk_event_flight : forall s t r e it F F',
  ibad (isys_event ev s t r e) = false -> is_engine_command t = false -> nbad e ->
  c_init (si_c s) = true -> P_ok (si_c s) -> XC (si_c s) -> NB (si_c s) -> BL (si_c s) F ->
  (forall t' r' l, (t', r') <> (t, r) -> items_of (si_c s) t' r' = Some l -> items_of (si_c (isys_event ev s t r e)) t' r' = Some l) ->
  (forall k, In k F -> fst k <> (t, r) -> In k F') -> In (t, r, it) F' ->
  c_init (si_c (isys_event ev s t r e)) = true /\ P_ok (si_c (isys_event ev s t r e)) /\ XC (si_c (isys_event ev s t r e)) /\
  NB (si_c (isys_event ev s t r e)) /\ BL (si_c (isys_event ev s t r e)) F'.
Proof.
  intros s t r e it F F' Hb Hcmd Hn Ia Pa Xa Na B Htab HF Hin. pose proof (ievent_val ev s t r e Hb) as H.
  destruct (prot_ok ev _ _ _ _ _ H Ia Pa) as [Ib Pb]. split; [exact Ib|]. split; [exact Pb|].
  split; [exact (xc_event _ _ _ _ _ H Hcmd Ia Pa Xa)|]. split; [exact (nb_event ev s t r e Hn Hb Na)|].
  apply (BLx_split _ _ (t, r)).
  - refine (bl_other t r e _ _ F F' H Ia Pa _ HF (BL_BLx _ _ _ B)). intros t' r' l Hne Hl _. exact (Htab t' r' l Hne Hl).
  - intros idx rec _ _ _ _. left. exists it. exact Hin.
Qed.

Lemma sk_ack_item : forall t r s a i l,
  ilink (si_c s) (si_inflight s) -> SK s -> items_of (si_c s) t r = Some l -> a_item a = Some i -> i < length l ->
  is_engine_command t = false -> ibad (isys_ack ev t r s a) = false -> SK (isys_ack ev t r s a).
Proof.
  intros t r s a i l I [[Ia [Pa [Xa [Na B]]]] Nc] Hl Hai Hil Hcmd Hb.
  destruct (ack_item_step ev t r s a i l I Hl Hai Hil Hb) as [_ [_ [Hfw _]]].
  unfold isys_ack in *. rewrite Hai in *.
  set (s1 := with_inflight s (ikey_add (t, r, Some i) (si_inflight s))) in *.
  unfold SK. rewrite inflight_event. split; [|unfold s1; simpl; apply NC_add; assumption].
  refine (sk_event_flight s1 t r _ (Some i) (si_inflight s) _ Hb Hcmd _ Ia Pa Xa Na B Hfw _ _); [reflexivity| |].
  - intros k Hk _. unfold s1; simpl. apply In_ikey_add. right. exact Hk.
  - unfold s1; simpl. apply In_ikey_add. left. reflexivity.
Qed.

Lemma sk_ack_items_loop : forall t r acts s l,
  ilink (si_c s) (si_inflight s) -> SK s -> items_of (si_c s) t r = Some l ->
  (forall a, In a acts -> exists i, a_item a = Some i /\ i < length l) ->
  is_engine_command t = false ->
  ibad (fold_left (isys_ack ev t r) acts s) = false -> SK (fold_left (isys_ack ev t r) acts s).
Proof.
  intros t r. induction acts as [|a acts IH]; intros s l I K Hl Hacts Hcmd Hb; cbn [fold_left] in *; [exact K|].
  assert (Hb1 : ibad (isys_ack ev t r s a) = false).
  { apply (not_bad_before (fun x => fold_left (isys_ack ev t r) acts x)); [apply ibad_fold_ack_mono|exact Hb]. }
  destruct (Hacts a (or_introl eq_refl)) as [i [Hai Hil]].
  destruct (ack_item_step ev t r s a i l I Hl Hai Hil Hb1) as [I1 [Hl1 _]].
  pose proof (sk_ack_item t r s a i l I K Hl Hai Hil Hcmd Hb1) as K1.
  apply (IH _ (list_set_nth i S_RUNNING l)); try assumption.
  intros a' Ha'. destruct (Hacts a' (or_intror Ha')) as [i' [A B]]. exists i'. rewrite length_set_nth. auto.
Qed.

Lemma sk_ack_plain_loop : forall t r acts s,
  ilink (si_c s) (si_inflight s) -> SK s -> (forall a, In a acts -> a_item a = None) ->
  is_engine_command t = false ->
  ibad (fold_left (isys_ack ev t r) acts s) = false -> SK (fold_left (isys_ack ev t r) acts s).
Proof.
  intros t r. induction acts as [|a acts IH]; intros s I K Hacts Hcmd Hb; cbn [fold_left] in *; [exact K|].
  assert (Hb1 : ibad (isys_ack ev t r s a) = false).
  { apply (not_bad_before (fun x => fold_left (isys_ack ev t r) acts x)); [apply ibad_fold_ack_mono|exact Hb]. }
  destruct (ack_plain_loop ev t r [a] s I) as [I1 P1]; [intros a' [<-|[]]; apply Hacts; left; reflexivity|exact Hb1|].
  simpl in I1, P1.
  assert (K1 : SK (isys_ack ev t r s a)).
  { destruct K as [[Ia [Pa [Xa [Na B]]]] Nc]. unfold isys_ack in *. rewrite (Hacts a (or_introl eq_refl)) in *.
    set (s1 := with_inflight s (ikey_add (t, r, None) (si_inflight s))) in *.
    unfold SK. rewrite inflight_event. split; [|unfold s1; simpl; apply NC_add; assumption].
    refine (sk_event_flight s1 t r _ None (si_inflight s) _ Hb1 Hcmd _ Ia Pa Xa Na B P1 _ _); [reflexivity| |].
    - intros k Hk _. unfold s1; simpl. apply In_ikey_add. right. exact Hk.
    - unfold s1; simpl. apply In_ikey_add. left. reflexivity. }
  apply IH; [exact I1|exact K1|intros; apply Hacts; right; assumption|exact Hcmd|exact Hb].
Qed.

End Backward.

Lemma In_del_nth_inv : forall A (l : list A) i x, In x (list_del_nth i l) -> exists j, j <> i /\ nth_error l j = Some x.
Proof.
  induction l as [|a l IH]; intros i x H; [destruct i; destruct H|].
  destruct i; simpl in H.
  - apply In_nth_error in H. destruct H as [j Hj]. exists (S j). split; [discriminate|exact Hj].
  - destruct H as [->|H]; [exists 0; split; [discriminate|reflexivity]|].
    destruct (IH i x H) as [j [A1 A2]]. exists (S j). split; [congruence|exact A2].
Qed.

Lemma In_del_nth_In : forall A (l : list A) i x, In x (list_del_nth i l) -> In x l.
Proof. intros A l i x H. destruct (In_del_nth_inv _ _ _ _ H) as [j [_ E]]. eapply nth_error_In; exact E. Qed.

Lemma busy3_ncompl : forall r0, status_in (rstatus r0) [S_RUNNING; S_PAUSING; S_CANCELING] = true ->
  ostatus_in (r_status r0) COMPLETED_STATUSES = false.
Proof. intros r0 H. unfold rstatus in H. destruct (r_status r0) as [x|]; [|reflexivity]. simpl. destruct x; try discriminate H; reflexivity. Qed.

Section OwnReports.
Variable ev : string -> dict -> evalres.

Lemma own_plain_done : forall t r st res c c', update_task_state ev t r (EvAction st res) c = (c', Val tt) ->
  c_init c = true -> P_ok c -> is_engine_command t = false -> NB c -> status_in st COMPLETED_STATUSES = true ->
  forall idx' r', ws_task_idx (c_ws c') t r = Some idx' -> nth_error (sequence (c_ws c')) idx' = Some r' ->
    ostatus_in (r_status r') ACTIVE_STATUSES = false.
Proof.
  intros t r st res c c' H Ia Pa Hcmd N Hst idx' r' Hp' Hr'.
  unfold update_task_state in H. rewrite uts_unfold in H.
  destruct (own_final ev _ _ _ _ _ _ H Ia Pa Hcmd) as (idx & rr & ns & w3 & idx2 & r2 & Hk & Orig & _ & Ens & Hp2 & Hr2 & Fin).
  rewrite Hp' in Hp2. inversion Hp2; subst idx2. rewrite Hr' in Hr2. inversion Hr2; subst r2.
  destruct Fin as [Fin|[Fin _]]; [|rewrite Fin; reflexivity]. rewrite Fin.
  apply tpe_action in Ens. unfold action_event_name in Ens.
  assert (Hrr : status_in (rstatus rr) UNUSED_STATUSES = false).
  { destruct Orig as [[O _]|[Op [r0 [Or0 [Os _]]]]]; [unfold rstatus; rewrite O; reflexivity|].
    unfold rstatus. rewrite Os. apply (okst_rstatus r0). exact (N idx r0 Or0). }
  pose proof (F_plain_any st (rstatus rr) Hst Hrr) as X. rewrite Ens in X.
  destruct ns as [x|]; [exact X|]. simpl. unfold rstatus in X. destruct (r_status rr); [exact X|reflexivity].
Qed.

Lemma own_item_dormant : forall t r i st res acc c c' s0 l idx0 r0,
  update_task_state ev t r (EvItem i st res acc) c = (c', Val tt) -> c_init c = true -> P_ok c ->
  is_engine_command t = false -> status_in st report_statuses = true ->
  get_staged_task (c_ws c) t r = Some s0 -> s_items s0 = Some l -> i < length l ->
  ws_task_idx (c_ws c) t r = Some idx0 -> nth_error (sequence (c_ws c)) idx0 = Some r0 ->
  status_in (rstatus r0) [S_RUNNING; S_PAUSING; S_CANCELING] = true ->
  existsb (fun y => status_in y ACTIVE_STATUSES) (list_del_nth i l) = false ->
  forall idx' r', ws_task_idx (c_ws c') t r = Some idx' -> nth_error (sequence (c_ws c')) idx' = Some r' ->
    ostatus_in (r_status r') ACTIVE_STATUSES = true ->
    r_status r' = Some S_RUNNING /\ rstatus r0 = S_RUNNING /\
    items_of c' t r = Some (list_set_nth i st l) /\ has_open (list_set_nth i st l) = true.
Proof.
  intros t r i st res acc c c' s0 l idx0 r0 H Ia Pa Hcmd Hst Hs0 Hl Hil Hp0 Hr0 Hcur Hdor idx' r' Hp' Hr' Hact.
  destruct (own_item_report ev _ _ _ _ _ _ _ _ _ _ _ _ H Ia Pa Hcmd Hs0 Hl Hil Hp0 Hr0 (busy3_ncompl _ Hcur))
    as (w3 & n & ns & idx2 & r2 & Hg3 & Hit3 & En & Ens & Hp2 & Hr2 & Fin).
  rewrite Hp' in Hp2. inversion Hp2; subst idx2. rewrite Hr' in Hr2. inversion Hr2; subst r2.
  destruct Fin as [[Fin Hstg]|[Fin _]]; [|rewrite Fin in Hact; discriminate Hact].
  assert (Hdor3 : existsb (fun y => status_in y ACTIVE_STATUSES) (list_del_nth i (list_set_nth i st l)) = false) by (rewrite del_set_nth; exact Hdor).
  assert (Hst' : status_in st COMPLETED_STATUSES = true) by exact Hst.
  destruct ns as [x|].
  - destruct (F_dormant_report w3 t r i st _ _ n (rstatus r0) x Hg3 Hit3 Hst' Hdor3 En Hcur) as [_ Hx].
    assert (Hax : status_in x ACTIVE_STATUSES = true) by (rewrite Fin in Hact; exact Hact).
    destruct (Hx Ens Hax) as [-> [Hc0 Hinc]]. rewrite del_set_nth in Hinc.
    split; [rewrite Fin; reflexivity|]. split; [exact Hc0|].
    assert (Hs' : staged (c_ws c') = staged_update (record_item i st) t r (staged (c_ws c))) by (apply Hstg; [reflexivity|discriminate]).
    split.
    + unfold items_of, get_staged_task. rewrite Hs'. unfold get_staged_task in Hs0.
      rewrite (find_staged_update_keeps _ _ _ _ (record_item_keeps i st)), Hs0. simpl. exact Hit3.
    + apply existsb_exists in Hinc. destruct Hinc as [y [Hy Hny]]. unfold has_open. apply existsb_exists. exists y.
      split; [apply (In_del_nth_In _ (list_set_nth i st l) i); rewrite del_set_nth; exact Hy|].
      unfold open_slot. rewrite Hny, andb_true_r. apply negb_true_iff.
      destruct (status_in y ACTIVE_STATUSES) eqn:Ey; [|reflexivity].
      assert (X : existsb (fun y => status_in y ACTIVE_STATUSES) (list_del_nth i l) = true) by (apply existsb_exists; exists y; auto). congruence.
  - exfalso. destruct (F_dormant_report w3 t r i st _ _ n (rstatus r0) S_RUNNING Hg3 Hit3 Hst' Hdor3 En Hcur) as [Hx _]. exact (Hx Ens).
Qed.

End OwnReports.

Section BackwardSystem.
Variable ev : string -> dict -> evalres.

Lemma sk_ack_offer : forall s o, ilink (si_c s) (si_inflight s) -> SK s -> pend_ok (si_c s) o ->
  is_engine_command (o_id o) = false -> ibad (isys_ack_offer ev s o) = false -> SK (isys_ack_offer ev s o).
Proof.
  intros s o I K Hp Hcmd Hb. unfold isys_ack_offer, pend_ok in *. destruct (o_items_count o) as [[|m]|].
  - destruct K as [[Ia [Pa [Xa [Na B]]]] Nc].
    set (s1 := isys_event ev s (o_id o) (o_route o) (EvAction S_RUNNING JNull)) in *.
    assert (Hb1 : ibad s1 = false).
    { apply (not_bad_before (fun x => isys_event ev x (o_id o) (o_route o) (EvAction S_SUCCEEDED (JList [])))); [apply ibad_event_mono|exact Hb]. }
    destruct (plain_event_step ev s (o_id o) (o_route o) (EvAction S_RUNNING JNull) (si_inflight s) Logic.I I) as [I1 P1];
      [intros; tauto|exact Hb1|]. fold s1 in I1, P1.
    assert (E1 : si_inflight s1 = si_inflight s) by apply inflight_event.
    destruct (plain_event_step ev s1 (o_id o) (o_route o) (EvAction S_SUCCEEDED (JList [])) (si_inflight s1) Logic.I) as [I2 P2];
      [rewrite E1; exact I1|intros; tauto|exact Hb|].
    pose proof (ievent_val ev s (o_id o) (o_route o) _ Hb1) as H1. fold s1 in H1.
    pose proof (ievent_val ev s1 (o_id o) (o_route o) _ Hb) as H2.
    destruct (prot_ok ev _ _ _ _ _ H1 Ia Pa) as [Ib Pb].
    pose proof (xc_event ev _ _ _ _ _ H1 Hcmd Ia Pa Xa) as Xb.
    pose proof (nb_event ev s (o_id o) (o_route o) (EvAction S_RUNNING JNull) eq_refl Hb1 Na) as Nb. fold s1 in Nb.
    assert (B1 : BLx (fun k => k <> (o_id o, o_route o)) (si_c s1) (si_inflight s)).
    { refine (bl_other ev _ _ _ _ _ (si_inflight s) (si_inflight s) H1 Ia Pa _ (fun k X _ => X) (BL_BLx _ _ _ B)).
      intros t' r' l Hne Hl _. exact (P1 t' r' l Hne Hl). }
    destruct (prot_ok ev _ _ _ _ _ H2 Ib Pb) as [Ic Pc].
    split; [|rewrite inflight_event, E1; exact Nc].
    split; [exact Ic|]. split; [exact Pc|]. split; [exact (xc_event ev _ _ _ _ _ H2 Hcmd Ib Pb Xb)|].
    split; [exact (nb_event ev s1 (o_id o) (o_route o) (EvAction S_SUCCEEDED (JList [])) eq_refl Hb Nb)|].
    rewrite inflight_event, E1. apply (BLx_split _ _ (o_id o, o_route o)).
    + refine (bl_other ev _ _ _ _ _ (si_inflight s) (si_inflight s) H2 Ib Pb _ (fun k X _ => X) B1).
      intros t' r' l Hne Hl _. exact (P2 t' r' l Hne Hl).
    + intros idx rec _ Hp' Hr' Ha. simpl in Hp'.
      rewrite (own_plain_done ev _ _ _ _ _ _ H2 Ib Pb Hcmd Nb eq_refl idx rec Hp' Hr') in Ha. discriminate Ha.
  - destruct Hp as [l [Hl Ha]]. exact (sk_ack_items_loop ev _ _ _ _ _ I K Hl Ha Hcmd Hb).
  - exact (sk_ack_plain_loop ev _ _ _ _ I K Hp Hcmd Hb).
Qed.

Lemma sk_ack_offers : forall offers s, ilink (si_c s) (si_inflight s) -> SK s ->
  (forall o, In o offers -> pend_ok (si_c s) o) -> (forall o, In o offers -> is_engine_command (o_id o) = false) ->
  offers_dup offers = false ->
  ibad (fold_left (isys_ack_offer ev) offers s) = false -> SK (fold_left (isys_ack_offer ev) offers s).
Proof.
  induction offers as [|o offers IH]; intros s I K Hp Hc Hd Hb; cbn [fold_left] in *; [exact K|].
  simpl in Hd. apply orb_false_iff in Hd. destruct Hd as [Hd1 Hd2].
  assert (Hb1 : ibad (isys_ack_offer ev s o) = false).
  { apply (not_bad_before (fun x => fold_left (isys_ack_offer ev) offers x)); [apply ibad_fold_offer_mono|exact Hb]. }
  destruct (ack_offer_link ev s o I (Hp o (or_introl eq_refl)) Hb1) as [I1 P1].
  pose proof (sk_ack_offer s o I K (Hp o (or_introl eq_refl)) (Hc o (or_introl eq_refl)) Hb1) as K1.
  apply IH; try assumption.
  - intros o2 Ho2. apply (pend_ok_persist (si_c s)); [apply Hp; right; exact Ho2|].
    intros l2. apply P1. apply (offers_key_distinct _ _ _ Hd1 Ho2).
  - intros o2 Ho2. apply Hc. right. exact Ho2.
Qed.

Lemma sk_poll : forall s, ilink (si_c s) (si_inflight s) -> SK s -> poll_odd ev s = false -> ibad (isys_poll ev s) = false ->
  SK (isys_poll ev s).
Proof.
  intros s I K Hodd Hb. destruct (ipoll_val ev s Hb) as [c1 [offers [Hg [Ep [_ Hd]]]]].
  unfold poll_odd in Hodd. rewrite Hg in Hodd. apply orb_false_iff in Hodd. destruct Hodd as [Hodd _]. rewrite Ep in *. clear Ep.
  destruct (poll_ready ev s c1 offers I Hg) as [HR [I1 Hof]]. pose proof I1 as [Hi1 _].
  destruct K as [[Ia [Pa [[Xn Xc] [Na B]]]] Nc]. pose proof HR as (_ & _ & _ & Hseq & Htk & _ & _).
  apply (sk_ack_offers offers (poll_start s c1 offers)); try assumption.
  - unfold SK; simpl. split; [|exact Nc]. split; [exact Hi1|]. split; [|split; [|split]].
    + intros t r i E. unfold ws_task_idx in *. rewrite Htk in E. rewrite Hseq. exact (Pa t r i E).
    + split; [unfold ND; rewrite Htk; exact Xn|intros i rec E; rewrite Hseq in E; exact (Xc i rec E)].
    + intros i rec E. rewrite Hseq in E. exact (Na i rec E).
    + intros t r idx rec _ Hcmd Hp Hr Ha. unfold ws_task_idx in Hp. rewrite Htk in Hp. rewrite Hseq in Hr.
      destruct (B t r idx rec Logic.I Hcmd Hp Hr Ha) as [[it X]|[l [Hl [Hrun Hop]]]]; [left; exists it; exact X|right].
      exists l. split; [|auto]. destruct (has_open_nonempty _ Hop) as [x [xs ->]]. simpl in *.
      exact (Rgn_items_stable _ _ _ _ _ _ HR Hl).
  - intros o Ho. destruct (Hof o Ho) as [e Hok]. exact (pend_of_offer_ok _ _ _ Hok).
  - intros o Ho.
    assert (Ho' : offer_odd (si_inflight s) c1 o = false).
    { destruct (offer_odd (si_inflight s) c1 o) eqn:E; [|reflexivity].
      assert (X : existsb (offer_odd (si_inflight s) c1) offers = true) by (apply existsb_exists; exists o; auto). congruence. }
    unfold offer_odd in Ho'. apply orb_false_iff in Ho'. destruct Ho' as [_ Hcmd]. exact Hcmd.
Qed.

End BackwardSystem.

Lemma rstatus_running : forall r0, rstatus r0 = S_RUNNING -> r_status r0 = Some S_RUNNING.
Proof. intros r0 H. unfold rstatus in H. destruct (r_status r0); [congruence|discriminate H]. Qed.
Lemma rstatus_running_inv : forall r0, r_status r0 = Some S_RUNNING -> rstatus r0 = S_RUNNING.
Proof. intros r0 H. unfold rstatus. rewrite H. reflexivity. Qed.

Lemma F_busy3 : forall x, status_in x GOOD_STATUSES = true -> status_in x UNUSED_STATUSES = false ->
  status_in x [S_RUNNING; S_PAUSING; S_CANCELING] = true.
Proof. intros x A C. destruct x; try discriminate A; try discriminate C; reflexivity. Qed.

Lemma flight_dec : forall (F : list ikey) (k : tkey), (exists it, In (k, it) F) \/ (forall it, ~ In (k, it) F).
Proof.
  induction F as [|[k0 it0] F IH]; intros k; [right; intros it []|].
  destruct (IH k) as [[it H]|H]; [left; exists it; right; exact H|].
  destruct (tkey_dec k0 k) as [->|Hne]; [left; exists it0; left; reflexivity|].
  right. intros it [X|X]; [inversion X; subst; apply Hne; reflexivity|exact (H it X)].
Qed.

Definition SK5 (c : cstate) (F : list ikey) : Prop := c_init c = true /\ P_ok c /\ XC c /\ NB c /\ BL c F.

Lemma items_of_staged : forall c c' t r, staged (c_ws c') = staged (c_ws c) -> items_of c' t r = items_of c t r.
Proof. intros c c' t r H. unfold items_of, get_staged_task. rewrite H. reflexivity. Qed.

Lemma sk5_same : forall c c' F, sequence (c_ws c') = sequence (c_ws c) -> tasks (c_ws c') = tasks (c_ws c) ->
  staged (c_ws c') = staged (c_ws c) -> c_init c' = true -> SK5 c F -> SK5 c' F.
Proof.
  intros c c' F Hs Ht Hg Hi [Ia [Pa [[Xn Xc] [Na B]]]]. split; [exact Hi|]. split; [|split; [|split]].
  - intros t r i E. unfold ws_task_idx in *. rewrite Ht in E. rewrite Hs. exact (Pa t r i E).
  - split; [unfold ND; rewrite Ht; exact Xn|intros i rec E; rewrite Hs in E; exact (Xc i rec E)].
  - intros i rec E. rewrite Hs in E. exact (Na i rec E).
  - intros t r idx rec _ Hcmd Hp Hr Ha. unfold ws_task_idx in Hp. rewrite Ht in Hp. rewrite Hs in Hr.
    destruct (B t r idx rec Logic.I Hcmd Hp Hr Ha) as [X|[l [Hl Y]]]; [left; exact X|right]. exists l. split; [|exact Y].
    rewrite (items_of_staged c c' _ _ Hg). exact Hl.
Qed.

Section BackwardSystem2.
Variable ev : string -> dict -> evalres.

Lemma sk_report : forall s t r item st result, ilink (si_c s) (si_inflight s) -> irec s -> SK s ->
  ibad (isys_report ev s t r item st result) = false -> SK (isys_report ev s t r item st result).
Proof.
  intros s t r item st result I R K Hb. unfold isys_report in *.
  destruct (ikey_in (t, r, item) (si_inflight s) && status_in st report_statuses) eqn:En; [|exact K].
  apply andb_true_iff in En. destruct En as [Hin Hst]. apply ikey_in_iff in Hin.
  pose proof I as [Hi [Hfo [H1 H2]]]. destruct R as [_ [_ [Hk Hm]]]. destruct K as [[Ia [Pa [Xa [Na B]]]] Nc].
  pose proof (Nc t r item Hin) as Hcmd.
  assert (Hstart : status_in st START_STATUSES = false) by (destruct st; try discriminate Hst; reflexivity).
  assert (NcR : forall k, NC (ikey_remove k (si_inflight s))).
  { intros k t' r' it' X. apply In_ikey_remove in X. exact (Nc t' r' it' (proj1 X)). }
  destruct item as [i|].
  - destruct (H1 _ _ _ Hin) as [l [Hl Hn]].
    assert (Hil : i < length l) by (apply nth_error_Some; rewrite Hn; discriminate).
    set (acc' := acc_set (si_acc s) (t, r) i result) in *.
    set (e := EvItem i st result (acc_list (acc_get acc' (t, r)))) in *.
    set (s2 := {| si_c := si_c (with_inflight s (ikey_remove (t, r, Some i) (si_inflight s)));
                  si_inflight := si_inflight (with_inflight s (ikey_remove (t, r, Some i) (si_inflight s)));
                  si_acc := acc'; si_fault := si_fault (with_inflight s (ikey_remove (t, r, Some i) (si_inflight s)));
                  si_wiped := si_wiped (with_inflight s (ikey_remove (t, r, Some i) (si_inflight s))) |}) in *.
    destruct (Hk t r i Hin) as [_ [idx0 [r0 [Hp0 [Hr0 Hl0]]]]].
    destruct (expect_link (si_c s) (si_inflight s) t r i st result (acc_list (acc_get acc' (t, r))) l Hfo H1 H2 Hl Hil)
      as [HfE [_ [_ Hrem]]].
    destruct (Hrem (completed_not_active _ Hst)) as [J1' J2'].
    destruct (ievent_core ev s2 t r e (si_inflight s) (ikey_remove (t, r, Some i) (si_inflight s))) as [_ Tfw];
      [exact I|exact Hb|exact HfE|exact J1'|exact J2'|].
    pose proof (ievent_val ev s2 t r e Hb) as H. change (si_c s2) with (si_c s) in H.
    destruct (prot_ok ev _ _ _ _ _ H Ia Pa) as [Ib Pb].
    unfold SK. rewrite inflight_event. unfold s2 at 2 3; simpl. split; [|apply NcR].
    split; [exact Ib|]. split; [exact Pb|]. split; [exact (xc_event ev _ _ _ _ _ H Hcmd Ia Pa Xa)|].
    split; [exact (nb_event ev s2 t r e Hstart Hb Na)|].
    apply (BLx_split _ _ (t, r)).
    + refine (bl_other ev t r e _ _ (si_inflight s) _ H Ia Pa _ _ (BL_BLx _ _ _ B)).
      * intros t' r' l2 Hne Hl2 _. apply Tfw; [|right; exact Hne].
        change (si_c s2) with (si_c s). unfold e. rewrite (expect_item_eq _ _ _ _ _ _ _ _ Hl Hil).
        rewrite items_of_update_other; [exact Hl2|apply record_item_keeps|exact Hne].
      * intros k Hk' Hne. apply In_ikey_remove. split; [exact Hk'|]. intro X. apply Hne. rewrite X. reflexivity.
    + intros idx rec _ Hp' Hr' Ha. simpl in Hp'.
      destruct (other_item_dec (si_inflight s) t r i) as [[j [Hj Hjin]]|Honly].
      * left. exists (Some j). apply In_ikey_remove. split; [exact Hjin|congruence].
      * right. destruct (items_of_entry _ _ _ _ Hl) as [s0 [Hs0in [Hs0id [Hs0rt [Hit Hg]]]]].
        assert (Hdor : existsb (fun y => status_in y ACTIVE_STATUSES) (list_del_nth i l) = false).
        { destruct (existsb (fun y => status_in y ACTIVE_STATUSES) (list_del_nth i l)) eqn:E; [|reflexivity]. exfalso.
          apply existsb_exists in E. destruct E as [y [Hy Hay]].
          destruct (In_del_nth_inv _ _ _ _ Hy) as [j [Hji Hnj]].
          destruct (H2 s0 l j y Hs0in Hit Hnj Hay) as [_ X]. rewrite Hs0id, Hs0rt in X. apply Hji. exact (Honly j X). }
        assert (Hcur : status_in (rstatus r0) [S_RUNNING; S_PAUSING; S_CANCELING] = true).
        { apply F_busy3; [apply busy_rstatus; exact Hl0|apply okst_rstatus; exact (Na idx0 r0 Hr0)]. }
        destruct (own_item_dormant ev _ _ _ _ _ _ _ _ _ _ _ _ H Ia Pa Hcmd Hst Hg Hit Hil Hp0 Hr0 Hcur Hdor idx rec Hp' Hr' Ha) as [A1 [_ [A3 A4]]].
        exists (list_set_nth i st l). simpl. auto.
  - set (s1 := with_inflight s (ikey_remove (t, r, None) (si_inflight s))) in *.
    destruct (plain_event_step ev s1 t r (EvAction st result) (si_inflight s1) Logic.I) as [_ P1]; [|intros; tauto|exact Hb|].
    { unfold s1; simpl. apply (ilink_keys _ (si_inflight s)); [|exact I].
      intros t' r' j. rewrite In_ikey_remove. split; [tauto|]. intros X; split; [exact X|discriminate]. }
    pose proof (ievent_val ev s1 t r _ Hb) as H. change (si_c s1) with (si_c s) in H.
    destruct (prot_ok ev _ _ _ _ _ H Ia Pa) as [Ib Pb].
    unfold SK. rewrite inflight_event. unfold s1 at 2 3; simpl. split; [|apply NcR].
    split; [exact Ib|]. split; [exact Pb|]. split; [exact (xc_event ev _ _ _ _ _ H Hcmd Ia Pa Xa)|].
    split; [exact (nb_event ev s1 t r (EvAction st result) Hstart Hb Na)|].
    apply (BLx_split _ _ (t, r)).
    + refine (bl_other ev t r _ _ _ (si_inflight s) _ H Ia Pa _ _ (BL_BLx _ _ _ B)).
      * intros t' r' l2 Hne Hl2 _. exact (P1 t' r' l2 Hne Hl2).
      * intros k Hk' Hne. apply In_ikey_remove. split; [exact Hk'|]. intro X. apply Hne. rewrite X. reflexivity.
    + intros idx rec _ Hp' Hr' Ha. simpl in Hp'.
      rewrite (own_plain_done ev _ _ _ _ _ _ H Ia Pa Hcmd Na Hst idx rec Hp' Hr') in Ha. discriminate Ha.
Qed.

Lemma sk_request_c : forall c F st c' rr, status_in st request_statuses = true -> J2e c F ->
  request_status_core st c = (c', rr) -> SK5 c F -> SK5 c' F.
Proof.
  intros c F st c' rr Hst J2 R [Ia [Pa [[Xn Xc] [Na B]]]].
  destruct (rq_char st c c' rr R Hst Na) as [[Sg [Tk In']] [Ln Mode]].
  assert (Fwd : forall i r, nth_error (sequence (c_ws c)) i = Some r ->
            exists r', nth_error (sequence (c_ws c')) i = Some r' /\ key_of r' = key_of r /\
              (ostatus_in (r_status r) ACTIVE_STATUSES = false -> r_status r' = r_status r)).
  { intros i r Er. destruct Mode as [[_ M]|[_ M]]; destruct (M i r Er) as [r' [A [K' S]]]; exists r'; (split; [exact A|]); (split; [exact K'|]).
    - intros _. exact S.
    - intros Hina. destruct S as [S _]. rewrite S; [reflexivity|]. unfold tact. rewrite Hina. reflexivity. }
  assert (Bwd : forall i r', nth_error (sequence (c_ws c')) i = Some r' -> exists r, nth_error (sequence (c_ws c)) i = Some r).
  { intros i r' E'. destruct (nth_error (sequence (c_ws c)) i) as [r|] eqn:Er; [exists r; reflexivity|].
    apply nth_error_None in Er. rewrite <- Ln in Er. apply nth_error_None in Er. congruence. }
  split; [congruence|]. split; [|split; [|split]].
  - intros t r i Ep. unfold ws_task_idx in *. rewrite Tk in Ep. destruct (Pa t r i Ep) as [rec [A K']].
    destruct (Fwd i rec A) as [rec' [A' [K'' _]]]. exists rec'. split; [exact A'|congruence].
  - split; [unfold ND; rewrite Tk; exact Xn|]. intros i rec' E' Hc. destruct (Bwd i rec' E') as [rec Er].
    destruct (Fwd i rec Er) as [r2 [A2 [K2 S2]]]. rewrite E' in A2. inversion A2; subst r2.
    assert (Hina : ostatus_in (r_status rec) ACTIVE_STATUSES = false) by (apply (Xc i rec Er); rewrite <- (key_id _ _ K2); exact Hc).
    rewrite (S2 Hina). exact Hina.
  - exact (nb_request_status_core st _ _ _ R Na).
  - intros t r idx rec' _ Hcmd Hp' Hr' Ha. unfold ws_task_idx in Hp'. rewrite Tk in Hp'.
    destruct (Pa t r idx Hp') as [rec [Hr Hkey]].
    assert (Keep : r_status rec' = r_status rec -> Good c' F (t, r) rec').
    { intro S. rewrite S in Ha. destruct (B t r idx rec Logic.I Hcmd Hp' Hr Ha) as [X|[l [Hl [Y Z]]]]; [left; exact X|right].
      exists l. split; [rewrite (items_of_staged c c' _ _ Sg); exact Hl|]. split; [congruence|exact Z]. }
    destruct Mode as [[_ M]|[_ M]]; destruct (M idx rec Hr) as [r2 [A2 [K2 S2]]]; rewrite Hr' in A2; inversion A2; subst r2.
    { exact (Keep S2). }
    destruct S2 as [Same Told]. destruct (tact c idx rec) eqn:Et; [|rewrite (Same eq_refl) in *; exact (Keep eq_refl)].
    assert (Hact : ostatus_in (r_status rec) ACTIVE_STATUSES = true) by (unfold tact in Et; apply andb_prop in Et; apply Et).
    destruct (B t r idx rec Logic.I Hcmd Hp' Hr Hact) as [X|[l [Hl [Hrun Hop]]]]; [left; exact X|].
    destruct (flight_dec F (t, r)) as [X|Hno]; [left; exact X|]. right. simpl in Hl.
    destruct (items_of_entry _ _ _ _ Hl) as [s0 [Hs0in [Hs0id [Hs0rt [Hit Hg]]]]].
    assert (Hdor : existsb (fun y => status_in y ACTIVE_STATUSES) l = false).
    { destruct (existsb (fun y => status_in y ACTIVE_STATUSES) l) eqn:Eact; [|reflexivity]. exfalso.
      apply existsb_exists in Eact. destruct Eact as [y [Hy Hay]]. apply In_nth_error in Hy. destruct Hy as [j Hj].
      destruct (J2 s0 l j y Hs0in Hit Hj Hay) as [_ X]. rewrite Hs0id, Hs0rt in X. exact (Hno _ X). }
    destruct (Told eq_refl) as [w [ns [Sw [Ens Fin]]]].
    apply tpe_workflow in Ens. unfold key_of in Hkey. replace (r_id rec) with t in Ens by congruence. replace (r_route rec) with r in Ens by congruence.
    rewrite (rstatus_running_inv _ Hrun) in Ens.
    assert (Hgw : get_staged_task w t r = Some s0) by (unfold get_staged_task in *; rewrite Sw; exact Hg).
    exists l. simpl. split; [rewrite (items_of_staged c c' _ _ Sg); exact Hl|]. split; [|exact Hop].
    destruct (status_in st (app PAUSE_STATUSES CANCEL_STATUSES)) eqn:Epc.
    + exfalso. destruct (F_told_dormant w t r st s0 l _ Hgw Hit Epc Hdor Hop Ens) as [y [Ey Hy]]. rewrite Ey in Fin.
      rewrite Fin in Ha. change (status_in y ACTIVE_STATUSES = true) in Ha. congruence.
    + rewrite (F_wf_name_plain _ _ _ _ Epc) in Ens. destruct ns as [y|].
      * rewrite Fin in Ha |- *. change (status_in y ACTIVE_STATUSES = true) in Ha. cbn [stepped r_set_status r_status].
        rewrite (F_running_base st y Epc Ens Ha). reflexivity.
      * rewrite Fin. cbn [stepped]. congruence.
Qed.

Lemma sk_born : forall c c1, unborn c -> ensure_ws ev c = (c1, Val tt) -> SK5 c1 [].
Proof.
  intros c c1 Hu En. destruct (born_pfull ev _ _ Hu En) as [A [Bp [N _]]]. split; [exact A|]. split; [exact Bp|].
  destruct Hu as [Hi Hw]. destruct (ensure_fresh ev c c1 Hi Hw En) as [_ [_ [_ [Hs [Ht _]]]]].
  split; [split; [unfold ND; rewrite Ht; constructor|intros i rec E; rewrite Hs in E; destruct i; discriminate E]|].
  split; [exact N|]. intros t r idx rec _ _ Hp. unfold ws_task_idx in Hp. rewrite Ht in Hp. discriminate Hp.
Qed.

Definition sk_inv (s : isys) : Prop := ibad s = false -> unborn (si_c s) \/ SK s.

Definition Live (s : isys) : Prop := ilink (si_c s) (si_inflight s) /\ irec s /\ SK s.

Lemma born_live : forall s c0, unborn (si_c s) -> si_inflight s = [] -> ensure_ws ev (si_c s) = (c0, Val tt) -> Live (set_c s c0).
Proof.
  intros s c0 Hu HF En. unfold Live, irec, SK. simpl. rewrite HF.
  split; [exact (born_link ev _ _ Hu En)|]. split; [exact (born_rec ev _ _ Hu En)|]. split; [exact (sk_born _ _ Hu En)|intros t r it []].
Qed.

(* what the invariants say of a state that takes a step without raising a flag: it is still before its first call and
   the step does nothing, or the step is one from a state after the first call *)
Lemma live_or_unborn : forall s op, isys_inv2 s -> irec_inv s -> sk_inv s -> ibad (isys_step ev s op) = false ->
  (unborn (si_c s) /\ isys_step ev s op = s) \/
  exists s0, Live s0 /\ isys_step ev s op = isys_step ev s0 op /\
    (s0 = s \/ exists c0, unborn (si_c s) /\ ensure_ws ev (si_c s) = (c0, Val tt) /\ s0 = set_c s c0).
Proof.
  intros s op H2 H3 H4 Hb. pose proof (not_bad_before (fun x => isys_step ev x op) s (fun X => ibad_step_mono ev _ _ X) Hb) as Hb0.
  destruct (H2 Hb0) as [[Hu HF]|[I _]].
  - destruct (isys_step_unborn ev s op HF Hb) as [E|[c0 [En E]]]; [left; auto|right].
    exists (set_c s c0). split; [exact (born_live s c0 Hu HF En)|]. split; [exact E|]. right. exists c0. auto.
  - right. exists s. destruct (H3 Hb0) as [[Hi _]|R]; [destruct I; congruence|].
    destruct (H4 Hb0) as [[Hi _]|K]; [destruct I; congruence|]. unfold Live. auto.
Qed.

Lemma sk_live : forall s op, Live s -> op_odd ev s op = false -> ibad (isys_step ev s op) = false -> SK (isys_step ev s op).
Proof.
  intros s op [I [R K]] Ho Hb. pose proof K as [K5 Nc]. pose proof K5 as [Ia _].
  assert (Rq : forall st, SK (isys_request ev s st)).
  { intro st. destruct (irequest_val ev s st Ia) as [->|[c' [x [Hst [Rc [_ ->]]]]]]; [exact K|]. split; [|exact Nc].
    destruct I as [_ [_ [_ J2]]]. exact (sk_request_c _ _ st c' x Hst J2 Rc K5). }
  assert (Cl : forall o, o = OpRender \/ o = OpPersist -> ibad (isys_call ev s o) = false -> SK (isys_call ev s o)).
  { intros o Hop Hb'. destruct (icall_val ev s o Ia Hop Hb') as [(Hs & Ht & Hg & _ & _ & _ & _ & _ & Hin) E]. rewrite E. split; [|exact Nc].
    apply (sk5_same _ _ _ Hs Ht Hg); [simpl; congruence|exact K5]. }
  destruct op; cbn [isys_step op_odd] in *; auto; [apply sk_poll|apply sk_report]; assumption.
Qed.

Lemma sk_step : forall s op, isys_inv2 s -> irec_inv s -> sk_inv s -> op_odd ev s op = false -> sk_inv (isys_step ev s op).
Proof.
  intros s op H2 H3 H4 Ho Hb. destruct (live_or_unborn s op H2 H3 H4 Hb) as [[Hu E]|[s0 [L [E Hs0]]]]; rewrite E in *; [left; exact Hu|right].
  apply sk_live; [exact L| |exact Hb]. destruct Hs0 as [->|[c0 [_ [En ->]]]]; [exact Ho|]. rewrite (op_odd_unborn ev s c0 op En). exact Ho.
Qed.

Lemma sk_run : forall ops s, isys_inv2 s -> irec_inv s -> sk_inv s -> run_odd ev ops s = false -> sk_inv (isys_run ev ops s).
Proof.
  induction ops as [|op ops IH]; intros s H2 H3 H4 Ho; [exact H4|]. cbn [isys_run fold_left]. simpl in Ho.
  apply orb_false_iff in Ho. destruct Ho as [Ho1 Ho2].
  apply IH; [apply isys_step_inv2; exact H2|apply isys_step_inv3; assumption|apply sk_step; assumption|exact Ho2].
Qed.

End BackwardSystem2.

(* while the workflow reports pausing / canceling no task is left running with an item never offered, unless a task event
   took the workflow there (the flag of model/ProviderSysItemsMon3.v) *)
Definition VB (c : cstate) : Prop :=
  forall t r idx rec l, is_engine_command t = false -> ws_task_idx (c_ws c) t r = Some idx ->
    nth_error (sequence (c_ws c)) idx = Some rec -> r_status rec = Some S_RUNNING ->
    items_of c t r = Some l -> has_open l = true -> False.
Definition VT (c : cstate) : Prop := held_wf c = true -> VB c.

Lemma tbl_open_eq : forall l, tbl_open l = has_open l. Proof. reflexivity. Qed.

Lemma not_prone_VB : forall c, stuck_prone c = false -> VB c.
Proof.
  intros c H t r idx rec l _ Hp Hr Hs Hl Ho. destruct (items_of_entry _ _ _ _ Hl) as [s0 [Hin [Hid [Hrt [Hit _]]]]].
  unfold stuck_prone in H.
  assert (X : existsb (fun e => match s_items e with
                    | Some l => tbl_open l &&
                                match ws_task_entry (c_ws c) (s_id e) (s_route e) with
                                | Some rec => match r_status rec with Some x => status_eqb x S_RUNNING | None => false end
                                | None => false
                                end
                    | None => false
                    end) (staged (c_ws c)) = true).
  { apply existsb_exists. exists s0. split; [exact Hin|]. rewrite Hit, Hid, Hrt, tbl_open_eq, Ho. unfold ws_task_entry. rewrite Hp, Hr, Hs. reflexivity. }
  congruence.
Qed.

Lemma open_set_nth : forall l i st, open_slot st = false -> has_open (list_set_nth i st l) = true -> has_open l = true.
Proof.
  induction l as [|a l IH]; intros i st Hst H; [destruct i; exact H|]. destruct i; simpl in *.
  - rewrite Hst in H. simpl in H. rewrite H. apply orb_true_r.
  - apply orb_prop in H. destruct H as [H|H]; [rewrite H; reflexivity|]. rewrite (IH i st Hst H). apply orb_true_r.
Qed.

Lemma pointed_of_idx : forall c t r idx, ws_task_idx (c_ws c) t r = Some idx -> ws_pointed (c_ws c) idx = true.
Proof.
  intros c t r idx H. unfold ws_task_idx in H. apply (aget_in tkey_eqb tkey_eqb_eq) in H. unfold ws_pointed. apply existsb_exists.
  exists ((t, r), idx). split; [exact H|apply Nat.eqb_refl].
Qed.

Section Held.
Variable ev : string -> dict -> evalres.

Lemma own_item_not_running : forall t r i st res acc c c' s0 l idx0 r0,
  update_task_state ev t r (EvItem i st res acc) c = (c', Val tt) -> c_init c = true -> P_ok c ->
  is_engine_command t = false -> status_in st report_statuses = true ->
  get_staged_task (c_ws c) t r = Some s0 -> s_items s0 = Some l -> i < length l ->
  ws_task_idx (c_ws c) t r = Some idx0 -> nth_error (sequence (c_ws c)) idx0 = Some r0 ->
  status_in (rstatus r0) [S_PAUSING; S_CANCELING] = true ->
  forall idx' r', ws_task_idx (c_ws c') t r = Some idx' -> nth_error (sequence (c_ws c')) idx' = Some r' ->
    r_status r' <> Some S_RUNNING.
Proof.
  intros t r i st res acc c c' s0 l idx0 r0 H Ia Pa Hcmd Hst Hs0 Hl Hil Hp0 Hr0 Hcur idx' r' Hp' Hr' Hrun.
  assert (Hcur3 : status_in (rstatus r0) [S_RUNNING; S_PAUSING; S_CANCELING] = true) by (destruct (rstatus r0); try discriminate Hcur; reflexivity).
  destruct (own_item_report ev _ _ _ _ _ _ _ _ _ _ _ _ H Ia Pa Hcmd Hs0 Hl Hil Hp0 Hr0 (busy3_ncompl _ Hcur3))
    as (w3 & n & ns & idx2 & r2 & Hg3 & Hit3 & En & Ens & Hp2 & Hr2 & Fin).
  rewrite Hp' in Hp2. inversion Hp2; subst idx2. rewrite Hr' in Hr2. inversion Hr2; subst r2.
  destruct Fin as [[Fin _]|[Fin _]]; [|rewrite Fin in Hrun; discriminate Hrun].
  assert (Hst' : status_in st COMPLETED_STATUSES = true) by exact Hst.
  assert (Hnr : rstatus r0 <> S_RUNNING) by (intro X; rewrite X in Hcur; discriminate Hcur).
  assert (Hs' : r_status (stepped r0 ns) = Some S_RUNNING) by congruence.
  destruct (existsb (fun y => status_in y ACTIVE_STATUSES) (list_del_nth i (list_set_nth i st l))) eqn:Hoth.
  - pose proof (F_told_stays w3 t r i st _ _ n (rstatus r0) Hg3 Hit3 Hst' Hoth En Hcur) as X. rewrite Ens in X.
    destruct ns as [x|]; simpl in Hs'.
    + inversion Hs'; subst x. congruence.
    + apply Hnr. unfold rstatus. rewrite Hs'. reflexivity.
  - destruct ns as [x|]; simpl in Hs'.
    + inversion Hs'; subst x.
      destruct (F_dormant_report w3 t r i st _ _ n (rstatus r0) S_RUNNING Hg3 Hit3 Hst' Hoth En Hcur3) as [_ Hx].
      destruct (Hx Ens eq_refl) as [_ [X _]]. exact (Hnr X).
    + apply Hnr. unfold rstatus. rewrite Hs'. reflexivity.
Qed.

Lemma vt_report : forall s t r item st result, ilink (si_c s) (si_inflight s) -> irec s -> SK s ->
  VB (si_c s) -> ibad (isys_report ev s t r item st result) = false -> VB (si_c (isys_report ev s t r item st result)).
Proof.
  intros s t r item st result I R K V Hb. unfold isys_report in *.
  destruct (ikey_in (t, r, item) (si_inflight s) && status_in st report_statuses) eqn:En; [|exact V].
  apply andb_true_iff in En. destruct En as [Hin Hst]. apply ikey_in_iff in Hin.
  pose proof I as [Hi [Hfo [H1 H2]]]. destruct R as [_ [_ [Hk Hm]]]. destruct K as [[Ia [Pa [Xa [Na B]]]] Nc].
  pose proof (Nc t r item Hin) as Hcmd.
  assert (Hopen : open_slot st = false).
  { unfold open_slot. assert (X : status_in st COMPLETED_STATUSES = true) by exact Hst. rewrite X. apply andb_false_r. }
  assert (Other : forall e c', update_task_state ev t r e (si_c s) = (c', Val tt) ->
            Tback (fun l l' => has_open l' = true -> has_open l = true) (si_c s) c' ->
            forall t' r' idx rec l, (t', r') <> (t, r) -> is_engine_command t' = false -> ws_task_idx (c_ws c') t' r' = Some idx ->
              nth_error (sequence (c_ws c')) idx = Some rec -> r_status rec = Some S_RUNNING ->
              items_of c' t' r' = Some l -> has_open l = true -> False).
  { intros e c' H Tb t' r' idx rec' l' Hne Hc' Hp' Hr' Hrun Hl' Ho'.
    destruct (other_before ev _ _ _ _ _ _ _ _ _ H Ia Pa Hne Hc' Hp' Hr') as [Hp [rec [Hr Hs]]].
    destruct (Tb t' r' l' Hl') as [l [Hl Q]]. exact (V t' r' idx rec l Hc' Hp Hr (eq_trans (eq_sym Hs) Hrun) Hl (Q Ho')). }
  destruct item as [i|].
  - destruct (H1 _ _ _ Hin) as [l [Hl Hn]].
    assert (Hil : i < length l) by (apply nth_error_Some; rewrite Hn; discriminate).
    set (acc' := acc_set (si_acc s) (t, r) i result) in *.
    set (e := EvItem i st result (acc_list (acc_get acc' (t, r)))) in *.
    set (s2 := {| si_c := si_c (with_inflight s (ikey_remove (t, r, Some i) (si_inflight s)));
                  si_inflight := si_inflight (with_inflight s (ikey_remove (t, r, Some i) (si_inflight s)));
                  si_acc := acc'; si_fault := si_fault (with_inflight s (ikey_remove (t, r, Some i) (si_inflight s)));
                  si_wiped := si_wiped (with_inflight s (ikey_remove (t, r, Some i) (si_inflight s))) |}) in *.
    destruct (Hk t r i Hin) as [_ [idx0 [r0 [Hp0 [Hr0 Hl0]]]]].
    pose proof (ievent_val ev s2 t r e Hb) as H. change (si_c s2) with (si_c s) in H.
    assert (Tb : Tback (fun l l' => has_open l' = true -> has_open l = true) (si_c s) (si_c (isys_event ev s2 t r e))).
    { apply (ievent_back ev (fun l l' => has_open l' = true -> has_open l = true) s2 t r e Ia Hfo Hb); [auto|].
      intros i' st' res' acc0 l0 Ee. unfold e in Ee. inversion Ee; subst i' st'. apply open_set_nth. exact Hopen. }
    intros t' r' idx rec l' Hc' Hp' Hr' Hrun Hl' Ho'.
    destruct (tkey_dec (t', r') (t, r)) as [E|Hne]; [|exact (Other e _ H Tb t' r' idx rec l' Hne Hc' Hp' Hr' Hrun Hl' Ho')].
    inversion E; subst t' r'.
    destruct (Tb t r l' Hl') as [l2 [Hl2 Q]]. rewrite Hl in Hl2. inversion Hl2; subst l2.
    assert (Hcur3 : status_in (rstatus r0) [S_RUNNING; S_PAUSING; S_CANCELING] = true).
    { apply F_busy3; [apply busy_rstatus; exact Hl0|apply okst_rstatus; exact (Na idx0 r0 Hr0)]. }
    assert (Hcur : status_in (rstatus r0) [S_PAUSING; S_CANCELING] = true).
    { destruct (status_eqb (rstatus r0) S_RUNNING) eqn:Er.
      - exfalso. apply status_eqb_eq in Er. exact (V t r idx0 r0 l Hcmd Hp0 Hr0 (rstatus_running _ Er) Hl (Q Ho')).
      - destruct (rstatus r0); try discriminate Hcur3; try reflexivity. rewrite status_eqb_refl in Er. discriminate Er. }
    destruct (items_of_entry _ _ _ _ Hl) as [s0 [_ [_ [_ [Hit Hg]]]]].
    exact (own_item_not_running _ _ _ _ _ _ _ _ _ _ _ _ H Ia Pa Hcmd Hst Hg Hit Hil Hp0 Hr0 Hcur idx rec Hp' Hr' Hrun).
  - set (s1 := with_inflight s (ikey_remove (t, r, None) (si_inflight s))) in *.
    pose proof (ievent_val ev s1 t r _ Hb) as H. change (si_c s1) with (si_c s) in H.
    assert (Tb : Tback (fun l l' => has_open l' = true -> has_open l = true) (si_c s) (si_c (isys_event ev s1 t r (EvAction st result)))).
    { apply (ievent_back ev (fun l l' => has_open l' = true -> has_open l = true) s1 t r _ Ia Hfo Hb); [auto|].
      intros i' st' res' acc0 l0 Ee. discriminate Ee. }
    intros t' r' idx rec l' Hc' Hp' Hr' Hrun Hl' Ho'.
    destruct (tkey_dec (t', r') (t, r)) as [E|Hne]; [|exact (Other _ _ H Tb t' r' idx rec l' Hne Hc' Hp' Hr' Hrun Hl' Ho')].
    inversion E; subst t' r'.
    pose proof (own_plain_done ev _ _ _ _ _ _ H Ia Pa Hcmd Na Hst idx rec Hp' Hr') as X. rewrite Hrun in X. discriminate X.
Qed.

Lemma vt_request_c : forall c st c' rr, status_in st request_statuses = true ->
  request_status_core st c = (c', rr) -> P_ok c -> NB c -> VT c -> VT c'.
Proof.
  intros c st c' rr Hst R Pa Na V Hheld.
  destruct (rq_char st c c' rr R Hst Na) as [[Sg [Tk In']] [Ln Mode]].
  intros t r idx rec' l Hcmd Hp' Hr' Hrun Hl' Ho. unfold ws_task_idx in Hp'. rewrite Tk in Hp'.
  destruct (Pa t r idx Hp') as [rec [Hr Hkey]]. rewrite (items_of_staged c c' _ _ Sg) in Hl'.
  destruct Mode as [[W M]|[Hpc M]]; destruct (M idx rec Hr) as [r2 [A2 [K2 S2]]]; rewrite Hr' in A2; inversion A2; subst r2.
  - assert (Hh : held_wf c = true) by (unfold held_wf in *; rewrite <- W; exact Hheld).
    exact (V Hh t r idx rec l Hcmd Hp' Hr (eq_trans (eq_sym S2) Hrun) Hl' Ho).
  - destruct S2 as [Same Told].
    assert (Hpc' : status_in st (app PAUSE_STATUSES CANCEL_STATUSES) = true).
    { apply Hpc. unfold held_wf in Hheld. unfold HELD2. destruct (wstatus (c_ws c')); try discriminate Hheld; simpl; auto. }
    destruct (tact c idx rec) eqn:Et.
    + destruct (Told eq_refl) as [w [ns [Sw [Ens Fin]]]].
      apply tpe_workflow in Ens. unfold key_of in Hkey. replace (r_id rec) with t in Ens by congruence. replace (r_route rec) with r in Ens by congruence.
      destruct (items_of_entry _ _ _ _ Hl') as [s0 [_ [_ [_ [Hit Hg]]]]].
      assert (Hgw : get_staged_task w t r = Some s0) by (unfold get_staged_task in *; rewrite Sw; exact Hg).
      assert (Hact : ostatus_in (r_status rec) ACTIVE_STATUSES = true) by (unfold tact in Et; apply andb_prop in Et; apply Et).
      assert (Hcur : status_in (rstatus rec) [S_RUNNING; S_PAUSING; S_CANCELING] = true).
      { pose proof (okst_rstatus _ (Na idx rec Hr)) as Y. unfold rstatus in *. destruct (r_status rec) as [y|]; [|discriminate Hact].
        simpl in Hact. destruct y; try discriminate Hact; try discriminate Y; reflexivity. }
      rewrite Fin in Hrun.
      destruct (existsb (fun y => status_in y ACTIVE_STATUSES) l) eqn:Eact.
      * pose proof (F_told_active w t r st s0 l (rstatus rec) Hgw Hit Hpc' Eact Hcur) as X. rewrite Ens in X.
        destruct ns as [y|]; simpl in Hrun.
        -- inversion Hrun; subst y. discriminate X.
        -- apply rstatus_running_inv in Hrun. rewrite Hrun in X. discriminate X.
      * destruct ns as [y|]; simpl in Hrun.
        -- inversion Hrun; subst y.
           assert (Hr1 : rstatus rec = S_RUNNING).
           { destruct (status_eqb (rstatus rec) S_RUNNING) eqn:Er; [apply status_eqb_eq in Er; exact Er|]. exfalso.
             rewrite (task_wf_name_eq _ _ _ _ _ _ Hgw Hit Hpc'), Eact in Ens. refine (F_told_dormant_held st _ _ Hpc' _ Ens).
             destruct (rstatus rec); try discriminate Hcur; try reflexivity. rewrite status_eqb_refl in Er. discriminate Er. }
           rewrite Hr1 in Ens.
           destruct (F_told_dormant w t r st s0 l _ Hgw Hit Hpc' Eact Ho Ens) as [y [Ey Hy]]. inversion Ey; subst y. discriminate Hy.
        -- apply rstatus_running_inv in Hrun.
           rewrite Hrun in Ens.
           destruct (F_told_dormant w t r st s0 l _ Hgw Hit Hpc' Eact Ho Ens) as [y [Ey _]]. discriminate Ey.
    + exfalso. unfold tact in Et. rewrite (Same eq_refl) in Hrun. rewrite Hrun in Et.
      unfold ws_task_idx in Hp'. pose proof (pointed_of_idx c t r idx Hp') as X. rewrite X in Et. discriminate Et.
Qed.

End Held.

Section HeldSystem.
Variable ev : string -> dict -> evalres.

Definition vt_inv (s : isys) : Prop := ibad s = false -> VT (si_c s).

Lemma unborn_not_held : forall c, unborn c -> held_wf c = false.
Proof. intros c [_ Hw]. unfold held_wf. rewrite Hw. reflexivity. Qed.

Lemma VB_same : forall c c', sequence (c_ws c') = sequence (c_ws c) -> tasks (c_ws c') = tasks (c_ws c) ->
  staged (c_ws c') = staged (c_ws c) -> VB c -> VB c'.
Proof.
  intros c c' Hs Ht Hg V t r idx rec l Hc Hp Hr Hrun Hl Ho. unfold ws_task_idx in Hp. rewrite Ht in Hp. rewrite Hs in Hr.
  rewrite (items_of_staged c c' _ _ Hg) in Hl. exact (V t r idx rec l Hc Hp Hr Hrun Hl Ho).
Qed.

Lemma vt_live : forall s op, Live s -> VT (si_c s) -> d24_step ev s op = false -> ibad (isys_step ev s op) = false ->
  VT (si_c (isys_step ev s op)).
Proof.
  intros s op [I [R K]] V Hd Hb. pose proof K as [[Ia [Pa [_ [Na _]]]] _].
  assert (Rq : forall st, VT (si_c (isys_request ev s st))).
  { intro st. destruct (irequest_val ev s st Ia) as [->|[c' [x [Hst [Rc [_ ->]]]]]]; [exact V|]. exact (vt_request_c _ st c' x Hst Rc Pa Na V). }
  destruct (is_request op) eqn:Hr; [destruct op; try discriminate Hr; apply Rq|].
  destruct (held_wf (si_c s)) eqn:Eh.
  2: { intro X. unfold d24_step in Hd. rewrite Hr, Eh, X in Hd. apply not_prone_VB. exact Hd. }
  (* pausing / canceling before the step: nothing is offered, a report is told, rendering and persisting keep the records *)
  intros _. specialize (V Eh). destruct op; try discriminate Hr; cbn [isys_step] in *.
  - assert (Hin : In (wstatus (c_ws (si_c s))) [S_PAUSING; S_PAUSED; S_CANCELING; S_CANCELED]).
    { unfold held_wf in Eh. destruct (wstatus (c_ws (si_c s))); try discriminate Eh; simpl; auto. }
    destruct (held_poll_nothing ev s Ia Hin) as [_ X]. rewrite X. exact V.
  - exact (vt_report ev s t route item st result I R K V Hb).
  - destruct (icall_val ev s OpRender Ia (or_introl eq_refl) Hb) as [(Hs & Ht & Hg & _) _]. exact (VB_same _ _ Hs Ht Hg V).
  - destruct (icall_val ev s OpPersist Ia (or_intror eq_refl) Hb) as [(Hs & Ht & Hg & _) _]. exact (VB_same _ _ Hs Ht Hg V).
Qed.

Lemma vt_step : forall s op, isys_inv2 s -> irec_inv s -> sk_inv s -> vt_inv s -> d24_step ev s op = false ->
  vt_inv (isys_step ev s op).
Proof.
  intros s op H2 H3 H4 H5 Hd Hb. pose proof (not_bad_before (fun x => isys_step ev x op) s (fun X => ibad_step_mono ev _ _ X) Hb) as Hb0.
  destruct (live_or_unborn ev s op H2 H3 H4 Hb) as [[Hu E]|[s0 [L [E Hs0]]]]; [rewrite E; exact (H5 Hb0)|].
  destruct Hs0 as [->|[c0 [Hu [En ->]]]]; [exact (vt_live s op L (H5 Hb0) Hd Hb)|].
  (* the state the first call makes is failed or unset, like the one before it *)
  assert (Hq : held_wf c0 = false).
  { destruct Hu as [Hi Hw]. destruct (ensure_fresh ev _ c0 Hi Hw En) as [_ [_ [_ [_ [_ [[W _]|[W _]]]]]]]; unfold held_wf; rewrite W; reflexivity. }
  rewrite E in *. apply vt_live; [exact L|intro X; simpl in X; congruence| |exact Hb].
  unfold d24_step in *. rewrite <- E. simpl. rewrite Hq. rewrite (unborn_not_held _ Hu) in Hd. exact Hd.
Qed.

Lemma vt_run : forall ops s, isys_inv2 s -> irec_inv s -> sk_inv s -> vt_inv s ->
  run_odd ev ops s = false -> run_d24 ev ops s = false -> vt_inv (isys_run ev ops s).
Proof.
  induction ops as [|op ops IH]; intros s H2 H3 H4 H5 Ho Hd; [exact H5|]. cbn [isys_run fold_left]. simpl in Ho, Hd.
  apply orb_false_iff in Ho. destruct Ho as [Ho1 Ho2]. apply orb_false_iff in Hd. destruct Hd as [Hd1 Hd2].
  apply IH; [apply isys_step_inv2; exact H2|apply isys_step_inv3; assumption|apply sk_step; assumption|apply vt_step; assumption|exact Ho2|exact Hd2].
Qed.

End HeldSystem.

Section StuckReachable.
Variable ev : string -> dict -> evalres.
Variables (sp : wf_spec) (g : graph) (inputs parent : dict).

Lemma ireach_sk : forall ops, run_odd ev ops (isys_init sp g inputs parent) = false ->
  sk_inv (ireach ev sp g inputs parent ops).
Proof.
  intros ops Ho. apply (sk_run ev ops _ (isys_init_inv2 sp g inputs parent)); [| |exact Ho].
  - intros _. left. split; reflexivity.
  - intros _. left. split; reflexivity.
Qed.

(* the backward link: behind every active task record there is an action of the task in flight, or the record is
   running and its item table has an item never offered *)
Theorem active_record_backed : forall ops, let s := ireach ev sp g inputs parent ops in
  si_fault s = false -> si_wiped s = false -> run_odd ev ops (isys_init sp g inputs parent) = false ->
  forall t r rec, is_engine_command t = false -> ws_task_entry (c_ws (si_c s)) t r = Some rec ->
    ostatus_in (r_status rec) ACTIVE_STATUSES = true ->
    (exists it, In (t, r, it) (si_inflight s)) \/
    (exists l, items_of (si_c s) t r = Some l /\ r_status rec = Some S_RUNNING /\ has_open l = true).
Proof.
  intros ops s Hf Hw Ho t r rec Hcmd He Ha.
  destruct (ireach_sk ops Ho (ibad_false _ Hf Hw)) as [[Hi Hws]|[[_ [_ [_ [_ B]]]] _]].
  - exfalso. fold s in Hws. unfold ws_task_entry, ws_task_idx in He. rewrite Hws in He. discriminate He.
  - fold s in B. unfold ws_task_entry in He. destruct (ws_task_idx (c_ws (si_c s)) t r) as [idx|] eqn:Hp; [|discriminate He].
    exact (B t r idx rec Logic.I Hcmd Hp He Ha).
Qed.

(* while the flag is down, a workflow that reports pausing / canceling has no running task with an item never offered *)
Theorem held_no_untold_task : forall ops, let s := ireach ev sp g inputs parent ops in
  si_fault s = false -> si_wiped s = false -> run_odd ev ops (isys_init sp g inputs parent) = false ->
  run_d24 ev ops (isys_init sp g inputs parent) = false ->
  In (wstatus (c_ws (si_c s))) [S_PAUSING; S_CANCELING] ->
  forall t r rec l, is_engine_command t = false -> ws_task_entry (c_ws (si_c s)) t r = Some rec ->
    r_status rec = Some S_RUNNING -> items_of (si_c s) t r = Some l -> has_open l = false.
Proof.
  intros ops s Hf Hw Ho Hd Hin t r rec l Hcmd He Hrun Hl.
  assert (V : vt_inv s).
  { apply (vt_run ev ops _ (isys_init_inv2 sp g inputs parent)); [| | |exact Ho|exact Hd].
    - intros _. left. split; reflexivity.
    - intros _. left. split; reflexivity.
    - intros _ X. discriminate X. }
  assert (Hh : held_wf (si_c s) = true) by (unfold held_wf; destruct Hin as [<-|[<-|[]]]; reflexivity).
  destruct (has_open l) eqn:Eo; [|reflexivity]. exfalso.
  unfold ws_task_entry in He. destruct (ws_task_idx (c_ws (si_c s)) t r) as [idx|] eqn:Hp; [|discriminate He].
  exact (V (ibad_false _ Hf Hw) Hh t r idx rec l Hcmd Hp He Hrun Hl Eo).
Qed.

(* T1: pausing / canceling, flag down: an action is in flight *)
Theorem held_has_flight : forall ops, let s := ireach ev sp g inputs parent ops in
  si_fault s = false -> si_wiped s = false -> run_odd ev ops (isys_init sp g inputs parent) = false ->
  run_d24 ev ops (isys_init sp g inputs parent) = false ->
  In (wstatus (c_ws (si_c s))) [S_PAUSING; S_CANCELING] -> exists k, In k (si_inflight s).
Proof.
  intros ops s Hf Hw Ho Hd Hin.
  pose proof (held_has_active_task ev sp g inputs parent ops Hf Hw Hin) as Ha. fold s in Ha.
  apply has_active_HA in Ha. destruct Ha as [i [rec [Hr [Hact Hpt]]]].
  destruct (ireach_sk ops Ho (ibad_false _ Hf Hw)) as [[Hi Hws]|[[_ [Pa [[Xn Xc] _]]] _]].
  { exfalso. fold s in Hws. rewrite Hws in Hr. destruct i; discriminate Hr. }
  fold s in Pa, Xn, Xc.
  unfold ws_pointed in Hpt. apply existsb_exists in Hpt. destruct Hpt as [[[t r] j] [Hin' Hj]]. apply Nat.eqb_eq in Hj. subst j.
  pose proof (In_aget tkey_eqb tkey_eqb_eq _ _ _ Xn Hin') as Hp.
  destruct (Pa t r i Hp) as [rec0 [Hr0 Hkey]]. rewrite Hr in Hr0. inversion Hr0; subst rec0.
  assert (Hcmd : is_engine_command t = false).
  { destruct (is_engine_command t) eqn:Ec; [|reflexivity]. exfalso.
    assert (X : is_engine_command (r_id rec) = true) by (unfold key_of in Hkey; inversion Hkey as [[H0 H1]]; rewrite H0; exact Ec).
    rewrite (Xc i rec Hr X) in Hact. discriminate Hact. }
  assert (He : ws_task_entry (c_ws (si_c s)) t r = Some rec) by (unfold ws_task_entry, ws_task_idx in *; rewrite Hp; exact Hr).
  destruct (active_record_backed ops Hf Hw Ho t r rec Hcmd He Hact) as [[it X]|[l [Hl [Hrun Hop]]]].
  - exists (t, r, it). exact X.
  - exfalso. rewrite (held_no_untold_task ops Hf Hw Ho Hd Hin t r rec l Hcmd He Hrun Hl) in Hop. discriminate Hop.
Qed.

(* T2: pausing / canceling with nothing in flight: the flag is up *)
Theorem held_idle_flagged : forall ops, let s := ireach ev sp g inputs parent ops in
  si_fault s = false -> si_wiped s = false -> run_odd ev ops (isys_init sp g inputs parent) = false ->
  In (wstatus (c_ws (si_c s))) [S_PAUSING; S_CANCELING] -> si_inflight s = [] ->
  run_d24 ev ops (isys_init sp g inputs parent) = true.
Proof.
  intros ops s Hf Hw Ho Hin HF. destruct (run_d24 ev ops (isys_init sp g inputs parent)) eqn:Ed; [reflexivity|]. exfalso.
  destruct (held_has_flight ops Hf Hw Ho Ed Hin) as [k Hk]. fold s in Hk. rewrite HF in Hk. destruct Hk.
Qed.

End StuckReachable.
