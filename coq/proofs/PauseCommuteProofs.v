(* PauseCommuteProofs.v -- C09: a whole update_task_state call commutes with the pause request.

   Setting: a state a whose workflow status is running, and the same state with the status
   overridden to pausing ([so S_PAUSING a]) -- by PauseProofs this is exactly what an accepted pause
   request leaves when no active task carries an item table.  For an evaluator that does not read
   __state ([state_blind]) the two runs of update_task_state proceed in lock step: every piece of the
   call either ignores the workflow status (then the two states stay "equal up to the override"), or is
   request_status_core S_FAILED (both become failed: the states merge), or is the retry gate (running
   and pausing are both active), or is the workflow-machine step at the end, where the two statuses part
   according to the table ([F_pair_running], [F_pair_held], [F_stay]).

   The relational judgement [J P]: m1 run on the overridden state mirrors m2 run on the plain one; the
   override may change (merge) but the pair (override, plain status) stays in the pairing P; results are
   related by a value relation (equality, or equality up to the __state entry of contexts).  [Jp] is [J PairOK];
   PauseCommute2Proofs takes the same pieces at [Jc] = [J PairF]. *)
From Coq Require Import String List Bool ZArith Arith Lia.
From Orq Require Import GenStatuses GenEvents GenTables GenSpecMeta Base State Machines Codec Conductor Decode Api.
From Orq Require Import F_tables F_names Hoare ValuePost StatusReach C04Proofs C05Proofs C09C10Proofs RetryProofs InertProofs QueryProofs PauseProofs StateFacts.
Import ListNotations.
Open Scope string_scope.
Open Scope monad_scope.


Definition so (s : status) (c : cstate) : cstate := set_ws c (ws_set_status (c_ws c) s).

Definition PairOK (s x : status) : Prop := s = x \/ (x = S_RUNNING /\ (s = S_PAUSING \/ s = S_RESUMING)).

Definition rrel {A} (VR : A -> A -> Prop) (r1 r2 : result A) : Prop :=
  match r1, r2 with
  | Val x, Val y => VR x y
  | Exc e, Exc e' => e = e'
  | _, _ => False
  end.

(* m1 on the overridden state mirrors m2 on the plain state *)
Definition Jp {A} (VR : status -> A -> A -> Prop) (m1 m2 : M A) : Prop :=
  forall s a, c_init a = true -> PairOK s (wstatus (c_ws a)) ->
    exists s', fst (m1 (so s a)) = so s' (fst (m2 a)) /\
               c_init (fst (m2 a)) = true /\ PairOK s' (wstatus (c_ws (fst (m2 a)))) /\
               rrel (VR s') (snd (m1 (so s a))) (snd (m2 a)).

Definition Veq {A} : status -> A -> A -> Prop := fun _ x y => x = y.

Definition Vconst {A} (R : A -> A -> Prop) : status -> A -> A -> Prop := fun _ => R.

Definition VRlist {A} (VR : status -> A -> A -> Prop) : status -> list A -> list A -> Prop :=
  fun s l1 l2 => Forall2 (VR s) l1 l2.

Lemma so_so : forall s s' c, so s (so s' c) = so s c.
Proof. reflexivity. Qed.

Lemma so_same : forall c, so (wstatus (c_ws c)) c = c.
Proof. intro c. apply set_status_same. Qed.

Lemma Forall2_eq_eq : forall A (l l' : list A), Forall2 eq l l' -> l = l'.
Proof. intros A l l' H; induction H; [reflexivity|subst; reflexivity]. Qed.


Section Pair.
Variable P : status -> status -> Prop.

Definition mirror {A} (VR : status -> A -> A -> Prop) (m1 m2 : M A) (s : status) (a : cstate) : Prop :=
  exists s', fst (m1 (so s a)) = so s' (fst (m2 a)) /\
             c_init (fst (m2 a)) = true /\ P s' (wstatus (c_ws (fst (m2 a)))) /\
             rrel (VR s') (snd (m1 (so s a))) (snd (m2 a)).

Lemma mirror_step : forall A (VR : status -> A -> A -> Prop) (m1 m2 : M A) s a, mirror VR m1 m2 s a ->
  exists s1 a1, c_init a1 = true /\ P s1 (wstatus (c_ws a1)) /\
    ((exists x y, m1 (so s a) = (so s1 a1, Val x) /\ m2 a = (a1, Val y) /\ VR s1 x y) \/
     (exists e, m1 (so s a) = (so s1 a1, Exc e) /\ m2 a = (a1, Exc e))).
Proof.
  intros A VR m1 m2 s a [s1 [E [I1 [P1 R]]]].
  destruct (m1 (so s a)) as [b1 r1], (m2 a) as [a1 r2]. cbn [fst snd] in *. subst b1.
  exists s1, a1. split; [exact I1|]. split; [exact P1|].
  destruct r1 as [x|e1], r2 as [y|e2]; cbn in R; try contradiction.
  - left. exists x, y. repeat split; assumption.
  - subst e2. right. exists e1. split; reflexivity.
Qed.

Lemma mirror_here : forall A (VR : status -> A -> A -> Prop) (r1 r2 : result A) s a,
  c_init a = true -> P s (wstatus (c_ws a)) -> rrel (VR s) r1 r2 ->
  mirror VR (fun c => (c, r1)) (fun c => (c, r2)) s a.
Proof. intros A VR r1 r2 s a Hi Hp R. exists s. repeat split; assumption. Qed.

Definition J {A} (VR : status -> A -> A -> Prop) (m1 m2 : M A) : Prop :=
  forall s a, c_init a = true -> P s (wstatus (c_ws a)) -> mirror VR m1 m2 s a.

Lemma J_step : forall A (VR : status -> A -> A -> Prop) (m1 m2 : M A), J VR m1 m2 ->
  forall s a, c_init a = true -> P s (wstatus (c_ws a)) ->
  exists s1 a1, c_init a1 = true /\ P s1 (wstatus (c_ws a1)) /\
    ((exists x y, m1 (so s a) = (so s1 a1, Val x) /\ m2 a = (a1, Val y) /\ VR s1 x y) \/
     (exists e, m1 (so s a) = (so s1 a1, Exc e) /\ m2 a = (a1, Exc e))).
Proof. intros A VR m1 m2 H s a Hi Hp. apply mirror_step. exact (H s a Hi Hp). Qed.

Lemma J_ret : forall A (VR : status -> A -> A -> Prop) x y, (forall s, VR s x y) -> J VR (ret x) (ret y).
Proof. intros A VR x y H s a Hi Hp. apply mirror_here; [exact Hi|exact Hp|apply H]. Qed.

Lemma J_raise : forall A (VR : status -> A -> A -> Prop) e, J VR (raise e) (raise e).
Proof. intros A VR e s a Hi Hp. apply mirror_here; [exact Hi|exact Hp|reflexivity]. Qed.

Lemma J_lift_res : forall A (VR : status -> A -> A -> Prop) (r1 r2 : result A),
  (forall s, rrel (VR s) r1 r2) -> J VR (lift_res r1) (lift_res r2).
Proof.
  intros A VR r1 r2 H s a Hi Hp. specialize (H s).
  destruct r1, r2; cbn in H; try contradiction; apply mirror_here; assumption.
Qed.

Lemma J_bind : forall A B (VR1 : status -> A -> A -> Prop) (VR2 : status -> B -> B -> Prop)
  (m1 m2 : M A) (f1 f2 : A -> M B),
  J VR1 m1 m2 -> (forall s x y, VR1 s x y -> J VR2 (f1 x) (f2 y)) -> J VR2 (bind m1 f1) (bind m2 f2).
Proof.
  intros A B VR1 VR2 m1 m2 f1 f2 Hm Hf s a Hi Hp. unfold mirror, bind.
  destruct (J_step _ _ _ _ Hm s a Hi Hp) as [s1 [a1 [I1 [P1 [[x [y [E1 [E2 R]]]]|[e [E1 E2]]]]]]]; rewrite E1, E2.
  - exact (Hf s1 x y R s1 a1 I1 P1).
  - apply (mirror_here _ VR2 (Exc e) (Exc e)); [exact I1|exact P1|reflexivity].
Qed.

Lemma J_try_catch : forall A (VR : status -> A -> A -> Prop) (m1 m2 : M A) h1 h2,
  J VR m1 m2 -> (forall e, J VR (h1 e) (h2 e)) -> J VR (try_catch m1 h1) (try_catch m2 h2).
Proof.
  intros A VR m1 m2 h1 h2 Hm Hh s a Hi Hp. unfold mirror, try_catch.
  destruct (J_step _ _ _ _ Hm s a Hi Hp) as [s1 [a1 [I1 [P1 [[x [y [E1 [E2 R]]]]|[e [E1 E2]]]]]]]; rewrite E1, E2.
  - apply (mirror_here _ VR (Val x) (Val y)); assumption.
  - exact (Hh e s1 a1 I1 P1).
Qed.

Lemma J_try_catch_expr : forall A (VR : status -> A -> A -> Prop) (m1 m2 : M A) h1 h2,
  J VR m1 m2 -> (forall e, J VR (h1 e) (h2 e)) -> J VR (try_catch_expr m1 h1) (try_catch_expr m2 h2).
Proof.
  intros A VR m1 m2 h1 h2 Hm Hh s a Hi Hp. unfold mirror, try_catch_expr.
  destruct (J_step _ _ _ _ Hm s a Hi Hp) as [s1 [a1 [I1 [P1 [[x [y [E1 [E2 R]]]]|[e [E1 E2]]]]]]]; rewrite E1, E2.
  - apply (mirror_here _ VR (Val x) (Val y)); assumption.
  - destruct (x_expr e); [exact (Hh e s1 a1 I1 P1)|].
    apply (mirror_here _ VR (Exc e) (Exc e)); [exact I1|exact P1|reflexivity].
Qed.

Definition VRws : status -> wstate -> wstate -> Prop :=
  fun s w1 w2 => w1 = ws_set_status w2 s /\ P s (wstatus w2).
Definition VRcs : status -> cstate -> cstate -> Prop :=
  fun s c1 c2 => c1 = so s c2 /\ P s (wstatus (c_ws c2)) /\ c_init c2 = true.

Lemma J_getws : J VRws getws getws.
Proof. intros s a Hi Hp. exists s. cbn. repeat split; auto. Qed.

Lemma J_get : J VRcs get get.
Proof. intros s a Hi Hp. exists s. cbn. repeat split; auto. Qed.

Lemma J_modws : forall f, (forall w s, f (ws_set_status w s) = ws_set_status (f w) s) ->
  (forall w, wstatus (f w) = wstatus w) -> J Veq (modws f) (modws f).
Proof.
  intros f Hf Hs s a Hi Hp. exists s. unfold modws, so. cbn [fst snd c_ws set_ws c_init].
  rewrite Hf, Hs. repeat split; auto.
Qed.

Lemma J_modify : forall f, (forall c s, f (so s c) = so s (f c)) ->
  (forall c, wstatus (c_ws (f c)) = wstatus (c_ws c)) -> (forall c, c_init (f c) = c_init c) ->
  J Veq (modify f) (modify f).
Proof.
  intros f Hf Hs Hi' s a Hi Hp. exists s. unfold modify. cbn [fst snd].
  rewrite Hf, Hs, Hi'. repeat split; auto.
Qed.

Lemma J_same : forall A (m1 m2 : M A), state_pure m1 -> state_pure m2 -> same m1 m2 -> J Veq m1 m2.
Proof.
  intros A m1 m2 H1 H2 Hs s a Hi Hp. exists s. rewrite (H1 (so s a)), (H2 a).
  specialize (Hs (so s a) a). split; [reflexivity|]. split; [exact Hi|]. split; [exact Hp|].
  rewrite Hs. destruct (snd (m2 a)); cbn; reflexivity.
Qed.

Lemma J_weaken : forall A (VR VR' : status -> A -> A -> Prop) m1 m2,
  (forall s x y, VR s x y -> VR' s x y) -> J VR m1 m2 -> J VR' m1 m2.
Proof.
  intros A VR VR' m1 m2 H Hm s a Hi Hp. destruct (Hm s a Hi Hp) as [s' [E [I [P' R]]]]. exists s'.
  repeat split; auto. destruct (snd (m1 (so s a))), (snd (m2 a)); cbn in *; auto.
Qed.

Lemma J_mapM : forall A B (R : B -> B -> Prop) (f1 f2 : A -> M B) l,
  (forall x, J (Vconst R) (f1 x) (f2 x)) -> J (Vconst (Forall2 R)) (mapM f1 l) (mapM f2 l).
Proof.
  intros A B R f1 f2 l Hf; induction l as [|x l IH]; cbn [mapM].
  - apply J_ret. intro; constructor.
  - eapply J_bind; [apply Hf|]. intros s y1 y2 Hy.
    eapply J_bind; [exact IH|]. intros s' l1 l2 Hl. apply J_ret. intro. constructor; assumption.
Qed.

Lemma J_forM : forall A (f1 f2 : A -> M unit) l, (forall x, J Veq (f1 x) (f2 x)) -> J Veq (forM_ l f1) (forM_ l f2).
Proof.
  intros A f1 f2 l Hf; induction l as [|x l IH]; cbn [forM_].
  - apply J_ret. intro; reflexivity.
  - eapply J_bind; [apply Hf|]. intros s u1 u2 _. exact IH.
Qed.

Lemma J_mapM_eq : forall A B (f1 f2 : A -> M B) l, (forall x, J Veq (f1 x) (f2 x)) -> J Veq (mapM f1 l) (mapM f2 l).
Proof.
  intros A B f1 f2 l Hf. eapply J_weaken; [|apply (J_mapM _ _ eq); exact Hf].
  intros s x y H. apply Forall2_eq_eq. exact H.
Qed.

(* J under a precondition Q on the plain state *)
Definition Jq {A} (Q : cstate -> Prop) (VR : status -> A -> A -> Prop) (m1 m2 : M A) : Prop :=
  forall s a, c_init a = true -> P s (wstatus (c_ws a)) -> Q a -> mirror VR m1 m2 s a.

Lemma Jq_of_J : forall A (Q : cstate -> Prop) (VR : status -> A -> A -> Prop) m1 m2, J VR m1 m2 -> Jq Q VR m1 m2.
Proof. intros A Q VR m1 m2 H s a Hi Hp _. exact (H s a Hi Hp). Qed.

Lemma Jq_weaken_pre : forall A (Q Q' : cstate -> Prop) (VR : status -> A -> A -> Prop) m1 m2,
  (forall a, Q' a -> Q a) -> Jq Q VR m1 m2 -> Jq Q' VR m1 m2.
Proof. intros A Q Q' VR m1 m2 H Hm s a Hi Hp Hq. exact (Hm s a Hi Hp (H a Hq)). Qed.

Lemma Jq_assume : forall A (X : Prop) (Q : cstate -> Prop) (VR : status -> A -> A -> Prop) m1 m2,
  (X -> Jq Q VR m1 m2) -> Jq (fun a => Q a /\ X) VR m1 m2.
Proof. intros A X Q VR m1 m2 H s a Hi Hp [Hq HX]. exact (H HX s a Hi Hp Hq). Qed.

(* bind, the continuation learning how the plain run of the first part went *)
Lemma Jq_bind_run : forall A B (Q : cstate -> Prop) (Q' : A -> cstate -> Prop)
  (VR1 : status -> A -> A -> Prop) (VR2 : status -> B -> B -> Prop) (m1 m2 : M A) (f1 f2 : A -> M B),
  Jq Q VR1 m1 m2 -> (forall a a1 y, Q a -> m2 a = (a1, Val y) -> Q' y a1) ->
  (forall s x y, VR1 s x y -> Jq (Q' y) VR2 (f1 x) (f2 y)) -> Jq Q VR2 (bind m1 f1) (bind m2 f2).
Proof.
  intros A B Q Q' VR1 VR2 m1 m2 f1 f2 Hm Hq Hf s a Hi Hp HQ. unfold mirror, bind.
  destruct (mirror_step _ _ _ _ _ _ (Hm s a Hi Hp HQ)) as [s1 [a1 [I1 [P1 [[x [y [E1 [E2 R]]]]|[e [E1 E2]]]]]]];
    rewrite E1, E2.
  - exact (Hf s1 x y R s1 a1 I1 P1 (Hq a a1 y HQ E2)).
  - apply (mirror_here _ VR2 (Exc e) (Exc e)); [exact I1|exact P1|reflexivity].
Qed.

(* the end of a call: equal results, final states related by F instead of by an override *)
Definition Jfin (Q : cstate -> Prop) (F : cstate -> cstate -> Prop) (m1 m2 : M unit) : Prop :=
  forall s a, c_init a = true -> P s (wstatus (c_ws a)) -> Q a ->
    snd (m1 (so s a)) = snd (m2 a) /\ F (fst (m1 (so s a))) (fst (m2 a)).

Lemma Jfin_assume : forall (X : Prop) (Q : cstate -> Prop) (F : cstate -> cstate -> Prop) (m1 m2 : M unit),
  (X -> Jfin Q F m1 m2) -> Jfin (fun a => Q a /\ X) F m1 m2.
Proof. intros X Q F m1 m2 H s a Hi Hp [Hq HX]. exact (H HX s a Hi Hp Hq). Qed.

Section Fin.
Variable F : cstate -> cstate -> Prop.
Hypothesis F_so : forall s a, c_init a = true -> P s (wstatus (c_ws a)) -> F (so s a) a.

Lemma Jfin_bind_run : forall A (Q : cstate -> Prop) (Q' : A -> cstate -> Prop) (VR : status -> A -> A -> Prop)
  (m1 m2 : M A) (f1 f2 : A -> M unit),
  Jq Q VR m1 m2 -> (forall a a1 y, Q a -> m2 a = (a1, Val y) -> Q' y a1) ->
  (forall s x y, VR s x y -> Jfin (Q' y) F (f1 x) (f2 y)) -> Jfin Q F (bind m1 f1) (bind m2 f2).
Proof.
  intros A Q Q' VR m1 m2 f1 f2 Hm Hq Hf s a Hi Hp HQ. unfold bind.
  destruct (mirror_step _ _ _ _ _ _ (Hm s a Hi Hp HQ)) as [s1 [a1 [I1 [P1 [[x [y [E1 [E2 R]]]]|[e [E1 E2]]]]]]];
    rewrite E1, E2.
  - exact (Hf s1 x y R s1 a1 I1 P1 (Hq a a1 y HQ E2)).
  - split; [reflexivity|apply F_so; assumption].
Qed.

Lemma Jfin_of_J : forall Q (m1 m2 : M unit), J Veq m1 m2 -> Jfin Q F m1 m2.
Proof.
  intros Q m1 m2 H s a Hi Hp _.
  destruct (J_step _ _ _ _ H s a Hi Hp) as [s1 [a1 [I1 [P1 [[x [y [E1 [E2 R]]]]|[e [E1 E2]]]]]]]; rewrite E1, E2.
  - destruct x, y. split; [reflexivity|apply F_so; assumption].
  - split; [reflexivity|apply F_so; assumption].
Qed.
End Fin.

End Pair.


Lemma upd_comm : forall w s i f, ws_update_rec (ws_set_status w s) i f = ws_set_status (ws_update_rec w i f) s.
Proof. intros. unfold ws_update_rec. cbn [sequence ws_set_status]. destruct (nth_error (sequence w) i); reflexivity. Qed.

Lemma rem_comm : forall w s t r, ws_remove_staged_task (ws_set_status w s) t r = ws_set_status (ws_remove_staged_task w t r) s.
Proof.
  intros. unfold ws_remove_staged_task, get_staged_task. cbn [staged ws_set_status].
  destruct (find (stg_matches t r) (staged w)) as [e|]; [|reflexivity]. destruct (items_any_active e); reflexivity.
Qed.

Lemma q_staged_so : forall w s t r, get_staged_task (ws_set_status w s) t r = get_staged_task w t r.
Proof. reflexivity. Qed.
Lemma q_idx_so : forall w s t r, ws_task_idx (ws_set_status w s) t r = ws_task_idx w t r.
Proof. reflexivity. Qed.
Lemma q_entry_so : forall w s t r, ws_task_entry (ws_set_status w s) t r = ws_task_entry w t r.
Proof. reflexivity. Qed.
Lemma q_gics_so : forall g w s t r, get_inbound_criteria_status g (ws_set_status w s) t r = get_inbound_criteria_status g w t r.
Proof. reflexivity. Qed.
Lemma q_tpe_so : forall w s r e, task_process_event (ws_set_status w s) r e = task_process_event w r e.
Proof. intros. destruct e; reflexivity. Qed.
Lemma q_wfname_so : forall g w s t route st, wf_task_event_name g (ws_set_status w s) t route st = wf_task_event_name g w t route st.
Proof. reflexivity. Qed.
Lemma q_terminal_so : forall w s, get_terminal_tasks (ws_set_status w s) = get_terminal_tasks w.
Proof. reflexivity. Qed.

Create HintDb presj.

Ltac jleaf :=
  first
    [ apply J_modws; [intros; first [reflexivity|apply upd_comm|apply rem_comm]
                     |intros; first [reflexivity|apply wstatus_update_rec|apply wstatus_remove_staged]]
    | apply J_modify; [intros; unfold so; cbn [c_errors set_ws c_ws]; try reflexivity;
                       match goal with |- context [if ?b then _ else _] => destruct b end; reflexivity
                      |intros; try reflexivity; match goal with |- context [if ?b then _ else _] => destruct b end; reflexivity
                      |intros; try reflexivity; match goal with |- context [if ?b then _ else _] => destruct b end; reflexivity]
    | assumption
    | solve [eauto 3 with presj] ].

Ltac jnorm :=
  cbv zeta; unfold so;
  cbn [c_spec c_graph c_inputs c_parent c_init c_ws c_errors c_log c_output set_ws
       contexts routes sequence staged tasks reruns wstatus ws_set_status];
  fold so;
  repeat match goal with
         | |- context [get_staged_task (ws_set_status _ _)] => rewrite q_staged_so
         | |- context [ws_task_idx (ws_set_status _ _)] => rewrite q_idx_so
         | |- context [ws_task_entry (ws_set_status _ _)] => rewrite q_entry_so
         | |- context [get_inbound_criteria_status _ (ws_set_status _ _)] => rewrite q_gics_so
         | |- context [task_process_event (ws_set_status _ _)] => rewrite q_tpe_so
         end.

(* the walk over two copies of the same monadic text; leaves: the rules above, and the hints of presj *)
Ltac jw :=
  jnorm;
  lazymatch goal with
  | |- J _ _ (ret _) (ret _) => apply J_ret; intro; first [reflexivity|idtac]
  | |- J _ _ (raise _) (raise _) => apply J_raise
  | |- J _ _ (bind getws _) (bind getws _) =>
      eapply J_bind; [apply J_getws|]; let s := fresh "s" in let w1 := fresh "w1" in let w2 := fresh "w2" in
      let E := fresh "E" in let P := fresh "Pw" in intros s w1 w2 [E P]; subst w1; jw
  | |- J _ _ (bind get _) (bind get _) =>
      eapply J_bind; [apply J_get|]; let s := fresh "s" in let c1 := fresh "c1" in let c2 := fresh "c2" in
      let E := fresh "E" in let P := fresh "Pc" in let I := fresh "Ic" in intros s c1 c2 [E [P I]]; subst c1; jw
  | |- J _ _ (bind _ _) (bind _ _) =>
      eapply (J_bind _ _ _ Veq); [jw|]; let s := fresh "s" in let x := fresh "x" in let y := fresh "y" in
      let E := fresh "E" in intros s x y E; unfold Veq in E; subst x; jw
  | |- J _ _ (try_catch _ _) (try_catch _ _) => apply J_try_catch; [jw|intro; jw]
  | |- J _ _ (try_catch_expr _ _) (try_catch_expr _ _) => apply J_try_catch_expr; [jw|intro; jw]
  | |- J _ _ (forM_ _ _) (forM_ _ _) => apply J_forM; intro; jw
  | |- J _ _ (mapM _ _) (mapM _ _) => apply J_mapM_eq; intro; jw
  | |- J _ _ (lift_res _) (lift_res _) => apply J_lift_res; intro;
      match goal with |- rrel _ ?r1 ?r2 => replace r1 with r2 by reflexivity; destruct r2; cbn; reflexivity end
  | |- J _ _ (match ?x with _ => _ end) (match ?y with _ => _ end) =>
      first [unify x y | replace x with y by reflexivity]; destruct y; jw
  | |- J _ _ ?m1 ?m2 =>
      first [ solve [jleaf]
            | let h := head_of m1 in progress (unfold h); jw
            | progress (cbv beta); jw
            | idtac ]
  end.


Definition compl_sim (c1 c2 : option (dict * bool)) : Prop :=
  match c1, c2 with
  | Some (x1, b1), Some (x2, b2) => sim x1 x2 /\ b1 = b2
  | None, None => True
  | _, _ => False
  end.

Definition pre_sim (p1 p2 : pre_out) : Prop :=
  po_ts p1 = po_ts p2 /\ po_idx p1 = po_idx p2 /\ po_old p1 = po_old p2 /\ po_new p1 = po_new p2 /\
  compl_sim (po_compl p1) (po_compl p2).


Section Pieces.
Variable P : status -> status -> Prop.
Hypothesis P_refl : forall x, P x x.
Hypothesis P_fail : forall s x, P s x -> s <> x ->
  tbl_step wf_table x "workflow_failed" = Some S_FAILED /\ tbl_step wf_table s "workflow_failed" = Some S_FAILED.
Variable ev : string -> dict -> evalres.
Hypothesis Hblind : state_blind ev.

Lemma J_rsc_failed : J P Veq (request_status_core S_FAILED) (request_status_core S_FAILED).
Proof.
  intros s a Hi Hp. unfold mirror. destruct (status_eqb s (wstatus (c_ws a))) eqn:Es.
  - apply status_eqb_eq in Es. subst s. rewrite so_same.
    exists (wstatus (c_ws (fst (request_status_core S_FAILED a)))). rewrite so_same.
    split; [reflexivity|]. split; [|split; [apply P_refl|]].
    + destruct (request_status_core S_FAILED a) as [a1 r] eqn:E. cbn [fst].
      pose proof (presi_request_status_core S_FAILED a a1 r E Hi) as X. exact X.
    + destruct (snd (request_status_core S_FAILED a)); cbn; reflexivity.
  - assert (Hne : s <> wstatus (c_ws a)) by (intro E; subst; rewrite status_eqb_refl in Es; discriminate).
    destruct (P_fail _ _ Hp Hne) as [T1 T2]. rewrite !rsc_failed_run.
    change (wstatus (c_ws (so s a))) with s. rewrite T1, T2.
    exists S_FAILED. cbn [fst snd]. split; [reflexivity|]. split; [exact Hi|]. split; [apply P_refl|reflexivity].
Qed.
Hint Resolve J_rsc_failed : presj.

Lemma J_eval : forall stmt c1 c2, sim c1 c2 -> J P Veq (evaluate ev stmt c1) (evaluate ev stmt c2).
Proof. intros. apply J_same; [apply evaluate_pure|apply evaluate_pure|apply evaluate_same; assumption]. Qed.
Hint Resolve J_eval sim_refl sim_dset sim_state_ctx : presj.

Lemma J_ensure_ws : J P Veq (ensure_ws ev) (ensure_ws ev).
Proof.
  intros s a Hi Hp. unfold mirror. assert (Hi' : c_init (so s a) = true) by exact Hi.
  rewrite (ensure_ws_inited ev a Hi), (ensure_ws_inited ev (so s a) Hi'). exists s. cbn. repeat split; auto.
Qed.

Lemma j_log_entry_error : forall m t r tr res, J P Veq (log_entry_error m t r tr res) (log_entry_error m t r tr res).
Proof. intros; unfold log_entry_error; jw. Qed.
Hint Resolve j_log_entry_error : presj.
Lemma j_log_error : forall e t r tr, J P Veq (log_error e t r tr) (log_error e t r tr).
Proof. intros; unfold log_error; auto with presj. Qed.
Hint Resolve j_log_error : presj.
Lemma j_log_errors : forall es t r tr, J P Veq (log_errors es t r tr) (log_errors es t r tr).
Proof. intros; unfold log_errors; jw. Qed.
Hint Resolve j_log_errors : presj.
Lemma j_set_rec_status : forall j st, J P Veq (set_rec_status j st) (set_rec_status j st).
Proof. intros; unfold set_rec_status; jw. Qed.
Hint Resolve j_set_rec_status : presj.
Lemma j_upd_rec : forall j f, J P Veq (upd_rec j f) (upd_rec j f).
Proof. intros; unfold upd_rec; jw. Qed.
Hint Resolve j_upd_rec : presj.
Lemma j_get_rec : forall j, J P Veq (get_rec j) (get_rec j).
Proof. intros; unfold get_rec; jw. Qed.
Hint Resolve j_get_rec : presj.
Lemma j_get_task_context : forall idxs, J P Veq (get_task_context idxs) (get_task_context idxs).
Proof. intros; unfold get_task_context; jw. Qed.
Hint Resolve j_get_task_context : presj.
Lemma j_setup_retry : forall t idxs, J P Veq (setup_retry ev t idxs) (setup_retry ev t idxs).
Proof.
  intros t idxs. unfold setup_retry.
  eapply J_bind; [apply J_get|]. intros s c1 c2 [E [Pc Ic]]; subst c1. change (c_graph (so s c2)) with (c_graph c2).
  destruct (g_retry_spec (c_graph c2) t) as [| | | | | |d]; try apply J_raise.
  eapply (J_bind _ _ _ Veq); [apply j_get_task_context|]. intros s1 x in_ctx E; unfold Veq in E; subst x.
  eapply (J_bind _ _ _ Veq).
  { destruct (dget "delay" d) as [[| | | |s0| |]|]; try (apply J_ret; intro; reflexivity). jw. }
  intros s2 x delay E; unfold Veq in E; subst x.
  eapply (J_bind _ _ _ Veq).
  { destruct (dget "count" d) as [[| | | |s0| |]|]; try (apply J_ret; intro; reflexivity). jw. }
  intros s3 x count E; unfold Veq in E; subst x. apply J_ret; intro; reflexivity.
Qed.
Hint Resolve j_setup_retry : presj.
Lemma j_add_task_state : forall t r ins p, J P Veq (add_task_state ev t r ins p) (add_task_state ev t r ins p).
Proof. intros; unfold add_task_state; jw. Qed.
Hint Resolve j_add_task_state : presj.

Lemma j_render_vars : forall specs r1 r2 rendered errs, sim r1 r2 ->
  J P Veq (render_vars ev specs r1 rendered errs) (render_vars ev specs r2 rendered errs).
Proof.
  induction specs as [|[n d] specs IH]; intros r1 r2 rendered errs Hs; cbn [render_vars]; [apply J_ret; intro; reflexivity|].
  eapply (J_bind _ _ _ Veq).
  - apply J_try_catch_expr; [|intro; apply J_ret; intro; reflexivity].
    eapply (J_bind _ _ _ Veq); [apply J_eval; exact Hs|]. intros s x y E; unfold Veq in E; subst. apply J_ret; intro; reflexivity.
  - intros s x y E; unfold Veq in E; subst x. destruct y as [v|e]; apply IH; [apply sim_dset|]; exact Hs.
Qed.

Lemma j_finalize_context : forall ts e c1 c2, sim c1 c2 -> J P Veq (finalize_context ev ts e c1) (finalize_context ev ts e c2).
Proof.
  intros ts e c1 c2 Hs. unfold finalize_context. destruct (nth_error (ts_next ts) (e_ref e)) as [tr|]; [|apply J_raise].
  destruct (string_in (e_dst e) (tr_do tr)); [apply j_render_vars; exact Hs|apply J_ret; intro; reflexivity].
Qed.

Lemma j_evaluate_route : forall e r, J P Veq (evaluate_route e r) (evaluate_route e r).
Proof. intros; unfold evaluate_route; jw. Qed.
Hint Resolve j_evaluate_route : presj.

Lemma j_evaluate_task_retry : forall r c1 c2, sim c1 c2 -> J P Veq (evaluate_task_retry ev r c1) (evaluate_task_retry ev r c2).
Proof.
  intros r c1 c2 Hs. unfold evaluate_task_retry. destruct (r_retry r) as [rr|]; [|apply J_ret; intro; reflexivity].
  destruct (negb (py_is_int (rr_count rr))); [apply J_raise|].
  destruct (Z.leb _ _); [apply J_ret; intro; reflexivity|].
  destruct (status_in (rstatus r) ABENDED_STATUSES && is_jnull (rr_when rr)); [apply J_ret; intro; reflexivity|].
  eapply (J_bind _ _ _ Veq); [apply J_eval; exact Hs|]. intros s x y E; unfold Veq in E; subst. apply J_ret; intro; reflexivity.
Qed.

Lemma j_process_transition : forall t route idx ts c1 c2 e, sim c1 c2 ->
  J P Veq (process_transition ev t route idx ts c1 e) (process_transition ev t route idx ts c2 e).
Proof.
  intros t route idx ts c1 c2 e Hs. unfold process_transition. cbv zeta.
  eapply (J_bind _ _ _ Veq).
  - apply J_try_catch.
    + eapply (J_bind _ _ _ Veq); [apply J_mapM_eq; intro cr; apply J_eval; exact Hs|].
      intros s x y E; unfold Veq in E; subst x. jw.
    + intro x. jw.
  - intros s x y E; unfold Veq in E; subst x. destruct y as [[|]|]; try (apply J_ret; intro; reflexivity).
    eapply (J_bind _ _ _ Veq); [apply j_finalize_context; exact Hs|].
    intros s0 x y E; unfold Veq in E; subst x. destruct y as [new_ctx errors]. destruct errors as [|x0 errs]; jw.
Qed.

Lemma j_need_staged : forall s0, J P Veq (uts_need_staged s0) (uts_need_staged s0).
Proof. intros; unfold uts_need_staged; jw. Qed.
Hint Resolve j_need_staged : presj.
Lemma j_sel1 : forall t s0 e0, J P Veq (uts_sel1 ev t s0 e0) (uts_sel1 ev t s0 e0).
Proof. intros; unfold uts_sel1; jw. Qed.
Lemma j_sel2 : forall t evt s0 r1 j, J P Veq (uts_sel2 ev t evt s0 r1 j) (uts_sel2 ev t evt s0 r1 j).
Proof. intros; unfold uts_sel2; jw. Qed.
Lemma j_unstage : forall t route evt s0, J P Veq (uts_unstage t route evt s0) (uts_unstage t route evt s0).
Proof. intros; unfold uts_unstage; jw. Qed.
Lemma j_item : forall t route evt s0, J P Veq (uts_item t route evt s0) (uts_item t route evt s0).
Proof. intros; unfold uts_item; jw. Qed.
Lemma j_logfail : forall t evt, J P Veq (uts_logfail t evt) (uts_logfail t evt).
Proof. intros; unfold uts_logfail; jw. Qed.
Lemma j_setst : forall idx ns, J P Veq (uts_setst idx ns) (uts_setst idx ns).
Proof. intros; unfold uts_setst; jw. Qed.
Lemma j_retrying : forall t route idx r ns, J P Veq (uts_retrying t route idx r ns) (uts_retrying t route idx r ns).
Proof. intros; unfold uts_retrying; jw. Qed.

Lemma j_queue : forall t route idx ts old new c1 c2, compl_sim c1 c2 ->
  J P Veq (uts_queue ev t route idx ts old new c1) (uts_queue ev t route idx ts old new c2).
Proof.
  intros t route idx ts old new c1 c2 Hc. unfold uts_queue.
  destruct c1 as [[x1 b1]|], c2 as [[x2 b2]|]; cbn in Hc; try contradiction; [|apply J_ret; intro; reflexivity].
  destruct Hc as [Hs _]. destruct (negb (status_eqb new old)); [|apply J_ret; intro; reflexivity].
  eapply J_bind; [apply J_get|]. intros s1 cc1 cc2 [E [Pc Ic]]; subst cc1. jnorm.
  eapply (J_bind _ _ _ Veq); [jw|]. intros s2 u u' _.
  eapply (J_bind _ _ _ Veq); [apply J_mapM_eq; intro e; apply j_process_transition; exact Hs|].
  intros s3 rs rs' E; unfold Veq in E; subst rs'. jw.
Qed.

(* when the record the call works on carries no retry policy the retry gate is moot, whatever the two statuses *)
Definition NR (idx : nat) (a : cstate) : Prop :=
  exists r, nth_error (sequence (c_ws a)) idx = Some r /\ r_retry r = None.

(* compl_sim / pre_sim with the retry decision false *)
Definition compl_nf (c1 c2 : option (dict * bool)) : Prop :=
  compl_sim c1 c2 /\ (forall x b, c2 = Some (x, b) -> b = false).

Lemma evaluate_task_retry_none : forall r ctx, r_retry r = None -> evaluate_task_retry ev r ctx = ret false.
Proof. intros r ctx H. unfold evaluate_task_retry. rewrite H. reflexivity. Qed.

Lemma jq_completion : forall t route evt ts idx new old,
  Jq P (NR idx) (Vconst compl_nf) (uts_completion ev t route evt ts idx new old) (uts_completion ev t route evt ts idx new old).
Proof.
  intros t route evt ts idx new old. unfold uts_completion.
  destruct (status_in new COMPLETED_STATUSES).
  2: { apply Jq_of_J. apply J_ret. intro. split; [exact I|]. intros x b H; discriminate H. }
  eapply (Jq_bind_run _ _ _ _ (fun _ => NR idx) Veq).
  { apply Jq_of_J. jw. }
  { intros a a1 y [r [Hn Hr]] H. exists r. split; [|exact Hr].
    destruct (negb (task_has_items ts && status_in new ABENDED_STATUSES)).
    - unfold modws in H. inversion H; subst. cbn [c_ws set_ws]. rewrite seq_remove_staged. exact Hn.
    - unfold bind, getws in H. destruct (get_staged_task (c_ws a) t route); [|discriminate H].
      unfold modws in H. inversion H; subst. exact Hn. }
  intros s0 u1 u2 _. cbv zeta.
  eapply (Jq_bind_run _ _ _ _ (fun r a1 => True /\ r_retry r = None) Veq).
  { apply Jq_of_J. apply j_get_rec. }
  { intros a a1 y [r [Hn Hr]] H. apply get_rec_inv in H. destruct H as [-> Hy]. rewrite Hn in Hy. inversion Hy; subst y.
    split; [exact I|exact Hr]. }
  intros s1 r r' E; unfold Veq in E; subst r'. apply (Jq_assume _ _ _ (fun _ => True)). intro Hr. apply Jq_of_J.
  eapply (J_bind _ _ _ Veq); [apply j_get_task_context|]. intros s2 in_ctx in_ctx' E; unfold Veq in E; subst in_ctx'.
  eapply J_bind; [apply J_getws|]. intros s3 w1 w2 [E Pw]; subst w1.
  rewrite !(evaluate_task_retry_none r _ Hr).
  eapply (J_bind _ _ _ (Vconst (fun x y : bool => x = y /\ y = false))).
  - apply J_try_catch.
    + match goal with |- J _ _ (if ?g1 then _ else _) (if ?g2 then _ else _) => destruct g1, g2 end;
        apply J_ret; intro; split; reflexivity.
    + intro x. eapply (J_bind _ _ _ Veq); [apply j_log_error|]. intros s4 u3 u4 _.
      eapply (J_bind _ _ _ Veq); [apply J_rsc_failed|]. intros s5 u5 u6 _. apply J_ret; intro; split; reflexivity.
  - intros s4 b b' [E Eb]; subst b b'.
    apply J_ret. intro. split; [split; [apply sim_state_ctx|reflexivity]|].
    intros x0 b0 H; inversion H; subst. reflexivity.
Qed.

Definition pre_nf (p1 p2 : pre_out) : Prop :=
  pre_sim p1 p2 /\ (forall x b, po_compl p2 = Some (x, b) -> b = false).

Lemma jq_pre_machine : forall t route evt ts idx,
  Jq P (NR idx) (Vconst pre_nf) (pre_machine ev t route evt ts idx) (pre_machine ev t route evt ts idx).
Proof.
  intros t route evt ts idx. unfold pre_machine.
  eapply (Jq_bind_run _ _ _ _ (fun r a1 => nth_error (sequence (c_ws a1)) idx = Some r /\ r_retry r = None) Veq).
  { apply Jq_of_J. apply j_get_rec. }
  { intros a a1 y [r [Hn Hr]] H. apply get_rec_inv in H. destruct H as [-> Hy]. rewrite Hn in Hy. inversion Hy; subst y.
    split; assumption. }
  intros s0 r r' E; unfold Veq in E; subst r'.
  eapply (Jq_bind_run _ _ _ _ (fun _ a1 => nth_error (sequence (c_ws a1)) idx = Some r /\ r_retry r = None)).
  { apply Jq_of_J. apply J_getws. }
  { intros a a1 y Hq H. unfold getws in H. inversion H; subst. exact Hq. }
  intros s1 w1 w2 [E Pw]; subst w1. rewrite q_tpe_so.
  eapply (Jq_bind_run _ _ _ _ (fun _ a1 => nth_error (sequence (c_ws a1)) idx = Some r /\ r_retry r = None) Veq).
  { apply Jq_of_J. apply J_lift_res; intro; destruct (task_process_event w2 r evt); cbn; reflexivity. }
  { intros a a1 y Hq H. apply lift_res_inv in H. destruct H as [-> _]. exact Hq. }
  intros s2 ns ns' E; unfold Veq in E; subst ns'.
  eapply (Jq_bind_run _ _ _ _ (fun _ a1 => nth_error (sequence (c_ws a1)) idx = Some (stepped r ns) /\ r_retry r = None) Veq).
  { apply Jq_of_J. apply j_setst. }
  { intros a a1 y [Hn Hr] H. destruct (setst_inv _ _ _ _ _ _ H Hn) as [_ [_ [_ Hn']]]. split; [exact Hn'|exact Hr]. }
  intros s3 u u' _.
  eapply (Jq_bind_run _ _ _ _ (fun r1 a1 => (nth_error (sequence (c_ws a1)) idx = Some r1 /\ r_retry r1 = None)) Veq).
  { apply Jq_of_J. apply j_get_rec. }
  { intros a a1 y [Hn Hr] H. apply get_rec_inv in H. destruct H as [-> Hy]. rewrite Hn in Hy. inversion Hy; subst y.
    split; [exact Hn|]. rewrite stepped_retry. exact Hr. }
  intros s4 r1 r1' E; unfold Veq in E; subst r1'.
  eapply (Jq_bind_run _ _ _ _ (fun _ a1 => NR idx a1) Veq).
  { apply Jq_of_J. apply j_retrying. }
  { intros a a1 y [Hn Hr] H. exists r1. unfold uts_retrying in H.
    destruct (status_eqb (rstatus r1) S_RETRYING).
    - rewrite Hr in H. discriminate H.
    - inversion H; subst. split; assumption. }
  intros s5 u1 u1' _.
  eapply (Jq_bind_run _ _ _ _ (fun _ _ => True)); [apply jq_completion|trivial|].
  intros s6 c1 c2 [Hc Hf]. apply Jq_of_J. apply J_ret. intro. split; [repeat split; assumption|exact Hf].
Qed.

(* the calls delivering an engine command: the record is fresh, and without retry policy when the graph has none for it *)
Definition cmd_pre (t : string) (a : cstate) : Prop :=
  is_engine_command t = true /\ g_task_has_retry (c_graph a) t = false.

Lemma jq_pre_main : forall t route evt ts s0 e0,
  Jq P (fun a => cmd_pre t a /\ (forall s, s0 = Some s -> s_route s = route) /\ e0 = ws_task_idx (c_ws a) t route)
      (Vconst pre_nf) (pre_main ev t route evt ts s0 e0) (pre_main ev t route evt ts s0 e0).
Proof.
  intros t route evt ts s0 e0. unfold pre_main.
  set (Q0 := fun a => cmd_pre t a /\ (forall s, s0 = Some s -> s_route s = route) /\ e0 = ws_task_idx (c_ws a) t route).
  eapply (Jq_bind_run _ _ _ _ (fun i1 a1 => exists a0, Q0 a0 /\ uts_sel1 ev t s0 e0 a0 = (a1, Val i1)) Veq).
  { apply Jq_of_J. apply j_sel1. }
  { intros a a1 y Hq H. exists a. split; assumption. }
  intros s1 i1 i1' E; unfold Veq in E; subst i1'.
  eapply (Jq_bind_run _ _ _ _ (fun r1 a1 => (exists a0, Q0 a0 /\ uts_sel1 ev t s0 e0 a0 = (a1, Val i1)) /\
                                           nth_error (sequence (c_ws a1)) i1 = Some r1) Veq).
  { apply Jq_of_J. apply j_get_rec. }
  { intros a a1 y Hq H. apply get_rec_inv in H. destruct H as [-> Hy]. split; assumption. }
  intros s2 r1 r1' E; unfold Veq in E; subst r1'.
  eapply (Jq_bind_run _ _ _ _ (fun i a2 => exists a0 a1, Q0 a0 /\ uts_sel1 ev t s0 e0 a0 = (a1, Val i1) /\
                                           nth_error (sequence (c_ws a1)) i1 = Some r1 /\
                                           uts_sel2 ev t evt s0 r1 i1 a1 = (a2, Val i) /\ Rk a2 a2) Veq).
  { apply Jq_of_J. apply j_sel2. }
  { intros a a1 y [[a0 [Hq0 E1]] Hr1] H. exists a0, a. split; [exact Hq0|]. split; [exact E1|]. split; [exact Hr1|]. split; [exact H|apply Rk_refl]. }
  intros s3 i i' E; unfold Veq in E; subst i'.
  (* unstage, item, logfail keep the records and the pointers *)
  assert (Step : forall (m : M unit), preserves Rk m -> J P Veq m m ->
            forall (k1 k2 : M pre_out),
            Jq P (fun a5 => exists a0 a1 a2, Q0 a0 /\ uts_sel1 ev t s0 e0 a0 = (a1, Val i1) /\
                             nth_error (sequence (c_ws a1)) i1 = Some r1 /\
                             uts_sel2 ev t evt s0 r1 i1 a1 = (a2, Val i) /\ Rk a2 a5) (Vconst pre_nf) k1 k2 ->
            Jq P (fun a5 => exists a0 a1 a2, Q0 a0 /\ uts_sel1 ev t s0 e0 a0 = (a1, Val i1) /\
                             nth_error (sequence (c_ws a1)) i1 = Some r1 /\
                             uts_sel2 ev t evt s0 r1 i1 a1 = (a2, Val i) /\ Rk a2 a5) (Vconst pre_nf)
                (m ;;; k1) (m ;;; k2)).
  { intros m Hk Hm k1 k2 Hkk.
    eapply (Jq_bind_run _ _ _ _ (fun _ a5 => exists a0 a1 a2, Q0 a0 /\ uts_sel1 ev t s0 e0 a0 = (a1, Val i1) /\
                             nth_error (sequence (c_ws a1)) i1 = Some r1 /\
                             uts_sel2 ev t evt s0 r1 i1 a1 = (a2, Val i) /\ Rk a2 a5) Veq).
    - apply Jq_of_J. exact Hm.
    - intros a a' y [a0 [a1 [a2 [H0 [H1 [H2 [H3 H4]]]]]]] H. exists a0, a1, a2. repeat (split; [assumption|]).
      eapply Rk_trans; [exact H4|]. eapply Hk; exact H.
    - intros. exact Hkk. }
  eapply Jq_weaken_pre.
  2: { apply Step; [apply pk_unstage|apply j_unstage|]. apply Step; [apply pk_item|apply j_item|].
       apply Step; [apply pk_logfail|apply j_logfail|].
       eapply Jq_weaken_pre; [|apply jq_pre_machine].
       intros a5 [a0 [a1 [a2 [[[Hc Hg] [Hroute He0]] [E1 [Hr1 [E2 K]]]]]]].
       destruct (select_inv ev t route evt s0 e0 a0 a1 i1 r1 a2 i a5 Hroute He0 E1 Hr1 E2 K) as [r [Hn [_ [[_ [Hf _]]|[_ [_ Hnr]]]]]].
       - rewrite Hc in Hf. discriminate Hf.
       - exists r. split; [exact Hn|]. apply Hnr. exact Hg. }
  intros a5 [a0 [a1 [H0 [H1 [H2 [H3 H4]]]]]]. exists a0, a1, a5. repeat (split; [assumption|]). assumption.
Qed.

Lemma jq_prefix : forall t route evt,
  Jq P (cmd_pre t) (Vconst pre_nf) (uts_prefix ev t route evt) (uts_prefix ev t route evt).
Proof.
  intros t route evt. unfold uts_prefix.
  eapply (Jq_bind_run _ _ _ _ (fun _ a1 => cmd_pre t a1) Veq).
  { apply Jq_of_J. apply J_ensure_ws. }
  { intros a a1 y Hq H. assert (G : c_graph a1 = c_graph a) by (eapply pg_ensure_ws; exact H).
    unfold cmd_pre in *. rewrite G. exact Hq. }
  intros s0 u u' _.
  eapply (Jq_bind_run _ _ _ _ (fun c a1 => cmd_pre t a1 /\ c = a1)).
  { apply Jq_of_J. apply J_get. }
  { intros a a1 y Hq H. unfold get in H. inversion H; subst. split; [exact Hq|reflexivity]. }
  intros s1 c1 c2 [E [Pc Ic]]; subst c1. jnorm.
  destruct (negb (g_has_task (c_graph c2) t)); [apply Jq_of_J; apply J_raise|].
  eapply (Jq_bind_run _ _ _ _ (fun _ a1 => cmd_pre t a1 /\ c2 = a1) Veq).
  { apply Jq_of_J. destruct (spec_get_task (c_spec c2) t); [apply J_ret; intro; reflexivity|apply J_raise]. }
  { intros a a1 y Hq H. destruct (spec_get_task (c_spec c2) t); inversion H; subst. exact Hq. }
  intros s2 ts ts' E; unfold Veq in E; subst ts'.
  destruct (get_staged_task (c_ws c2) t route) as [sg|] eqn:Eg, (ws_task_idx (c_ws c2) t route) as [ix|] eqn:Ei;
    try (eapply Jq_weaken_pre; [|apply jq_pre_main];
         intros a [Hc <-]; split; [exact Hc|]; split;
         [intros s Hs; first [inversion Hs; subst; apply (get_staged_matches _ _ _ _ Eg)|discriminate Hs]
         |symmetry; exact Ei]).
  apply Jq_of_J. apply J_raise.
Qed.

(* otherwise the retry gate must open alike in both runs *)
Hypothesis P_active : forall s x, P s x -> status_in s ACTIVE_STATUSES = status_in x ACTIVE_STATUSES.

Lemma j_completion : forall t route evt ts idx new old,
  J P (Vconst compl_sim) (uts_completion ev t route evt ts idx new old) (uts_completion ev t route evt ts idx new old).
Proof.
  intros t route evt ts idx new old. unfold uts_completion.
  destruct (status_in new COMPLETED_STATUSES); [|apply J_ret; intro; exact I].
  eapply (J_bind _ _ _ Veq); [jw|]. intros s0 u1 u2 _. cbv zeta.
  eapply (J_bind _ _ _ Veq); [apply j_get_rec|]. intros s1 r r' E; unfold Veq in E; subst r'.
  eapply (J_bind _ _ _ Veq); [apply j_get_task_context|]. intros s2 in_ctx in_ctx' E; unfold Veq in E; subst in_ctx'.
  eapply J_bind; [apply J_getws|]. intros s3 w1 w2 [E Pw]; subst w1.
  cbn [wstatus ws_set_status]. rewrite (P_active _ _ Pw).
  eapply (J_bind _ _ _ Veq).
  - apply J_try_catch.
    + destruct (negb (status_eqb new old) && status_in (wstatus w2) ACTIVE_STATUSES
                && tbl_transition_valid task_table new S_RETRYING);
        [apply j_evaluate_task_retry; apply sim_state_ctx|apply J_ret; intro; reflexivity].
    + intro x. jw.
  - intros s4 b b' E; unfold Veq in E; subst b'. apply J_ret. intro. unfold Vconst, compl_sim. cbv beta iota.
    split; [apply sim_state_ctx|reflexivity].
Qed.

Lemma j_pre_machine : forall t route evt ts idx,
  J P (Vconst pre_sim) (pre_machine ev t route evt ts idx) (pre_machine ev t route evt ts idx).
Proof.
  intros t route evt ts idx. unfold pre_machine.
  eapply (J_bind _ _ _ Veq); [apply j_get_rec|]. intros s0 r r' E; unfold Veq in E; subst r'.
  eapply J_bind; [apply J_getws|]. intros s1 w1 w2 [E Pw]; subst w1. rewrite q_tpe_so.
  eapply (J_bind _ _ _ Veq); [apply J_lift_res; intro; destruct (task_process_event w2 r evt); cbn; reflexivity|].
  intros s2 ns ns' E; unfold Veq in E; subst ns'.
  eapply (J_bind _ _ _ Veq); [apply j_setst|]. intros s3 u u' _.
  eapply (J_bind _ _ _ Veq); [apply j_get_rec|]. intros s4 r1 r1' E; unfold Veq in E; subst r1'.
  eapply (J_bind _ _ _ Veq); [apply j_retrying|]. intros s5 u1 u1' _.
  eapply J_bind; [apply j_completion|]. intros s6 c1 c2 Hc. apply J_ret. intro. repeat split; assumption.
Qed.

Lemma j_pre_main : forall t route evt ts s0 e0,
  J P (Vconst pre_sim) (pre_main ev t route evt ts s0 e0) (pre_main ev t route evt ts s0 e0).
Proof.
  intros. unfold pre_main.
  eapply (J_bind _ _ _ Veq); [apply j_sel1|]. intros s1 i1 i1' E; unfold Veq in E; subst i1'.
  eapply (J_bind _ _ _ Veq); [apply j_get_rec|]. intros s2 r1 r1' E; unfold Veq in E; subst r1'.
  eapply (J_bind _ _ _ Veq); [apply j_sel2|]. intros s3 i i' E; unfold Veq in E; subst i'.
  eapply (J_bind _ _ _ Veq); [apply j_unstage|]. intros s4 u4 u4' _.
  eapply (J_bind _ _ _ Veq); [apply j_item|]. intros s5 u5 u5' _.
  eapply (J_bind _ _ _ Veq); [apply j_logfail|]. intros s6 u6 u6' _.
  apply j_pre_machine.
Qed.

Lemma j_prefix : forall t route evt, J P (Vconst pre_sim) (uts_prefix ev t route evt) (uts_prefix ev t route evt).
Proof.
  intros t route evt. unfold uts_prefix.
  eapply (J_bind _ _ _ Veq); [apply J_ensure_ws|]. intros s0 u u' _.
  eapply J_bind; [apply J_get|]. intros s1 c1 c2 [E [Pc Ic]]; subst c1. jnorm.
  destruct (negb (g_has_task (c_graph c2) t)); [apply J_raise|].
  eapply (J_bind _ _ _ Veq).
  { destruct (spec_get_task (c_spec c2) t); [apply J_ret; intro; reflexivity|apply J_raise]. }
  intros s2 ts ts' E; unfold Veq in E; subst ts'.
  destruct (get_staged_task (c_ws c2) t route), (ws_task_idx (c_ws c2) t route); try apply j_pre_main. apply J_raise.
Qed.
End Pieces.


Lemma PairOK_refl : forall x, PairOK x x.
Proof. intro x. left; reflexivity. Qed.

Lemma PairOK_failed_row : forall s x, PairOK s x -> s <> x ->
  tbl_step wf_table x "workflow_failed" = Some S_FAILED /\ tbl_step wf_table s "workflow_failed" = Some S_FAILED.
Proof. intros s x [E|[-> [->| ->]]] Hne; [contradiction| |]; split; reflexivity. Qed.

Lemma PairOK_active : forall s x, PairOK s x -> status_in s ACTIVE_STATUSES = status_in x ACTIVE_STATUSES.
Proof. intros s x [->|[-> [->| ->]]]; reflexivity. Qed.

Section Commute.
Variable ev : string -> dict -> evalres.
Hypothesis Hblind : state_blind ev.

Lemma Jp_eval_same : forall stmt c, Jp Veq (evaluate ev stmt c) (evaluate ev stmt c).
Proof. intros. apply (J_eval PairOK ev Hblind). apply sim_refl. Qed.
Lemma Jp_eval_hint : forall stmt c1 c2, sim c1 c2 -> Jp Veq (evaluate ev stmt c1) (evaluate ev stmt c2).
Proof. exact (J_eval PairOK ev Hblind). Qed.
Lemma jp_log_entry_error : forall m t r tr res, Jp Veq (log_entry_error m t r tr res) (log_entry_error m t r tr res).
Proof. exact (j_log_entry_error PairOK). Qed.
Lemma jp_log_errors : forall es t r tr, Jp Veq (log_errors es t r tr) (log_errors es t r tr).
Proof. exact (j_log_errors PairOK). Qed.
Lemma jp_set_rec_status : forall j st, Jp Veq (set_rec_status j st) (set_rec_status j st).
Proof. exact (j_set_rec_status PairOK). Qed.
Lemma jp_upd_rec : forall j f, Jp Veq (upd_rec j f) (upd_rec j f).
Proof. exact (j_upd_rec PairOK). Qed.
Lemma jp_setup_retry : forall t idxs, Jp Veq (setup_retry ev t idxs) (setup_retry ev t idxs).
Proof. exact (j_setup_retry PairOK ev Hblind). Qed.
Lemma jp_add_task_state : forall t r ins p, Jp Veq (add_task_state ev t r ins p) (add_task_state ev t r ins p).
Proof. exact (j_add_task_state PairOK PairOK_refl PairOK_failed_row ev Hblind). Qed.
Lemma jp_evaluate_route : forall e r, Jp Veq (evaluate_route e r) (evaluate_route e r).
Proof. exact (j_evaluate_route PairOK). Qed.
Lemma jp_need_staged : forall s0, Jp Veq (uts_need_staged s0) (uts_need_staged s0).
Proof. exact (j_need_staged PairOK). Qed.

Lemma jp_get_rec : forall j, J PairOK Veq (get_rec j) (get_rec j).
Proof. exact (j_get_rec PairOK). Qed.
Lemma jp_queue : forall t route idx ts old new c1 c2, compl_sim c1 c2 ->
  J PairOK Veq (uts_queue ev t route idx ts old new c1) (uts_queue ev t route idx ts old new c2).
Proof. exact (j_queue PairOK PairOK_refl PairOK_failed_row ev Hblind). Qed.
Lemma jp_prefix : forall t route evt, J PairOK (Vconst pre_sim) (uts_prefix ev t route evt) (uts_prefix ev t route evt).
Proof. exact (j_prefix PairOK PairOK_refl PairOK_failed_row ev Hblind PairOK_active). Qed.


(* forget what the end of the call may legitimately set differently: the workflow status, the
   terminal flags (set when the workflow is found completed) and the error log (unreachable joins) *)
Definition forget_ws (w : wstate) : wstate :=
  {| contexts := contexts w; routes := routes w;
     sequence := map (fun r => r_set_term r false) (sequence w);
     staged := staged w; wstatus := S_UNSET; tasks := tasks w; reruns := reruns w |}.
Definition strip_tl (c : cstate) : cstate := set_errors (set_ws c (forget_ws (c_ws c))) [].

Lemma strip_tl_so : forall s c, strip_tl (so s c) = strip_tl c.
Proof. reflexivity. Qed.

Lemma map_term_set_nth : forall l i r b, nth_error l i = Some r ->
  map (fun r0 => r_set_term r0 false) (list_set_nth i (r_set_term r b) l) = map (fun r0 => r_set_term r0 false) l.
Proof.
  induction l as [|a l IH]; intros [|i] r b H; simpl in *; try discriminate.
  - inversion H; subst. reflexivity.
  - f_equal. eapply IH; exact H.
Qed.

Lemma strip_tl_term : forall c i b, strip_tl (set_ws c (ws_update_rec (c_ws c) i (fun r => r_set_term r b))) = strip_tl c.
Proof.
  intros c i b. unfold strip_tl, ws_update_rec. destruct (nth_error (sequence (c_ws c)) i) as [r|] eqn:E; [|reflexivity].
  unfold forget_ws, set_errors, set_ws. cbn [c_spec c_graph c_inputs c_parent c_init c_ws c_errors c_log c_output
    contexts routes sequence staged wstatus tasks reruns ws_set_sequence].
  rewrite (map_term_set_nth _ _ _ _ E). reflexivity.
Qed.

Lemma log_error_only_errors : forall e t r tr c, exists E, log_error e t r tr c = (set_errors c E, Val tt).
Proof.
  intros e t r tr c. unfold log_error, log_entry_error, modify.
  destruct (existsb _ (c_errors c)); eexists; [|reflexivity].
  instantiate (1 := c_errors c). destruct c; reflexivity.
Qed.

Lemma log_unreachable_only_errors : forall l c, exists E, log_unreachable l c = (set_errors c E, Val tt).
Proof.
  unfold log_unreachable. induction l as [|s l IH]; intro c; cbn [forM_].
  - exists (c_errors c). unfold ret. destruct c; reflexivity.
  - unfold bind.
    match goal with |- context [log_error ?e ?t ?r ?tr c] => destruct (log_error_only_errors e t r tr c) as [E1 H1] end.
    rewrite H1. destruct (IH (set_errors c E1)) as [E HE]. rewrite HE. exists E. reflexivity.
Qed.

(* the end of a call: the workflow-machine step for the task with the unreachable joins logged, then the closing
   step; the queued commands run between the two *)
Definition wf_end (t : string) (route idx : nat) (st : status) : M unit :=
  (unreachable <- wf_task_event_M t route st ;; log_unreachable unreachable) ;;; wf_fin idx.

Lemma wf_end_eq : forall t route idx st,
  wf_end t route idx st = (unreachable <- wf_task_event_M t route st ;; log_unreachable unreachable) ;;; wf_fin idx.
Proof. reflexivity. Qed.

(* the unreachable-join check applied to a new workflow status *)
Definition adj (g : graph) (w : wstate) (new : status) : status * list stg :=
  if status_in new COMPLETED_STATUSES && negb (status_eqb new S_CANCELED)
  then fail_on_unreachable g (ws_set_status w new) else (new, []).

(* [mid_land x p]: x after the machine answered p = (new status, unreachable joins) and the joins were logged;
   [land idx x p]: after the closing step as well *)
Definition mid_land (x : cstate) (p : status * list stg) : cstate :=
  fst (log_unreachable (snd p) (set_ws x (ws_set_status (c_ws x) (fst p)))).

Lemma mid_land_eq : forall x p, exists E, mid_land x p = set_errors (set_ws x (ws_set_status (c_ws x) (fst p))) E.
Proof.
  intros x p. unfold mid_land. destruct (log_unreachable_only_errors (snd p) (set_ws x (ws_set_status (c_ws x) (fst p)))) as [E HE].
  rewrite HE. exists E. reflexivity.
Qed.
Lemma mid_land_strip : forall x p, strip_tl (mid_land x p) = strip_tl x.
Proof. intros x p. destruct (mid_land_eq x p) as [E ->]. reflexivity. Qed.
Lemma mid_land_so : forall s x p, mid_land (so s x) p = mid_land x p.
Proof. reflexivity. Qed.
Lemma mid_land_status : forall x p, wstatus (c_ws (mid_land x p)) = fst p.
Proof. intros x p. destruct (mid_land_eq x p) as [E ->]. reflexivity. Qed.
Lemma mid_land_open : forall x n, mid_land x (n, []) = so n x.
Proof. reflexivity. Qed.

(* stated on the text of the step, which PauseCommute2Proofs names wf_mid: two names for it would have to be
   identified by conversion, and the kernel does that by running the step *)
Lemma wf_logged_run : forall t route st x,
  (unreachable <- wf_task_event_M t route st ;; log_unreachable unreachable) x =
  let evn := wf_task_event_name (c_graph x) (c_ws x) t route st in
  if negb (string_in evn TASK_EXECUTION_EVENTS) then (x, Exc (exn_invalid_event evn))
  else match tbl_row wf_table (wstatus (c_ws x)) with
       | None => (x, Exc (exn_invalid_wf_transition (wstatus (c_ws x)) evn))
       | Some row => (mid_land x (match aget String.eqb evn row with
                                  | None => (wstatus (c_ws x), [])
                                  | Some new => adj (c_graph x) (c_ws x) new
                                  end), Val tt)
       end.
Proof.
  intros t route st x. cbv zeta.
  unfold bind at 1, wf_task_event_M, wf_process_task_event.
  set (evn := wf_task_event_name (c_graph x) (c_ws x) t route st).
  destruct (negb (string_in evn TASK_EXECUTION_EVENTS)); [reflexivity|].
  destruct (tbl_row wf_table (wstatus (c_ws x))) as [row|]; [|reflexivity].
  assert (K : forall p, log_unreachable (snd p) (set_ws x (ws_set_status (c_ws x) (fst p))) = (mid_land x p, Val tt)).
  { intro p. unfold mid_land. destruct (log_unreachable_only_errors (snd p) (set_ws x (ws_set_status (c_ws x) (fst p)))) as [E HE].
    rewrite HE. reflexivity. }
  destruct (aget String.eqb evn row) as [new|].
  - unfold adj. destruct (status_in new COMPLETED_STATUSES && negb (status_eqb new S_CANCELED)).
    + destruct (fail_on_unreachable (c_graph x) (ws_set_status (c_ws x) new)) as [n u] eqn:E. exact (K (n, u)).
    + exact (K (new, [])).
  - exact (K (wstatus (c_ws x), [])).
Qed.

Lemma wf_fin_run : forall idx c,
  wf_fin idx c = (if status_in (wstatus (c_ws c)) COMPLETED_STATUSES
                  then set_ws c (ws_update_rec (c_ws c) idx (fun r => r_set_term r true)) else c, Val tt).
Proof. intros idx c. unfold wf_fin, bind, getws. cbv beta iota. destruct (status_in _ _); reflexivity. Qed.

Lemma wf_fin_strip : forall idx c, strip_tl (fst (wf_fin idx c)) = strip_tl c.
Proof. intros idx c. rewrite wf_fin_run. cbn [fst]. destruct (status_in _ _); [apply strip_tl_term|reflexivity]. Qed.

Lemma wf_fin_status : forall idx c, wstatus (c_ws (fst (wf_fin idx c))) = wstatus (c_ws c).
Proof.
  intros idx c. rewrite wf_fin_run. cbn [fst]. destruct (status_in _ _); [|reflexivity].
  cbn [c_ws set_ws]. apply wstatus_update_rec.
Qed.

Lemma wf_fin_open : forall idx c, status_in (wstatus (c_ws c)) COMPLETED_STATUSES = false -> fst (wf_fin idx c) = c.
Proof. intros idx c H. rewrite wf_fin_run, H. reflexivity. Qed.

Definition land (idx : nat) (x : cstate) (p : status * list stg) : cstate := fst (wf_fin idx (mid_land x p)).

Lemma wf_end_run : forall t route idx st x,
  wf_end t route idx st x =
  let evn := wf_task_event_name (c_graph x) (c_ws x) t route st in
  if negb (string_in evn TASK_EXECUTION_EVENTS) then (x, Exc (exn_invalid_event evn))
  else match tbl_row wf_table (wstatus (c_ws x)) with
       | None => (x, Exc (exn_invalid_wf_transition (wstatus (c_ws x)) evn))
       | Some row => (land idx x (match aget String.eqb evn row with
                                  | None => (wstatus (c_ws x), [])
                                  | Some new => adj (c_graph x) (c_ws x) new
                                  end), Val tt)
       end.
Proof.
  intros t route idx st x. unfold wf_end, bind at 1. rewrite wf_logged_run. cbv zeta.
  destruct (negb _); [reflexivity|]. destruct (tbl_row wf_table (wstatus (c_ws x))); [|reflexivity].
  unfold land. rewrite wf_fin_run. reflexivity.
Qed.

Lemma land_strip : forall idx x p, strip_tl (land idx x p) = strip_tl x.
Proof. intros idx x p. unfold land. rewrite wf_fin_strip. apply mid_land_strip. Qed.

Lemma land_so : forall idx s x p, land idx (so s x) p = land idx x p.
Proof. reflexivity. Qed.

Lemma land_status : forall idx x p, wstatus (c_ws (land idx x p)) = fst p.
Proof. intros idx x p. unfold land. rewrite wf_fin_status. apply mid_land_status. Qed.

Lemma land_open : forall idx x n, status_in n COMPLETED_STATUSES = false -> land idx x (n, []) = so n x.
Proof. intros idx x n Hn. unfold land. rewrite mid_land_open. apply wf_fin_open. exact Hn. Qed.

Lemma adj_so : forall g w s new, adj g (ws_set_status w s) new = adj g w new.
Proof. reflexivity. Qed.

Lemma adj_open : forall g w new, status_in new COMPLETED_STATUSES = false -> adj g w new = (new, []).
Proof. intros g w new H. unfold adj. rewrite H. reflexivity. Qed.

Lemma adj_closed : forall g w new, status_in new COMPLETED_STATUSES = true ->
  status_in (fst (adj g w new)) COMPLETED_STATUSES = true.
Proof.
  intros g w new H. unfold adj. destruct (status_in new COMPLETED_STATUSES && negb (status_eqb new S_CANCELED)); [|exact H].
  unfold fail_on_unreachable. destruct (get_unreachable_barriers g (ws_set_status w new)); [exact H|reflexivity].
Qed.

Definition done (s : status) : bool := status_in s COMPLETED_STATUSES.
Definition pair_out (na nb : status) : Prop :=
  na = nb \/ (done na = false /\ done nb = false) \/ (done na = true /\ nb = S_PAUSED).

Definition held_status (s : status) : Prop := s = S_PAUSING \/ s = S_RESUMING.

Lemma F_pair_running : forall s e na, held_status s -> string_in e TASK_EXECUTION_EVENTS = true ->
  tbl_step wf_table S_RUNNING e = Some na ->
  match tbl_step wf_table s e with Some nb => pair_out na nb | None => done na = false end.
Proof.
  intros s e na Hs He H.
  assert (T : table_forall wf_table
     (fun s0 e x => negb (status_eqb s0 S_RUNNING && string_in e TASK_EXECUTION_EVENTS) ||
        match tbl_step wf_table s e with
        | Some y => status_eqb x y || (negb (done x) && negb (done y)) || (done x && status_eqb y S_PAUSED)
        | None => negb (done x)
        end) = true) by (destruct Hs as [->| ->]; vm_compute; reflexivity).
  pose proof (table_forall_step _ _ T _ _ _ H) as P. cbv beta in P. rewrite status_eqb_refl, He in P.
  cbn [andb negb orb] in P. destruct (tbl_step wf_table s e) as [nb|].
  - unfold pair_out. destruct (status_eqb na nb) eqn:E1; [left; apply status_eqb_eq; exact E1|].
    cbn [orb] in P. apply orb_prop in P. destruct P as [P|P]; apply andb_prop in P; destruct P as [P1 P2].
    + right; left. split; apply negb_true_iff; assumption.
    + right; right. split; [exact P1|apply status_eqb_eq; exact P2].
  - destruct (done na); [discriminate|reflexivity].
Qed.

Lemma F_pair_held : forall s e nb, held_status s -> string_in e TASK_EXECUTION_EVENTS = true ->
  tbl_step wf_table s e = Some nb -> tbl_step wf_table S_RUNNING e = None -> done nb = false.
Proof.
  intros s e nb Hs He H Hn.
  assert (T : table_forall wf_table
     (fun s0 e y => negb (status_eqb s0 s && string_in e TASK_EXECUTION_EVENTS) ||
        match tbl_step wf_table S_RUNNING e with Some _ => true | None => negb (done y) end) = true)
    by (destruct Hs as [->| ->]; vm_compute; reflexivity).
  pose proof (table_forall_step _ _ T _ _ _ H) as P. cbv beta in P. rewrite status_eqb_refl, He, Hn in P.
  cbn [andb negb orb] in P. destruct (done nb); [discriminate|reflexivity].
Qed.

(* the final judgement, its first three clauses: same result; same state up to workflow status, terminal flags and
   error log; and the two states differ by the workflow status alone unless the plain run has just completed the
   workflow while the overridden one came to rest as paused.  [Fin] adds a fourth. *)
Definition Fin3 (b a : cstate) : Prop :=
  strip_tl b = strip_tl a /\ c_init a = true /\
  (b = so (wstatus (c_ws b)) a \/
   (wstatus (c_ws b) = S_PAUSED /\ status_in (wstatus (c_ws a)) COMPLETED_STATUSES = true)).

(* ... and while the plain run is still running with an active task, the two statuses still form a pair *)
Definition Fin (b a : cstate) : Prop :=
  Fin3 b a /\
  (wstatus (c_ws a) = S_RUNNING -> has_active_tasks (c_ws a) = true -> PairOK (wstatus (c_ws b)) (wstatus (c_ws a))).

Lemma Fin_so : forall s a, c_init a = true -> PairOK s (wstatus (c_ws a)) -> Fin (so s a) a.
Proof.
  intros s a Hi Hp. split; [|intros _ _; exact Hp]. split; [apply strip_tl_so|]. split; [exact Hi|]. left. reflexivity.
Qed.

Lemma tasks_by_status_forget : forall w l,
  map fst (ws_tasks_by_status (forget_ws w) l) = map fst (ws_tasks_by_status w l).
Proof.
  intros w l. unfold ws_tasks_by_status, enumerate. cbn [sequence forget_ws].
  change (ws_pointed (forget_ws w)) with (ws_pointed w).
  generalize 0. induction (sequence w) as [|r sq IH]; intro n; [reflexivity|]. cbn [map enumerate_from filter].
  change (r_status (r_set_term r false)) with (r_status r).
  destruct (ostatus_in (r_status r) l && ws_pointed w n); cbn [map fst]; rewrite IH; reflexivity.
Qed.

Lemma has_active_forget : forall w, has_active_tasks (forget_ws w) = has_active_tasks w.
Proof.
  intro w. unfold has_active_tasks. pose proof (tasks_by_status_forget w ACTIVE_STATUSES) as H.
  destruct (ws_tasks_by_status (forget_ws w) ACTIVE_STATUSES), (ws_tasks_by_status w ACTIVE_STATUSES);
    try reflexivity; discriminate H.
Qed.

Lemma strip_tl_active : forall a b, strip_tl a = strip_tl b -> has_active_tasks (c_ws a) = has_active_tasks (c_ws b).
Proof.
  intros a b H. rewrite <- (has_active_forget (c_ws a)), <- (has_active_forget (c_ws b)).
  change (has_active_tasks (c_ws (strip_tl a)) = has_active_tasks (c_ws (strip_tl b))). rewrite H. reflexivity.
Qed.

Lemma strip_tl_init : forall a b, strip_tl a = strip_tl b -> c_init a = c_init b.
Proof. intros a b H. change (c_init (strip_tl a) = c_init (strip_tl b)). rewrite H. reflexivity. Qed.

(* the end of a call from a pair in PairOK, on a graph satisfying G, up to Fin *)
Definition Jf (G : graph -> Prop) : M unit -> M unit -> Prop := Jfin PairOK (fun a => G (c_graph a)) Fin.

Lemma PairOK_rows : forall s x, PairOK s x -> s <> x ->
  (exists r1, tbl_row wf_table x = Some r1) /\ (exists r2, tbl_row wf_table s = Some r2).
Proof. intros s x [E|[-> [->| ->]]] Hne; [contradiction| |]; split; vm_compute; eexists; reflexivity. Qed.

Lemma land_pair : forall idx x g na nb, pair_out na nb ->
  Fin3 (land idx x (adj g (c_ws x) nb)) (land idx x (adj g (c_ws x) na)) \/ c_init x = false.
Proof.
  intros idx x g na nb HP. destruct (c_init x) eqn:Hi; [left|right; reflexivity].
  split; [rewrite !land_strip; reflexivity|]. split; [rewrite <- Hi; apply strip_tl_init; apply land_strip|].
  destruct HP as [E|[[Ha Hb]|[Ha Hb]]].
  - subst nb. left. rewrite so_same. reflexivity.
  - unfold done in Ha, Hb. rewrite (adj_open _ _ _ Ha), (adj_open _ _ _ Hb). rewrite !land_open by assumption.
    left. change (wstatus (c_ws (so nb x))) with nb. rewrite so_so. reflexivity.
  - subst nb. right. rewrite !land_status. rewrite (adj_open _ _ S_PAUSED eq_refl). split; [reflexivity|].
    apply adj_closed. exact Ha.
Qed.

Lemma wf_end_Fin3 : forall t route idx st s a, c_init a = true -> PairOK s (wstatus (c_ws a)) ->
  snd (wf_end t route idx st (so s a)) = snd (wf_end t route idx st a) /\
  Fin3 (fst (wf_end t route idx st (so s a))) (fst (wf_end t route idx st a)).
Proof.
  intros t route idx st s a Hi Hp. destruct (status_eqb s (wstatus (c_ws a))) eqn:Es.
  { apply status_eqb_eq in Es. subst s. rewrite so_same. split; [reflexivity|].
    split; [reflexivity|]. split.
    - rewrite <- Hi. apply strip_tl_init. rewrite wf_end_run. cbv zeta.
      destruct (negb _); [reflexivity|]. destruct (tbl_row wf_table (wstatus (c_ws a))); [|reflexivity].
      cbn [fst]. apply land_strip.
    - left. rewrite so_same. reflexivity. }
  assert (Hne : s <> wstatus (c_ws a)) by (intro E; subst; rewrite status_eqb_refl in Es; discriminate).
  destruct Hp as [E|[Hx Hs]]; [contradiction|]. change (held_status s) in Hs.
  assert (Ho : status_in s COMPLETED_STATUSES = false) by (destruct Hs as [->| ->]; reflexivity).
  rewrite !wf_end_run. cbv zeta. change (c_graph (so s a)) with (c_graph a).
  change (c_ws (so s a)) with (ws_set_status (c_ws a) s). rewrite q_wfname_so.
  change (wstatus (ws_set_status (c_ws a) s)) with s. rewrite Hx.
  set (evn := wf_task_event_name (c_graph a) (c_ws a) t route st).
  destruct (negb (string_in evn TASK_EXECUTION_EVENTS)) eqn:Ev.
  { cbn [fst snd]. split; [reflexivity|]. split; [apply strip_tl_so|]. split; [exact Hi|]. left. reflexivity. }
  apply negb_false_iff in Ev.
  destruct (tbl_row wf_table S_RUNNING) as [r1|] eqn:R1; [|discriminate R1].
  destruct (tbl_row wf_table s) as [r2|] eqn:R2; [|destruct Hs as [->| ->]; discriminate R2].
  cbn [fst snd]. split; [reflexivity|]. rewrite land_so.
  assert (S1 : tbl_step wf_table S_RUNNING evn = aget String.eqb evn r1) by (unfold tbl_step; rewrite R1; reflexivity).
  assert (S2 : tbl_step wf_table s evn = aget String.eqb evn r2) by (unfold tbl_step; rewrite R2; reflexivity).
  destruct (aget String.eqb evn r1) as [na|] eqn:A1.
  - pose proof (F_pair_running s evn na Hs Ev S1) as P. rewrite S2 in P.
    destruct (aget String.eqb evn r2) as [nb|] eqn:A2.
    + rewrite adj_so. destruct (land_pair idx a (c_graph a) na nb P) as [F|F]; [exact F|congruence].
    + assert (P' : pair_out na s) by (right; left; split; [exact P|exact Ho]).
      destruct (land_pair idx a (c_graph a) na s P') as [F|F]; [|congruence].
      rewrite (adj_open _ _ s Ho) in F. exact F.
  - destruct (aget String.eqb evn r2) as [nb|] eqn:A2.
    + pose proof (F_pair_held s evn nb Hs Ev S2 S1) as P. rewrite adj_so.
      assert (P' : pair_out S_RUNNING nb) by (right; left; split; [reflexivity|exact P]).
      destruct (land_pair idx a (c_graph a) S_RUNNING nb P') as [F|F]; [|congruence].
      rewrite (adj_open _ _ S_RUNNING eq_refl) in F. exact F.
    + assert (P' : pair_out S_RUNNING s) by (right; left; split; [reflexivity|exact Ho]).
      destruct (land_pair idx a (c_graph a) S_RUNNING s P') as [F|F]; [|congruence].
      rewrite (adj_open _ _ S_RUNNING eq_refl), (adj_open _ _ s Ho) in F. exact F.
Qed.


Definition stay_ok (s : status) (e : string) : bool :=
  negb (string_in e TASK_EXECUTION_EVENTS) ||
  negb (match tbl_step wf_table S_RUNNING e with Some x => status_eqb x S_RUNNING | None => true end) ||
  match tbl_step wf_table s e with Some y => status_eqb y s || status_eqb y S_RUNNING | None => true end.

(* on the tabulated names and rows of F_names *)
Lemma F_stay : forall s st rem c p m, held_status s -> stay_ok s (task_event_name_of st rem true c p m) = true.
Proof.
  intros s st rem c p m Hs. unfold stay_ok. rewrite name_valid_eq, !wf_step_eq.
  assert (T : names_forall (fun st rem a c p m => negb a ||
                forallb (fun s => negb (name_valid st rem a c p m) ||
                   negb (match F_names.wf_step S_RUNNING st rem a c p m with Some x => status_eqb x S_RUNNING | None => true end) ||
                   match F_names.wf_step s st rem a c p m with Some y => status_eqb y s || status_eqb y S_RUNNING | None => true end)
                  [S_PAUSING; S_RESUMING]) = true) by (vm_compute; reflexivity).
  pose proof (names_forall_spec _ T st rem true c p m) as X. cbv beta in X. cbn [negb orb forallb] in X.
  apply andb_prop in X. destruct X as [X1 X2]. apply andb_prop in X2. destruct Hs as [->| ->]; [exact X1|exact (proj1 X2)].
Qed.

Lemma land_active : forall idx x p, has_active_tasks (c_ws (land idx x p)) = has_active_tasks (c_ws x).
Proof. intros. apply strip_tl_active. apply land_strip. Qed.

Lemma adj_running : forall g w n, fst (adj g w n) = S_RUNNING -> n = S_RUNNING /\ adj g w n = (S_RUNNING, []).
Proof.
  intros g w n H. destruct (status_in n COMPLETED_STATUSES) eqn:E.
  - pose proof (adj_closed g w n E) as C. rewrite H in C. discriminate C.
  - rewrite (adj_open g w n E) in H |- *. cbn [fst] in H. subst n. split; reflexivity.
Qed.

Lemma wf_end_busy : forall t route idx st s a, held_status s -> wstatus (c_ws a) = S_RUNNING ->
  wstatus (c_ws (fst (wf_end t route idx st a))) = S_RUNNING ->
  has_active_tasks (c_ws (fst (wf_end t route idx st a))) = true ->
  PairOK (wstatus (c_ws (fst (wf_end t route idx st (so s a))))) (wstatus (c_ws (fst (wf_end t route idx st a)))).
Proof.
  intros t route idx st s a Hs Hx.
  assert (Ho : status_in s COMPLETED_STATUSES = false) by (destruct Hs as [->| ->]; reflexivity).
  assert (Hp0 : PairOK s S_RUNNING) by (right; split; [reflexivity|exact Hs]).
  rewrite !wf_end_run. cbv zeta. change (c_graph (so s a)) with (c_graph a).
  change (c_ws (so s a)) with (ws_set_status (c_ws a) s). rewrite q_wfname_so.
  change (wstatus (ws_set_status (c_ws a) s)) with s. rewrite Hx.
  set (evn := wf_task_event_name (c_graph a) (c_ws a) t route st).
  destruct (negb (string_in evn TASK_EXECUTION_EVENTS)) eqn:Ev.
  { cbn [fst]. intros _ _. rewrite Hx. exact Hp0. }
  apply negb_false_iff in Ev.
  destruct (tbl_row wf_table S_RUNNING) as [r1|] eqn:R1; [|discriminate R1].
  destruct (tbl_row wf_table s) as [r2|] eqn:R2; [|destruct Hs as [->| ->]; discriminate R2].
  cbn [fst]. rewrite land_so, !land_status, land_active. intros H1 H2.
  assert (S1 : tbl_step wf_table S_RUNNING evn = aget String.eqb evn r1) by (unfold tbl_step; rewrite R1; reflexivity).
  assert (S2 : tbl_step wf_table s evn = aget String.eqb evn r2) by (unfold tbl_step; rewrite R2; reflexivity).
  assert (K : stay_ok s evn = true).
  { unfold evn, wf_task_event_name. rewrite H2. apply F_stay. exact Hs. }
  unfold stay_ok in K. rewrite Ev, S1, S2 in K. cbn [negb orb] in K. rewrite H1.
  assert (Ka : match aget String.eqb evn r1 with Some x => status_eqb x S_RUNNING | None => true end = true).
  { destruct (aget String.eqb evn r1) as [na|]; [|reflexivity].
    destruct (adj_running _ _ _ H1) as [-> _]. reflexivity. }
  rewrite Ka in K. cbn [negb orb] in K.
  destruct (aget String.eqb evn r2) as [nb|].
  - rewrite adj_so. apply orb_prop in K. destruct K as [K|K]; apply status_eqb_eq in K; subst nb.
    + rewrite (adj_open _ _ s Ho). exact Hp0.
    + rewrite (adj_open _ _ S_RUNNING eq_refl). left; reflexivity.
  - exact Hp0.
Qed.

Lemma wf_end_Jf : forall G t route idx st, Jf G (wf_end t route idx st) (wf_end t route idx st).
Proof.
  intros G t route idx st s a Hi Hp _. destruct (wf_end_Fin3 t route idx st s a Hi Hp) as [R F].
  split; [exact R|]. split; [exact F|]. intros H1 H2.
  destruct (status_eqb s (wstatus (c_ws a))) eqn:Es.
  { apply status_eqb_eq in Es. subst s. rewrite so_same. left; reflexivity. }
  assert (Hne : s <> wstatus (c_ws a)) by (intro E; subst; rewrite status_eqb_refl in Es; discriminate).
  destruct Hp as [E|[Hx Hs]]; [contradiction|]. apply wf_end_busy; assumption.
Qed.


Lemma Jf_of_Jp : forall G (m1 m2 : M unit), J PairOK Veq m1 m2 -> Jf G m1 m2.
Proof. intros G m1 m2. apply (Jfin_of_J PairOK Fin Fin_so). Qed.

Lemma Jf_bind_run : forall A (VR : status -> A -> A -> Prop) (m1 m2 : M A) (f1 f2 : A -> M unit) (G : graph -> Prop) (Qy : A -> Prop),
  J PairOK VR m1 m2 -> preserves Rg m2 -> (forall a a1 y, m2 a = (a1, Val y) -> G (c_graph a) -> Qy y) ->
  (forall s x y, VR s x y -> Qy y -> Jf G (f1 x) (f2 y)) -> Jf G (bind m1 f1) (bind m2 f2).
Proof.
  intros A VR m1 m2 f1 f2 G Qy Hm Hg Hq Hf.
  apply (Jfin_bind_run PairOK Fin Fin_so A _ (fun y a1 => G (c_graph a1) /\ Qy y) VR m1 m2 f1 f2).
  - apply Jq_of_J. exact Hm.
  - intros a a1 y HG E. split; [rewrite (Hg _ _ _ E); exact HG|exact (Hq _ _ _ E HG)].
  - intros s x y R s0 a0 Hi Hp [HG HQ]. exact (Hf s x y R HQ s0 a0 Hi Hp HG).
Qed.


Definition no_cmd (t : string) (g : graph) : Prop :=
  forall e, In e (g_next_transitions g t) -> is_engine_command (e_dst e) = false.

Lemma queue_len : forall t route idx ts old new compl a a1 q,
  uts_queue ev t route idx ts old new compl a = (a1, Val q) ->
  length q <= length (filter (fun e => is_engine_command (e_dst e)) (g_next_transitions (c_graph a) t)).
Proof.
  intros t route idx ts old new compl a a1 q H.
  destruct (uts_queue_inv ev _ _ _ _ _ _ _ _ _ _ H)
    as [[_ [-> _]]|[ctx [b [c1 [c2 [rs [c3 [r4 [_ [_ [E2 [_ [_ [_ ->]]]]]]]]]]]]]]; [cbn; lia|].
  pose proof (vpost_mapM _ _ (fun e res => forall x, fst res = Some x -> fst x = e_dst e /\ is_engine_command (fst x) = true)
                 _ _ (fun e => pt_cmd_dst ev t route idx ts ctx e) _ _ _ E2) as F.
  clear E2 H. unfold cmds_of. induction F as [|e [q0 q1] l rs0 He F IH]; [cbn; lia|]. cbn [flat_map filter].
  destruct q0 as [x|].
  - destruct (He x eq_refl) as [Hd Hc]. rewrite <- Hd, Hc. cbn [app length]. lia.
  - cbn [app]. destruct (is_engine_command (e_dst e)); cbn [length]; lia.
Qed.

Lemma queue_nil_nocmd : forall t route idx ts old new compl a a1 q,
  uts_queue ev t route idx ts old new compl a = (a1, Val q) -> no_cmd t (c_graph a) -> q = [].
Proof.
  intros t route idx ts old new compl a a1 q H Hn. pose proof (queue_len _ _ _ _ _ _ _ _ _ _ H) as L.
  assert (E : forall l : list gedge, (forall e, In e l -> is_engine_command (e_dst e) = false) ->
              filter (fun e => is_engine_command (e_dst e)) l = []).
  { induction l as [|e l IH]; intro Hl; [reflexivity|]. cbn [filter].
    rewrite (Hl e (or_introl eq_refl)). apply IH. intros e' He'. apply Hl. right; exact He'. }
  rewrite (E _ Hn) in L. destruct q; [reflexivity|cbn in L; lia].
Qed.


Lemma tail_eq : forall (rec : string -> nat -> event -> M unit) t route ts idx old new compl c,
  (forall x, compl <> Some (x, true)) ->
  uts_tail ev rec t route ts idx old new compl c =
  bind (uts_queue ev t route idx ts old new compl)
       (fun q => r <- get_rec idx ;;
                 st <- (match r_status r with Some s => ret s | None => raise (exn_key "status") end) ;;
                 (unreachable <- wf_task_event_M t route st ;; log_unreachable unreachable) ;;;
                 forM_ q (uts_call rec) ;;; wf_fin idx) c.
Proof.
  intros rec t route ts idx old new compl c Hc. rewrite uts_tail_eq. unfold uts_rest.
  destruct compl as [[x [|]]|]; [exfalso; apply (Hc x); reflexivity| |]; (apply bind_congr; intros c1 q _; apply uts_after_eq).
Qed.

Lemma tail_open_Jf : forall (rec : string -> nat -> event -> M unit) t route ts idx old new c1 c2, compl_sim c1 c2 ->
  (forall x, c1 <> Some (x, true)) -> (forall x, c2 <> Some (x, true)) ->
  Jf (no_cmd t) (uts_tail ev rec t route ts idx old new c1) (uts_tail ev rec t route ts idx old new c2).
Proof.
  intros rec t route ts idx old new c1 c2 Hc N1 N2 s a Hi Hp Hg.
  rewrite (tail_eq _ _ _ _ _ _ _ _ _ N1), (tail_eq _ _ _ _ _ _ _ _ _ N2).
  refine (Jf_bind_run _ Veq _ _ _ _ (no_cmd t) (fun q => q = []) (jp_queue t route idx ts old new c1 c2 Hc)
            (pg_queue ev t route idx ts old new c2) _ _ s a Hi Hp Hg).
  - intros a0 a1 q Hq Hg0. eapply queue_nil_nocmd; eassumption.
  - intros s0 q1 q2 Eq Hq. unfold Veq in Eq. subst q1 q2.
    change (forM_ [] (uts_call rec) ;;; wf_fin idx) with (wf_fin idx).
    eapply (Jf_bind_run _ Veq _ _ _ _ _ (fun _ => True)); [apply jp_get_rec|apply pg_get_rec|trivial|].
    intros s1 r r' Er _. unfold Veq in Er; subst r'.
    eapply (Jf_bind_run _ Veq _ _ _ _ _ (fun _ => True)).
    + destruct (r_status r); [apply J_ret; intro; reflexivity|apply J_raise].
    + destruct (r_status r); intros c c' x Hx; inversion Hx; reflexivity.
    + trivial.
    + intros s2 st st' Est _. unfold Veq in Est; subst st'. rewrite <- wf_end_eq. apply wf_end_Jf.
Qed.

Lemma tail_Jf : forall (rec : string -> nat -> event -> M unit) t route,
  (forall evt, Jf (no_cmd t) (rec t route evt) (rec t route evt)) ->
  forall p1 p2, pre_sim p1 p2 -> Jf (no_cmd t) (tail_of ev rec t route p1) (tail_of ev rec t route p2).
Proof.
  intros rec t route IH p1 p2 [E1 [E2 [E3 [E4 Hc]]]]. unfold tail_of. rewrite E1, E2, E3, E4.
  destruct (po_compl p1) as [[x1 b1]|] eqn:C1, (po_compl p2) as [[x2 b2]|] eqn:C2; cbn in Hc; try contradiction.
  - destruct Hc as [Hs <-]. destruct b1; [apply IH|].
    apply tail_open_Jf; [split; [exact Hs|reflexivity]|intros x X; discriminate X|intros x X; discriminate X].
  - apply tail_open_Jf; [exact I|intros x X; discriminate X|intros x X; discriminate X].
Qed.

Lemma uts_Jf : forall fuel t route evt,
  Jf (no_cmd t) (update_task_state_fuel ev fuel t route evt) (update_task_state_fuel ev fuel t route evt).
Proof.
  induction fuel as [|fuel IH]; intros t route evt.
  - apply Jf_of_Jp. apply J_raise.
  - intros s a Hi Hp Hg. rewrite !uts_unfold, !body_eq.
    refine (Jf_bind_run _ (Vconst pre_sim) _ _ _ _ (no_cmd t) (fun _ => True) (jp_prefix t route evt) (pg_prefix ev t route evt) _ _ s a Hi Hp Hg).
    + trivial.
    + intros s0 p1 p2 Hps _. apply tail_Jf; [|exact Hps]. intro evt'. apply IH.
Qed.


(* one report, handled from [so s c] (c with the workflow status replaced by s) and from c; the fuel 3 is the one
   update_task_state runs with *)
Theorem report_commutes_with_status_override_partial : forall t route evt s c,
  c_init c = true -> PairOK s (wstatus (c_ws c)) -> no_cmd t (c_graph c) ->
  snd (update_task_state ev t route evt (so s c)) = snd (update_task_state ev t route evt c) /\
  Fin (fst (update_task_state ev t route evt (so s c))) (fst (update_task_state ev t route evt c)).
Proof. intros t route evt s c Hi Hp Hg. exact (uts_Jf 3 t route evt s c Hi Hp Hg). Qed.

Lemma request_inited : forall st c, c_init c = true -> request_workflow_status ev st c = request_status_core st c.
Proof. intros st c Hi. unfold request_workflow_status, bind. rewrite (ensure_ws_inited ev c Hi). reflexivity. Qed.

Lemma accepted_pause_override : forall st c c_p r, c_init c = true -> no_item_tables c -> pause_class st ->
  request_workflow_status ev st c = (c_p, r) -> wstatus (c_ws c_p) = S_PAUSING -> c_p = so S_PAUSING c.
Proof.
  intros st c c_p r Hi Hni Hst H Hp. rewrite (request_inited st c Hi) in H.
  pose proof (pause_of_plain_tasks_changes_workflow_status_only st c c_p r Hst Hni H) as Ec. rewrite Hp in Ec. exact Ec.
Qed.

(* ... against an accepted pause request *)
Theorem report_commutes_with_pause_partial : forall st t route evt c c_p r,
  c_init c = true -> wstatus (c_ws c) = S_RUNNING -> no_item_tables c -> no_cmd t (c_graph c) ->
  pause_class st -> request_workflow_status ev st c = (c_p, r) -> wstatus (c_ws c_p) = S_PAUSING ->
  snd (update_task_state ev t route evt c_p) = snd (update_task_state ev t route evt c) /\
  Fin (fst (update_task_state ev t route evt c_p)) (fst (update_task_state ev t route evt c)).
Proof.
  intros st t route evt c c_p r Hi Hr Hni Hg Hst H Hp. rewrite (accepted_pause_override st c c_p r Hi Hni Hst H Hp).
  apply report_commutes_with_status_override_partial; [exact Hi| |exact Hg]. right. split; [exact Hr|left; reflexivity].
Qed.

Lemma Fin_open : forall b a, Fin b a -> status_in (wstatus (c_ws a)) COMPLETED_STATUSES = false ->
  b = so (wstatus (c_ws b)) a /\ strip b = strip a.
Proof.
  intros b a [[_ [_ [E|[_ E]]]] _] Hn; [|congruence]. split; [exact E|]. rewrite E. reflexivity.
Qed.

Lemma Fin_strip_tl : forall b a, Fin b a -> strip_tl b = strip_tl a.
Proof. intros b a [[E _] _]; exact E. Qed.

Definition report : Type := (string * nat * event)%type.
Definition op_of (r : report) : api_op := let '(t, route, e) := r in OpEvent t route e.

Fixpoint run_trace (ops : list api_op) (c : cstate) : list (result api_result) :=
  match ops with
  | [] => []
  | op :: rest => snd (api_exec ev op c) :: run_trace rest (fst (api_exec ev op c))
  end.

(* between two reports the overridden run and the plain run still form a pair: neither has come to rest *)
Fixpoint in_step (evs : list report) (b a : cstate) : Prop :=
  match evs with
  | [] => True
  | r :: rest =>
      match rest with
      | [] => True
      | _ => let b1 := fst (api_exec ev (op_of r) b) in let a1 := fst (api_exec ev (op_of r) a) in
             PairOK (wstatus (c_ws b1)) (wstatus (c_ws a1)) /\ in_step rest b1 a1
      end
  end.

(* the call is destructed first: projecting a pair built from it leaves the kernel to compare fst (fst u, _)
   with fst u, which it does by evaluating the call u *)
Lemma api_event_fst : forall t route e c, fst (api_exec ev (OpEvent t route e) c) = fst (update_task_state ev t route e c).
Proof.
  intros. cbn [api_exec]. unfold bind, ret. destruct (update_task_state ev t route e c) as [c' [u|x]]; reflexivity.
Qed.

Lemma api_event_snd : forall t route e c,
  snd (api_exec ev (OpEvent t route e) c) =
  match snd (update_task_state ev t route e c) with Val _ => Val RUnit | Exc x => Exc x end.
Proof.
  intros. cbn [api_exec]. unfold bind, ret. destruct (update_task_state ev t route e c) as [c' [u|x]]; reflexivity.
Qed.

Lemma run_ops_event : forall t route e ops c,
  run_ops ev (OpEvent t route e :: ops) c = run_ops ev ops (fst (update_task_state ev t route e c)).
Proof. intros. unfold run_ops. cbn [fold_left]. rewrite api_event_fst. reflexivity. Qed.

Lemma run_trace_event : forall t route e ops c,
  run_trace (OpEvent t route e :: ops) c =
  match snd (update_task_state ev t route e c) with Val _ => Val RUnit | Exc x => Exc x end
  :: run_trace ops (fst (update_task_state ev t route e c)).
Proof. intros. cbn [run_trace]. rewrite api_event_fst, api_event_snd. reflexivity. Qed.

Lemma run_ops_nil : forall c, run_ops ev [] c = c.
Proof. reflexivity. Qed.

Lemma pg_uts : forall t route e a, c_graph (fst (update_task_state ev t route e a)) = c_graph a.
Proof.
  intros. unfold update_task_state. destruct (update_task_state_fuel ev 3 t route e a) as [a' ra] eqn:Ea.
  exact (pg_uts_fuel ev 3 t route e _ _ _ Ea).
Qed.

Theorem reports_commute_with_status_override_partial : forall evs s a,
  c_init a = true -> PairOK s (wstatus (c_ws a)) ->
  (forall t route e, In (t, route, e) evs -> no_cmd t (c_graph a)) ->
  in_step evs (so s a) a ->
  run_trace (map op_of evs) (so s a) = run_trace (map op_of evs) a /\
  Fin (run_ops ev (map op_of evs) (so s a)) (run_ops ev (map op_of evs) a).
Proof.
  induction evs as [|[[t route] e] rest IH]; intros s a Hi Hp Hg Hs.
  - split; [reflexivity|]. apply Fin_so; [exact Hi|exact Hp].
  - cbn [map op_of]. rewrite !run_trace_event, !run_ops_event.
    destruct (report_commutes_with_status_override_partial t route e s a Hi Hp (Hg t route e (or_introl eq_refl))) as [R F].
    rewrite R.
    destruct rest as [|r2 rest'].
    + cbn [map run_trace]. rewrite !run_ops_nil. split; [reflexivity|exact F].
    + cbn [in_step op_of] in Hs. rewrite !api_event_fst in Hs. destruct Hs as [Hp1 Hs1].
      destruct F as [[_ [Hi1 [Eb|[Eb1 Eb2]]]] _].
      2: { exfalso. rewrite Eb1 in Hp1. destruct Hp1 as [E|[_ [E|E]]]; [|discriminate E|discriminate E].
           rewrite <- E in Eb2. discriminate Eb2. }
      assert (Hg1 : forall t0 route0 e0, In (t0, route0, e0) (r2 :: rest') ->
                      no_cmd t0 (c_graph (fst (update_task_state ev t route e a)))).
      { intros t0 route0 e0 Hin. rewrite pg_uts. apply (Hg t0 route0 e0). right; exact Hin. }
      revert Eb Hi1 Hp1 Hs1 Hg1.
      generalize (fst (update_task_state ev t route e a)) (fst (update_task_state ev t route e (so s a))).
      intros a1 b1 Eb Hi1 Hp1 Hs1 Hg1. rewrite Eb in Hs1 |- *.
      destruct (IH (wstatus (c_ws b1)) a1 Hi1 Hp1 Hg1 Hs1) as [T F']. rewrite T. split; [reflexivity|exact F'].
Qed.


Lemma staged_update_so : forall w s f t r,
  ws_set_staged (ws_set_status w s) (staged_update f t r (staged (ws_set_status w s))) =
  ws_set_status (ws_set_staged w (staged_update f t r (staged w))) s.
Proof. reflexivity. Qed.

Lemma pre_res_so : forall t route s a, pre_res ev t route (so s a) = pre_res ev t route a.
Proof.
  intros t route s a. apply (pre_res_ext ev Hblind); [reflexivity|]. unfold nt_ctx0.
  change (get_staged_task (c_ws (so s a)) t route) with (get_staged_task (c_ws a) t route).
  change (ws_task_entry (c_ws (so s a)) t route) with (ws_task_entry (c_ws a) t route).
  change (contexts (c_ws (so s a))) with (contexts (c_ws a)).
  destruct (get_staged_task (c_ws a) t route); [apply get_task_context_snd; reflexivity|].
  destruct (ws_task_entry (c_ws a) t route); [apply get_task_context_snd; reflexivity|].
  destruct (nth_error (contexts (c_ws a)) 0); reflexivity.
Qed.

(* through the value of next_task_for (QueryProofs.nt_run): what is read and rendered is the same in both
   runs, the item table is written alike, and the offers differ in the __state entry of their context *)
Lemma jp_next_task_for : forall e, J PairOK (Vconst oo_sim) (next_task_for ev e) (next_task_for ev e).
Proof.
  intros e s a Hi Hp. unfold mirror. rewrite !(nt_run ev). unfold nt_value. rewrite pre_res_so.
  destruct (pre_res ev (s_id e) (s_route e) a) as [[[[ctx0 ts] actions] delay]|x]; [|exists s; repeat split; auto].
  destruct (ts_with ts) as [its|].
  2: { exists s. cbn [fst snd]. repeat split; auto. unfold rrel, Vconst, offer_plain.
       destruct actions; [exact I|]. repeat split. apply sim_state_ctx. }
  rewrite (conc_res_Q ev Hblind (so s a) a).
  destruct (conc_res ev (s_id e) (s_route e) a ctx0 its) as [cv|x]; [|exists s; repeat split; auto].
  change (get_staged_task (c_ws (so s a)) (s_id e) (s_route e)) with (get_staged_task (c_ws a) (s_id e) (s_route e)).
  destruct (get_staged_task (c_ws a) (s_id e) (s_route e)) as [sg|]; [|exists s; repeat split; auto].
  cbv zeta. exists s. cbn [fst snd].
  split; [destruct (s_items sg) as [[|y ys]|]; reflexivity|].
  split; [destruct (s_items sg) as [[|y ys]|]; exact Hi|].
  split; [destruct (s_items sg) as [[|y ys]|]; exact Hp|].
  destruct (choose_items cv _) as [[acts conc']|ex]; [|reflexivity].
  unfold rrel, Vconst, offer_items.
  destruct acts; [destruct (length actions); [|exact I]|]; repeat split; apply sim_state_ctx.
Qed.

(* the part of get_next_tasks after the guard *)
Definition poll_body (todo : list stg) : M (list offer) :=
  rs <- mapM (fun s =>
                try_catch (o <- next_task_for ev s ;; ret (o, false))
                          (fun e => log_error e (Some (s_id s)) (Some (s_route s)) None ;;; ret (None, true)))
             todo ;;
  if existsb snd rs then request_status_core S_FAILED ;;; ret []
  else ret (sort_by offer_leb (flat_map (fun '(o, _) => match o with Some x => [x] | None => [] end) rs)).

Lemma jp_poll_body : forall todo, J PairOK (Vconst (Forall2 offer_sim)) (poll_body todo) (poll_body todo).
Proof.
  intro todo. unfold poll_body.
  eapply J_bind.
  { apply (J_mapM _ _ _ res_sim). intro s. apply J_try_catch.
    - eapply J_bind; [apply jp_next_task_for|]. intros s0 o1 o2 Ho. apply J_ret. intro. split; [exact Ho|reflexivity].
    - intro x. eapply (J_bind _ _ _ Veq); [apply j_log_error|]. intros. apply J_ret. intro. split; [exact I|reflexivity]. }
  intros s0 rs1 rs2 Hr. unfold Vconst in Hr. destruct (offers_of_sim _ _ Hr) as [Ho He]. rewrite He.
  destruct (existsb snd rs2).
  - eapply (J_bind _ _ _ Veq); [apply (J_rsc_failed _ PairOK_refl PairOK_failed_row)|]. intros. apply J_ret. intro. constructor.
  - apply J_ret. intro. exact Ho.
Qed.


(* the same condition on the PLAIN run alone: after every report but the last the workflow is still
   running and a task is still active *)
Fixpoint busy (evs : list report) (a : cstate) : Prop :=
  match evs with
  | [] => True
  | r :: rest =>
      match rest with
      | [] => True
      | _ => let a1 := fst (api_exec ev (op_of r) a) in
             wstatus (c_ws a1) = S_RUNNING /\ has_active_tasks (c_ws a1) = true /\ busy rest a1
      end
  end.

Lemma busy_in_step : forall evs s a,
  c_init a = true -> PairOK s (wstatus (c_ws a)) ->
  (forall t route e, In (t, route, e) evs -> no_cmd t (c_graph a)) ->
  busy evs a -> in_step evs (so s a) a.
Proof.
  induction evs as [|[[t route] e] rest IH]; intros s a Hi Hp Hg Hb; [exact I|].
  destruct rest as [|r2 rest']; [exact I|].
  cbn [busy in_step op_of] in Hb |- *. rewrite !api_event_fst in Hb. rewrite !api_event_fst.
  destruct Hb as [H1 [H2 Hb]].
  destruct (report_commutes_with_status_override_partial t route e s a Hi Hp (Hg t route e (or_introl eq_refl))) as [_ F].
  destruct F as [[_ [Hi1 D]] Cl]. specialize (Cl H1 H2). split; [exact Cl|].
  destruct D as [Eb|[_ Eb]]; [|rewrite H1 in Eb; discriminate Eb].
  rewrite Eb. apply IH; [exact Hi1|exact Cl| |exact Hb].
  intros t0 route0 e0 Hin. rewrite pg_uts. apply (Hg t0 route0 e0). right; exact Hin.
Qed.

(* the poll of a resuming workflow against the poll of the running one *)
Theorem poll_commutes_with_resuming : forall a,
  c_init a = true -> wstatus (c_ws a) = S_RUNNING ->
  rrel (Forall2 offer_sim) (snd (get_next_tasks ev (so S_RESUMING a))) (snd (get_next_tasks ev a)) /\
  exists s', fst (get_next_tasks ev (so S_RESUMING a)) = so s' (fst (get_next_tasks ev a)) /\
             PairOK s' (wstatus (c_ws (fst (get_next_tasks ev a)))) /\ c_init (fst (get_next_tasks ev a)) = true.
Proof.
  intros a Hi Hr.
  assert (Ea : get_next_tasks ev a = poll_body (staged_filtered (c_ws a)) a).
  { unfold get_next_tasks, bind at 1. rewrite (ensure_ws_inited ev a Hi). unfold bind at 1, getws. cbv beta iota zeta.
    rewrite Hr. reflexivity. }
  assert (Eb : get_next_tasks ev (so S_RESUMING a) = poll_body (staged_filtered (c_ws a)) (so S_RESUMING a)).
  { unfold get_next_tasks, bind at 1. rewrite (ensure_ws_inited ev (so S_RESUMING a) Hi). unfold bind at 1, getws.
    cbv beta iota zeta. reflexivity. }
  rewrite Ea, Eb.
  assert (Hp : PairOK S_RESUMING (wstatus (c_ws a))) by (right; split; [exact Hr|right; reflexivity]).
  destruct (jp_poll_body (staged_filtered (c_ws a)) S_RESUMING a Hi Hp) as [s' [E [I [P R]]]].
  split; [exact R|]. exists s'. repeat split; assumption.
Qed.

(* a resume request on a paused workflow at rest (no active record) that answers "resuming" changes the
   workflow status and nothing else *)
Lemma resume_at_rest : forall a c_r r,
  ws_tasks_by_status (c_ws a) ACTIVE_STATUSES = [] ->
  request_status_core S_RESUMING (so S_PAUSED a) = (c_r, r) -> wstatus (c_ws c_r) = S_RESUMING ->
  c_r = so S_RESUMING a /\ r = Val tt.
Proof.
  intros a c_r r Hact H Hs. rewrite request_status_core_eq in H.
  change (ws_tasks_by_status (c_ws (so S_PAUSED a)) ACTIVE_STATUSES) with (ws_tasks_by_status (c_ws a) ACTIVE_STATUSES) in H.
  rewrite Hact in H. cbn [forM_] in H. unfold bind at 1, ret at 1 in H.
  destruct (wf_process_workflow_event (c_graph (so S_PAUSED a)) (c_ws (so S_PAUSED a)) S_RESUMING) as [[new unr]|e] eqn:W.
  2: { unfold request_tail, bind at 1, wf_workflow_event_M in H. rewrite W in H. inversion H; subst. discriminate Hs. }
  destruct (request_tail_run _ _ _ _ _ _ _ W (fun i r0 (Hin : In (i, r0) []) => match Hin with end) H) as [E Hr].
  change (set_ws (so S_PAUSED a) (ws_set_status (c_ws (so S_PAUSED a)) new)) with (so new a) in E.
  destruct (log_unreachable_run unr (so new a)) as [c1 [E1 W1]]. rewrite E1 in E. inversion E; subst c1.
  rewrite W1 in Hs. cbn [c_ws set_ws wstatus ws_set_status so] in Hs. subst new.
  (* the machine reports unreachable joins only when it completes the workflow *)
  assert (unr = []) as ->.
  { unfold wf_process_workflow_event in W.
    destruct (negb (string_in _ WORKFLOW_EXECUTION_EVENTS)); [discriminate W|].
    destruct (tbl_row wf_table (wstatus (c_ws (so S_PAUSED a)))) as [row|]; [|discriminate W].
    destruct (aget String.eqb _ row) as [n0|]; [|inversion W; reflexivity].
    destruct (negb (status_eqb n0 (wstatus (c_ws (so S_PAUSED a)))) && status_eqb n0 S_SUCCEEDED) eqn:Eb; [|inversion W; reflexivity].
    apply andb_prop in Eb. destruct Eb as [_ Eb]. apply status_eqb_eq in Eb. subst n0.
    unfold fail_on_unreachable in W. destruct (get_unreachable_barriers _ _); inversion W. }
  unfold log_unreachable in E1. cbn [forM_] in E1. inversion E1; subst c_r.
  split; [reflexivity|]. destruct Hr as [Hr|Hr]; [exact Hr|discriminate Hr].
Qed.

Lemma resume_then_poll : forall a_n b_n c_r rr, c_init a_n = true -> wstatus (c_ws a_n) = S_RUNNING ->
  ws_tasks_by_status (c_ws a_n) ACTIVE_STATUSES = [] -> b_n = so S_PAUSED a_n ->
  request_workflow_status ev S_RESUMING b_n = (c_r, rr) -> wstatus (c_ws c_r) = S_RESUMING ->
  c_r = so S_RESUMING a_n /\ rr = Val tt /\
  rrel (Forall2 offer_sim) (snd (get_next_tasks ev c_r)) (snd (get_next_tasks ev a_n)) /\
  exists s', fst (get_next_tasks ev c_r) = so s' (fst (get_next_tasks ev a_n)) /\
             PairOK s' (wstatus (c_ws (fst (get_next_tasks ev a_n)))).
Proof.
  intros a_n b_n c_r rr Hin Han Hact Eb Hres Hcr. subst b_n.
  rewrite (request_inited S_RESUMING (so S_PAUSED a_n) Hin) in Hres.
  destruct (resume_at_rest a_n c_r rr Hact Hres Hcr) as [Ecr Er]. split; [exact Ecr|]. split; [exact Er|].
  rewrite Ecr. destruct (poll_commutes_with_resuming a_n Hin Han) as [R [s' [Es [Ps _]]]].
  split; [exact R|]. exists s'. split; assumption.
Qed.

(* pause, reports, rest, resume, poll -- against the same reports and the poll, unpaused *)
Theorem pause_reports_resume_poll_partial : forall st evs c c_p r c_r rr,
  c_init c = true -> wstatus (c_ws c) = S_RUNNING -> no_item_tables c ->
  (forall t route e, In (t, route, e) evs -> no_cmd t (c_graph c)) ->
  pause_class st -> request_workflow_status ev st c = (c_p, r) -> wstatus (c_ws c_p) = S_PAUSING ->
  busy evs c ->
  let a_n := run_ops ev (map op_of evs) c in
  let b_n := run_ops ev (map op_of evs) c_p in
  wstatus (c_ws a_n) = S_RUNNING -> wstatus (c_ws b_n) = S_PAUSED ->
  ws_tasks_by_status (c_ws a_n) ACTIVE_STATUSES = [] ->
  request_workflow_status ev S_RESUMING b_n = (c_r, rr) -> wstatus (c_ws c_r) = S_RESUMING ->
  run_trace (map op_of evs) c_p = run_trace (map op_of evs) c /\
  b_n = so S_PAUSED a_n /\ c_r = so S_RESUMING a_n /\ rr = Val tt /\
  rrel (Forall2 offer_sim) (snd (get_next_tasks ev c_r)) (snd (get_next_tasks ev a_n)) /\
  exists s', fst (get_next_tasks ev c_r) = so s' (fst (get_next_tasks ev a_n)) /\
             PairOK s' (wstatus (c_ws (fst (get_next_tasks ev a_n)))).
Proof.
  intros st evs c c_p r c_r rr Hi Hr Hni Hg Hst H Hp Hstep a_n b_n Han Hbn Hact Hres Hcr.
  pose proof (accepted_pause_override st c c_p r Hi Hni Hst H Hp) as Ec.
  assert (Hp0 : PairOK S_PAUSING (wstatus (c_ws c))) by (right; split; [exact Hr|left; reflexivity]).
  pose proof (busy_in_step evs S_PAUSING c Hi Hp0 Hg Hstep) as Hstep'.
  destruct (reports_commute_with_status_override_partial evs S_PAUSING c Hi Hp0 Hg Hstep') as [T F].
  rewrite <- Ec in T, F. fold a_n b_n in F.
  assert (Ho : status_in (wstatus (c_ws a_n)) COMPLETED_STATUSES = false) by (rewrite Han; reflexivity).
  destruct (Fin_open _ _ F Ho) as [Eb _]. rewrite Hbn in Eb.
  destruct F as [[_ [Hin _]] _].
  split; [exact T|]. split; [exact Eb|]. apply (resume_then_poll a_n b_n c_r rr); assumption.
Qed.

(* the same over whole histories *)
Lemma api_request_fst : forall st c, fst (api_exec ev (OpRequest st) c) = fst (request_workflow_status ev st c).
Proof.
  intros. cbn [api_exec]. unfold bind, ret. destruct (request_workflow_status ev st c) as [c' [u|x]]; reflexivity.
Qed.

Lemma run_ops_app : forall l1 l2 c, run_ops ev (l1 ++ l2) c = run_ops ev l2 (run_ops ev l1 c).
Proof. intros. unfold run_ops. apply fold_left_app. Qed.

Theorem pause_resume_history_partial : forall st pre evs c0,
  let c := run_ops ev pre c0 in
  let c_p := run_ops ev (pre ++ [OpRequest st]) c0 in
  let plain := run_ops ev (pre ++ map op_of evs) c0 in
  let rest := run_ops ev (pre ++ [OpRequest st] ++ map op_of evs) c0 in
  let paused := run_ops ev (pre ++ [OpRequest st] ++ map op_of evs ++ [OpRequest S_RESUMING]) c0 in
  c_init c = true -> wstatus (c_ws c) = S_RUNNING -> no_item_tables c ->
  (forall t route e, In (t, route, e) evs -> no_cmd t (c_graph c)) ->
  pause_class st -> wstatus (c_ws c_p) = S_PAUSING -> busy evs c ->
  wstatus (c_ws plain) = S_RUNNING -> wstatus (c_ws rest) = S_PAUSED ->
  ws_tasks_by_status (c_ws plain) ACTIVE_STATUSES = [] ->
  wstatus (c_ws paused) = S_RESUMING ->
  run_trace (map op_of evs) c_p = run_trace (map op_of evs) c /\
  paused = so S_RESUMING plain /\ strip paused = strip plain /\
  rrel (Forall2 offer_sim) (snd (get_next_tasks ev paused)) (snd (get_next_tasks ev plain)) /\
  exists s', fst (get_next_tasks ev paused) = so s' (fst (get_next_tasks ev plain)) /\
             PairOK s' (wstatus (c_ws (fst (get_next_tasks ev plain)))).
Proof.
  intros st pre evs c0 c c_p plain rest paused Hi Hr Hni Hg Hst Hp Hstep Hpl Hre Hact Hpa.
  assert (Ecp : c_p = fst (request_workflow_status ev st c)).
  { unfold c_p. rewrite run_ops_app. fold c. unfold run_ops. cbn [fold_left]. apply api_request_fst. }
  assert (Epl : plain = run_ops ev (map op_of evs) c) by (unfold plain; rewrite run_ops_app; reflexivity).
  assert (Ere : rest = run_ops ev (map op_of evs) c_p).
  { unfold rest. rewrite app_assoc, run_ops_app. reflexivity. }
  assert (Epa : paused = fst (request_workflow_status ev S_RESUMING rest)).
  { unfold paused. rewrite !app_assoc, run_ops_app. rewrite <- !app_assoc. fold rest.
    unfold run_ops. cbn [fold_left]. apply api_request_fst. }
  destruct (request_workflow_status ev st c) as [cp0 r0] eqn:E0. cbn [fst] in Ecp. subst cp0.
  destruct (request_workflow_status ev S_RESUMING rest) as [cr0 rr0] eqn:E1. cbn [fst] in Epa. subst cr0.
  rewrite Ere in E1, Hre. rewrite Epl in Hpl, Hact |- *.
  destruct (pause_reports_resume_poll_partial st evs c c_p r0 paused rr0 Hi Hr Hni Hg Hst E0 Hp Hstep Hpl Hre Hact E1 Hpa)
    as [T [_ [Ecr [_ [R X]]]]].
  split; [exact T|]. split; [exact Ecr|]. split; [rewrite Ecr; reflexivity|]. split; [exact R|exact X].
Qed.

End Commute.


Definition no_item_tables_b (c : cstate) : bool :=
  forallb (fun p => match get_staged_task (c_ws c) (r_id (snd p)) (r_route (snd p)) with
                    | Some s => match s_items s with None => true | Some _ => false end
                    | None => true
                    end) (ws_tasks_by_status (c_ws c) ACTIVE_STATUSES).
Lemma no_item_tables_b_ok : forall c, no_item_tables_b c = true -> no_item_tables c.
Proof.
  intros c H i r Hin. unfold no_item_tables_b in H. rewrite forallb_forall in H. specialize (H (i, r) Hin).
  cbn [snd] in H. destruct (get_staged_task (c_ws c) (r_id r) (r_route r)) as [s|]; [|exact I].
  destruct (s_items s); [discriminate H|reflexivity].
Qed.
Definition no_cmd_b (t : string) (g : graph) : bool :=
  forallb (fun e => negb (is_engine_command (e_dst e))) (g_next_transitions g t).
Lemma no_cmd_b_ok : forall t g, no_cmd_b t g = true -> no_cmd t g.
Proof.
  intros t g H e Hin. unfold no_cmd_b in H. rewrite forallb_forall in H. specialize (H e Hin).
  destruct (is_engine_command (e_dst e)); [discriminate H|reflexivity].
Qed.

(* a state-blind evaluator: "no" is false, "y" looks the variable y up in the context, anything else is true *)
Definition q_ev (s : string) (ctx : dict) : evalres :=
  if String.eqb s "no" then EvOk (JBool false)
  else if String.eqb s "y" then EvOk (match dget "y" ctx with Some v => v | None => JNull end)
  else EvOk (JBool true).

Lemma q_ev_blind : state_blind q_ev.
Proof.
  intros s a b H. unfold q_ev. destruct (String.eqb s "no"); [reflexivity|].
  destruct (String.eqb s "y"); [|reflexivity]. rewrite (sim_dget "y" a b H); [reflexivity|discriminate].
Qed.

Definition q_task (join : json) (nx : list transition_spec) : task_spec :=
  {| ts_action := JNull; ts_input := JNull; ts_with := None; ts_delay := JNull; ts_join := join; ts_next := nx |}.
Definition q_node (n : string) (b : json) := {| n_id := n; n_barrier := b; n_splits := None; n_retry := JNull |}.

(* (A) the hypotheses are satisfiable and the conclusion is not trivial:   t1 --> t2 *)
Definition qa_spec : wf_spec :=
  {| wf_input := []; wf_vars := []; wf_output := [];
     wf_tasks := [("t1", q_task JNull [{| tr_when := JNull; tr_publish := [("y", JInt 7)]; tr_do := ["t2"] |}]);
                  ("t2", q_task JNull [])] |}.
Definition qa_graph : graph :=
  {| g_nodes := [q_node "t1" JNull; q_node "t2" JNull];
     g_edges := [{| e_src := "t1"; e_dst := "t2"; e_key := 0; e_ref := 0; e_criteria := [] |}] |}.
Definition qa_init : cstate :=
  {| c_spec := qa_spec; c_graph := qa_graph; c_inputs := []; c_parent := []; c_init := false;
     c_ws := empty_ws; c_errors := []; c_log := []; c_output := None |}.
Definition qa_pre : list api_op := [OpRequest S_RUNNING; OpGetNext; OpEvent "t1" 0 (EvAction S_RUNNING JNull)].
Definition qa_reports : list report := [("t1", 0, EvAction S_SUCCEEDED JNull)].
Definition qa_c : cstate := run_ops q_ev qa_pre qa_init.
Definition qa_cp : cstate := fst (request_workflow_status q_ev S_PAUSING qa_c).
Definition qa_an : cstate := run_ops q_ev (map op_of qa_reports) qa_c.
Definition qa_bn : cstate := run_ops q_ev (map op_of qa_reports) qa_cp.
Definition qa_cr : cstate := fst (request_workflow_status q_ev S_RESUMING qa_bn).
Definition offer_ids (r : result (list offer)) : option (list (string * nat)) :=
  match r with Val l => Some (map (fun o => (o_id o, o_route o)) l) | Exc _ => None end.

Example qa_hypotheses :
  c_init qa_c = true /\ wstatus (c_ws qa_c) = S_RUNNING /\ no_item_tables qa_c /\
  (forall t route e, In (t, route, e) qa_reports -> no_cmd t (c_graph qa_c)) /\
  request_workflow_status q_ev S_PAUSING qa_c = (qa_cp, Val tt) /\ wstatus (c_ws qa_cp) = S_PAUSING /\
  busy q_ev qa_reports qa_c /\
  wstatus (c_ws qa_an) = S_RUNNING /\ wstatus (c_ws qa_bn) = S_PAUSED /\
  ws_tasks_by_status (c_ws qa_an) ACTIVE_STATUSES = [] /\
  request_workflow_status q_ev S_RESUMING qa_bn = (qa_cr, Val tt) /\ wstatus (c_ws qa_cr) = S_RESUMING.
Proof.
  split; [vm_compute; reflexivity|]. split; [vm_compute; reflexivity|]. split.
  { apply no_item_tables_b_ok. vm_compute. reflexivity. }
  split.
  { intros t route e [E|[]]. inversion E; subst. apply no_cmd_b_ok. vm_compute. reflexivity. }
  split; [vm_compute; reflexivity|]. split; [vm_compute; reflexivity|]. split; [vm_compute; exact I|].
  split; [vm_compute; reflexivity|]. split; [vm_compute; reflexivity|]. split; [vm_compute; reflexivity|].
  split; vm_compute; reflexivity.
Qed.

(* ... and what the theorem then says, computed: the held task t2 is offered by both polls, and the
   published variable reached its context in both *)
Example qa_conclusion :
  offer_ids (snd (get_next_tasks q_ev qa_cr)) = Some [("t2", 0)] /\
  offer_ids (snd (get_next_tasks q_ev qa_an)) = Some [("t2", 0)] /\
  qa_bn = so S_PAUSED qa_an /\ qa_cr = so S_RESUMING qa_an /\ qa_cr <> qa_an.
Proof.
  split; [vm_compute; reflexivity|]. split; [vm_compute; reflexivity|]. split; [vm_compute; reflexivity|].
  split; [vm_compute; reflexivity|].
  intro E. pose proof (f_equal (fun c => wstatus (c_ws c)) E) as E'. vm_compute in E'. discriminate E'.
Qed.

(* (B) the excluded case is real: the report that COMPLETES the workflow.
       t0 --(publish y=7)--> t1 --> t3 (join all) <--(when "no")-- t2 ;   output r = y
   t2 succeeds first (its transition is not taken, the join becomes unreachable), then t1 reports.
   Unpaused: the workflow completes at t1's report (failed: unreachable join) and t1 is marked terminal;
   the output is rendered from the terminal contexts, r = 7.
   Paused before t1's report and resumed at rest: the resume request completes the workflow (failed, same
   error logged) but no call marks t1 terminal; the output is rendered without t1's context, r = null. *)
Definition qb_spec : wf_spec :=
  {| wf_input := []; wf_vars := []; wf_output := [("r", JStr "y")];
     wf_tasks := [("t0", q_task JNull [{| tr_when := JNull; tr_publish := [("y", JInt 7)]; tr_do := ["t1"] |}]);
                  ("t1", q_task JNull [{| tr_when := JNull; tr_publish := []; tr_do := ["t3"] |}]);
                  ("t2", q_task JNull [{| tr_when := JStr "no"; tr_publish := []; tr_do := ["t3"] |}]);
                  ("t3", q_task (JStr "all") [])] |}.
Definition qb_graph : graph :=
  {| g_nodes := [q_node "t0" JNull; q_node "t1" JNull; q_node "t2" JNull; q_node "t3" (JStr "*")];
     g_edges := [{| e_src := "t0"; e_dst := "t1"; e_key := 0; e_ref := 0; e_criteria := [] |};
                 {| e_src := "t1"; e_dst := "t3"; e_key := 0; e_ref := 0; e_criteria := [] |};
                 {| e_src := "t2"; e_dst := "t3"; e_key := 0; e_ref := 0; e_criteria := [JStr "no"] |}] |}.
Definition qb_init : cstate :=
  {| c_spec := qb_spec; c_graph := qb_graph; c_inputs := []; c_parent := []; c_init := false;
     c_ws := empty_ws; c_errors := []; c_log := []; c_output := None |}.
Definition qb_pre : list api_op :=
  [OpRequest S_RUNNING; OpGetNext; OpEvent "t0" 0 (EvAction S_RUNNING JNull); OpEvent "t2" 0 (EvAction S_RUNNING JNull);
   OpEvent "t0" 0 (EvAction S_SUCCEEDED JNull); OpGetNext; OpEvent "t1" 0 (EvAction S_RUNNING JNull);
   OpEvent "t2" 0 (EvAction S_SUCCEEDED JNull)].
Definition qb_last : api_op := OpEvent "t1" 0 (EvAction S_SUCCEEDED JNull).
Definition qb_plain : list api_op := qb_pre ++ [qb_last; OpRender].
Definition qb_paused : list api_op := qb_pre ++ [OpRequest S_PAUSING; qb_last; OpRequest S_RESUMING; OpRender].
Definition qb_obs (c : cstate) :=
  (wstatus (c_ws c), map (fun r => (r_id r, r_term r)) (sequence (c_ws c)), c_output c, length (c_errors c)).

Example completion_under_pause_is_not_transparent :
  qb_obs (run_ops q_ev qb_plain qb_init)
  = (S_FAILED, [("t0", false); ("t2", true); ("t1", true)], Some [("r", JInt 7)], 1) /\
  qb_obs (run_ops q_ev qb_paused qb_init)
  = (S_FAILED, [("t0", false); ("t2", true); ("t1", false)], Some [("r", JNull)], 1).
Proof. split; vm_compute; reflexivity. Qed.

(* the same at the level of the single report: every hypothesis of report_commutes_with_pause_partial
   holds, the conclusion holds through the SECOND alternative of Fin, and the states are not equal up to
   statuses (PauseProofs.strip): the terminal flag of t1 and the error log differ *)
Definition qb_c : cstate := run_ops q_ev qb_pre qb_init.
Definition qb_cp : cstate := fst (request_workflow_status q_ev S_PAUSING qb_c).
Definition qb_b' : cstate := fst (update_task_state q_ev "t1" 0 (EvAction S_SUCCEEDED JNull) qb_cp).
Definition qb_a' : cstate := fst (update_task_state q_ev "t1" 0 (EvAction S_SUCCEEDED JNull) qb_c).
Example qb_step :
  c_init qb_c = true /\ wstatus (c_ws qb_c) = S_RUNNING /\ no_item_tables qb_c /\ no_cmd "t1" (c_graph qb_c) /\
  request_workflow_status q_ev S_PAUSING qb_c = (qb_cp, Val tt) /\ wstatus (c_ws qb_cp) = S_PAUSING /\
  wstatus (c_ws qb_b') = S_PAUSED /\ wstatus (c_ws qb_a') = S_FAILED /\ strip qb_b' <> strip qb_a' /\
  map r_term (sequence (c_ws qb_b')) = [false; true; false] /\ map r_term (sequence (c_ws qb_a')) = [false; true; true] /\
  length (c_errors qb_b') = 0 /\ length (c_errors qb_a') = 1.
Proof.
  split; [vm_compute; reflexivity|]. split; [vm_compute; reflexivity|]. split.
  { apply no_item_tables_b_ok. vm_compute. reflexivity. }
  split.
  { apply no_cmd_b_ok. vm_compute. reflexivity. }
  split; [vm_compute; reflexivity|]. split; [vm_compute; reflexivity|].
  split; [vm_compute; reflexivity|]. split; [vm_compute; reflexivity|]. split.
  { intro E. pose proof (f_equal (fun c => length (c_errors c)) E) as E'. vm_compute in E'. discriminate E'. }
  split; [vm_compute; reflexivity|]. split; [vm_compute; reflexivity|]. split; vm_compute; reflexivity.
Qed.

(* (C) two reports between the pause and the rest:   t0 ;  t1 --> t2   (t0 and t1 in flight) *)
Definition qc_spec : wf_spec :=
  {| wf_input := []; wf_vars := []; wf_output := [];
     wf_tasks := [("t0", q_task JNull []);
                  ("t1", q_task JNull [{| tr_when := JNull; tr_publish := []; tr_do := ["t2"] |}]);
                  ("t2", q_task JNull [])] |}.
Definition qc_graph : graph :=
  {| g_nodes := [q_node "t0" JNull; q_node "t1" JNull; q_node "t2" JNull];
     g_edges := [{| e_src := "t1"; e_dst := "t2"; e_key := 0; e_ref := 0; e_criteria := [] |}] |}.
Definition qc_init : cstate :=
  {| c_spec := qc_spec; c_graph := qc_graph; c_inputs := []; c_parent := []; c_init := false;
     c_ws := empty_ws; c_errors := []; c_log := []; c_output := None |}.
Definition qc_pre : list api_op :=
  [OpRequest S_RUNNING; OpGetNext; OpEvent "t0" 0 (EvAction S_RUNNING JNull); OpEvent "t1" 0 (EvAction S_RUNNING JNull)].
Definition qc_reports : list report := [("t1", 0, EvAction S_SUCCEEDED JNull); ("t0", 0, EvAction S_SUCCEEDED JNull)].
Definition qc_c : cstate := run_ops q_ev qc_pre qc_init.
Definition qc_plain : cstate := run_ops q_ev (qc_pre ++ map op_of qc_reports) qc_init.
Definition qc_paused : cstate :=
  run_ops q_ev (qc_pre ++ [OpRequest S_PAUSING] ++ map op_of qc_reports ++ [OpRequest S_RESUMING]) qc_init.

Example qc_hypotheses :
  c_init qc_c = true /\ wstatus (c_ws qc_c) = S_RUNNING /\ no_item_tables qc_c /\
  (forall t route e, In (t, route, e) qc_reports -> no_cmd t (c_graph qc_c)) /\
  wstatus (c_ws (run_ops q_ev (qc_pre ++ [OpRequest S_PAUSING]) qc_init)) = S_PAUSING /\
  busy q_ev qc_reports qc_c /\
  wstatus (c_ws qc_plain) = S_RUNNING /\
  wstatus (c_ws (run_ops q_ev (qc_pre ++ [OpRequest S_PAUSING] ++ map op_of qc_reports) qc_init)) = S_PAUSED /\
  ws_tasks_by_status (c_ws qc_plain) ACTIVE_STATUSES = [] /\
  wstatus (c_ws qc_paused) = S_RESUMING.
Proof.
  split; [vm_compute; reflexivity|]. split; [vm_compute; reflexivity|]. split.
  { apply no_item_tables_b_ok. vm_compute. reflexivity. }
  split.
  { intros t route e [E|[E|[]]]; inversion E; subst; apply no_cmd_b_ok; vm_compute; reflexivity. }
  split; [vm_compute; reflexivity|]. split.
  { cbn [busy qc_reports]. split; [vm_compute; reflexivity|]. split; [vm_compute; reflexivity|exact I]. }
  split; [vm_compute; reflexivity|]. split; [vm_compute; reflexivity|]. split; vm_compute; reflexivity.
Qed.

Example qc_conclusion :
  qc_paused = so S_RESUMING qc_plain /\
  offer_ids (snd (get_next_tasks q_ev qc_paused)) = Some [("t2", 0)] /\
  offer_ids (snd (get_next_tasks q_ev qc_plain)) = Some [("t2", 0)].
Proof. split; [vm_compute; reflexivity|]. split; vm_compute; reflexivity. Qed.
