(* InertProofs.v -- C04, the clause "status requests that the lifecycle forbids are rejected with an
   error and have no effect on the persisted state".

   request_workflow_status pushes the workflow event to every active pointed record (each may get a
   new status), steps the workflow table, and -- when the request changed nothing -- writes the saved
   record statuses back and raises InvalidWorkflowStatusTransition.  The theorem: whenever the call
   raises (any exception), the whole conductor state is exactly the state before the call, provided
   the workflow status is one that has a row in the workflow table (every status the table can reach
   has one; [lifecycle_invariant]).  Without that proviso the statement is false on the model
   ([rejected_request_not_inert_outside_lifecycle], at the end of this file). *)
From Coq Require Import String List Bool ZArith Arith Lia.
From Orq Require Import GenStatuses GenEvents GenTables GenSpecMeta Base State Machines Codec Conductor Decode Api.
From Orq Require Import F_tables F_sys ListFacts StateFacts Hoare Frame StatusReach C05Proofs C04Proofs.
Import ListNotations.
Open Scope string_scope.
Open Scope monad_scope.

Lemma nth_error_ext_eq : forall A (l l' : list A), (forall j, nth_error l j = nth_error l' j) -> l = l'.
Proof.
  induction l as [|a l IH]; intros [|b l'] H; [reflexivity| | |].
  - specialize (H 0); discriminate.
  - specialize (H 0); discriminate.
  - f_equal; [specialize (H 0); simpl in H; congruence|].
    apply IH; intro j; exact (H (S j)).
Qed.

Lemma In_enumerate_from : forall A (l : list A) n i x,
  In (i, x) (enumerate_from n l) -> n <= i /\ nth_error l (i - n) = Some x.
Proof.
  induction l as [|a l IH]; intros n i x H; simpl in H; [destruct H|].
  destruct H as [H|H].
  - inversion H; subst. split; [lia|]. rewrite Nat.sub_diag. reflexivity.
  - apply IH in H. destruct H as [Hle Hn]. split; [lia|].
    replace (i - n) with (S (i - S n)) by lia. exact Hn.
Qed.

Lemma In_enumerate : forall A (l : list A) i x, In (i, x) (enumerate l) -> nth_error l i = Some x.
Proof.
  intros A l i x H. unfold enumerate in H. apply In_enumerate_from in H.
  destruct H as [_ H]. rewrite Nat.sub_0_r in H. exact H.
Qed.

Lemma map_fst_enumerate_from : forall A (l : list A) n, map fst (enumerate_from n l) = seq n (length l).
Proof. induction l as [|a l IH]; intro n; simpl; [reflexivity|]. f_equal. apply IH. Qed.

Lemma tasks_by_status_In : forall w l i r, In (i, r) (ws_tasks_by_status w l) ->
  nth_error (sequence w) i = Some r /\ ostatus_in (r_status r) l = true.
Proof.
  intros w l i r H. unfold ws_tasks_by_status in H. apply filter_In in H. destruct H as [Hin Hf].
  cbv beta iota in Hf. apply andb_prop in Hf. destruct Hf as [Hs _].
  split; [apply In_enumerate; exact Hin|exact Hs].
Qed.

Lemma tasks_by_status_NoDup : forall w l, NoDup (map fst (ws_tasks_by_status w l)).
Proof.
  intros w l. unfold ws_tasks_by_status. apply nodup_map_filter.
  unfold enumerate. rewrite map_fst_enumerate_from. apply seq_NoDup.
Qed.

(* every active status has a row in the task table: the task machine never raises
   InvalidTaskStatusTransition for an active record *)
Lemma F_active_task_rows : forall s, status_in s ACTIVE_STATUSES = true ->
  exists row, tbl_row task_table s = Some row.
Proof.
  intros s H.
  assert (T : forallb (fun s => negb (status_in s ACTIVE_STATUSES)
                                || match tbl_row task_table s with Some _ => true | None => false end)
                      all_statuses = true) by (vm_compute; reflexivity).
  rewrite forallb_forall in T. specialize (T s (all_statuses_complete s)).
  rewrite H in T. cbn [negb orb] in T.
  destruct (tbl_row task_table s) as [row|]; [exists row; reflexivity|discriminate].
Qed.

Lemma active_record_has_row : forall r, ostatus_in (r_status r) ACTIVE_STATUSES = true ->
  exists row, tbl_row task_table (rstatus r) = Some row.
Proof.
  intros r H. unfold rstatus. destruct (r_status r) as [s|]; [|discriminate].
  apply F_active_task_rows. exact H.
Qed.

(* when the plain name "workflow_<status>" is in the vocabulary, so is every contextualised form
   the workflow machine can build from it (all 16 statuses x all contexts) *)
Lemma F_wf_event_name_vocab : forall w st,
  string_in (WORKFLOW_EVENT_PREFIX ++ status_name st) WORKFLOW_EXECUTION_EVENTS = true ->
  string_in (wf_workflow_event_name w st) WORKFLOW_EXECUTION_EVENTS = true.
Proof.
  intros w st. unfold wf_workflow_event_name.
  generalize (has_active_tasks w) (has_staged_tasks w) (has_paused_tasks w) (status_eqb (wstatus w) S_PAUSED).
  intros b1 b2 b3 b4. destruct st, b1, b2, b3, b4; vm_compute; intro H; exact H.
Qed.

Definition wev_in_vocab (st : status) : bool :=
  string_in (WORKFLOW_EVENT_PREFIX ++ status_name st) WORKFLOW_EXECUTION_EVENTS.

Lemma tpe_workflow_val : forall w r st row, wev_in_vocab st = true ->
  tbl_row task_table (rstatus r) = Some row ->
  exists ns, task_process_event w r (EvWorkflow st) = Val ns.
Proof.
  intros w r st row Hv Hrow. unfold task_process_event. cbn [ev_name].
  unfold wev_in_vocab in Hv. rewrite Hv. cbn [negb]. unfold task_table_step. rewrite Hrow.
  eexists; reflexivity.
Qed.

(* the vocabulary test does not look at the record: if the name is unknown, the machine raises
   InvalidEvent for every record, in particular for the first one *)
Lemma tpe_workflow_invalid : forall w r st, wev_in_vocab st = false ->
  task_process_event w r (EvWorkflow st) = Exc (exn_invalid_event (WORKFLOW_EVENT_PREFIX ++ status_name st)).
Proof.
  intros w r st Hv. unfold task_process_event. cbn [ev_name].
  unfold wev_in_vocab in Hv. rewrite Hv. reflexivity.
Qed.

Definition with_seq (c : cstate) (s : list trec) : cstate := set_ws c (ws_set_sequence (c_ws c) s).

Lemma with_seq_same : forall c, with_seq c (sequence (c_ws c)) = c.
Proof. intros [sp g inp par ini w er lg out]; destruct w; reflexivity. Qed.

Lemma with_seq_twice : forall c s s', with_seq (with_seq c s) s' = with_seq c s'.
Proof. reflexivity. Qed.

Lemma set_status_same : forall c, set_ws c (ws_set_status (c_ws c) (wstatus (c_ws c))) = c.
Proof. intros [sp g inp par ini w er lg out]; destruct w; reflexivity. Qed.

Lemma r_set_status_twice : forall r x y, r_set_status (r_set_status r x) y = r_set_status r y.
Proof. reflexivity. Qed.

Lemma r_set_status_same : forall r, r_set_status r (r_status r) = r.
Proof. intros []; reflexivity. Qed.

Definition seq_upd (i : nat) (x : option status) (s : list trec) : list trec :=
  match nth_error s i with Some r => list_set_nth i (r_set_status r x) s | None => s end.

Lemma nth_error_seq_upd_eq : forall i x s r, nth_error s i = Some r ->
  nth_error (seq_upd i x s) i = Some (r_set_status r x).
Proof. intros i x s r H. unfold seq_upd. rewrite H. eapply nth_error_set_nth_same; exact H. Qed.

Lemma nth_error_seq_upd_neq : forall i j x s, i <> j -> nth_error (seq_upd i x s) j = nth_error s j.
Proof.
  intros i j x s H. unfold seq_upd. destruct (nth_error s i); [|reflexivity].
  apply nth_error_set_nth_other; exact H.
Qed.

Lemma set_rec_status_run : forall i x c,
  set_rec_status i x c = (with_seq c (seq_upd i x (sequence (c_ws c))), Val tt).
Proof.
  intros i x c. unfold set_rec_status, modws, ws_update_rec, with_seq, seq_upd.
  destruct (nth_error (sequence (c_ws c)) i); [reflexivity|].
  destruct c as [sp g inp par ini w er lg out]; destruct w; reflexivity.
Qed.

(* [moved L s0 s]: s is s0 except that records listed in L may carry another status *)
Definition moved (L : list (nat * trec)) (s0 s : list trec) : Prop :=
  forall j, nth_error s j = nth_error s0 j \/
            exists a x, In (j, a) L /\ nth_error s0 j = Some a /\ nth_error s j = Some (r_set_status a x).

Lemma moved_refl : forall L s, moved L s s.
Proof. intros L s j; left; reflexivity. Qed.

Lemma moved_step : forall L s0 s i r x, moved L s0 s -> In (i, r) L -> nth_error s0 i = Some r ->
  nth_error s i = Some r -> moved L s0 (seq_upd i x s).
Proof.
  intros L s0 s i r x Hm Hin H0 Hs j. destruct (Nat.eq_dec i j) as [E|N].
  - subst j. right. exists r, x. split; [exact Hin|]. split; [exact H0|].
    apply nth_error_seq_upd_eq; exact Hs.
  - rewrite nth_error_seq_upd_neq by exact N. apply Hm.
Qed.

(* the body of the loop that pushes the workflow event to the active records *)
Definition push_body (st : status) : nat * trec -> M unit :=
  fun '(i, _) =>
    w <- getws ;;
    match nth_error (sequence w) i with
    | None => ret tt
    | Some r =>
        ns <- lift_res (task_process_event w r (EvWorkflow st)) ;;
        match ns with Some s => set_rec_status i (Some s) | None => ret tt end
    end.

Definition request_tail (st current : status) (active : list (nat * trec)) : M unit :=
  unreachable <- wf_workflow_event_M st ;;
  log_unreachable unreachable ;;;
  w1 <- getws ;;
  let updated := wstatus w1 in
  if status_eqb st S_PAUSED && status_eqb current S_PAUSING && status_eqb updated S_PAUSING then ret tt
  else if status_eqb st S_CANCELED && status_eqb current S_CANCELING && status_eqb updated S_CANCELING
  then ret tt
  else if negb (status_eqb st current) && status_eqb current updated then
    forM_ active (fun '(i, r) => set_rec_status i (r_status r)) ;;;
    raise (exn_invalid_wf_transition current (WORKFLOW_EVENT_PREFIX ++ status_name st))
  else ret tt.

Lemma request_status_core_eq : forall st c,
  request_status_core st c =
  bind (forM_ (ws_tasks_by_status (c_ws c) ACTIVE_STATUSES) (push_body st))
       (fun _ => request_tail st (wstatus (c_ws c)) (ws_tasks_by_status (c_ws c) ACTIVE_STATUSES)) c.
Proof. reflexivity. Qed.

Lemma push_body_run : forall st i r0 c r ns, nth_error (sequence (c_ws c)) i = Some r ->
  task_process_event (c_ws c) r (EvWorkflow st) = Val ns ->
  push_body st (i, r0) c =
  (with_seq c (match ns with Some s => seq_upd i (Some s) (sequence (c_ws c)) | None => sequence (c_ws c) end),
   Val tt).
Proof.
  intros st i r0 c r ns Hn Ht. unfold push_body, bind, getws. cbv beta iota.
  rewrite Hn. cbv beta iota. unfold lift_res. rewrite Ht. unfold ret. cbv beta iota.
  destruct ns as [s|]; [apply set_rec_status_run|rewrite with_seq_same; reflexivity].
Qed.

Lemma push_body_raises : forall st i r0 c r, nth_error (sequence (c_ws c)) i = Some r ->
  wev_in_vocab st = false ->
  push_body st (i, r0) c = (c, Exc (exn_invalid_event (WORKFLOW_EVENT_PREFIX ++ status_name st))).
Proof.
  intros st i r0 c r Hn Hv. unfold push_body, bind, getws. cbv beta iota.
  rewrite Hn. cbv beta iota. unfold lift_res. rewrite (tpe_workflow_invalid _ _ _ Hv). reflexivity.
Qed.

Lemma push_loop_run : forall st L s0, wev_in_vocab st = true ->
  (forall i r, In (i, r) L -> nth_error s0 i = Some r /\ ostatus_in (r_status r) ACTIVE_STATUSES = true) ->
  forall l c, incl l L -> NoDup (map fst l) ->
    (forall i r, In (i, r) l -> nth_error (sequence (c_ws c)) i = Some r) ->
    moved L s0 (sequence (c_ws c)) ->
    exists s2, forM_ l (push_body st) c = (with_seq c s2, Val tt) /\ moved L s0 s2.
Proof.
  intros st L s0 Hv HL. induction l as [|[i r] l IH]; intros c Hincl Hnd Hun Hm.
  - exists (sequence (c_ws c)). cbn [forM_]. rewrite with_seq_same. split; [reflexivity|exact Hm].
  - assert (Hir : In (i, r) L) by (apply Hincl; left; reflexivity).
    destruct (HL i r Hir) as [H0 Hact].
    assert (Hcur : nth_error (sequence (c_ws c)) i = Some r) by (apply Hun; left; reflexivity).
    destruct (active_record_has_row r Hact) as [row Hrow].
    destruct (tpe_workflow_val (c_ws c) r st row Hv Hrow) as [ns Hns].
    pose proof (push_body_run st i r c r ns Hcur Hns) as Hb.
    remember (match ns with Some s => seq_upd i (Some s) (sequence (c_ws c)) | None => sequence (c_ws c) end) as s1 eqn:Es1.
    cbn [map fst] in Hnd. inversion Hnd as [|x xs Hnotin Hnd']; subst x xs.
    assert (Hs1 : forall j, j <> i -> nth_error s1 j = nth_error (sequence (c_ws c)) j).
    { intros j Hj. rewrite Es1. destruct ns; [|reflexivity]. apply nth_error_seq_upd_neq. congruence. }
    assert (Hm1 : moved L s0 s1).
    { rewrite Es1. destruct ns; [|exact Hm]. eapply moved_step; eassumption. }
    destruct (IH (with_seq c s1)) as [s2 [Hrun Hm2]].
    + intros p Hp; apply Hincl; right; exact Hp.
    + exact Hnd'.
    + intros j r' Hin. change (sequence (c_ws (with_seq c s1))) with s1.
      rewrite Hs1; [apply Hun; right; exact Hin|].
      intro E; subst j. apply Hnotin. apply in_map_iff. exists (i, r'); split; [reflexivity|exact Hin].
    + exact Hm1.
    + exists s2. split; [|exact Hm2]. cbn [forM_]. unfold bind. rewrite Hb. rewrite Hrun.
      rewrite with_seq_twice. reflexivity.
Qed.

Definition restore (l : list (nat * trec)) (s : list trec) : list trec :=
  fold_left (fun s '(i, r) => seq_upd i (r_status r) s) l s.

Lemma restore_loop_run : forall l c,
  forM_ l (fun '(i, r) => set_rec_status i (r_status r)) c =
  (with_seq c (restore l (sequence (c_ws c))), Val tt).
Proof.
  induction l as [|[i r] l IH]; intro c; cbn [forM_ restore fold_left].
  - unfold ret. rewrite with_seq_same. reflexivity.
  - unfold bind. rewrite set_rec_status_run. rewrite IH. rewrite with_seq_twice. reflexivity.
Qed.

(* writing the saved statuses back undoes whatever the forward loop wrote *)
Lemma restore_moved : forall l s0 s, (forall i r, In (i, r) l -> nth_error s0 i = Some r) ->
  moved l s0 s -> restore l s = s0.
Proof.
  induction l as [|[i r] l IH]; intros s0 s HL Hm; cbn [restore fold_left].
  - apply nth_error_ext_eq. intro j. destruct (Hm j) as [H|[a [x [[] _]]]]. exact H.
  - apply IH; [intros j a Hin; apply HL; right; exact Hin|].
    assert (H0 : nth_error s0 i = Some r) by (apply HL; left; reflexivity).
    assert (Hi : nth_error (seq_upd i (r_status r) s) i = Some r).
    { destruct (Hm i) as [H|[a [x [_ [Ha Hs]]]]].
      - rewrite H0 in H. rewrite (nth_error_seq_upd_eq _ _ _ _ H). rewrite r_set_status_same. reflexivity.
      - rewrite H0 in Ha; inversion Ha; subst a.
        rewrite (nth_error_seq_upd_eq _ _ _ _ Hs). rewrite r_set_status_twice, r_set_status_same. reflexivity. }
    intro j. destruct (Nat.eq_dec i j) as [E|N].
    + subst j. left. rewrite Hi, H0. reflexivity.
    + rewrite nth_error_seq_upd_neq by exact N.
      destruct (Hm j) as [H|[a [x [Hin [Ha Hs]]]]]; [left; exact H|].
      destruct Hin as [Hin|Hin]; [inversion Hin; congruence|].
      right. exists a, x. split; [exact Hin|]. split; assumption.
Qed.

Lemma log_error_run : forall e t r tr c, exists c', log_error e t r tr c = (c', Val tt) /\ c_ws c' = c_ws c.
Proof.
  intros e t r tr c. unfold log_error, log_entry_error, modify.
  eexists; split; [reflexivity|]. destruct (existsb _ _); reflexivity.
Qed.

Lemma log_unreachable_run : forall l c, exists c', log_unreachable l c = (c', Val tt) /\ c_ws c' = c_ws c.
Proof.
  unfold log_unreachable. induction l as [|s l IH]; intro c; cbn [forM_].
  - exists c; split; reflexivity.
  - unfold bind.
    destruct (log_error_run (mkexn "UnreachableJoinError"
                 ("The join task|route """ ++ s_id s ++ "|" ++ nat_to_string (s_route s)
                  ++ """ is partially satisfied but unreachable."))
              (Some (s_id s)) (Some (s_route s)) None c) as [c1 [H1 W1]].
    rewrite H1. destruct (IH c1) as [c2 [H2 W2]]. exists c2. split; [exact H2|congruence].
Qed.

(* the workflow machine reports unreachable joins only together with a status change *)
Lemma wpwe_same_status_no_log : forall g w st unr,
  wf_process_workflow_event g w st = Val (wstatus w, unr) -> unr = [].
Proof.
  intros g w st unr E. destruct (wf_process_workflow_event_val _ _ _ _ _ E) as [_ [_ Hv]].
  destruct (tbl_step wf_table (wstatus w) _) as [n|] eqn:St; [|exact (proj2 Hv)].
  destruct (negb (status_eqb n (wstatus w)) && status_eqb n S_SUCCEEDED); [|exact (proj2 Hv)].
  unfold fail_on_unreachable in Hv.
  destruct (get_unreachable_barriers g (ws_set_status w n)) as [|b bs]; inversion Hv as [[Hs Hu]]; [reflexivity|].
  rewrite Hs, F_wf_failed_final in St. discriminate.
Qed.

Definition workflow_status_has_row (c : cstate) : Prop :=
  exists row, tbl_row wf_table (wstatus (c_ws c)) = Some row.

Lemma wpwe_val : forall g w st row, wev_in_vocab st = true -> tbl_row wf_table (wstatus w) = Some row ->
  exists p, wf_process_workflow_event g w st = Val p.
Proof.
  intros g w st row Hv Hr. unfold wf_process_workflow_event.
  rewrite (F_wf_event_name_vocab w st Hv). cbn [negb]. rewrite Hr.
  destruct (aget String.eqb (wf_workflow_event_name w st) row) as [n|]; [|eexists; reflexivity].
  destruct (negb (status_eqb n (wstatus w)) && status_eqb n S_SUCCEEDED); eexists; reflexivity.
Qed.

(* "workflow_failed" is in no row of the task table: the request moves no task *)
Lemma failure_request_moves_no_task : forall l c,
  (forall i r0, In (i, r0) l -> nth_error (sequence (c_ws c)) i = Some r0 /\ ostatus_in (r_status r0) ACTIVE_STATUSES = true) ->
  forM_ l (push_body S_FAILED) c = (c, Val tt).
Proof.
  induction l as [|[i r] l IH]; intros c H; [reflexivity|]. cbn [forM_].
  destruct (H i r (or_introl eq_refl)) as [Hn Ha]. destruct (active_record_has_row r Ha) as [row Hrow].
  assert (Et : task_process_event (c_ws c) r (EvWorkflow S_FAILED) = Val None).
  { unfold task_process_event, task_table_step. cbn [ev_name].
    change (string_in (WORKFLOW_EVENT_PREFIX ++ status_name S_FAILED) WORKFLOW_EXECUTION_EVENTS) with true. cbn [negb].
    pose proof (F_workflow_failed_nowhere (rstatus r)) as F. unfold tbl_step in F. rewrite Hrow in F |- *.
    change (task_workflow_event_name (c_ws c) (r_id r) (r_route r) S_FAILED) with (workflow_event_name S_FAILED).
    rewrite F. reflexivity. }
  unfold bind. rewrite (push_body_run S_FAILED i r c r None Hn Et), with_seq_same.
  apply IH. intros j rj Hj. apply H. right; exact Hj.
Qed.

Lemma wpwe_failed_run : forall g w, wf_process_workflow_event g w S_FAILED =
  match tbl_row wf_table (wstatus w) with
  | None => Exc (exn_invalid_wf_transition (wstatus w) "workflow_failed")
  | Some _ => Val (match tbl_step wf_table (wstatus w) "workflow_failed" with Some _ => S_FAILED | None => wstatus w end, [])
  end.
Proof.
  intros g w. unfold wf_process_workflow_event, wf_workflow_event_name.
  change (status_in S_FAILED (app PAUSE_STATUSES CANCEL_STATUSES)) with false.
  change (status_in S_FAILED [S_RUNNING; S_RESUMING]) with false. rewrite andb_false_r. cbn [andb]. cbv iota zeta.
  change (WORKFLOW_EVENT_PREFIX ++ status_name S_FAILED) with "workflow_failed".
  change (string_in "workflow_failed" WORKFLOW_EXECUTION_EVENTS) with true. cbn [negb].
  pose proof (F_wf_failed_target (wstatus w)) as T. unfold tbl_step in *.
  destruct (tbl_row wf_table (wstatus w)) as [row|]; [|reflexivity].
  destruct (aget String.eqb "workflow_failed" row) as [n|]; [|reflexivity]. rewrite (T n eq_refl).
  change (status_eqb S_FAILED S_SUCCEEDED) with false. rewrite andb_false_r. reflexivity.
Qed.

(* exactly what the request does: where the workflow table accepts "workflow_failed" the workflow becomes failed; elsewhere
   nothing changes, and unless the workflow is failed already the request is REFUSED *)
Lemma rsc_failed_run : forall c, request_status_core S_FAILED c =
  match tbl_step wf_table (wstatus (c_ws c)) "workflow_failed" with
  | Some _ => (set_ws c (ws_set_status (c_ws c) S_FAILED), Val tt)
  | None => (c, if status_eqb S_FAILED (wstatus (c_ws c)) then Val tt
                else Exc (exn_invalid_wf_transition (wstatus (c_ws c)) "workflow_failed"))
  end.
Proof.
  intro c. rewrite request_status_core_eq.
  rewrite (bind_step _ _ _ _ _ _ _ (failure_request_moves_no_task _ c (tasks_by_status_In (c_ws c) ACTIVE_STATUSES))).
  unfold request_tail. unfold bind at 1, wf_workflow_event_M. rewrite wpwe_failed_run.
  change (status_eqb S_FAILED S_PAUSED) with false. change (status_eqb S_FAILED S_CANCELED) with false. cbn [andb].
  unfold log_unreachable.
  destruct (status_eqb S_FAILED (wstatus (c_ws c))) eqn:Ef.
  { apply status_eqb_eq in Ef.
    assert (Es : tbl_step wf_table (wstatus (c_ws c)) "workflow_failed" = None) by (rewrite <- Ef; apply F_wf_failed_final).
    assert (Er : tbl_row wf_table (wstatus (c_ws c)) = Some []) by (rewrite <- Ef; reflexivity).
    rewrite Es, Er, set_status_same. reflexivity. }
  destruct (tbl_row wf_table (wstatus (c_ws c))) as [row|] eqn:Er; [|unfold tbl_step; rewrite Er; reflexivity].
  destruct (tbl_step wf_table (wstatus (c_ws c)) "workflow_failed").
  - cbn [forM_]. unfold bind, ret, getws. cbn [c_ws set_ws wstatus ws_set_status negb andb].
    destruct (status_eqb (wstatus (c_ws c)) S_FAILED) eqn:E; [|reflexivity].
    apply status_eqb_eq in E. rewrite E, status_eqb_refl in Ef. discriminate.
  - cbn [forM_]. unfold bind, ret, getws. cbn [c_ws set_ws wstatus ws_set_status negb andb].
    rewrite status_eqb_refl, set_status_same, restore_loop_run.
    rewrite (restore_moved _ (sequence (c_ws c)) (sequence (c_ws c))), with_seq_same; [reflexivity| |apply moved_refl].
    intros i r H. apply (tasks_by_status_In _ _ _ _ H).
Qed.

Section WithEval.
Variable ev : string -> dict -> evalres.

(* the forward loop either raises on the first record with nothing changed, or returns with only
   statuses of active records moved -- and if anything at all may have moved, the event name is
   in the vocabulary *)
Lemma push_loop_outcome : forall st c,
  let active := ws_tasks_by_status (c_ws c) ACTIVE_STATUSES in
  (exists e, forM_ active (push_body st) c = (c, Exc e)) \/
  (exists s2, forM_ active (push_body st) c = (with_seq c s2, Val tt) /\
              moved active (sequence (c_ws c)) s2 /\
              (s2 = sequence (c_ws c) \/ wev_in_vocab st = true)).
Proof.
  intros st c active.
  assert (HL : forall i r, In (i, r) active ->
                 nth_error (sequence (c_ws c)) i = Some r /\ ostatus_in (r_status r) ACTIVE_STATUSES = true)
    by (intros i r H; apply tasks_by_status_In; exact H).
  destruct (wev_in_vocab st) eqn:Hv.
  - right.
    destruct (push_loop_run st active (sequence (c_ws c)) Hv HL active c) as [s2 [Hrun Hm]].
    + apply incl_refl.
    + apply tasks_by_status_NoDup.
    + intros i r H; apply HL; exact H.
    + apply moved_refl.
    + exists s2. split; [exact Hrun|]. split; [exact Hm|right; reflexivity].
  - destruct active as [|[i r] l] eqn:Ea.
    + right. exists (sequence (c_ws c)). cbn [forM_]. rewrite with_seq_same.
      split; [reflexivity|]. split; [apply moved_refl|left; reflexivity].
    + left. eexists. cbn [forM_]. unfold bind.
      rewrite (push_body_raises st i r c r); [reflexivity| |exact Hv].
      apply HL; left; reflexivity.
Qed.

Lemma rejected_core_is_inert : forall st c c' e, workflow_status_has_row c ->
  request_status_core st c = (c', Exc e) -> c' = c.
Proof.
  intros st c c' e [row Hrow] H. rewrite request_status_core_eq in H.
  pose proof (push_loop_outcome st c) as Ho. cbv zeta in Ho.
  assert (HL : forall i r, In (i, r) (ws_tasks_by_status (c_ws c) ACTIVE_STATUSES) ->
                 nth_error (sequence (c_ws c)) i = Some r)
    by (intros i r Hin; apply tasks_by_status_In in Hin; tauto).
  remember (ws_tasks_by_status (c_ws c) ACTIVE_STATUSES) as active eqn:Eact.
  unfold bind at 1 in H.
  destruct Ho as [[e0 Hl]|[s2 [Hl [Hm Hv]]]]; rewrite Hl in H.
  - inversion H; reflexivity.
  - unfold request_tail, bind at 1 in H.
    unfold wf_workflow_event_M in H.
    change (c_graph (with_seq c s2)) with (c_graph c) in H.
    change (c_ws (with_seq c s2)) with (ws_set_sequence (c_ws c) s2) in H.
    destruct (wf_process_workflow_event (c_graph c) (ws_set_sequence (c_ws c) s2) st) as [[new unr]|e1] eqn:E.
    + (* the workflow machine stepped *)
      unfold bind at 1 in H.
      destruct (log_unreachable_run unr (set_ws (with_seq c s2) (ws_set_status (ws_set_sequence (c_ws c) s2) new)))
        as [c4 [Hlog W4]].
      rewrite Hlog in H. unfold bind at 1, getws in H. cbv beta iota in H. rewrite W4 in H.
      cbn [c_ws set_ws wstatus ws_set_status] in H.
      destruct (status_eqb st S_PAUSED && status_eqb (wstatus (c_ws c)) S_PAUSING && status_eqb new S_PAUSING);
        [inversion H|].
      destruct (status_eqb st S_CANCELED && status_eqb (wstatus (c_ws c)) S_CANCELING && status_eqb new S_CANCELING);
        [inversion H|].
      destruct (negb (status_eqb st (wstatus (c_ws c))) && status_eqb (wstatus (c_ws c)) new) eqn:Eb;
        [|inversion H].
      apply andb_prop in Eb. destruct Eb as [_ En]. apply status_eqb_eq in En. subst new.
      assert (Hu : unr = []) by (eapply (wpwe_same_status_no_log (c_graph c) (ws_set_sequence (c_ws c) s2)); exact E).
      subst unr. cbn [log_unreachable forM_] in Hlog. unfold log_unreachable in Hlog. cbn [forM_] in Hlog.
      inversion Hlog; subst c4.
      unfold bind in H. rewrite restore_loop_run in H. inversion H. subst c'.
      cbn [c_ws set_ws sequence ws_set_status ws_set_sequence].
      rewrite (restore_moved active (sequence (c_ws c)) s2 HL Hm).
      destruct c as [sp g inp par ini w er lg out]; destruct w; reflexivity.
    + (* the workflow machine raised *)
      inversion H; subst c' e1.
      destruct Hv as [Hs|Hv]; [rewrite Hs; apply with_seq_same|].
      exfalso. destruct (wpwe_val (c_graph c) (ws_set_sequence (c_ws c) s2) st row Hv Hrow) as [p Hp].
      rewrite Hp in E; discriminate.
Qed.

(* a status request that raises -- whatever it raises -- leaves the whole persisted state
   exactly as it was *)
Theorem rejected_status_request_is_inert : forall st c c' e, c_init c = true ->
  workflow_status_has_row c ->
  request_workflow_status ev st c = (c', Exc e) -> c' = c.
Proof.
  intros st c c' e Hi Hr H. unfold request_workflow_status, bind in H.
  rewrite (ensure_ws_inited ev c Hi) in H. eapply rejected_core_is_inert; eassumption.
Qed.

Lemma lifecycle_status_has_row : forall c, In (wstatus (c_ws c)) wf_statuses -> workflow_status_has_row c.
Proof. intros c H. apply F_wf_rows_exist. exact H. Qed.

Lemma reach_keeps_lifecycle : forall a b, wf_reach a b -> In a wf_statuses -> In b wf_statuses.
Proof.
  intros a b H. induction H as [s|s e t u Hs Hr IH|s u Hc Hn Hr IH]; intro Ha; [exact Ha| |].
  - apply IH. eapply F_wf_closed; exact Hs.
  - apply IH. vm_compute; tauto.
Qed.

Definition Rlc (c c' : cstate) : Prop :=
  In (wstatus (c_ws c)) wf_statuses -> In (wstatus (c_ws c')) wf_statuses.
Lemma Rlc_refl : forall c, Rlc c c.
Proof. intros c H; exact H. Qed.
Lemma Rlc_trans : forall a b c, Rlc a b -> Rlc b c -> Rlc a c.
Proof. unfold Rlc; intros a b c H1 H2 H; auto. Qed.

Lemma Rst_Rlc : forall A (m : M A), preserves Rst m -> preserves Rlc m.
Proof. intros A m H c c' r E Hin. eapply reach_keeps_lifecycle; [eapply H; exact E|exact Hin]. Qed.

(* a rerun: every write but the last leaves the status alone, and the last sets it to resuming *)
Lemma plc_request_workflow_rerun : forall reqs, preserves Rlc (request_workflow_rerun ev reqs).
Proof.
  intros; apply (frame_request_workflow_rerun ev Rlc Rlc_refl Rlc_trans);
    try solve [intros; apply Rst_Rlc;
               auto using pres_modws, pres_modify, pres_upd_rec, pres_set_rec_status, pres_log_entry_error, pres_wf_workflow_event].
  apply (preserves_modws Rlc); intros c _; vm_compute; tauto.
Qed.

Lemma api_exec_lifecycle : forall op, preserves Rlc (api_exec ev op).
Proof.
  intro op. destruct (is_rerun op) eqn:Er.
  - destruct op; simpl in Er; try discriminate. cbn [api_exec].
    apply (preserves_bind _ Rlc_trans); [apply plc_request_workflow_rerun|intro; apply (preserves_ret _ Rlc_refl)].
  - apply Rst_Rlc. apply api_exec_reach. exact Er.
Qed.

(* every history of API calls -- reruns included -- keeps the workflow status among the statuses
   that have a row; the status of a fresh conductor (unset) is one of them *)
Theorem lifecycle_invariant : forall ops c,
  In (wstatus (c_ws c)) wf_statuses -> In (wstatus (c_ws (run_ops ev ops c))) wf_statuses.
Proof.
  intros ops c Hs.
  refine (preserves_run_ops ev Rlc (fun _ => true) Rlc_refl Rlc_trans (fun op _ => api_exec_lifecycle op) ops c _ Hs).
  apply forallb_forall; reflexivity.
Qed.

Lemma fresh_status_in_lifecycle : In (wstatus empty_ws) wf_statuses.
Proof. vm_compute; tauto. Qed.

Corollary rejected_status_request_is_inert_lifecycle : forall st c c' e, c_init c = true ->
  In (wstatus (c_ws c)) wf_statuses ->
  request_workflow_status ev st c = (c', Exc e) -> c' = c.
Proof.
  intros st c c' e Hi Hs H. eapply rejected_status_request_is_inert; [exact Hi| |exact H].
  apply lifecycle_status_has_row; exact Hs.
Qed.

Definition request_exn (e : exn) : Prop :=
  In (x_cls e) ["InvalidEvent"; "InvalidTaskStatusTransition"; "InvalidWorkflowStatusTransition"].

Lemma tpe_workflow_exn : forall w r st e, task_process_event w r (EvWorkflow st) = Exc e -> request_exn e.
Proof.
  intros w r st e H. unfold task_process_event in H.
  destruct (negb (string_in (ev_name (EvWorkflow st)) WORKFLOW_EXECUTION_EVENTS)).
  - inversion H; subst. unfold request_exn; simpl; tauto.
  - unfold task_table_step in H. destruct (tbl_row task_table (rstatus r)); inversion H; subst.
    unfold request_exn; simpl; tauto.
Qed.

Lemma wf_workflow_event_exn : forall st, raises_only request_exn (wf_workflow_event_M st).
Proof.
  intros st c c' e H. unfold wf_workflow_event_M in H.
  destruct (wf_process_workflow_event (c_graph c) (c_ws c) st) as [[new unr]|e1] eqn:E; [inversion H|].
  assert (Ee : e1 = e) by (inversion H; reflexivity). subst e1. clear H.
  unfold wf_process_workflow_event in E.
  destruct (negb (string_in (wf_workflow_event_name (c_ws c) st) WORKFLOW_EXECUTION_EVENTS)).
  - inversion E; subst. unfold request_exn; simpl; tauto.
  - destruct (tbl_row wf_table (wstatus (c_ws c))) as [row|].
    + destruct (aget String.eqb (wf_workflow_event_name (c_ws c) st) row) as [n|]; [|discriminate].
      destruct (negb (status_eqb n (wstatus (c_ws c))) && status_eqb n S_SUCCEEDED); discriminate.
    + inversion E; subst. unfold request_exn; simpl; tauto.
Qed.

Lemma log_unreachable_total : forall l, raises_only request_exn (log_unreachable l).
Proof. intros l c c' e H. destruct (log_unreachable_run l c) as [c1 [H1 _]]. rewrite H1 in H. inversion H. Qed.

Lemma set_rec_status_total : forall i x, raises_only request_exn (set_rec_status i x).
Proof. intros i x; unfold set_rec_status; apply ro_modws. Qed.

Lemma push_loop_exn : forall st l, raises_only request_exn (forM_ l (push_body st)).
Proof.
  intros st l. apply ro_forM. intros [i r0]. unfold push_body.
  apply ro_bind; [apply ro_getws|intro w].
  destruct (nth_error (sequence w) i) as [r|]; [|apply ro_ret].
  apply ro_bind; [apply ro_lift_res; intros e; apply tpe_workflow_exn|intros [s|]].
  - apply set_rec_status_total.
  - apply ro_ret.
Qed.

Lemma request_tail_exn : forall st cur act, raises_only request_exn (request_tail st cur act).
Proof.
  intros st cur act. unfold request_tail.
  apply ro_bind; [apply wf_workflow_event_exn|intro unr].
  apply ro_bind; [apply log_unreachable_total|intros _].
  apply ro_bind; [apply ro_getws|intro w1]. cbv zeta.
  destruct (status_eqb st S_PAUSED && status_eqb cur S_PAUSING && status_eqb (wstatus w1) S_PAUSING);
    [apply ro_ret|].
  destruct (status_eqb st S_CANCELED && status_eqb cur S_CANCELING && status_eqb (wstatus w1) S_CANCELING);
    [apply ro_ret|].
  destruct (negb (status_eqb st cur) && status_eqb cur (wstatus w1)); [|apply ro_ret].
  apply ro_bind; [apply ro_forM; intros [i r]; apply set_rec_status_total|intros _].
  apply ro_raise. unfold request_exn; simpl; tauto.
Qed.

Lemma request_status_core_exn : forall st, raises_only request_exn (request_status_core st).
Proof.
  intros st c c' e H. rewrite request_status_core_eq in H.
  refine (ro_bind request_exn _ _ _ _ (push_loop_exn st _) _ c c' e H).
  intros u. apply request_tail_exn.
Qed.

Theorem status_request_exceptions : forall st c c' e, c_init c = true ->
  request_workflow_status ev st c = (c', Exc e) ->
  In (x_cls e) ["InvalidEvent"; "InvalidTaskStatusTransition"; "InvalidWorkflowStatusTransition"].
Proof.
  intros st c c' e Hi H. unfold request_workflow_status, bind in H.
  rewrite (ensure_ws_inited ev c Hi) in H. eapply request_status_core_exn; exact H.
Qed.

End WithEval.

(* two running tasks; t1 is a with-items task with one item in flight, so a pause/cancel-class
   workflow event moves its record (running -> pausing / canceling) *)
Definition ex_rec (t : string) (s : status) : trec :=
  {| r_id := t; r_route := 0; r_in := [0]; r_out := None; r_prev := []; r_next := [];
     r_status := Some s; r_term := false; r_retry := None |}.
Definition ex_state (ws : status) : cstate :=
  {| c_spec := {| wf_input := []; wf_vars := []; wf_output := []; wf_tasks := [] |};
     c_graph := {| g_nodes := []; g_edges := [] |};
     c_inputs := []; c_parent := []; c_init := true;
     c_ws := {| contexts := [[]]; routes := [[]];
                sequence := [ex_rec "t1" S_RUNNING; ex_rec "t2" S_RUNNING];
                staged := [ {| s_id := "t1"; s_route := 0; s_in := [0]; s_prev := []; s_ready := true;
                               s_retry := None; s_items := Some [S_RUNNING; S_UNSET]; s_completed := false;
                               s_run_on_fail := false |} ];
                wstatus := ws; tasks := [(("t1", 0), 0); (("t2", 0), 1)]; reruns := [] |};
     c_errors := []; c_log := []; c_output := None |}.
Definition ex_statuses (c : cstate) : list (option status) * status :=
  (map r_status (sequence (c_ws c)), wstatus (c_ws c)).

(* the forward loop of a pause request does move the with-items record of the failed workflow ... *)
Example ex_push_moves_record :
  ex_statuses (fst (forM_ (ws_tasks_by_status (c_ws (ex_state S_FAILED)) ACTIVE_STATUSES)
                          (push_body S_PAUSING) (ex_state S_FAILED)))
  = ([Some S_PAUSING; Some S_RUNNING], S_FAILED).
Proof. vm_compute. reflexivity. Qed.

(* ... and the rejected request hands back exactly the state it was given *)
Example ex_rejected_pause_is_inert : forall ev,
  request_workflow_status ev S_PAUSING (ex_state S_FAILED)
  = (ex_state S_FAILED, Exc (exn_invalid_wf_transition S_FAILED "workflow_pausing")).
Proof. intro ev. vm_compute. reflexivity. Qed.

Example ex_rejected_cancel_is_inert : forall ev,
  request_workflow_status ev S_CANCELED (ex_state S_SUCCEEDED)
  = (ex_state S_SUCCEEDED, Exc (exn_invalid_wf_transition S_SUCCEEDED "workflow_canceled")).
Proof. intro ev. vm_compute. reflexivity. Qed.

(* a status whose event name is outside the vocabulary is refused at the first active record *)
Example ex_unknown_event_is_inert : forall ev,
  request_workflow_status ev S_EXPIRED (ex_state S_RUNNING)
  = (ex_state S_RUNNING, Exc (exn_invalid_event "workflow_timeout")).
Proof. intro ev. vm_compute. reflexivity. Qed.

(* the same request on the running workflow is accepted and changes statuses *)
Example ex_accepted_pause_moves : forall ev,
  (let p := request_workflow_status ev S_PAUSING (ex_state S_RUNNING) in (ex_statuses (fst p), snd p))
  = (([Some S_PAUSING; Some S_RUNNING], S_PAUSING), Val tt).
Proof. intro ev. vm_compute. reflexivity. Qed.

Example ex_state_has_row : workflow_status_has_row (ex_state S_FAILED).
Proof. apply lifecycle_status_has_row. vm_compute. tauto. Qed.

(* the proviso cannot be dropped: with a workflow status that has no row in the workflow table
   (here "pending", which no history of API calls produces -- lifecycle_invariant) the workflow
   machine raises after the loop has moved a record, and nothing restores it *)
Theorem rejected_request_not_inert_outside_lifecycle : forall ev, exists st c c' e,
  c_init c = true /\ request_workflow_status ev st c = (c', Exc e) /\ c' <> c.
Proof.
  intro ev. exists S_PAUSING, (ex_state S_PENDING).
  destruct (request_workflow_status ev S_PAUSING (ex_state S_PENDING)) as [c' [u|e]] eqn:E.
  - exfalso. vm_compute in E. discriminate.
  - exists c', e. split; [reflexivity|]. split; [reflexivity|].
    intro H. apply (f_equal ex_statuses) in H.
    assert (E1 : ex_statuses c' = ex_statuses (fst (request_workflow_status ev S_PAUSING (ex_state S_PENDING))))
      by (rewrite E; reflexivity).
    rewrite E1 in H. vm_compute in H. discriminate.
Qed.
