(* F_sysitems.v -- sweeps over the generated task table and the event vocabulary used by the with-items protocol
   (proofs/SysItems*.v and props C02e, C03e, C03f, C12c).  Every fact is closed by computation over the generated
   tables.  The status and name sets defined here belong to this development, not to orquesta. *)
From Coq Require Import String List Bool Arith.
From Orq Require Import GenStatuses GenEvents GenTables Base State Machines F_tables F_names F_sys.
Import ListNotations.
Open Scope string_scope.

Definition item_name_of (st : status) (active paused canceled failed incomplete : bool) : string :=
  let e1 := (ACTION_EVENT_PREFIX ++ status_name st) ++ (if active then "_task_active" else "_task_dormant") in
  if negb active && paused then e1 ++ "_items_paused"
  else if negb active && canceled then e1 ++ "_items_canceled"
  else if negb active && failed then e1 ++ "_items_failed"
  else e1 ++ (if incomplete then "_items_incomplete" else "_items_completed").

Definition item_flags (st : status) (others : list status) : string :=
  item_name_of st (existsb (fun x => status_in x ACTIVE_STATUSES) others)
                  (existsb (fun x => status_in x [S_PENDING; S_PAUSED]) others)
                  (existsb (fun x => status_eqb x S_CANCELED) others)
                  (existsb (fun x => status_in x ABENDED_STATUSES) others)
                  (existsb (fun x => negb (status_in x COMPLETED_STATUSES)) others).

Lemma item_sweep : forall q : status -> bool -> bool -> bool -> bool -> bool -> string -> bool,
  names_forall (fun st a p c f inc => q st a p c f inc (item_name_of st a p c f inc)) = true ->
  forall st others,
    q st (existsb (fun x => status_in x ACTIVE_STATUSES) others) (existsb (fun x => status_in x [S_PENDING; S_PAUSED]) others)
         (existsb (fun x => status_eqb x S_CANCELED) others) (existsb (fun x => status_in x ABENDED_STATUSES) others)
         (existsb (fun x => negb (status_in x COMPLETED_STATUSES)) others) (item_flags st others) = true.
Proof. intros q T st others. exact (names_forall_spec _ T st _ _ _ _ _). Qed.

Lemma item_event_name_eq : forall w t route i st s l n,
  get_staged_task w t route = Some s -> s_items s = Some l -> status_in st item_requirements = true ->
  item_event_name w t route i st = Val n -> n = item_flags st (list_del_nth i l).
Proof.
  intros w t route i st s l n Hs Hl Hreq H. unfold item_event_name in H. rewrite Hreq, Hs, Hl in H. cbn [negb] in H.
  destruct (negb (Nat.ltb i (length l))); [discriminate|]. cbv zeta in H. unfold item_flags, item_name_of.
  repeat match type of H with context [if ?b && ?c then _ else _] => destruct (b && c) end; inversion H; reflexivity.
Qed.

Lemma item_event_name_cases : forall w t route i st n, item_event_name w t route i st = Val n ->
  n = ACTION_EVENT_PREFIX ++ status_name st \/ exists a p c f inc, n = item_name_of st a p c f inc.
Proof.
  intros w t route i st n H. unfold item_event_name in H.
  destruct (status_in st item_requirements) eqn:Hreq; [|inversion H; left; reflexivity].
  destruct (get_staged_task w t route) as [s|] eqn:Hs; [|inversion H; left; reflexivity].
  destruct (s_items s) as [l|] eqn:Hl; [|inversion H; left; reflexivity].
  assert (E : item_event_name w t route i st = Val n) by (unfold item_event_name; rewrite Hreq, Hs, Hl; exact H).
  right. rewrite (item_event_name_eq _ _ _ _ _ _ _ _ Hs Hl Hreq E). unfold item_flags. do 5 eexists. reflexivity.
Qed.

Lemma F_item_name_active : forall w t route i st s l n,
  get_staged_task w t route = Some s -> s_items s = Some l ->
  status_in st item_requirements = true ->
  existsb (fun x => status_in x ACTIVE_STATUSES) (list_del_nth i l) = true ->
  item_event_name w t route i st = Val n -> contains "_task_active_" n = true.
Proof.
  intros w t route i st s l n Hs Hl Hreq Hact H. rewrite (item_event_name_eq _ _ _ _ _ _ _ _ Hs Hl Hreq H).
  pose proof (item_sweep (fun _ a _ _ _ _ e => negb a || contains "_task_active_" e) ltac:(vm_compute; reflexivity)
                st (list_del_nth i l)) as P; cbv beta in P.
  rewrite Hact in P. exact P.
Qed.

Definition task_wf_name_of (st : status) (active incomplete : bool) : string :=
  (WORKFLOW_EVENT_PREFIX ++ status_name st) ++ (if active then "_task_active" else "_task_dormant")
                                            ++ (if incomplete then "_items_incomplete" else "_items_completed").

Lemma task_wf_name_eq : forall w t route st s l, get_staged_task w t route = Some s -> s_items s = Some l ->
  status_in st (app PAUSE_STATUSES CANCEL_STATUSES) = true ->
  task_workflow_event_name w t route st =
  task_wf_name_of st (existsb (fun x => status_in x ACTIVE_STATUSES) l) (existsb (fun x => negb (status_in x COMPLETED_STATUSES)) l).
Proof. intros w t route st s l Hs Hl Hpc. unfold task_workflow_event_name. rewrite Hpc, Hs, Hl. reflexivity. Qed.

Lemma task_wf_name_cases : forall w t route st,
  task_workflow_event_name w t route st = WORKFLOW_EVENT_PREFIX ++ status_name st \/
  exists a i, status_in st (app PAUSE_STATUSES CANCEL_STATUSES) = true /\ task_workflow_event_name w t route st = task_wf_name_of st a i.
Proof.
  intros w t route st. destruct (status_in st (app PAUSE_STATUSES CANCEL_STATUSES)) eqn:Hpc.
  - destruct (get_staged_task w t route) as [s|] eqn:Hs; [|left; unfold task_workflow_event_name; rewrite Hpc, Hs; reflexivity].
    destruct (s_items s) as [l|] eqn:Hl; [|left; unfold task_workflow_event_name; rewrite Hpc, Hs, Hl; reflexivity].
    right. do 2 eexists. split; [reflexivity|]. exact (task_wf_name_eq _ _ _ _ _ _ Hs Hl Hpc).
  - left. unfold task_workflow_event_name. rewrite Hpc. reflexivity.
Qed.

Lemma task_wf_sweep : forall q : status -> bool -> bool -> string -> bool,
  forallb (fun st => forallb (fun '(a, i) => q st a i (task_wf_name_of st a i)) all_bools2) (app PAUSE_STATUSES CANCEL_STATUSES) = true ->
  forall st a i, status_in st (app PAUSE_STATUSES CANCEL_STATUSES) = true -> q st a i (task_wf_name_of st a i) = true.
Proof.
  intros q T st a i Hst. rewrite forallb_forall in T. specialize (T st (proj1 (status_in_In _ _) Hst)).
  rewrite forallb_forall in T. exact (T (a, i) (all_bools2_complete a i)).
Qed.

Lemma F_wf_name_active : forall w t route st s l,
  get_staged_task w t route = Some s -> s_items s = Some l ->
  status_in st (app PAUSE_STATUSES CANCEL_STATUSES) = true ->
  existsb (fun x => status_in x ACTIVE_STATUSES) l = true ->
  contains "_task_active_" (task_workflow_event_name w t route st) = true.
Proof.
  intros w t route st s l Hs Hl Hpc Hact. rewrite (task_wf_name_eq _ _ _ _ _ _ Hs Hl Hpc), Hact.
  exact (task_wf_sweep (fun _ a _ e => negb a || contains "_task_active_" e) ltac:(vm_compute; reflexivity) st true _ Hpc).
Qed.

Lemma F_wf_name_plain : forall w t route st, status_in st (app PAUSE_STATUSES CANCEL_STATUSES) = false ->
  task_workflow_event_name w t route st = WORKFLOW_EVENT_PREFIX ++ status_name st.
Proof. intros w t route st H. unfold task_workflow_event_name. rewrite H. reflexivity. Qed.

Lemma F_wf_base_step : forall st s t, tbl_step task_table s (WORKFLOW_EVENT_PREFIX ++ status_name st) = Some t ->
  s = S_RETRYING /\ (status_in st (app PAUSE_STATUSES CANCEL_STATUSES) = false -> status_in t COMPLETED_STATUSES = false).
Proof.
  intros st s t H.
  assert (T : forallb (fun st => table_forall task_table (fun s e t =>
                negb (String.eqb e (WORKFLOW_EVENT_PREFIX ++ status_name st))
                || (status_eqb s S_RETRYING
                    && (status_in st (app PAUSE_STATUSES CANCEL_STATUSES) || negb (status_in t COMPLETED_STATUSES))))) all_statuses = true)
    by (vm_compute; reflexivity).
  rewrite forallb_forall in T. pose proof (table_forall_step _ _ (T st (all_statuses_complete st)) _ _ _ H) as P.
  cbv beta in P. rewrite String.eqb_refl in P. cbn [negb orb] in P. apply andb_prop in P. destruct P as [P Q].
  split; [apply status_eqb_eq; exact P|]. intro E. rewrite E in Q. apply negb_true_iff in Q. exact Q.
Qed.

Lemma F_wf_base_only_from_retrying : forall st s t, tbl_step task_table s (WORKFLOW_EVENT_PREFIX ++ status_name st) = Some t -> s = S_RETRYING.
Proof. intros st s t H. exact (proj1 (F_wf_base_step _ _ _ H)). Qed.

Lemma F_wf_plain_open : forall st s t, status_in st (app PAUSE_STATUSES CANCEL_STATUSES) = false ->
  tbl_step task_table s (WORKFLOW_EVENT_PREFIX ++ status_name st) = Some t ->
  status_in s COMPLETED_STATUSES = false -> status_in t COMPLETED_STATUSES = false.
Proof. intros st s t Hpc H _. exact (proj2 (F_wf_base_step _ _ _ H) Hpc). Qed.

Lemma F_active_open : forall s e t, tbl_step task_table s e = Some t -> contains "_task_active_" e = true ->
  status_in t COMPLETED_STATUSES = false.
Proof.
  intros s e t H Hc. destruct (status_in t COMPLETED_STATUSES) eqn:E; [|reflexivity].
  exfalso. apply (F_task_item_active_open _ _ _ H Hc). apply status_in_In. exact E.
Qed.

(* the statuses a task with an item in flight never has: completed, or waiting for a retry *)
Definition DEAD_STATUSES : list status := S_RETRYING :: COMPLETED_STATUSES.

(* the statuses of a task that has an item out: active, or pending (an action status the protocol never reports) *)
Definition GOOD_STATUSES : list status := app ACTIVE_STATUSES [S_PENDING].

Lemma F_active_step : forall s e t, tbl_step task_table s e = Some t -> contains "_task_active_" e = true ->
  status_in t DEAD_STATUSES = false /\ (status_in s ACTIVE_STATUSES = true -> status_in t ACTIVE_STATUSES = true) /\
  (status_in s GOOD_STATUSES = true -> status_in t GOOD_STATUSES = true).
Proof.
  intros s e t H Hc.
  assert (T : table_forall task_table (fun s e t => negb (contains "_task_active_" e)
                || (negb (status_in t DEAD_STATUSES)
                    && (negb (status_in s ACTIVE_STATUSES) || status_in t ACTIVE_STATUSES)
                    && (negb (status_in s GOOD_STATUSES) || status_in t GOOD_STATUSES))) = true) by (vm_compute; reflexivity).
  pose proof (table_forall_step _ _ T _ _ _ H) as P. cbv beta in P. rewrite Hc in P. cbn [negb orb] in P.
  apply andb_prop in P. destruct P as [P P3]. apply andb_prop in P. destruct P as [P1 P2].
  split; [apply negb_true_iff; exact P1|]. split; intro E; rewrite E in *; assumption.
Qed.

Lemma F_active_keeps_active : forall s e t, tbl_step task_table s e = Some t -> contains "_task_active_" e = true ->
  status_in s ACTIVE_STATUSES = true -> status_in t ACTIVE_STATUSES = true.
Proof. intros s e t H Hc. exact (proj1 (proj2 (F_active_step _ _ _ H Hc))). Qed.

Lemma F_running_target : forall s x, tbl_step task_table s "action_running" = Some x -> x = S_RUNNING.
Proof.
  intros s x H.
  assert (T : table_forall task_table (fun _ e t => negb (String.eqb e "action_running") || status_eqb t S_RUNNING) = true)
    by (vm_compute; reflexivity).
  pose proof (table_forall_step _ _ T _ _ _ H) as P; cbv beta in P. rewrite String.eqb_refl in P. apply status_eqb_eq; exact P.
Qed.

Lemma F_active_live : forall s e t, tbl_step task_table s e = Some t -> contains "_task_active_" e = true ->
  status_in t DEAD_STATUSES = false.
Proof. intros s e t H Hc. exact (proj1 (F_active_step _ _ _ H Hc)). Qed.

Lemma F_wf_plain_live : forall st s t, status_in st (app PAUSE_STATUSES CANCEL_STATUSES) = false ->
  tbl_step task_table s (WORKFLOW_EVENT_PREFIX ++ status_name st) = Some t ->
  status_in s DEAD_STATUSES = false -> status_in t DEAD_STATUSES = false.
Proof. intros st s t _ H Hs. rewrite (F_wf_base_only_from_retrying _ _ _ H) in Hs. discriminate Hs. Qed.

Lemma F_running_row : forall s, status_in s [S_UNSET; S_REQUESTED; S_SCHEDULED; S_DELAYED; S_RUNNING; S_RESUMING; S_PAUSED; S_RETRYING] = true ->
  tbl_step task_table s "action_running" = Some S_RUNNING.
Proof. intros s H. destruct s; try (vm_compute in H; discriminate H); vm_compute; reflexivity. Qed.

Lemma F_good_split : forall x, status_in x GOOD_STATUSES = true -> status_in x DEAD_STATUSES = false.
Proof. intros x H. destruct x; try discriminate H; reflexivity. Qed.

Lemma F_active_busy : forall s e t, tbl_step task_table s e = Some t -> contains "_task_active_" e = true ->
  status_in s GOOD_STATUSES = true -> status_in t GOOD_STATUSES = true.
Proof. intros s e t H Hc. exact (proj2 (proj2 (F_active_step _ _ _ H Hc))). Qed.

Lemma F_wf_plain_busy : forall st s t, status_in st (app PAUSE_STATUSES CANCEL_STATUSES) = false ->
  tbl_step task_table s (WORKFLOW_EVENT_PREFIX ++ status_name st) = Some t ->
  status_in s GOOD_STATUSES = true -> status_in t GOOD_STATUSES = true.
Proof. intros st s t _ H Hs. rewrite (F_wf_base_only_from_retrying _ _ _ H) in Hs. discriminate Hs. Qed.

Lemma F_norow_busy : forall s, tbl_step task_table s "action_running" = None ->
  status_in s COMPLETED_STATUSES = false -> status_in s GOOD_STATUSES = true.
Proof. intros s H Hc. destruct s; try discriminate Hc; try (vm_compute in H; discriminate H); reflexivity. Qed.

Definition SUCC_NAMES : list string :=
  ["task_continue_requested"; "task_noop_requested"; "action_succeeded"; "action_succeeded_task_dormant_items_completed"].

Lemma F_succ_names : forall s e, tbl_step task_table s e = Some S_SUCCEEDED -> string_in e SUCC_NAMES = true.
Proof.
  intros s e H.
  assert (T : table_forall task_table (fun _ e t => negb (status_eqb t S_SUCCEEDED) || string_in e SUCC_NAMES) = true)
    by (vm_compute; reflexivity).
  pose proof (table_forall_step _ _ T _ _ _ H) as P. cbv beta in P. exact P.
Qed.

Lemma existsb_none : forall A (P : A -> bool) l, existsb P l = false -> forall x, In x l -> P x = false.
Proof.
  intros A P l H x Hx. destruct (P x) eqn:E; [|reflexivity].
  rewrite (proj2 (existsb_exists P l) (ex_intro _ x (conj Hx E))) in H. discriminate H.
Qed.

Lemma existsb_all_succ : forall (P : status -> bool) l, P S_SUCCEEDED = false -> Forall (fun x => x = S_SUCCEEDED) l -> existsb P l = false.
Proof. intros P l Hp H. induction H as [|x l Hx Hl IH]; [reflexivity|]. simpl. rewrite Hx, Hp, IH. reflexivity. Qed.

Lemma F_item_name_all_succ : forall w t route i s l,
  get_staged_task w t route = Some s -> s_items s = Some l -> i < length l ->
  Forall (fun x => x = S_SUCCEEDED) (list_del_nth i l) ->
  item_event_name w t route i S_SUCCEEDED = Val "action_succeeded_task_dormant_items_completed".
Proof.
  intros w t route i s l Hs Hl Hil Hall. unfold item_event_name. rewrite Hs, Hl.
  apply Nat.ltb_lt in Hil. rewrite Hil. cbn [negb status_in]. cbv zeta.
  rewrite !(existsb_all_succ _ _ eq_refl Hall). reflexivity.
Qed.

Lemma F_item_name_succeeded : forall w t route i st s l n cur,
  get_staged_task w t route = Some s -> s_items s = Some l ->
  status_in st item_requirements = true ->
  item_event_name w t route i st = Val n -> tbl_step task_table cur n = Some S_SUCCEEDED ->
  st = S_SUCCEEDED /\ forall x, In x (list_del_nth i l) -> x = S_SUCCEEDED.
Proof.
  intros w t route i st s l n cur Hs Hl Hreq Hn Hstep. pose proof (F_succ_names _ _ Hstep) as Hin.
  rewrite (item_event_name_eq _ _ _ _ _ _ _ _ Hs Hl Hreq Hn) in Hin.
  pose proof (item_sweep (fun st _ _ c f inc e => negb (string_in e SUCC_NAMES)
                || (status_eqb st S_SUCCEEDED && negb c && negb f && negb inc)) ltac:(vm_compute; reflexivity)
                st (list_del_nth i l)) as P; cbv beta in P.
  rewrite Hin in P. cbn [negb orb] in P. autorewrite with b2p in P. destruct P as [[[Est Ecan] Efail] Einc].
  split; [exact Est|]. intros x Hx.
  pose proof (existsb_none _ _ _ Ecan x Hx) as B. pose proof (existsb_none _ _ _ Efail x Hx) as C.
  pose proof (existsb_none _ _ _ Einc x Hx) as A. cbv beta in A, B, C.
  destruct x; try discriminate A; try discriminate B; try discriminate C; reflexivity.
Qed.

Lemma F_all_succ_step : forall s, status_in s [S_RUNNING; S_PAUSING; S_CANCELING] = true ->
  tbl_step task_table s "action_succeeded_task_dormant_items_completed" = Some S_SUCCEEDED.
Proof. intros s H. destruct s; try (vm_compute in H; discriminate H); vm_compute; reflexivity. Qed.

Lemma F_pending_name : forall s e, tbl_step task_table s e = Some S_PENDING -> e = "action_pending".
Proof.
  intros s e H.
  assert (T : table_forall task_table (fun _ e t => negb (status_eqb t S_PENDING) || String.eqb e "action_pending") = true)
    by (vm_compute; reflexivity).
  pose proof (table_forall_step _ _ T _ _ _ H) as P. cbv beta in P. simpl in P. apply String.eqb_eq. exact P.
Qed.

Definition npend (e : event) : Prop :=
  match e with
  | EvAction st _ | EvItem _ st _ _ => st <> S_PENDING
  | EvEngine n _ => n <> "action_pending"
  | EvWorkflow _ => True
  end.

Lemma F_item_name_not_pending : forall w t route i st n, st <> S_PENDING ->
  item_event_name w t route i st = Val n -> n <> "action_pending".
Proof.
  intros w t route i st n Hst H. destruct (item_event_name_cases _ _ _ _ _ _ H) as [->|[a [p [c [f [inc ->]]]]]].
  - destruct st; try (exfalso; apply Hst; reflexivity); vm_compute; discriminate.
  - assert (T : names_forall (fun st a p c f inc => negb (String.eqb (item_name_of st a p c f inc) "action_pending")) = true)
      by (vm_compute; reflexivity).
    pose proof (names_forall_spec _ T st a p c f inc) as P; cbv beta in P. intro E. rewrite E in P. discriminate P.
Qed.

Lemma F_wf_name_not_pending : forall w t route st, task_workflow_event_name w t route st <> "action_pending".
Proof.
  intros w t route st. destruct (task_wf_name_cases w t route st) as [->|[a [i [Hpc ->]]]].
  - destruct st; vm_compute; discriminate.
  - pose proof (task_wf_sweep (fun _ _ _ e => negb (String.eqb e "action_pending")) ltac:(vm_compute; reflexivity) st a i Hpc) as P.
    cbv beta in P. intro E. rewrite E in P. discriminate P.
Qed.

Lemma F_tpe_npend : forall w r e ns, npend e -> task_process_event w r e = Val ns -> ns <> Some S_PENDING.
Proof.
  intros w r e ns Hn H Hp. subst ns. unfold task_process_event in H. destruct e as [st|st res|i st res acc|n st].
  - destruct (negb _); [discriminate|]. unfold task_table_step in H. destruct (tbl_row task_table (rstatus r)) eqn:E; [|discriminate].
    inversion H as [X]. assert (Y : tbl_step task_table (rstatus r) (task_workflow_event_name w (r_id r) (r_route r) st) = Some S_PENDING)
      by (unfold tbl_step; rewrite E; exact X).
    exact (F_wf_name_not_pending _ _ _ _ (F_pending_name _ _ Y)).
  - destruct (negb _); [discriminate|]. unfold task_table_step in H. destruct (tbl_row task_table (rstatus r)) eqn:E; [|discriminate].
    inversion H as [X]. assert (Y : tbl_step task_table (rstatus r) (ev_name (EvAction st res)) = Some S_PENDING)
      by (unfold tbl_step; rewrite E; exact X).
    apply F_pending_name in Y. simpl in Hn, Y. destruct st; try (exfalso; apply Hn; reflexivity); vm_compute in Y; discriminate Y.
  - destruct (negb _); [discriminate|]. destruct (item_event_name w (r_id r) (r_route r) i st) as [n|x] eqn:En; [|discriminate].
    unfold task_table_step in H. destruct (tbl_row task_table (rstatus r)) eqn:E; [|discriminate].
    inversion H as [X]. assert (Y : tbl_step task_table (rstatus r) n = Some S_PENDING) by (unfold tbl_step; rewrite E; exact X).
    exact (F_item_name_not_pending _ _ _ _ _ _ Hn En (F_pending_name _ _ Y)).
  - destruct (negb _); [discriminate|]. unfold task_table_step in H. destruct (tbl_row task_table (rstatus r)) eqn:E; [|discriminate].
    inversion H as [X]. assert (Y : tbl_step task_table (rstatus r) n = Some S_PENDING) by (unfold tbl_step; rewrite E; exact X).
    exact (Hn (F_pending_name _ _ Y)).
Qed.

Lemma F_engine_event_npend : forall n e, engine_event n = Some e -> npend e.
Proof.
  intros n e H. unfold engine_event in H. destruct (aget String.eqb n ENGINE_EVENT_MAP) as [[nm st]|] eqn:E; inversion H; subst e.
  simpl. apply aget_In in E. simpl in E. intuition; inversion H0; subst; discriminate.
Qed.

Lemma F_good_not_pending_active : forall x, status_in x GOOD_STATUSES = true -> x <> S_PENDING -> status_in x ACTIVE_STATUSES = true.
Proof. intros x H Hn. destruct x; try discriminate H; try reflexivity. exfalso; apply Hn; reflexivity. Qed.

Lemma F_rest_needs_dormant_task : forall s st r a c p m,
  let n := step_or_stay s (task_event_name_of st r a c p m) in
  In n [S_PAUSED; S_CANCELED] -> a = false \/ n = s.
Proof.
  intros s st r a c p m n Hn.
  pose proof (wf_sweep_stay (fun s _ _ a _ _ _ n => negb (status_in n [S_PAUSED; S_CANCELED]) || negb a || status_eqb n s)
    ltac:(vm_compute; reflexivity) s st r a c p m) as P; cbv beta in P. fold n in P.
  autorewrite with b2p in P. tauto.
Qed.

Lemma F_rest_needs_dormant_request : forall s st a d,
  let n := step_or_stay s (request_event_name_of st a d) in
  In n [S_PAUSED; S_CANCELED] -> a = false \/ n = s.
Proof.
  intros s st a d n Hn.
  pose proof (req_sweep (fun s _ a _ n => negb (status_in n [S_PAUSED; S_CANCELED]) || negb a || status_eqb n s)
    ltac:(vm_compute; reflexivity) s st a d) as P; cbv beta in P. fold n in P.
  autorewrite with b2p in P. tauto.
Qed.

Lemma F_engine_not_active : forall s n t, string_in n ["task_continue_requested"; "task_fail_requested"; "task_noop_requested"; "task_retry_requested"] = true ->
  tbl_step task_table s n = Some t -> status_in t ACTIVE_STATUSES = false.
Proof.
  intros s n t Hn H.
  assert (T : table_forall task_table (fun _ e t => negb (string_in e ["task_continue_requested"; "task_fail_requested"; "task_noop_requested"; "task_retry_requested"])
                                                  || negb (status_in t ACTIVE_STATUSES)) = true) by (vm_compute; reflexivity).
  pose proof (table_forall_step _ _ T _ _ _ H) as P. cbv beta in P. rewrite Hn in P. apply negb_true_iff in P. exact P.
Qed.

Definition completion_prefixes : list string := map (fun st => ACTION_EVENT_PREFIX ++ status_name st) COMPLETED_STATUSES.
Definition completion_name (e : string) : bool := existsb (fun p => starts_with p e) completion_prefixes.

Lemma F_completion_no_activation : forall s e t, tbl_step task_table s e = Some t -> completion_name e = true ->
  status_in t ACTIVE_STATUSES = true -> status_in s ACTIVE_STATUSES = true.
Proof.
  intros s e t H Hc Ht.
  assert (T : table_forall task_table (fun s e t => negb (completion_name e) || negb (status_in t ACTIVE_STATUSES) || status_in s ACTIVE_STATUSES) = true)
    by (vm_compute; reflexivity).
  pose proof (table_forall_step _ _ T _ _ _ H) as P. cbv beta in P. rewrite Hc, Ht in P. exact P.
Qed.

Lemma F_item_name_completion : forall w t route i st n, status_in st COMPLETED_STATUSES = true ->
  item_event_name w t route i st = Val n -> completion_name n = true.
Proof.
  intros w t route i st n Hst H. destruct (item_event_name_cases _ _ _ _ _ _ H) as [->|[a [p [c [f [inc ->]]]]]].
  - destruct st; try discriminate Hst; vm_compute; reflexivity.
  - assert (T : names_forall (fun st a p c f inc => negb (status_in st COMPLETED_STATUSES)
                  || completion_name (item_name_of st a p c f inc)) = true) by (vm_compute; reflexivity).
    pose proof (names_forall_spec _ T st a p c f inc) as P; cbv beta in P. rewrite Hst in P. exact P.
Qed.

Lemma F_action_name_completion : forall st, status_in st COMPLETED_STATUSES = true ->
  completion_name (ACTION_EVENT_PREFIX ++ status_name st) = true.
Proof. intros st H. destruct st; try discriminate H; vm_compute; reflexivity. Qed.

Definition ITEM_STATUSES : list status := [S_RUNNING; S_PAUSING; S_PAUSED; S_CANCELING; S_CANCELED; S_SUCCEEDED; S_FAILED; S_RETRYING].

(* after a task event: st = the status of the reporting record (one of the statuses a record has under the protocol),
   counted active when it is active *)
Lemma F_held_needs_active_task : forall s st r a c p m, status_in st ITEM_STATUSES = true ->
  (status_in st ACTIVE_STATUSES = true -> a = true) ->
  In (step_or_stay s (task_event_name_of st r a c p m)) [S_PAUSING; S_CANCELING] -> a = true.
Proof.
  intros s st r a c p m Hst Hact Hn.
  pose proof (wf_sweep_stay (fun _ st _ a _ _ _ n => negb (status_in st ITEM_STATUSES) || (status_in st ACTIVE_STATUSES && negb a)
      || negb (status_in n [S_PAUSING; S_CANCELING]) || a) ltac:(vm_compute; reflexivity) s st r a c p m) as P; cbv beta in P.
  rewrite Hst in P. cbn [negb orb] in P. autorewrite with b2p in P.
  destruct P as [[[P Q]|P]|P]; [rewrite (Hact (proj2 (status_in_In _ _) P)) in Q; discriminate Q|contradiction|exact P].
Qed.

(* after a status request (d = the "completed" suffix, only possible from paused): the status CHANGES to pausing /
   canceling only with an active task; and a request for the status the workflow has, or "paused" while pausing,
   "canceled" while canceling, keeps pausing / canceling only with an active task *)
Lemma F_held_needs_active_request : forall s st a d, status_in st request_statuses_f = true -> (d = true -> s = S_PAUSED) ->
  let n := step_or_stay s (request_event_name_of st a d) in
  In n [S_PAUSING; S_CANCELING] ->
  a = true \/ (n = s /\ st <> s /\ ~ (st = S_PAUSED /\ s = S_PAUSING) /\ ~ (st = S_CANCELED /\ s = S_CANCELING)).
Proof.
  intros s st a d Hst Hd n Hn.
  pose proof (req_sweep (fun s st a d n => negb (status_in st request_statuses_f) || (d && negb (status_eqb s S_PAUSED))
      || negb (status_in n [S_PAUSING; S_CANCELING]) || a
      || (status_eqb n s && negb (status_eqb st s) && negb (status_eqb st S_PAUSED && status_eqb s S_PAUSING)
          && negb (status_eqb st S_CANCELED && status_eqb s S_CANCELING))) ltac:(vm_compute; reflexivity) s st a d) as P;
    cbv beta in P. fold n in P.
  rewrite Hst in P. cbn [negb orb] in P. autorewrite with b2p in P.
  destruct P as [[[[Hdt P]|P]|P]|P]; [exfalso; exact (P (Hd Hdt))|contradiction|left; exact P|right].
  clear - P. intuition congruence.
Qed.

Definition UNUSED_STATUSES : list status := [S_PENDING; S_REQUESTED; S_SCHEDULED; S_DELAYED; S_EXPIRED; S_ABANDONED; S_RESUMING].
Definition ENTER_NAMES : list string := ["action_requested"; "action_scheduled"; "action_delayed"; "action_pending"; "action_resuming"].

Lemma F_unused_entered_by : forall s e t, tbl_step task_table s e = Some t -> status_in s UNUSED_STATUSES = false ->
  status_in t UNUSED_STATUSES = true -> string_in e ENTER_NAMES = true.
Proof.
  intros s e t H Hs Ht.
  assert (T : table_forall task_table (fun s e t => status_in s UNUSED_STATUSES || negb (status_in t UNUSED_STATUSES) || string_in e ENTER_NAMES) = true)
    by (vm_compute; reflexivity).
  pose proof (table_forall_step _ _ T _ _ _ H) as P. cbv beta in P. rewrite Hs, Ht in P. exact P.
Qed.

Definition START_STATUSES : list status := [S_PENDING; S_REQUESTED; S_SCHEDULED; S_DELAYED; S_RESUMING].
Definition nbad (e : event) : Prop :=
  match e with
  | EvAction st _ | EvItem _ st _ _ => status_in st START_STATUSES = false
  | EvEngine n _ => string_in n ENTER_NAMES = false
  | EvWorkflow _ => True
  end.

Lemma F_item_name_not_enter : forall w t route i st n, status_in st START_STATUSES = false ->
  item_event_name w t route i st = Val n -> string_in n ENTER_NAMES = false.
Proof.
  intros w t route i st n Hst H. destruct (item_event_name_cases _ _ _ _ _ _ H) as [->|[a [p [c [f [inc ->]]]]]].
  - destruct st; try discriminate Hst; vm_compute; reflexivity.
  - assert (T : names_forall (fun st a p c f inc => negb (string_in (item_name_of st a p c f inc) ENTER_NAMES)) = true)
      by (vm_compute; reflexivity).
    pose proof (names_forall_spec _ T st a p c f inc) as P; cbv beta in P. apply negb_true_iff in P. exact P.
Qed.

Lemma F_wf_name_not_enter : forall w t route st, string_in (task_workflow_event_name w t route st) ENTER_NAMES = false.
Proof.
  intros w t route st. destruct (task_wf_name_cases w t route st) as [->|[a [i [Hpc ->]]]].
  - destruct st; vm_compute; reflexivity.
  - apply negb_true_iff.
    exact (task_wf_sweep (fun _ _ _ e => negb (string_in e ENTER_NAMES)) ltac:(vm_compute; reflexivity) st a i Hpc).
Qed.

Lemma F_tpe_nbad : forall w r e x, nbad e -> status_in (rstatus r) UNUSED_STATUSES = false ->
  task_process_event w r e = Val (Some x) -> status_in x UNUSED_STATUSES = false.
Proof.
  intros w r e x Hn Hs H. destruct (status_in x UNUSED_STATUSES) eqn:Ex; [|reflexivity]. exfalso.
  unfold task_process_event in H. destruct e as [st|st res|i st res acc|n st].
  - destruct (negb _); [discriminate|]. apply task_table_step_val in H.
    pose proof (F_unused_entered_by _ _ _ H Hs Ex) as X. rewrite F_wf_name_not_enter in X. discriminate X.
  - destruct (negb _); [discriminate|]. apply task_table_step_val in H.
    pose proof (F_unused_entered_by _ _ _ H Hs Ex) as X. simpl in Hn, X. destruct st; try discriminate Hn; vm_compute in X; discriminate X.
  - destruct (negb _); [discriminate|]. destruct (item_event_name w (r_id r) (r_route r) i st) as [n|y] eqn:En; [|discriminate].
    apply task_table_step_val in H. pose proof (F_unused_entered_by _ _ _ H Hs Ex) as X.
    rewrite (F_item_name_not_enter _ _ _ _ _ _ Hn En) in X. discriminate X.
  - destruct (negb _); [discriminate|]. apply task_table_step_val in H.
    pose proof (F_unused_entered_by _ _ _ H Hs Ex) as X. unfold nbad in Hn. change (string_in n ENTER_NAMES = true) in X. rewrite Hn in X. discriminate X.
Qed.

Lemma F_never_unset : forall s e t, tbl_step task_table s e = Some t -> t <> S_UNSET.
Proof.
  intros s e t H.
  assert (T : table_forall task_table (fun _ _ t => negb (status_eqb t S_UNSET)) = true) by (vm_compute; reflexivity).
  pose proof (table_forall_step _ _ T _ _ _ H) as P. cbv beta in P. intro X. subst t. discriminate P.
Qed.

Lemma F_tpe_not_unset : forall w r e x, task_process_event w r e = Val (Some x) -> x <> S_UNSET.
Proof.
  intros w r e x H. unfold task_process_event in H. destruct e as [st|st res|i st res acc|n st].
  - destruct (negb _); [discriminate|]. apply task_table_step_val in H. exact (F_never_unset _ _ _ H).
  - destruct (negb _); [discriminate|]. apply task_table_step_val in H. exact (F_never_unset _ _ _ H).
  - destruct (negb _); [discriminate|]. destruct (item_event_name w (r_id r) (r_route r) i st) as [n|y]; [|discriminate].
    apply task_table_step_val in H. exact (F_never_unset _ _ _ H).
  - destruct (negb _); [discriminate|]. apply task_table_step_val in H. exact (F_never_unset _ _ _ H).
Qed.

Lemma F_item_status : forall x, status_in x UNUSED_STATUSES = false -> x <> S_UNSET -> status_in x ITEM_STATUSES = true.
Proof. intros x H Hn. destruct x; try discriminate H; try reflexivity. exfalso; apply Hn; reflexivity. Qed.

Lemma F_req_name_valid : forall st, status_in st request_statuses_f = true ->
  string_in (WORKFLOW_EVENT_PREFIX ++ status_name st) WORKFLOW_EXECUTION_EVENTS = true.
Proof. intros st H. destruct st; try discriminate H; vm_compute; reflexivity. Qed.

Lemma F_task_row : forall s, status_in s UNUSED_STATUSES = false -> tbl_row task_table s <> None.
Proof. intros s H. destruct s; try discriminate H; vm_compute; discriminate. Qed.

Lemma F_wf_row_held : forall s, In s [S_PAUSING; S_CANCELING] -> tbl_row wf_table s <> None.
Proof. intros s [H|[H|[]]]; subst; vm_compute; discriminate. Qed.

Lemma F_req_event_valid : forall st a d, status_in st request_statuses_f = true -> (d = true -> status_in st [S_RUNNING; S_RESUMING] = true) ->
  string_in (request_event_name_of st a d) WORKFLOW_EXECUTION_EVENTS = true.
Proof.
  intros st a d H Hd. destruct d; [specialize (Hd eq_refl)|clear Hd]; destruct a; destruct st; try discriminate H; try discriminate Hd; vm_compute; reflexivity.
Qed.

(* neither active nor completed: under the protocol, an item that was never offered *)
Definition open_slot (x : status) : bool := negb (status_in x ACTIVE_STATUSES) && negb (status_in x COMPLETED_STATUSES).
Definition has_open (l : list status) : bool := existsb open_slot l.

Lemma F_dormant_report : forall w t route i st s0 l n cur x,
  get_staged_task w t route = Some s0 -> s_items s0 = Some l -> status_in st COMPLETED_STATUSES = true ->
  existsb (fun y => status_in y ACTIVE_STATUSES) (list_del_nth i l) = false ->
  item_event_name w t route i st = Val n -> status_in cur [S_RUNNING; S_PAUSING; S_CANCELING] = true ->
  (tbl_step task_table cur n = None -> False) /\
  (tbl_step task_table cur n = Some x -> status_in x ACTIVE_STATUSES = true ->
     x = S_RUNNING /\ cur = S_RUNNING /\ existsb (fun y => negb (status_in y COMPLETED_STATUSES)) (list_del_nth i l) = true).
Proof.
  intros w t route i st s0 l n cur x Hs Hl Hst Hact Hn Hcur.
  assert (Hreq : status_in st item_requirements = true) by (destruct st; try discriminate Hst; reflexivity).
  rewrite (item_event_name_eq _ _ _ _ _ _ _ _ Hs Hl Hreq Hn).
  pose proof (item_sweep (fun st a _ _ _ inc e => negb (status_in st COMPLETED_STATUSES) || a ||
      forallb (fun cur => match tbl_step task_table cur e with
                          | None => false
                          | Some x => negb (status_in x ACTIVE_STATUSES)
                                      || (status_eqb x S_RUNNING && status_eqb cur S_RUNNING && inc) end)
              [S_RUNNING; S_PAUSING; S_CANCELING]) ltac:(vm_compute; reflexivity) st (list_del_nth i l)) as P; cbv beta in P.
  rewrite Hst, Hact in P. cbn [negb orb] in P. rewrite forallb_forall in P.
  specialize (P cur (proj1 (status_in_In _ _) Hcur)).
  destruct (tbl_step task_table cur _) as [y|]; [|discriminate P].
  split; [discriminate|]. intros E Hx. inversion E; subst y. rewrite Hx in P. cbn [negb orb] in P.
  autorewrite with b2p in P. tauto.
Qed.

Lemma F_plain_report : forall st cur, status_in st COMPLETED_STATUSES = true -> status_in cur [S_RUNNING; S_PAUSING; S_CANCELING] = true ->
  exists x, tbl_step task_table cur (ACTION_EVENT_PREFIX ++ status_name st) = Some x /\ status_in x ACTIVE_STATUSES = false.
Proof.
  intros st cur Hst Hcur. destruct st; try discriminate Hst; destruct cur; try discriminate Hcur; eexists; split; vm_compute; reflexivity.
Qed.

(* a pause / cancel request seen by an active task: with an active item the task ends pausing or canceling ("told");
   with no active item but an item never offered it ends inactive *)
Lemma F_told_active : forall w t route st s0 l cur, get_staged_task w t route = Some s0 -> s_items s0 = Some l ->
  status_in st (app PAUSE_STATUSES CANCEL_STATUSES) = true -> existsb (fun x => status_in x ACTIVE_STATUSES) l = true ->
  status_in cur [S_RUNNING; S_PAUSING; S_CANCELING] = true ->
  status_in (match tbl_step task_table cur (task_workflow_event_name w t route st) with Some x => x | None => cur end) [S_PAUSING; S_CANCELING] = true.
Proof.
  intros w t route st s0 l cur Hs Hl Hpc Hact Hcur. rewrite (task_wf_name_eq _ _ _ _ _ _ Hs Hl Hpc), Hact.
  assert (Hinc : existsb (fun x => negb (status_in x COMPLETED_STATUSES)) l = true).
  { apply existsb_exists in Hact. destruct Hact as [x [Hin Hx]]. apply existsb_exists. exists x. split; [exact Hin|].
    destruct x; try discriminate Hx; reflexivity. }
  rewrite Hinc.
  pose proof (task_wf_sweep (fun _ a i e => negb a || negb i || forallb (fun cur =>
      status_in (match tbl_step task_table cur e with Some x => x | None => cur end) [S_PAUSING; S_CANCELING])
      [S_RUNNING; S_PAUSING; S_CANCELING]) ltac:(vm_compute; reflexivity) st true true Hpc) as P; cbv beta in P.
  cbn [negb orb] in P. rewrite forallb_forall in P. exact (P cur (proj1 (status_in_In _ _) Hcur)).
Qed.

Lemma F_told_dormant : forall w t route st s0 l x, get_staged_task w t route = Some s0 -> s_items s0 = Some l ->
  status_in st (app PAUSE_STATUSES CANCEL_STATUSES) = true -> existsb (fun x => status_in x ACTIVE_STATUSES) l = false ->
  has_open l = true ->
  tbl_step task_table S_RUNNING (task_workflow_event_name w t route st) = x -> exists y, x = Some y /\ status_in y ACTIVE_STATUSES = false.
Proof.
  intros w t route st s0 l x Hs Hl Hpc Hact Hop H. rewrite (task_wf_name_eq _ _ _ _ _ _ Hs Hl Hpc), Hact in H.
  assert (Hinc : existsb (fun x => negb (status_in x COMPLETED_STATUSES)) l = true).
  { unfold has_open in Hop. apply existsb_exists in Hop. destruct Hop as [y [Hin Hy]]. apply existsb_exists. exists y. split; [exact Hin|].
    unfold open_slot in Hy. apply andb_prop in Hy. apply Hy. }
  rewrite Hinc in H.
  pose proof (task_wf_sweep (fun _ a i e => a || negb i || match tbl_step task_table S_RUNNING e with
                                                          | Some y => negb (status_in y ACTIVE_STATUSES) | None => false end)
                ltac:(vm_compute; reflexivity) st false true Hpc) as P; cbv beta in P. cbn [negb orb] in P. rewrite H in P.
  destruct x as [y|]; [|discriminate P]. exists y. split; [reflexivity|]. apply negb_true_iff in P. exact P.
Qed.

Lemma F_told_dormant_held : forall st i cur, status_in st (app PAUSE_STATUSES CANCEL_STATUSES) = true ->
  status_in cur [S_PAUSING; S_CANCELING] = true -> tbl_step task_table cur (task_wf_name_of st false i) <> Some S_RUNNING.
Proof.
  intros st i cur Hst Hcur E.
  pose proof (task_wf_sweep (fun _ a _ n => a || forallb (fun cur =>
      match tbl_step task_table cur n with Some y => negb (status_eqb y S_RUNNING) | None => true end) [S_PAUSING; S_CANCELING])
    ltac:(vm_compute; reflexivity) st false i Hst) as P; cbv beta in P. cbn [orb] in P.
  rewrite forallb_forall in P. specialize (P cur (proj1 (status_in_In _ _) Hcur)). rewrite E in P. discriminate P.
Qed.

Lemma F_told_stays : forall w t route i st s0 l n cur,
  get_staged_task w t route = Some s0 -> s_items s0 = Some l -> status_in st COMPLETED_STATUSES = true ->
  existsb (fun y => status_in y ACTIVE_STATUSES) (list_del_nth i l) = true ->
  item_event_name w t route i st = Val n -> status_in cur [S_PAUSING; S_CANCELING] = true ->
  match tbl_step task_table cur n with Some x => x | None => cur end = cur.
Proof.
  intros w t route i st s0 l n cur Hs Hl Hst Hact Hn Hcur.
  assert (Hreq : status_in st item_requirements = true) by (destruct st; try discriminate Hst; reflexivity).
  rewrite (item_event_name_eq _ _ _ _ _ _ _ _ Hs Hl Hreq Hn).
  pose proof (item_sweep (fun st a _ _ _ _ e => negb (status_in st COMPLETED_STATUSES) || negb a ||
      forallb (fun cur => status_eqb (match tbl_step task_table cur e with Some x => x | None => cur end) cur)
              [S_PAUSING; S_CANCELING]) ltac:(vm_compute; reflexivity) st (list_del_nth i l)) as P; cbv beta in P.
  rewrite Hst, Hact in P. cbn [negb orb] in P. rewrite forallb_forall in P.
  apply status_eqb_eq. exact (P cur (proj1 (status_in_In _ _) Hcur)).
Qed.

Lemma F_plain_any : forall st cur, status_in st COMPLETED_STATUSES = true -> status_in cur UNUSED_STATUSES = false ->
  match tbl_step task_table cur (ACTION_EVENT_PREFIX ++ status_name st) with
  | Some x => status_in x ACTIVE_STATUSES = false
  | None => status_in cur ACTIVE_STATUSES = false
  end.
Proof.
  intros st cur Hst Hcur. destruct st; try discriminate Hst; destruct cur; try discriminate Hcur; vm_compute; reflexivity.
Qed.

Lemma F_running_base : forall st x, status_in st (app PAUSE_STATUSES CANCEL_STATUSES) = false ->
  tbl_step task_table S_RUNNING (WORKFLOW_EVENT_PREFIX ++ status_name st) = Some x -> status_in x ACTIVE_STATUSES = true -> x = S_RUNNING.
Proof.
  intros st x Hst H Hx. destruct st; try discriminate Hst; vm_compute in H; inversion H; subst x; try discriminate Hx; reflexivity.
Qed.
