(* F_tables.v -- finite facts about the two generated state-machine tables.  Every fact is a
   boolean sweep over the *whole* generated table (a finite domain), decided by vm_compute and
   lifted to a universally quantified statement.  A changed table entry falsifies the facts
   that mention it, and only those. *)
From Coq Require Import String List Bool.
From Orq Require Import GenStatuses GenEvents GenTables Base State Machines.
Import ListNotations.
Open Scope string_scope.

Lemma status_eqb_eq : forall a b, status_eqb a b = true <-> a = b.
Proof. intros a b; split; [destruct a, b; simpl; intro H; try reflexivity; discriminate | intros ->; destruct b; reflexivity]. Qed.

Lemma status_eqb_refl : forall a, status_eqb a a = true.
Proof. intro a; apply status_eqb_eq; reflexivity. Qed.

Lemma all_statuses_complete : forall s, In s all_statuses.
Proof. intro s; destruct s; simpl; tauto. Qed.

Lemma status_in_In : forall s l, status_in s l = true <-> In s l.
Proof.
  intros s l; unfold status_in; rewrite existsb_exists; split.
  - intros [x [Hin He]]; apply status_eqb_eq in He; subst; exact Hin.
  - intro H; exists s; split; [exact H | apply status_eqb_refl].
Qed.

Lemma status_in_false : forall s l, status_in s l = false <-> ~ In s l.
Proof. intros s l. rewrite <- status_in_In. destruct (status_in s l); split; congruence. Qed.

Lemma status_eqb_false : forall a b, status_eqb a b = false <-> a <> b.
Proof. intros a b. rewrite <- status_eqb_eq. destruct (status_eqb a b); split; congruence. Qed.

(* boolean formulas back to propositions: [autorewrite with b2p] *)
#[export] Hint Rewrite andb_true_iff orb_true_iff andb_false_iff orb_false_iff negb_true_iff negb_false_iff
  status_eqb_eq status_eqb_false status_in_In status_in_false : b2p.

Definition table_forall (tbl : list (status * list (string * status)))
           (p : status -> string -> status -> bool) : bool :=
  forallb (fun '(s, row) => forallb (fun '(e, t) => p s e t) row) tbl.

Lemma aget_In : forall {V} (k : string) (d : list (string * V)) v,
  aget String.eqb k d = Some v -> In (k, v) d.
Proof.
  intros V k d; induction d as [|[k' v'] d IH]; simpl; intros v H; [discriminate|].
  destruct (String.eqb k k') eqn:E.
  - apply String.eqb_eq in E; subst; inversion H; subst; left; reflexivity.
  - right; apply IH; exact H.
Qed.

Lemma aget_status_In : forall {V} (k : status) (d : list (status * V)) v,
  aget status_eqb k d = Some v -> In (k, v) d.
Proof.
  intros V k d; induction d as [|[k' v'] d IH]; simpl; intros v H; [discriminate|].
  destruct (status_eqb k k') eqn:E.
  - apply status_eqb_eq in E; subst; inversion H; subst; left; reflexivity.
  - right; apply IH; exact H.
Qed.

Lemma table_forall_step : forall tbl p, table_forall tbl p = true ->
  forall s e t, tbl_step tbl s e = Some t -> p s e t = true.
Proof.
  intros tbl p H s e t Hs; unfold tbl_step, tbl_row in Hs.
  destruct (aget status_eqb s tbl) as [row|] eqn:Hr; [|discriminate].
  apply aget_status_In in Hr; apply aget_In in Hs.
  unfold table_forall in H; rewrite forallb_forall in H.
  specialize (H _ Hr); simpl in H; rewrite forallb_forall in H.
  exact (H _ Hs).
Qed.

Lemma F_wf_failed_final : forall e, tbl_step wf_table S_FAILED e = None.
Proof. intro e; unfold tbl_step; replace (tbl_row wf_table S_FAILED) with (Some (@nil (string * status))) by (vm_compute; reflexivity); reflexivity. Qed.

Lemma F_wf_canceled_final : forall e, tbl_step wf_table S_CANCELED e = None.
Proof. intro e; unfold tbl_step; replace (tbl_row wf_table S_CANCELED) with (Some (@nil (string * status))) by (vm_compute; reflexivity); reflexivity. Qed.

Lemma F_wf_succeeded_only_failed : forall e t, tbl_step wf_table S_SUCCEEDED e = Some t -> t = S_FAILED.
Proof.
  intros e t H.
  assert (T : table_forall wf_table (fun s _ t => negb (status_eqb s S_SUCCEEDED) || status_eqb t S_FAILED) = true)
    by (vm_compute; reflexivity).
  pose proof (table_forall_step _ _ T _ _ _ H) as P; cbv beta in P.
  apply status_eqb_eq; exact P.
Qed.

(* every status that can hold a workflow has a row, so process_*_event never raises
   InvalidWorkflowStatusTransition for those *)
Definition wf_statuses : list status :=
  [S_UNSET; S_REQUESTED; S_SCHEDULED; S_DELAYED; S_RUNNING; S_PAUSING; S_PAUSED; S_RESUMING;
   S_CANCELING; S_CANCELED; S_SUCCEEDED; S_FAILED].

Lemma F_wf_rows_exist : forall s, In s wf_statuses -> exists row, tbl_row wf_table s = Some row.
Proof.
  intros s H.
  assert (T : forallb (fun s => match tbl_row wf_table s with Some _ => true | None => false end) wf_statuses = true)
    by (vm_compute; reflexivity).
  rewrite forallb_forall in T; specialize (T _ H).
  destruct (tbl_row wf_table s) as [row|]; [exists row; reflexivity | discriminate].
Qed.

Lemma F_wf_closed : forall s e t, tbl_step wf_table s e = Some t -> In t wf_statuses.
Proof.
  intros s e t H.
  assert (T : table_forall wf_table (fun _ _ t => status_in t wf_statuses) = true) by (vm_compute; reflexivity).
  pose proof (table_forall_step _ _ T _ _ _ H) as P; cbv beta in P.
  apply status_in_In; exact P.
Qed.

Lemma F_wf_cancel_closed : forall s e t,
  In s [S_CANCELING; S_CANCELED] -> tbl_step wf_table s e = Some t -> In t [S_CANCELING; S_CANCELED; S_FAILED].
Proof.
  intros s e t Hs H.
  assert (T : table_forall wf_table
                (fun s _ t => negb (status_in s [S_CANCELING; S_CANCELED])
                              || status_in t [S_CANCELING; S_CANCELED; S_FAILED]) = true)
    by (vm_compute; reflexivity).
  pose proof (table_forall_step _ _ T _ _ _ H) as P; cbv beta in P.
  apply status_in_In in Hs. rewrite Hs in P; cbn [andb negb orb] in P. apply status_in_In; exact P.
Qed.

Lemma F_wf_canceling_never_succeeds : forall e, tbl_step wf_table S_CANCELING e <> Some S_SUCCEEDED.
Proof.
  intros e H. pose proof (F_wf_cancel_closed S_CANCELING e S_SUCCEEDED (or_introl eq_refl) H) as P.
  simpl in P; intuition discriminate.
Qed.

Lemma F_wf_failfast : forall s, In s [S_RUNNING; S_PAUSING; S_PAUSED; S_RESUMING] ->
  tbl_step wf_table s "task_failed_workflow_active" = Some S_FAILED /\
  tbl_step wf_table s "task_failed_workflow_dormant" = Some S_FAILED.
Proof.
  intros s H.
  assert (T : forallb (fun s => match tbl_step wf_table s "task_failed_workflow_active",
                                      tbl_step wf_table s "task_failed_workflow_dormant" with
                                | Some a, Some b => status_eqb a S_FAILED && status_eqb b S_FAILED
                                | _, _ => false end)
                      [S_RUNNING; S_PAUSING; S_PAUSED; S_RESUMING] = true) by (vm_compute; reflexivity).
  rewrite forallb_forall in T; specialize (T _ H).
  destruct (tbl_step wf_table s "task_failed_workflow_active") as [a|]; [|discriminate].
  destruct (tbl_step wf_table s "task_failed_workflow_dormant") as [b|]; [|discriminate].
  apply andb_prop in T; destruct T as [Ta Tb].
  apply status_eqb_eq in Ta; apply status_eqb_eq in Tb; subst; split; reflexivity.
Qed.

Definition ends_with (suffix s : string) : bool :=
  let n := String.length s in let m := String.length suffix in
  Nat.leb m n && String.eqb (substring (n - m) m s) suffix.

Definition contains (sub s : string) : bool :=
  match index 0 sub s with Some _ => true | None => false end.

Lemma F_wf_dormant_rests : forall s e t, tbl_step wf_table s e = Some t ->
  starts_with "task_" e = true -> contains "_workflow_dormant" e = true ->
  ~ In t [S_PAUSING; S_CANCELING; S_RESUMING].
Proof.
  intros s e t H Hp Hc.
  assert (T : table_forall wf_table
                (fun _ e t => negb (starts_with "task_" e && contains "_workflow_dormant" e)
                              || negb (status_in t [S_PAUSING; S_CANCELING; S_RESUMING])) = true)
    by (vm_compute; reflexivity).
  pose proof (table_forall_step _ _ T _ _ _ H) as P; cbv beta in P.
  rewrite Hp, Hc in P; cbn [andb negb orb] in P. intro Hin. apply status_in_In in Hin.
  rewrite Hin in P; discriminate.
Qed.

Lemma F_wf_active_keeps : forall s e t, tbl_step wf_table s e = Some t ->
  contains "_workflow_active" e = true ->
  ~ In t [S_PAUSED; S_CANCELED; S_SUCCEEDED].
Proof.
  intros s e t H Hc.
  assert (T : table_forall wf_table
                (fun _ e t => negb (contains "_workflow_active" e)
                              || negb (status_in t [S_PAUSED; S_CANCELED; S_SUCCEEDED])) = true)
    by (vm_compute; reflexivity).
  pose proof (table_forall_step _ _ T _ _ _ H) as P; cbv beta in P.
  rewrite Hc in P; cbn [andb negb orb] in P. intro Hin. apply status_in_In in Hin. rewrite Hin in P; discriminate.
Qed.

Lemma F_task_retry_valid : forall s, tbl_transition_valid task_table s S_RETRYING = true ->
  s = S_RETRYING \/ tbl_step task_table s EV_TASK_RETRY_REQUESTED = Some S_RETRYING.
Proof.
  intros s H.
  assert (T : forallb (fun s => negb (tbl_transition_valid task_table s S_RETRYING)
                                || status_eqb s S_RETRYING
                                || match tbl_step task_table s EV_TASK_RETRY_REQUESTED with
                                   | Some t => status_eqb t S_RETRYING | None => false end)
                      all_statuses = true) by (vm_compute; reflexivity).
  rewrite forallb_forall in T; specialize (T s (all_statuses_complete s)).
  rewrite H in T; cbn [andb negb orb] in T.
  destruct (status_eqb s S_RETRYING) eqn:E; [left; apply status_eqb_eq; exact E|right].
  simpl in T. destruct (tbl_step task_table s EV_TASK_RETRY_REQUESTED) as [t|]; [|discriminate].
  apply status_eqb_eq in T; subst; reflexivity.
Qed.

Lemma F_task_retrying_only_by_retry : forall s e, tbl_step task_table s e = Some S_RETRYING ->
  e = EV_TASK_RETRY_REQUESTED /\ In s COMPLETED_STATUSES.
Proof.
  intros s e H.
  assert (T : table_forall task_table
                (fun s e t => negb (status_eqb t S_RETRYING)
                              || (String.eqb e EV_TASK_RETRY_REQUESTED && status_in s COMPLETED_STATUSES)) = true)
    by (vm_compute; reflexivity).
  pose proof (table_forall_step _ _ T _ _ _ H) as P; cbv beta in P.
  apply andb_prop in P; destruct P as [Pe Ps].
  apply String.eqb_eq in Pe; apply status_in_In in Ps; split; assumption.
Qed.

Lemma F_task_completed_final : forall s e t, In s COMPLETED_STATUSES ->
  tbl_step task_table s e = Some t -> t = S_RETRYING.
Proof.
  intros s e t Hs H.
  assert (T : table_forall task_table
                (fun s _ t => negb (status_in s COMPLETED_STATUSES) || status_eqb t S_RETRYING) = true)
    by (vm_compute; reflexivity).
  pose proof (table_forall_step _ _ T _ _ _ H) as P; cbv beta in P.
  apply status_in_In in Hs; rewrite Hs in P; cbn [andb negb orb] in P. apply status_eqb_eq; exact P.
Qed.

Lemma F_task_item_active_open : forall s e t, tbl_step task_table s e = Some t ->
  contains "_task_active_" e = true -> ~ In t COMPLETED_STATUSES.
Proof.
  intros s e t H Hc.
  assert (T : table_forall task_table
                (fun _ e t => negb (contains "_task_active_" e) || negb (status_in t COMPLETED_STATUSES)) = true)
    by (vm_compute; reflexivity).
  pose proof (table_forall_step _ _ T _ _ _ H) as P; cbv beta in P.
  rewrite Hc in P; cbn [andb negb orb] in P. intro Hin; apply status_in_In in Hin; rewrite Hin in P; discriminate.
Qed.

Lemma F_tables_vocabulary :
  table_forall wf_table (fun _ e _ => string_in e (app WORKFLOW_EXECUTION_EVENTS TASK_EXECUTION_EVENTS)) = true /\
  table_forall task_table (fun _ e _ => string_in e (app WORKFLOW_EXECUTION_EVENTS
                                             (app ACTION_EXECUTION_EVENTS ENGINE_OPERATION_EVENTS))) = true.
Proof. split; vm_compute; reflexivity. Qed.

Lemma F_wf_pausing_task_closed : forall e t, starts_with "task_" e = true ->
  tbl_step wf_table S_PAUSING e = Some t -> In t [S_PAUSING; S_PAUSED; S_FAILED; S_CANCELING; S_CANCELED].
Proof.
  intros e t Hp H.
  assert (T : table_forall wf_table
                (fun s e t => negb (status_eqb s S_PAUSING && starts_with "task_" e)
                              || status_in t [S_PAUSING; S_PAUSED; S_FAILED; S_CANCELING; S_CANCELED]) = true)
    by (vm_compute; reflexivity).
  pose proof (table_forall_step _ _ T _ _ _ H) as P; cbv beta in P.
  rewrite status_eqb_refl, Hp in P; cbn [andb negb orb] in P. apply status_in_In; exact P.
Qed.

Lemma F_wf_pause_request : forall s, In s [S_RUNNING; S_RESUMING; S_PAUSING] ->
  tbl_step wf_table s "workflow_pausing_workflow_active" = Some S_PAUSING /\
  tbl_step wf_table s "workflow_pausing_workflow_dormant" = Some S_PAUSED /\
  tbl_step wf_table s "workflow_paused_workflow_active" = Some S_PAUSING /\
  tbl_step wf_table s "workflow_paused_workflow_dormant" = Some S_PAUSED.
Proof.
  intros s H.
  assert (T : forallb (fun s =>
      match tbl_step wf_table s "workflow_pausing_workflow_active", tbl_step wf_table s "workflow_pausing_workflow_dormant",
            tbl_step wf_table s "workflow_paused_workflow_active", tbl_step wf_table s "workflow_paused_workflow_dormant" with
      | Some a, Some b, Some c, Some d =>
          status_eqb a S_PAUSING && status_eqb b S_PAUSED && status_eqb c S_PAUSING && status_eqb d S_PAUSED
      | _, _, _, _ => false end) [S_RUNNING; S_RESUMING; S_PAUSING] = true) by (vm_compute; reflexivity).
  rewrite forallb_forall in T; specialize (T _ H).
  destruct (tbl_step wf_table s "workflow_pausing_workflow_active") as [a|]; [|discriminate].
  destruct (tbl_step wf_table s "workflow_pausing_workflow_dormant") as [b|]; [|discriminate].
  destruct (tbl_step wf_table s "workflow_paused_workflow_active") as [c|]; [|discriminate].
  destruct (tbl_step wf_table s "workflow_paused_workflow_dormant") as [d|]; [|discriminate].
  repeat (apply andb_prop in T; destruct T as [T ?]).
  repeat match goal with H : status_eqb _ _ = true |- _ => apply status_eqb_eq in H; subst end.
  repeat split; reflexivity.
Qed.

Lemma F_wf_resume_request :
  tbl_step wf_table S_PAUSED "workflow_resuming" = Some S_RESUMING /\
  tbl_step wf_table S_PAUSED "workflow_running" = Some S_RUNNING /\
  tbl_step wf_table S_PAUSED "workflow_resuming_workflow_completed" = Some S_SUCCEEDED /\
  tbl_step wf_table S_PAUSED "workflow_running_workflow_completed" = Some S_SUCCEEDED /\
  tbl_step wf_table S_PAUSING "workflow_resuming" = Some S_RESUMING /\
  tbl_step wf_table S_PAUSING "workflow_running" = Some S_RUNNING.
Proof. repeat split; vm_compute; reflexivity. Qed.

Lemma F_wf_running_task_targets : forall s e t, In s [S_RUNNING; S_RESUMING] -> starts_with "task_" e = true ->
  tbl_step wf_table s e = Some t ->
  In t [S_RUNNING; S_PAUSING; S_PAUSED; S_CANCELING; S_CANCELED; S_SUCCEEDED; S_FAILED].
Proof.
  intros s e t Hs Hp H.
  assert (T : table_forall wf_table
                (fun s e t => negb (status_in s [S_RUNNING; S_RESUMING] && starts_with "task_" e)
                              || status_in t [S_RUNNING; S_PAUSING; S_PAUSED; S_CANCELING; S_CANCELED; S_SUCCEEDED; S_FAILED]) = true)
    by (vm_compute; reflexivity).
  pose proof (table_forall_step _ _ T _ _ _ H) as P; cbv beta in P.
  apply status_in_In in Hs. rewrite Hs, Hp in P; cbn [andb negb orb] in P. apply status_in_In; exact P.
Qed.

Lemma F_wf_succeeded_only_when_completed : forall s e, tbl_step wf_table s e = Some S_SUCCEEDED ->
  e = "workflow_succeeded" \/ contains "_workflow_dormant_completed" e = true \/ contains "_workflow_completed" e = true.
Proof.
  intros s e H.
  assert (T : table_forall wf_table
                (fun _ e t => negb (status_eqb t S_SUCCEEDED)
                              || String.eqb e "workflow_succeeded" || contains "_workflow_dormant_completed" e
                              || contains "_workflow_completed" e) = true) by (vm_compute; reflexivity).
  pose proof (table_forall_step _ _ T _ _ _ H) as P; cbv beta in P.
  rewrite status_eqb_refl in P; cbn [negb orb] in P.
  destruct (String.eqb e "workflow_succeeded") eqn:E1; [left; apply String.eqb_eq; exact E1|].
  destruct (contains "_workflow_dormant_completed" e) eqn:E2; [right; left; reflexivity|].
  cbn [orb] in P. right; right; exact P.
Qed.

Lemma F_wf_active_task_keeps_class : forall s e t, In s [S_RUNNING; S_PAUSING; S_CANCELING; S_RESUMING] ->
  contains "_workflow_active" e = true -> starts_with "task_" e = true -> tbl_step wf_table s e = Some t ->
  (s = S_RUNNING -> In t [S_RUNNING; S_PAUSING; S_CANCELING; S_FAILED]) /\
  (s = S_RESUMING -> In t [S_RUNNING; S_PAUSING; S_CANCELING; S_FAILED]) /\
  (s = S_PAUSING -> In t [S_PAUSING; S_CANCELING; S_FAILED]) /\
  (s = S_CANCELING -> In t [S_CANCELING]).
Proof.
  intros s e t Hs Hc Hp H.
  assert (T : table_forall wf_table
     (fun s e t => negb (contains "_workflow_active" e && starts_with "task_" e)
        || ((negb (status_in s [S_RUNNING; S_RESUMING]) || status_in t [S_RUNNING; S_PAUSING; S_CANCELING; S_FAILED])
            && (negb (status_eqb s S_PAUSING) || status_in t [S_PAUSING; S_CANCELING; S_FAILED])
            && (negb (status_eqb s S_CANCELING) || status_in t [S_CANCELING]))) = true)
    by (vm_compute; reflexivity).
  pose proof (table_forall_step _ _ T _ _ _ H) as P; cbv beta in P.
  rewrite Hc, Hp in P; cbn [andb negb orb] in P.
  apply andb_prop in P; destruct P as [P P3]. apply andb_prop in P; destruct P as [P1 P2].
  repeat split; intro E; subst s.
  - vm_compute status_in in P1 at 1. cbn [negb orb] in P1. apply status_in_In; exact P1.
  - vm_compute status_in in P1 at 1. cbn [negb orb] in P1. apply status_in_In; exact P1.
  - rewrite status_eqb_refl in P2; cbn [negb orb] in P2. apply status_in_In; exact P2.
  - rewrite status_eqb_refl in P3; cbn [negb orb] in P3. apply status_in_In; exact P3.
Qed.

Lemma task_table_step_val : forall cur n ns, task_table_step cur n = Val ns -> tbl_step task_table cur n = ns.
Proof.
  intros cur n ns H; unfold task_table_step in H; unfold tbl_step.
  destruct (tbl_row task_table cur); inversion H; reflexivity.
Qed.
