(* F_sys.v -- finite facts used by the provider-protocol proofs (proofs/SysProofs.v): what the generated
   task table does with the events the protocol delivers (acknowledgement, completion reports, engine
   commands, control requests on tasks without items) and what the generated workflow table does with
   the task events and control requests the protocol can cause.  Every fact is a boolean sweep over a
   finite domain decided by vm_compute (same pattern as F_tables.v / F_names.v). *)
From Coq Require Import String List Bool.
From Orq Require Import GenStatuses GenEvents GenTables Base State Machines F_tables F_names.
Import ListNotations.
Open Scope string_scope.

(* the statuses a task record of a workflow without with-items tasks can have under the protocol
   (a set of this development, not an orquesta constant) *)
Definition simple_statuses : list status := [S_RUNNING; S_SUCCEEDED; S_FAILED; S_CANCELED; S_RETRYING].

(* [wf_statuses] without requested / scheduled / delayed, which the protocol never requests *)
Definition sys_wf_statuses : list status :=
  [S_UNSET; S_RUNNING; S_PAUSING; S_PAUSED; S_RESUMING; S_CANCELING; S_CANCELED; S_SUCCEEDED; S_FAILED].

Definition action_event_name (st : status) : string := ACTION_EVENT_PREFIX ++ status_name st.
Definition workflow_event_name (st : status) : string := WORKFLOW_EVENT_PREFIX ++ status_name st.

(* the acknowledgement: a new record, a record waiting for its retry and a running record become
   (stay) running; a completed record is left alone (it is never addressed: a new record is made) *)
Lemma F_ack_step : forall s, In s [S_UNSET; S_RETRYING; S_RUNNING] ->
  tbl_step task_table s (action_event_name S_RUNNING) = Some S_RUNNING.
Proof. intros s [H|[H|[H|[]]]]; subst; vm_compute; reflexivity. Qed.

Lemma F_report_step : forall st, In st COMPLETED_STATUSES ->
  exists n, tbl_step task_table S_RUNNING (action_event_name st) = Some n /\ In n [S_SUCCEEDED; S_FAILED; S_CANCELED].
Proof.
  intros st H.
  assert (T : forallb (fun st => match tbl_step task_table S_RUNNING (action_event_name st) with
                                 | Some n => status_in n [S_SUCCEEDED; S_FAILED; S_CANCELED] | None => false end)
                      COMPLETED_STATUSES = true) by (vm_compute; reflexivity).
  rewrite forallb_forall in T. specialize (T _ H).
  destruct (tbl_step task_table S_RUNNING (action_event_name st)) as [n|]; [|discriminate].
  exists n; split; [reflexivity|apply status_in_In; exact T].
Qed.

(* a completion report on a record without status (a record just made for a key that had none) is not
   in the table: the record stays without status *)
Lemma F_report_on_unset : forall st, In st COMPLETED_STATUSES ->
  tbl_step task_table S_UNSET (action_event_name st) = None.
Proof. intros st [H|[H|[H|[H|[H|[]]]]]]; subst; vm_compute; reflexivity. Qed.

Lemma F_engine_on_unset : forall cmd n st, aget String.eqb cmd ENGINE_EVENT_MAP = Some (n, st) ->
  tbl_step task_table S_UNSET n = None \/ tbl_step task_table S_UNSET n = Some S_SUCCEEDED \/
  tbl_step task_table S_UNSET n = Some S_FAILED.
Proof.
  intros cmd n st H. apply aget_In in H.
  assert (T : forallb (fun p => match tbl_step task_table S_UNSET (fst (snd p)) with
                                | None => true | Some x => status_in x [S_SUCCEEDED; S_FAILED] end)
                      ENGINE_EVENT_MAP = true) by (vm_compute; reflexivity).
  rewrite forallb_forall in T. specialize (T _ H). cbn [fst snd] in T.
  destruct (tbl_step task_table S_UNSET n) as [x|]; [|left; reflexivity].
  apply status_in_In in T. destruct T as [T|[T|[]]]; subst; auto.
Qed.

Lemma F_engine_not_starting : forall cmd n st, aget String.eqb cmd ENGINE_EVENT_MAP = Some (n, st) ->
  status_in st STARTING_STATUSES = false.
Proof.
  intros cmd n st H. apply aget_In in H.
  assert (T : forallb (fun p => negb (status_in (snd (snd p)) STARTING_STATUSES)) ENGINE_EVENT_MAP = true)
    by (vm_compute; reflexivity).
  rewrite forallb_forall in T. specialize (T _ H). cbn [snd] in T. apply negb_true_iff in T; exact T.
Qed.

Lemma F_request_keeps_running : forall st,
  tbl_step task_table S_RUNNING (workflow_event_name st) = None.
Proof. intro st; destruct st; vm_compute; reflexivity. Qed.

Lemma F_workflow_failed_nowhere : forall s, tbl_step task_table s (workflow_event_name S_FAILED) = None.
Proof. intro s; destruct s; vm_compute; reflexivity. Qed.

Lemma F_retry_from_completed : forall s n, In s simple_statuses ->
  tbl_step task_table s EV_TASK_RETRY_REQUESTED = Some n -> n = S_RETRYING /\ In s [S_SUCCEEDED; S_FAILED].
Proof.
  intros s n Hs H.
  destruct Hs as [Hs|[Hs|[Hs|[Hs|[Hs|[]]]]]]; subst s; vm_compute in H; inversion H; subst;
    split; try reflexivity; simpl; auto.
Qed.

Definition step_or_stay (s : status) (e : string) : status :=
  match tbl_step wf_table s e with Some n => n | None => s end.

Lemma wf_sweep_stay : forall q : status -> status -> bool -> bool -> bool -> bool -> bool -> status -> bool,
  names_forall (fun st r a c p m =>
    forallb (fun s => q s st r a c p m (match wf_step s st r a c p m with Some n => n | None => s end)) all_statuses) = true ->
  forall s st r a c p m, q s st r a c p m (step_or_stay s (task_event_name_of st r a c p m)) = true.
Proof.
  intros q T s st r a c p m.
  exact (wf_sweep (fun s st r a c p m o => q s st r a c p m (match o with Some n => n | None => s end)) T s st r a c p m).
Qed.

(* What the reported workflow status says, as a property of the status and of two flags: a = some task execution
   is active, g = some staged entry is ready.  (proofs/SysProofs.v reads [kinv] off the state with it.) *)
Definition kinv_of (s : status) (a g : bool) : Prop :=
  In s sys_wf_statuses /\
  (In s [S_PAUSED; S_CANCELED; S_SUCCEEDED] -> a = false) /\
  (s = S_SUCCEEDED -> g = false) /\
  (In s [S_PAUSING; S_CANCELING] -> a = true) /\
  (In s [S_RUNNING; S_RESUMING] -> a = true \/ g = true).
Definition kinv_b (s : status) (a g : bool) : bool :=
  status_in s sys_wf_statuses && (negb (status_in s [S_PAUSED; S_CANCELED; S_SUCCEEDED]) || negb a)
  && (negb (status_eqb s S_SUCCEEDED) || negb g) && (negb (status_in s [S_PAUSING; S_CANCELING]) || a)
  && (negb (status_in s [S_RUNNING; S_RESUMING]) || a || g).
Lemma kinv_b_of : forall s a g, kinv_b s a g = true <-> kinv_of s a g.
Proof.
  intros s a g. unfold kinv_b, kinv_of. split.
  - intro H. autorewrite with b2p in H. tauto.
  - intros [K1 [K2 [K3 [K4 K5]]]]. rewrite (proj2 (status_in_In _ _) K1). cbn [andb].
    assert (C2 : negb (status_in s [S_PAUSED; S_CANCELED; S_SUCCEEDED]) || negb a = true).
    { destruct (status_in s [S_PAUSED; S_CANCELED; S_SUCCEEDED]) eqn:E; [|reflexivity]. rewrite (K2 (proj1 (status_in_In _ _) E)). reflexivity. }
    assert (C3 : negb (status_eqb s S_SUCCEEDED) || negb g = true).
    { destruct (status_eqb s S_SUCCEEDED) eqn:E; [|reflexivity]. rewrite (K3 (proj1 (status_eqb_eq _ _) E)). reflexivity. }
    assert (C4 : negb (status_in s [S_PAUSING; S_CANCELING]) || a = true).
    { destruct (status_in s [S_PAUSING; S_CANCELING]) eqn:E; [|reflexivity]. rewrite (K4 (proj1 (status_in_In _ _) E)). reflexivity. }
    assert (C5 : negb (status_in s [S_RUNNING; S_RESUMING]) || a || g = true).
    { destruct (status_in s [S_RUNNING; S_RESUMING]) eqn:E; [|reflexivity].
      destruct (K5 (proj1 (status_in_In _ _) E)) as [X|X]; rewrite X; [reflexivity|apply orb_true_r]. }
    rewrite C2, C3, C4, C5. reflexivity.
Qed.

(* A task event of the protocol, from a status other than unset whose resting clauses hold: st is the status of the
   reporting record, h = the reporting task has a next task.  Provided a record that reports running is counted
   active, one that reports retrying is staged again, and a next task is active or staged when tasks run, the status
   after the event is truthful about a and g. *)
Lemma F_task_event_kinv : forall s st r a c p g h,
  In s sys_wf_statuses -> s <> S_UNSET -> In st simple_statuses ->
  (In s [S_PAUSED; S_CANCELED; S_SUCCEEDED] -> a = false) -> (s = S_SUCCEEDED -> g = false) ->
  (st = S_RUNNING -> a = true) -> (st = S_RETRYING -> g = true) ->
  (In s [S_RUNNING; S_RESUMING; S_PAUSING; S_CANCELING] -> h = true -> a = true \/ g = true) ->
  let n := step_or_stay s (task_event_name_of st r a c p (g || h)) in
  kinv_of n a g /\ n <> S_UNSET.
Proof.
  intros s st r a c p g h Hs Hu Hst K1 K2 Hrun Hret Hh n.
  pose proof (wf_sweep_stay (fun s st _ a _ _ m n => forallb (fun '(g, h) =>
       negb (eqb m (g || h)) || negb (status_in s sys_wf_statuses) || status_eqb s S_UNSET || negb (status_in st simple_statuses)
       || (status_in s [S_PAUSED; S_CANCELED; S_SUCCEEDED] && a) || (status_eqb s S_SUCCEEDED && g)
       || (status_eqb st S_RUNNING && negb a) || (status_eqb st S_RETRYING && negb g)
       || (status_in s [S_RUNNING; S_RESUMING; S_PAUSING; S_CANCELING] && h && negb a && negb g)
       || (kinv_b n a g && negb (status_eqb n S_UNSET))) all_bools2)
    ltac:(vm_compute; reflexivity) s st r a c p (g || h)) as P; cbv beta in P. fold n in P.
  rewrite forallb_forall in P. specialize (P (g, h) (all_bools2_complete g h)). cbv beta iota in P.
  rewrite eqb_reflx in P. cbn [negb orb] in P.
  apply orb_prop in P. destruct P as [P|P].
  - exfalso. autorewrite with b2p in P. intuition congruence.
  - apply andb_prop in P. destruct P as [P Q]. split; [exact (proj1 (kinv_b_of _ _ _) P)|]. autorewrite with b2p in Q. exact Q.
Qed.

Lemma F_simple_event_names_valid : forall st r a c p m, In st simple_statuses ->
  string_in (task_event_name_of st r a c p m) TASK_EXECUTION_EVENTS = true.
Proof.
  intros st r a c p m H. apply F_task_event_names_valid.
  destruct H as [H|[H|[H|[H|[H|[]]]]]]; subst; simpl; tauto.
Qed.

(* the name of a control request, as a function of what the state says: a = a task execution is active,
   d = paused, and nothing active, staged ready or paused (the request completes the workflow) *)
Definition request_event_name_of (st : status) (a d : bool) : string :=
  let e0 := WORKFLOW_EVENT_PREFIX ++ status_name st in
  let e1 := if status_in st (app PAUSE_STATUSES CANCEL_STATUSES)
            then e0 ++ (if a then "_workflow_active" else "_workflow_dormant") else e0 in
  if d then e1 ++ "_workflow_completed" else e1.

Definition request_statuses_f : list status :=
  [S_PAUSING; S_PAUSED; S_RESUMING; S_RUNNING; S_CANCELING; S_CANCELED; S_FAILED].

Definition bidx (a d : bool) : nat := (if a then 0 else 2) + (if d then 0 else 1).
Definition req_rows : list (list (list (option status))) := Eval vm_compute in
  map (fun st => map (fun '(a, d) => map (fun s => tbl_step wf_table s (request_event_name_of st a d)) all_statuses)
                     all_bools2) all_statuses.
Definition req_step (s st : status) (a d : bool) : option status :=
  nth (sidx s) (nth (bidx a d) (nth (sidx st) req_rows []) []) None.

Lemma req_step_eq : forall s st a d, tbl_step wf_table s (request_event_name_of st a d) = req_step s st a d.
Proof.
  intros s st a d.
  assert (T : map (fun st => map (fun '(a, d) => map (fun s => tbl_step wf_table s (request_event_name_of st a d)) all_statuses)
                                 all_bools2) all_statuses = req_rows) by (vm_compute; reflexivity).
  unfold req_step. rewrite <- T, nth_sidx. symmetry.
  destruct a, d; cbn [bidx all_bools2 map nth Nat.add];
    apply (nth_sidx _ (fun s0 => tbl_step wf_table s0 (request_event_name_of st _ _))).
Qed.

Lemma req_sweep : forall q : status -> status -> bool -> bool -> status -> bool,
  forallb (fun s => forallb (fun st => forallb (fun '(a, d) =>
    q s st a d (match req_step s st a d with Some n => n | None => s end)) all_bools2) all_statuses) all_statuses = true ->
  forall s st a d, q s st a d (step_or_stay s (request_event_name_of st a d)) = true.
Proof.
  intros q T s st a d. unfold step_or_stay. rewrite req_step_eq.
  rewrite forallb_forall in T. specialize (T s (all_statuses_complete s)).
  rewrite forallb_forall in T. specialize (T st (all_statuses_complete st)).
  rewrite forallb_forall in T. exact (T (a, d) (all_bools2_complete a d)).
Qed.

(* A control request of the protocol on a state whose status is truthful about a and g (from unset nothing is
   active and a root is staged): the status after the request is truthful about them, and is unset only if it was.
   The request completes a paused workflow (flag d) exactly when nothing is active or staged. *)
Lemma F_request_kinv : forall s st a g,
  kinv_of s a g -> (s = S_UNSET -> a = false /\ g = true) -> In st request_statuses_f ->
  let n := step_or_stay s (request_event_name_of st a
             (status_eqb s S_PAUSED && status_in st [S_RUNNING; S_RESUMING] && negb a && negb g)) in
  kinv_of n a g /\ (n = S_UNSET -> s = S_UNSET).
Proof.
  intros s st a g K U Hst n.
  pose proof (req_sweep (fun s st a d n => forallb (fun g =>
      negb (eqb d (status_eqb s S_PAUSED && status_in st [S_RUNNING; S_RESUMING] && negb a && negb g))
      || negb (kinv_b s a g) || (status_eqb s S_UNSET && (a || negb g)) || negb (status_in st request_statuses_f)
      || (kinv_b n a g && (negb (status_eqb n S_UNSET) || status_eqb s S_UNSET))) [true; false])
    ltac:(vm_compute; reflexivity) s st a (status_eqb s S_PAUSED && status_in st [S_RUNNING; S_RESUMING] && negb a && negb g)) as P;
    cbv beta in P. fold n in P.
  rewrite forallb_forall in P. specialize (P g (in_bools g)). cbv beta in P.
  rewrite eqb_reflx, (proj2 (kinv_b_of _ _ _) K), (proj2 (status_in_In _ _) Hst) in P. cbn [negb orb] in P.
  rewrite orb_false_r in P. apply orb_prop in P. destruct P as [P|P].
  - exfalso. autorewrite with b2p in P. destruct P as [E P]. destruct (U E) as [U1 U2]. intuition congruence.
  - apply andb_prop in P. destruct P as [P Q]. split; [exact (proj1 (kinv_b_of _ _ _) P)|]. autorewrite with b2p in Q. tauto.
Qed.

Lemma F_wf_failed_target : forall s n, tbl_step wf_table s "workflow_failed" = Some n -> n = S_FAILED.
Proof.
  intros s n H.
  assert (T : table_forall wf_table (fun _ e t => negb (String.eqb e "workflow_failed") || status_eqb t S_FAILED) = true)
    by (vm_compute; reflexivity).
  pose proof (table_forall_step _ _ T _ _ _ H) as P; cbv beta in P.
  rewrite String.eqb_refl in P; cbn [negb orb] in P. apply status_eqb_eq; exact P.
Qed.

Lemma task_table_step_running : forall n, task_table_step S_RUNNING n = Val (tbl_step task_table S_RUNNING n).
Proof.
  intro n. unfold task_table_step, tbl_step. destruct (tbl_row task_table S_RUNNING) eqn:E; [reflexivity|].
  vm_compute in E. discriminate.
Qed.

Lemma F_retry_on_unset : tbl_step task_table S_UNSET EV_TASK_RETRY_REQUESTED = None.
Proof. vm_compute; reflexivity. Qed.

Lemma F_ack_wf : forall s r a c p m, In s [S_RUNNING; S_RESUMING; S_FAILED] ->
  In (step_or_stay s (task_event_name_of S_RUNNING r a c p m)) [S_RUNNING; S_RESUMING; S_FAILED].
Proof.
  intros s r a c p m Hs.
  pose proof (wf_sweep_stay (fun s st _ _ _ _ _ n => negb (status_in s [S_RUNNING; S_RESUMING; S_FAILED])
      || negb (status_eqb st S_RUNNING) || status_in n [S_RUNNING; S_RESUMING; S_FAILED])
    ltac:(vm_compute; reflexivity) s S_RUNNING r a c p m) as P; cbv beta in P.
  apply status_in_In in Hs. rewrite Hs in P. apply status_in_In. exact P.
Qed.

Lemma F_np_task_event : forall s st r a c m, In s sys_wf_statuses -> ~ In s [S_PAUSING; S_PAUSED] -> In st simple_statuses ->
  In (step_or_stay s (task_event_name_of st r a c false m)) sys_wf_statuses /\
  ~ In (step_or_stay s (task_event_name_of st r a c false m)) [S_PAUSING; S_PAUSED].
Proof.
  intros s st r a c m Hs Hnp Hst.
  pose proof (wf_sweep_stay (fun s st _ _ _ p _ n => negb (status_in s sys_wf_statuses) || status_in s [S_PAUSING; S_PAUSED]
      || negb (status_in st simple_statuses) || p
      || (status_in n sys_wf_statuses && negb (status_in n [S_PAUSING; S_PAUSED])))
    ltac:(vm_compute; reflexivity) s st r a c false m) as P; cbv beta in P.
  autorewrite with b2p in P. intuition congruence.
Qed.

Lemma F_np_request : forall s st a d, In s sys_wf_statuses -> ~ In s [S_PAUSING; S_PAUSED] ->
  In st [S_RESUMING; S_RUNNING; S_CANCELING; S_CANCELED; S_FAILED] ->
  ~ In (step_or_stay s (request_event_name_of st a d)) [S_PAUSING; S_PAUSED].
Proof.
  intros s st a d Hs Hnp Hst.
  pose proof (req_sweep (fun s st _ _ n => negb (status_in s sys_wf_statuses) || status_in s [S_PAUSING; S_PAUSED]
      || negb (status_in st [S_RESUMING; S_RUNNING; S_CANCELING; S_CANCELED; S_FAILED])
      || negb (status_in n [S_PAUSING; S_PAUSED]))
    ltac:(vm_compute; reflexivity) s st a d) as P; cbv beta in P.
  autorewrite with b2p in P. tauto.
Qed.
