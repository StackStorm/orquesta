(* F_names.v -- finite facts about the contextualised task-event names and what the generated
   workflow table does with them.  The names take 36 values over the 16 statuses x 32 flag
   combinations: they are numbered once ([name_code]), the workflow table is tabulated against the
   36 names once ([wf_rows]), and every fact is a sweep over the tabulated function [wf_step],
   in which no string is compared. *)
From Coq Require Import String List Bool.
From Orq Require Import GenStatuses GenEvents GenTables Base State Machines F_tables.
Import ListNotations.
Open Scope string_scope.

Definition all_bools5 : list (bool * bool * bool * bool * bool) :=
  flat_map (fun a => flat_map (fun b => flat_map (fun c => flat_map (fun d => map (fun e => (a, b, c, d, e))
    [true; false]) [true; false]) [true; false]) [true; false]) [true; false].

Lemma in_bools : forall b, In b [true; false].
Proof. intros []; simpl; auto. Qed.

Lemma all_bools5_complete : forall a b c d e, In (a, b, c, d, e) all_bools5.
Proof.
  intros a b c d e. unfold all_bools5.
  repeat (apply in_flat_map; eexists; split; [apply in_bools|]).
  apply in_map_iff. eexists. split; [reflexivity|apply in_bools].
Qed.

Definition all_bools2 : list (bool * bool) := [(true, true); (true, false); (false, true); (false, false)].
Lemma all_bools2_complete : forall a b, In (a, b) all_bools2.
Proof. intros [] []; simpl; auto. Qed.

Definition names_forall (p : status -> bool -> bool -> bool -> bool -> bool -> bool) : bool :=
  forallb (fun st => forallb (fun '(a, b, c, d, e) => p st a b c d e) all_bools5) all_statuses.

Lemma names_forall_spec : forall p, names_forall p = true -> forall st a b c d e, p st a b c d e = true.
Proof.
  intros p H st a b c d e. unfold names_forall in H. rewrite forallb_forall in H.
  specialize (H st (all_statuses_complete st)). rewrite forallb_forall in H.
  exact (H _ (all_bools5_complete a b c d e)).
Qed.

Definition sidx (s : status) : nat :=
  match s with
  | St_requested => 0 | St_scheduled => 1 | St_delayed => 2 | St_running => 3 | St_pending => 4 | St_pausing => 5
  | St_paused => 6 | St_resuming => 7 | St_succeeded => 8 | St_failed => 9 | St_timeout => 10 | St_abandoned => 11
  | St_retrying => 12 | St_canceling => 13 | St_canceled => 14 | St_null => 15
  end.

Lemma nth_sidx : forall A (f : status -> A) d s, nth (sidx s) (map f all_statuses) d = f s.
Proof. intros A f d s; destruct s; reflexivity. Qed.

(* The scheme of add_context_to_task_event: pending, paused, failed, retrying and canceled get
   "_workflow_active" / "_workflow_dormant"; succeeded and remediated (an abended status with a
   next task) get that and one of "_canceled" / "_paused" / "_incomplete" / "_completed".
   The numbers are positions in [wf_names]: 4, 7, 18, 30, 33 start the pairs of the five contextualised
   statuses, 10 and 21 the eight names of succeeded and of remediated, 20 and 29 are plain timeout and
   abandoned.  They are written by hand: when the generated event scheme changes, [name_code_ok] fails
   and they are read off the new [wf_names] again. *)
Definition ctx_code (a : bool) : nat := if a then 0 else 1.
Definition sfx_code (c p m : bool) : nat := if c then 0 else if p then 1 else if m then 2 else 3.
Definition name_code (st : status) (r a c p m : bool) : nat :=
  let remediated := 21 + 4 * ctx_code a + sfx_code c p m in
  match st with
  | St_requested => 0 | St_scheduled => 1 | St_delayed => 2 | St_running => 3
  | St_pending => 4 + ctx_code a | St_pausing => 6 | St_paused => 7 + ctx_code a | St_resuming => 9
  | St_succeeded => 10 + 4 * ctx_code a + sfx_code c p m
  | St_failed => if r then remediated else 18 + ctx_code a
  | St_timeout => if r then remediated else 20
  | St_abandoned => if r then remediated else 29
  | St_retrying => 30 + ctx_code a | St_canceling => 32 | St_canceled => 33 + ctx_code a | St_null => 35
  end.

(* the names in the order of [name_code]: each name at the place of its LAST occurrence in the
   enumeration of statuses and flags, so that "task_remediated..." (reached first from failed with
   r = true) sits between timeout and abandoned, where its last producer is *)
Definition wf_names : list string := Eval vm_compute in
  (fix last_occ (l : list string) : list string :=
     match l with [] => [] | x :: l' => if string_in x l' then last_occ l' else x :: last_occ l' end)
  (flat_map (fun st => map (fun '(r, a, c, p, m) => task_event_name_of st r a c p m) all_bools5) all_statuses).

Lemma name_code_ok : forall st r a c p m,
  nth_error wf_names (name_code st r a c p m) = Some (task_event_name_of st r a c p m).
Proof.
  intros st r a c p m.
  assert (T : names_forall (fun st r a c p m =>
            match nth_error wf_names (name_code st r a c p m) with
            | Some n => String.eqb (task_event_name_of st r a c p m) n | None => false end) = true)
    by (vm_compute; reflexivity).
  pose proof (names_forall_spec _ T st r a c p m) as P; cbv beta in P.
  destruct (nth_error wf_names (name_code st r a c p m)) as [n|]; [|discriminate].
  apply String.eqb_eq in P. rewrite P. reflexivity.
Qed.

Definition wf_rows : list (list (option status)) := Eval vm_compute in
  map (fun n => map (fun s => tbl_step wf_table s n) all_statuses) wf_names.
Definition wf_valid : list bool := Eval vm_compute in map (fun n => string_in n TASK_EXECUTION_EVENTS) wf_names.

Lemma wf_rows_ok : map (fun n => map (fun s => tbl_step wf_table s n) all_statuses) wf_names = wf_rows.
Proof. vm_compute; reflexivity. Qed.
Lemma wf_valid_ok : map (fun n => string_in n TASK_EXECUTION_EVENTS) wf_names = wf_valid.
Proof. vm_compute; reflexivity. Qed.

Definition wf_step (s st : status) (r a c p m : bool) : option status :=
  match nth_error wf_rows (name_code st r a c p m) with Some row => nth (sidx s) row None | None => None end.
Definition name_valid (st : status) (r a c p m : bool) : bool :=
  match nth_error wf_valid (name_code st r a c p m) with Some b => b | None => false end.

Lemma wf_step_eq : forall s st r a c p m,
  tbl_step wf_table s (task_event_name_of st r a c p m) = wf_step s st r a c p m.
Proof.
  intros. unfold wf_step. rewrite <- wf_rows_ok, nth_error_map, name_code_ok. cbn [option_map]. symmetry. apply (nth_sidx _ (fun s0 => tbl_step wf_table s0 (task_event_name_of st r a c p m))).
Qed.

Lemma name_valid_eq : forall st r a c p m,
  string_in (task_event_name_of st r a c p m) TASK_EXECUTION_EVENTS = name_valid st r a c p m.
Proof. intros. unfold name_valid. rewrite <- wf_valid_ok, nth_error_map, name_code_ok. cbn [option_map]. reflexivity. Qed.

Lemma wf_sweep : forall q : status -> status -> bool -> bool -> bool -> bool -> bool -> option status -> bool,
  names_forall (fun st r a c p m => forallb (fun s => q s st r a c p m (wf_step s st r a c p m)) all_statuses) = true ->
  forall s st r a c p m, q s st r a c p m (tbl_step wf_table s (task_event_name_of st r a c p m)) = true.
Proof.
  intros q T s st r a c p m. pose proof (names_forall_spec _ T st r a c p m) as P; cbv beta in P.
  rewrite forallb_forall in P. rewrite wf_step_eq. exact (P s (all_statuses_complete s)).
Qed.

(* the statuses a task event can carry once its action has stopped running: these are the events
   whose names are contextualised with _workflow_active / _workflow_dormant *)
Definition settled_statuses : list status := [S_PENDING; S_PAUSED; S_SUCCEEDED; S_FAILED; S_CANCELED; S_RETRYING].

(* every status but the two an action alone can have (timeout, abandoned) and unset; not an orquesta constant *)
Definition task_statuses : list status :=
  [S_REQUESTED; S_SCHEDULED; S_DELAYED; S_RUNNING; S_PENDING; S_PAUSING; S_PAUSED; S_RESUMING;
   S_SUCCEEDED; S_FAILED; S_RETRYING; S_CANCELING; S_CANCELED].

(* no InvalidEvent for a status a task can have *)
Lemma F_task_event_names_valid : forall st r a c p m, In st task_statuses ->
  string_in (task_event_name_of st r a c p m) TASK_EXECUTION_EVENTS = true.
Proof.
  intros st r a c p m H. rewrite name_valid_eq.
  assert (T : names_forall (fun st r a c p m => negb (status_in st task_statuses) || name_valid st r a c p m) = true)
    by (vm_compute; reflexivity).
  pose proof (names_forall_spec _ T st r a c p m) as P; cbv beta in P.
  apply status_in_In in H. rewrite H in P. exact P.
Qed.

Lemma F_dormant_event_rests : forall s st r c p m t,
  In st settled_statuses -> tbl_step wf_table s (task_event_name_of st r false c p m) = Some t ->
  ~ In t [S_PAUSING; S_CANCELING; S_RESUMING].
Proof.
  intros s st r c p m t Hst H.
  pose proof (wf_sweep (fun _ st _ a _ _ _ o => negb (status_in st settled_statuses) || a ||
      match o with Some t => negb (status_in t [S_PAUSING; S_CANCELING; S_RESUMING]) | None => true end)
    ltac:(vm_compute; reflexivity) s st r false c p m) as P; cbv beta in P.
  apply status_in_In in Hst. rewrite Hst, H in P. cbn [negb orb] in P. autorewrite with b2p in P. exact P.
Qed.

Lemma F_dormant_event_accepted : forall s st r c p m,
  In s [S_PAUSING; S_CANCELING] -> In st settled_statuses ->
  exists t, tbl_step wf_table s (task_event_name_of st r false c p m) = Some t.
Proof.
  intros s st r c p m Hs Hst.
  pose proof (wf_sweep (fun s st _ a _ _ _ o => negb (status_in s [S_PAUSING; S_CANCELING]) ||
      negb (status_in st settled_statuses) || a || match o with Some _ => true | None => false end)
    ltac:(vm_compute; reflexivity) s st r false c p m) as P; cbv beta in P.
  apply status_in_In in Hs, Hst. rewrite Hs, Hst in P.
  destruct (tbl_step wf_table s (task_event_name_of st r false c p m)) as [t|]; [exists t; reflexivity|discriminate].
Qed.

Lemma F_unremediated_failure_fails : forall s a c p m,
  In s [S_RUNNING; S_PAUSING; S_PAUSED; S_RESUMING] ->
  tbl_step wf_table s (task_event_name_of S_FAILED false a c p m) = Some S_FAILED.
Proof.
  intros s a c p m Hs.
  pose proof (wf_sweep (fun s st r _ _ _ _ o => negb (status_in s [S_RUNNING; S_PAUSING; S_PAUSED; S_RESUMING]) ||
      negb (status_eqb st S_FAILED) || r || match o with Some t => status_eqb t S_FAILED | None => false end)
    ltac:(vm_compute; reflexivity) s S_FAILED false a c p m) as P; cbv beta in P.
  apply status_in_In in Hs. rewrite Hs in P.
  destruct (tbl_step wf_table s (task_event_name_of S_FAILED false a c p m)) as [t|]; [|discriminate].
  apply status_eqb_eq in P. rewrite P. reflexivity.
Qed.

Lemma F_failure_while_canceling : forall r a c p m t,
  tbl_step wf_table S_CANCELING (task_event_name_of S_FAILED r a c p m) = Some t -> In t [S_CANCELING; S_CANCELED].
Proof.
  intros r a c p m t H.
  pose proof (wf_sweep (fun s st _ _ _ _ _ o => negb (status_eqb s S_CANCELING) || negb (status_eqb st S_FAILED) ||
      match o with Some t => status_in t [S_CANCELING; S_CANCELED] | None => true end)
    ltac:(vm_compute; reflexivity) S_CANCELING S_FAILED r a c p m) as P; cbv beta in P.
  rewrite H in P. apply status_in_In. exact P.
Qed.

Lemma F_success_only_when_complete : forall s st r a c p m,
  tbl_step wf_table s (task_event_name_of st r a c p m) = Some S_SUCCEEDED ->
  a = false /\ c = false /\ p = false /\ m = false /\ (st = S_SUCCEEDED \/ (In st ABENDED_STATUSES /\ r = true)).
Proof.
  intros s st r a c p m H.
  pose proof (wf_sweep (fun _ st r a c p m o => match o with
      | Some t => negb (status_eqb t S_SUCCEEDED)
                  || (negb a && negb c && negb p && negb m
                      && (status_eqb st S_SUCCEEDED || (status_in st ABENDED_STATUSES && r)))
      | None => true end) ltac:(vm_compute; reflexivity) s st r a c p m) as P; cbv beta in P.
  rewrite H, status_eqb_refl in P. cbn [negb orb] in P. autorewrite with b2p in P. tauto.
Qed.
